(* Behind the limit theorems of C06: what a call of received() in the head
   phase yields relative to max_request_header_size and the declared length
   (parse_header itself never raises a limit error), and what the body phase
   yields relative to the running count. *)
From Coq Require Import List NArith ZArith Bool Lia Arith.
From RecordUpdate Require Import RecordUpdate.
From WV Require Import Lib.PyBytes Lib.Regex Gen.GenRegex Model.Receiver Model.UrlSplit Model.Parser Model.ChanSeq
  Proof.PyBytesFacts Proof.ReceiverTotal Proof.ParserTotal Proof.ParserTotalChan.
Import ListNotations.
Local Open Scope N_scope.

(* size of the head seen so far: position just after the first CRLFCRLF, or
   all bytes when there is none yet *)
Definition head_pos (s : bytes) : N :=
  match find_double_newline s with Some i => N.of_nat i | None => lenN s end.

Lemma received_head_cases a hp data p' n :
  received a (P0 hp) data = ROk p' n ->
  (max_request_header_size a <= head_pos (hp ++ data) /\
   completed p' = true /\ error p' = Some EHeaderTooLarge)
  \/
  (head_pos (hp ++ data) < max_request_header_size a /\
   error p' <> Some EHeaderTooLarge /\
   (error p' = Some EBodyTooLarge ->
      completed p' = true /\ 0 < content_length p' /\ max_request_body_size a <= content_length p') /\
   (error p' = None ->
      content_length p' = 0 \/ content_length p' < max_request_body_size a)).
Proof.
  rewrite received_head_eq. unfold head_pos.
  destruct (find_double_newline (hp ++ data)) as [i|] eqn:Hi.
  - destruct (head_found_spec a hp (hp ++ data) i
                (Z.of_N (lenN data) - (Z.of_nat (length (hp ++ data)) - Z.of_nat i))%Z)
      as [->|(r & -> & _ & S)]; [discriminate|].
    intros H; injection H as <- <-.
    destruct (max_request_header_size a <=? N.of_nat i) eqn:Hmax;
      [apply N.leb_le in Hmax; left | apply N.leb_gt in Hmax; right]; tauto.
  - unfold head_more. cbv zeta. change (header_bytes_received (P0 hp)) with (lenN hp). rewrite lenN_app.
    destruct (max_request_header_size a <=? lenN hp + lenN data) eqn:Hmax.
    + apply N.leb_le in Hmax.
      destruct (head_431_P0 a hp (lenN hp + lenN data) (Z.of_N (lenN data))) as (p1 & ->).
      intros H; injection H as <- <-. left. psimpl. auto.
    + apply N.leb_gt in Hmax. intros H; injection H as <- <-. right. psimpl. cbn.
      split; [exact Hmax|]. split; [discriminate|]. split; [discriminate | auto].
Qed.

(* in the body phase, chunked or fixed, the running count of wire bytes
   decides: count >= max_request_body_size <=> 413 *)
Lemma body_fin_limit a p br' m e d p' n : error p = None -> e <> Some EBodyTooLarge ->
  body_fin a p br' m e d = ROk p' n ->
  body_bytes_received p' = (body_bytes_received p + n)%Z /\
  ((Z.of_N (max_request_body_size a) <= body_bytes_received p + n)%Z <->
     (completed p' = true /\ error p' = Some EBodyTooLarge)).
Proof.
  intros He Hne. unfold body_fin. cbv zeta.
  destruct (Z.of_N (max_request_body_size a) <=? body_bytes_received p + m)%Z eqn:Hmax.
  - apply Z.leb_le in Hmax. intros H; injection H as <- <-. psimpl. split; [reflexivity|]. tauto.
  - apply Z.leb_gt in Hmax. destruct e as [e|].
    + intros H; injection H as <- <-. psimpl. split; [reflexivity|]. split; [lia|]. intros (_ & E). congruence.
    + destruct d; [psimpl; destruct (chunked p)|]; intros H; injection H as <- <-; psimpl;
        (split; [reflexivity|]); (split; [lia|]); rewrite He; intros (_ & E); discriminate.
Qed.
