(* C17: ReadOnlyFileBasedBuffer (wsgi.file_wrapper).  After
   prepare(size) the buffer is a FIFO queue whose initial content is the window
   of at most [size] bytes that starts at the wrapped file's position; nothing
   outside that window is ever yielded, a peek restores the file position, and
   after consuming k bytes the file is positioned at start + k. *)
From Coq Require Import List NArith ZArith Bool Lia ZifyBool Arith.
From WV Require Import Lib.PyBytes Model.Buffers Spec.Fifo Proof.Buffers.
Import ListNotations.
Local Open Scope Z_scope.

(* c: content of the wrapped file, p0: its position when prepare() ran, P: what prepare() returned *)
Definition ro_inv (c : list N) (p0 : nat) (P : Z) (b : fbuf) : Prop :=
  f_closed (fb_file b) = false /\ f_content (fb_file b) = c /\
  0 <= fb_remain b /\ (p0 <= f_pos (fb_file b))%nat /\
  Z.of_nat (f_pos (fb_file b)) + fb_remain b = Z.of_nat p0 + P /\
  Z.of_nat p0 + P <= Z.of_nat (length c).

(* the bytes still to be yielded *)
Definition ro_abs (b : fbuf) : queue :=
  firstn (Z.to_nat (fb_remain b)) (skipn (f_pos (fb_file b)) (f_content (fb_file b))).

Definition ro_window (c : list N) (p0 : nat) (P : Z) : queue := firstn (Z.to_nat P) (skipn p0 c).

Lemma ro_abs_len c p0 P b : ro_inv c p0 P b -> q_len (ro_abs b) = fb_remain b.
Proof.
  intros (Hc & Hct & Hr & Hp & Hs & Hw). unfold ro_abs, q_len.
  rewrite firstn_length_le; [lia|]. rewrite skipn_length, Hct. lia.
Qed.

(* how far the file has advanced = how much of the window is gone *)
Lemma ro_position c p0 P b : ro_inv c p0 P b ->
  Z.of_nat (f_pos (fb_file b)) = Z.of_nat p0 + (P - q_len (ro_abs b)) /\ q_len (ro_abs b) <= P.
Proof.
  intro Hi. rewrite (ro_abs_len c p0 P b Hi). destruct Hi as (Hc & Hct & Hr & Hp & Hs & Hw). lia.
Qed.

Definition size_ok (size : option Z) : Prop := match size with None => True | Some sz => 0 <= sz end.

Lemma ro_prepare_spec c p0 cl size :
  cl = false -> (p0 <= length c)%nat -> size_ok size ->
  let f := mkfile c p0 cl in
  let P := match size with
           | None => Z.of_nat (length c) - Z.of_nat p0
           | Some sz => Z.min (Z.of_nat (length c) - Z.of_nat p0) sz
           end in
  ro_prepare (ro_init f) size = Ok (mkfbuf KRo f P, P) /\
  ro_inv c p0 P (mkfbuf KRo f P) /\
  ro_abs (mkfbuf KRo f P) = ro_window c p0 P /\
  (forall sz, size = Some sz -> P <= sz).
Proof.
  intros -> Hp Hs f P. unfold ro_prepare, ro_init, f_seek_end, f_tell, f_seek_set.
  cbn [fb_file fb_kind f_closed f_pos f_content]. fold P. split; [reflexivity|].
  assert (0 <= P) by (subst P; destruct size; cbn in Hs; lia).
  assert (Z.of_nat p0 + P <= Z.of_nat (length c)) by (subst P; destruct size; lia).
  split; [|split].
  - unfold ro_inv. cbn. repeat split; auto; lia.
  - reflexivity.
  - intros sz ->. subst P. lia.
Qed.

Definition ro_valid (p : ro_op) : Prop := match p with ROGet n _ => -1 <= n | _ => True end.

Definition ro_spec_of (p : ro_op) : qop :=
  match p with
  | ROGet n false => QPeek n
  | ROGet n true => QTake n
  | ROSkip n => QConsume n
  | ROLen => QLength
  end.

(* outputs are exactly the specification's *)
Definition ro_out_ok (so : qout) (r : out) : Prop :=
  match so, r with
  | QBytes want, RBytes b => b = want
  | QUnit, RUnit => True
  | QErr, RExn ValueErrorSkip => True
  | QNum n, RLen z => z = n
  | _, _ => False
  end.

Lemma ro_read_is_peek c p0 P b n : ro_inv c p0 P b -> -1 <= n ->
  let m := if (n =? -1) || (n >? fb_remain b) then fb_remain b else n in
  firstn (Z.to_nat m) (skipn (f_pos (fb_file b)) (f_content (fb_file b))) = q_peek n (ro_abs b) /\
  0 <= m <= fb_remain b /\ lenZ (q_peek n (ro_abs b)) = m.
Proof.
  intros Hi Hn m. pose proof (ro_abs_len c p0 P b Hi) as Hlen.
  destruct Hi as (Hc & Hct & Hr & Hp & Hs & Hw).
  assert (Hm : 0 <= m <= fb_remain b).
  { subst m. destruct ((n =? -1) || (n >? fb_remain b)) eqn:E; lia. }
  assert (E1 : firstn (Z.to_nat m) (skipn (f_pos (fb_file b)) (f_content (fb_file b))) = q_peek n (ro_abs b)).
  { unfold q_peek, ro_abs in *. subst m.
    destruct (n <? 0) eqn:En.
    - replace n with (-1) by lia. reflexivity.
    - destruct ((n =? -1) || (n >? fb_remain b)) eqn:E.
      + symmetry. apply firstn_all2. unfold q_len in Hlen. lia.
      + rewrite firstn_firstn. f_equal. lia. }
  split; [exact E1|]. split; [exact Hm|].
  rewrite <- E1. unfold lenZ. rewrite firstn_length_le; [lia|]. rewrite skipn_length, Hct. lia.
Qed.

(* consuming j of the remaining bytes moves the file on by j *)
Lemma ro_advance c p0 P b j : ro_inv c p0 P b -> Z.of_nat j <= fb_remain b ->
  let b' := mkfbuf (fb_kind b) (f_seek_cur (fb_file b) j) (fb_remain b - Z.of_nat j) in
  ro_inv c p0 P b' /\ ro_abs b' = q_consume j (ro_abs b).
Proof.
  intros (Hc & Hct & Hr & Hp & Hs & Hw) Hj. unfold ro_inv, ro_abs, q_consume, f_seek_cur, f_seek_set.
  cbn [fb_file fb_kind fb_remain f_closed f_content f_pos]. repeat split; auto; try lia.
  rewrite skipn_firstn_comm, skipn_skipn. f_equal; [lia | f_equal; lia].
Qed.

Lemma ro_step_refines c p0 P b p : ro_inv c p0 P b -> ro_valid p ->
  ro_inv c p0 P (fst (ro_step b p)) /\
  ro_abs (fst (ro_step b p)) = q_next (ro_abs b) (ro_spec_of p) /\
  ro_out_ok (snd (q_step (ro_abs b) (ro_spec_of p))) (snd (ro_step b p)) /\
  (* a peek leaves the buffer, hence the file position, untouched *)
  (match p with ROGet _ false | ROLen => fst (ro_step b p) = b | _ => True end).
Proof.
  intros Hi Hv. pose proof (ro_abs_len c p0 P b Hi) as Hlen. pose proof (ro_advance c p0 P b) as Adv.
  destruct p as [n sk | n |]; unfold ro_step.
  - cbn in Hv. destruct (ro_read_is_peek c p0 P b n Hi Hv) as (Hrd & Hm & Hml).
    specialize (Adv (length (q_peek n (ro_abs b))) Hi ltac:(unfold lenZ in Hml; lia)).
    destruct b as [k [cc p cl] r]. pose proof Hi as (Hc & Hct & _).
    cbn [fb_file fb_kind fb_remain f_closed f_content f_pos] in *. subst cl cc.
    unfold ro_get, f_read, f_read_n, f_tell, f_seek_set.
    cbn [fb_file fb_kind fb_remain f_closed f_content f_pos].
    set (m := if (n =? -1) || (n >? r) then r else n) in *.
    destruct (m <? 0) eqn:Em; [lia|]. rewrite Hrd.
    destruct sk; cbn [fst snd ro_spec_of q_step]; unfold q_next; cbn [q_step fst].
    + destruct Adv as [A1 A2]. split; [exact A1|split; [exact A2|split; reflexivity]].
    + split; [exact Hi|repeat split].
  - destruct (Z_le_gt_dec (Z.of_N n) (fb_remain b)) as [Hle | Hgt].
    + specialize (Adv (N.to_nat n) Hi ltac:(lia)). destruct Adv as [A1 A2].
      destruct Hi as (Hc & _). unfold fb_skip. rewrite Hc.
      destruct (fb_remain b <? Z.of_N n) eqn:E; [lia|]. cbn [fst snd ro_spec_of].
      unfold q_next, q_step. rewrite Hlen. destruct (Z.of_N n <=? fb_remain b) eqn:E2; [|lia]. cbn [fst snd].
      rewrite N_nat_Z in A1, A2. split; [exact A1|split; [exact A2|split; exact I]].
    + rewrite (fb_skip_err b n ltac:(lia)). cbn [fst snd ro_spec_of].
      unfold q_next, q_step. rewrite Hlen. destruct (Z.of_N n <=? fb_remain b) eqn:E2; [lia|]. cbn. auto.
  - cbn [fst snd ro_spec_of]. unfold q_next, q_step, fb_len. cbn [fst snd ro_out_ok]. rewrite Hlen. repeat split; auto; apply Hi.
Qed.

Theorem ro_history c p0 P ops : forall b, ro_inv c p0 P b -> Forall ro_valid ops ->
  let b' := ro_exec b ops in
  ro_inv c p0 P b' /\
  ro_abs b' = q_exec (ro_abs b) (map ro_spec_of ops) /\
  (forall p, ro_valid p -> ro_out_ok (snd (q_step (ro_abs b') (ro_spec_of p))) (snd (ro_step b' p))).
Proof.
  unfold ro_exec, q_exec. induction ops as [|p ops IH]; intros b Hi Hv; cbn [fold_left map]; cbv zeta.
  - split; [exact Hi|]. split; [reflexivity|].
    intros p Hp. now apply ro_step_refines with (c := c) (p0 := p0) (P := P).
  - inversion Hv as [|? ? Hp Hv']; subst.
    destruct (ro_step_refines c p0 P b p Hi Hp) as (H1 & H2 & _).
    rewrite <- H2. apply (IH _ H1 Hv').
Qed.

Theorem ro_clamp c p0 size ops :
  (p0 <= length c)%nat -> size_ok size -> Forall ro_valid ops ->
  exists b0 P,
    ro_prepare (ro_init (mkfile c p0 false)) size = Ok (b0, P) /\
    fb_file b0 = mkfile c p0 false /\                      (* prepare leaves the file where it was *)
    0 <= P <= Z.of_nat (length c) - Z.of_nat p0 /\
    (forall sz, size = Some sz -> P <= sz) /\
    let b := ro_exec b0 ops in
    let left := q_exec (ro_window c p0 P) (map ro_spec_of ops) in
    ro_abs b = left /\ fb_len b = q_len left /\ q_len left <= P /\
    f_content (fb_file b) = c /\ f_closed (fb_file b) = false /\
    (* after consuming k = P - len bytes the wrapped file is at start + k *)
    Z.of_nat (f_pos (fb_file b)) = Z.of_nat p0 + (P - q_len left) /\
    (forall p, ro_valid p -> ro_out_ok (snd (q_step left (ro_spec_of p))) (snd (ro_step b p))) /\
    (forall n, -1 <= n -> fst (ro_step b (ROGet n false)) = b).
Proof.
  intros Hp Hs Hv.
  destruct (ro_prepare_spec c p0 false size eq_refl Hp Hs) as (H1 & H2 & H3 & H4).
  cbv zeta in H1, H2, H3, H4.
  set (P := match size with None => Z.of_nat (length c) - Z.of_nat p0
            | Some sz => Z.min (Z.of_nat (length c) - Z.of_nat p0) sz end) in *.
  exists (mkfbuf KRo (mkfile c p0 false) P), P.
  split; [exact H1|]. split; [reflexivity|].
  split; [destruct H2 as (_ & _ & Ha & _ & Hb & Hc); cbn in *; lia|].
  split; [exact H4|].
  destruct (ro_history c p0 P ops _ H2 Hv) as (H5 & H6 & H7). cbv zeta in H5, H6, H7.
  rewrite H3 in H6. cbv zeta. rewrite <- H6.
  destruct (ro_position c p0 P _ H5) as (H8 & H9).
  pose proof (ro_abs_len c p0 P _ H5) as H10.
  destruct H5 as (Hc & Hct & Hr & Hpp & Hss & Hw).
  repeat split; auto.
  intros n Hn.
  destruct (ro_step_refines c p0 P (ro_exec (mkfbuf KRo (mkfile c p0 false) P) ops) (ROGet n false)) as (_ & _ & _ & E); auto.
  repeat split; auto.
Qed.
