(* Proof/ChanWakeL2.v -- layer 2 of the C05 invariant: the queue discipline.  The channel
   is "owned" by at most one of: a dispatcher-queue entry, a worker that serves
   requests[0] (or has just popped it and not yet decided about add_task), the I/O
   thread between requests.append and add_task. *)
From Coq Require Import List ZArith Bool Arith Lia.
From WV Require Import Model.ChanWake Proof.ChanWakeInv Proof.ChanWakeBase Proof.ChanWakeL1.
Import ListNotations.
Open Scope Z_scope.

Lemma busy_notified : forall p, w_busy (notified p) = w_busy p.
Proof. destruct p; reflexivity. Qed.
Lemma main_notified : forall p, w_main (notified p) = w_main p.
Proof. destruct p; reflexivity. Qed.
Lemma idle_notified : forall p, w_idle (notified p) = w_idle p.
Proof. destruct p; reflexivity. Qed.

Lemma count_busy_notify_o : forall l, count_busy (notify_o l) = count_busy l.
Proof.
  induction l; auto. rewrite notify_o_cons. destruct (parked_o a); rewrite !count_busy_cons, ?busy_notified; auto.
Qed.

Lemma existsb_busy_notify_o : forall l, existsb w_busy (notify_o l) = existsb w_busy l.
Proof.
  induction l; auto. rewrite notify_o_cons. destruct (parked_o a); simpl; rewrite ?busy_notified, ?IHl; auto.
Qed.

Lemma count_busy_none : forall l,
  (forall j p, nth_error l j = Some p -> w_busy p = false) -> count_busy l = 0%nat.
Proof.
  induction l; intros; auto. rewrite count_busy_cons.
  rewrite (H 0%nat a eq_refl). simpl. apply IHl. intros j p Hj. apply (H (S j) p Hj).
Qed.

Lemma count_busy_upd_same : forall l i p q,
  nth_error l i = Some p -> w_busy p = w_busy q -> count_busy (upd i q l) = count_busy l.
Proof. intros. pose proof (count_busy_upd _ _ _ q H). rewrite H0 in H1. lia. Qed.

Definition is_wk6 (p : wpc) : bool := match p with WK6 => true | _ => false end.

Definition WInv2 (s : state) (j : nat) (p : wpc) : Prop :=
  (w_main p = true -> (1 <= nreq s)%nat) /\ (w_idle p = true -> In j (qwait s)).

(* a worker-side send_continue happens only after the last request was popped *)
Definition WSc2 (s : state) (p : wpc) : Prop :=
  (w_sc p = true -> nreq s = 0%nat) /\ (is_wk6 p = true -> nreq s = 0%nat \/ conn s = false).

Record Inv2 (s : state) : Prop := {
  i2_tok : (queue s + count_busy (ws s) + pendadd s <= 1)%nat;
  i2_q : (0 < queue s)%nat -> (1 <= nreq s)%nat;
  i2_w : forall j p, nth_error (ws s) j = Some p -> WInv2 s j p;
  i2_sc : forall j p, nth_error (ws s) j = Some p -> WSc2 s p;
  i2_qw : forall w, In w (qwait s) -> nth_error (ws s) w = Some WIdle;
  i2_nd : NoDup (qwait s);
  i2_len : (0 < length (ws s))%nat;
  i2_q1 : (0 < queue s)%nat -> exists j p, nth_error (ws s) j = Some p /\ w_idle p = false;
  i2_fl : io_sc (io s) = true -> nreq s = 0%nat;
  i2_s1 : (1 <= nreq s)%nat ->
          conn s = false \/ (0 < queue s)%nat \/ pendadd s = 1%nat \/ existsb w_busy (ws s) = true
}.

Lemma inv2_init : forall nw, (0 < nw)%nat -> Inv2 (init nw).
Proof.
  intros. constructor; simpl; intros; try lia; try contradiction; try discriminate.
  - unfold pendadd; simpl. rewrite count_busy_none; auto.
    intros j p Hj. apply nth_error_In in Hj. apply repeat_spec in Hj. subst. reflexivity.
  - apply nth_error_In in H0. apply repeat_spec in H0. subst. split; simpl; intros; discriminate.
  - apply nth_error_In in H0. apply repeat_spec in H0. subst. split; simpl; intros; discriminate.
  - constructor.
  - rewrite repeat_length. auto.
Qed.

(* the wake alone keeps the invariant *)
Lemma inv2_wake : forall s, Inv2 s -> Inv2 (wake s).
Proof.
  intros s HI. unfold wake. destruct (qwait s) as [|w r] eqn:Eq; auto.
  destruct HI as [Htok Hq Hw Hsc Hqw Hnd Hlen Hq1 Hfl Hs1]. rewrite Eq in *.
  assert (Hidle : nth_error (ws s) w = Some WIdle) by (apply Hqw; left; auto).
  inversion Hnd as [|? ? Hnotin Hnd']; subst.
  constructor; unfold pendadd in *; simpl; auto.
  - rewrite (count_busy_upd_same _ _ _ WNotif Hidle); auto.
  - apply upd_forall; [|split; intros; discriminate]. intros j p Hn Hj. destruct (Hw _ _ Hj) as [Hm Hi].
    split; auto. intros Hx. specialize (Hi Hx). rewrite Eq in Hi. destruct Hi; [congruence|auto].
  - apply upd_forall; [intros j p _; apply Hsc|split; intros; discriminate].
  - intros w' Hin. rewrite nth_error_upd_other; [apply Hqw; right; auto|]. intro; subst. contradiction.
  - rewrite length_upd. auto.
  - intros _. exists w, WNotif. split; [eapply nth_error_upd_same; eauto | reflexivity].
  - intros Hn. destruct (Hs1 Hn) as [?|[?|[?|?]]]; auto. right; right; right. eapply existsb_upd_keep; eauto.
Qed.

Lemma wake_nth_keep : forall s i p,
  Inv2 s -> nth_error (ws s) i = Some p -> w_idle p = false -> nth_error (ws (wake s)) i = Some p.
Proof.
  intros s i p HI Hi Hp. unfold wake. destruct (qwait s) as [|w r] eqn:Eq; auto. simpl.
  rewrite nth_error_upd_other; auto. intro; subst.
  rewrite (i2_qw _ HI i) in Hi by (rewrite Eq; left; auto). inversion Hi; subst. discriminate.
Qed.

Lemma wake_nonidle : forall s, Inv2 s -> exists j p, nth_error (ws (wake s)) j = Some p /\ w_idle p = false.
Proof.
  intros s HI. unfold wake. destruct (qwait s) as [|w r] eqn:Eq; simpl.
  - destruct (ws s) as [|p l] eqn:E; [pose proof (i2_len _ HI) as Hl; rewrite E in Hl; inversion Hl|].
    exists 0%nat, p. split; auto. destruct (w_idle p) eqn:Ei; auto.
    destruct (i2_w _ HI 0%nat p) as [_ Hin]; [rewrite E; reflexivity|]. rewrite Eq in Hin. destruct (Hin Ei).
  - exists w, WNotif. split; auto. eapply nth_error_upd_same. apply (i2_qw _ HI). rewrite Eq. left; auto.
Qed.

Lemma add_task_nth_keep : forall s i p,
  Inv2 s -> nth_error (ws s) i = Some p -> w_idle p = false -> nth_error (ws (add_task s)) i = Some p.
Proof. intros s i p HI Hi Hp. rewrite add_task_wake. apply wake_nth_keep; auto. Qed.

Lemma existsb_add_task_mono : forall (f : wpc -> bool) s,
  Inv2 s -> f WIdle = false -> existsb f (ws s) = true -> existsb f (ws (add_task s)) = true.
Proof.
  intros f s HI Hf H. destruct (add_task_cases s) as [(_ & -> & _)|(w & r & Eq & -> & _)]; auto.
  apply existsb_upd_keep with (p := WIdle); auto.
  apply (i2_qw _ HI). rewrite Eq. left. auto.
Qed.

Lemma winv2_notify : forall s s' j q,
  nreq s' = nreq s -> qwait s' = qwait s ->
  (forall j p, nth_error (ws s) j = Some p -> WInv2 s j p) ->
  nth_error (notify_o (ws s)) j = Some q -> WInv2 s' j q.
Proof.
  intros s s' j q Hn Hq Hw Hj. destruct (notify_o_nth _ _ _ Hj) as (p & Hp & [->|[Pp ->]]);
    specialize (Hw _ _ Hp); unfold WInv2 in *; rewrite Hn, Hq; auto.
  rewrite main_notified, idle_notified. auto.
Qed.

Lemma notify_o_idle : forall l w, nth_error l w = Some WIdle -> nth_error (notify_o l) w = Some WIdle.
Proof.
  intros. destruct (notify_o_fwd _ _ _ H) as [H1|[H1 _]]; auto. discriminate.
Qed.

Lemma notify_o_nonidle : forall l,
  (exists j p, nth_error l j = Some p /\ w_idle p = false) ->
  exists j p, nth_error (notify_o l) j = Some p /\ w_idle p = false.
Proof.
  intros l (j & p & Hj & Hp). destruct (notify_o_fwd _ _ _ Hj) as [H1|[_ H1]].
  - exists j, p. auto.
  - exists j, (notified p). rewrite idle_notified. auto.
Qed.

Ltac inv2_pre :=
  match goal with
  | H : Inv2 _ |- _ => destruct H as [Htok Hq Hw Hsc Hqw Hnd Hlen Hq1 Hfl Hs1]
  end; unfold pendadd in *.

(* the I/O thread touches the queue discipline at requests.append and add_task only *)
Lemma step_io_queue : forall c s ch s' l,
  step_io c s ch = Some (s', l) ->
  (queue s' = queue s /\ nreq s' = nreq s /\ qwait s' = qwait s /\ (conn s = false -> conn s' = false) /\
   (ws s' = ws s \/ ws s' = notify_o (ws s)) /\ pendadd s' = pendadd s /\
   (io_sc (io s') = true -> io_sc (io s) = true \/ nreq s = 0%nat)) \/
  (exists its ww, io s = IoRcvApp its ww /\
     s' = goio (set_sentc (set_nreq s (S (nreq s))) false) (IoRcvAdd its ww)) \/
  (exists its ww, io s = IoRcvAdd its ww /\ nreq s = 1%nat /\ s' = goio (add_task s) (IoRcvLoop its ww)).
Proof.
  intros c s ch s' l H. step_io_cases H.
  (* requests.append (IoRcvApp) and add_task (IoRcvAdd with one request) *)
  all: try (right; left; do 2 eexists; split; reflexivity).
  all: try (right; right; do 2 eexists; split; [reflexivity|split; [apply Nat.eqb_eq; assumption|reflexivity]]).
  (* every other program point: the fields are untouched by computation *)
  all: left; unfold pendadd; simpl; try match goal with E : io _ = _ |- _ => rewrite ?E end; simpl.
  all: repeat split; auto; try (destruct k; auto; fail); try congruence.
  all: nat_hyps.
  - (* IoRcvLoop at an expecting head: send_continue is entered only with requests empty *)
    auto.
  - (* IoRcvLoop at the body of an expecting request: likewise *)
    match goal with E : _ && _ = true |- _ => apply andb_prop in E; destruct E as [E _] end. nat_hyps. auto.
  - (* IoRcvAdd with more than one request: nothing is submitted *)
    match goal with E : nreq s <> 1%nat |- _ => apply Nat.eqb_neq in E; rewrite E end. reflexivity.
Qed.

Lemma inv2_quiet : forall s s',
  Inv2 s -> queue s' = queue s -> nreq s' = nreq s -> qwait s' = qwait s -> (conn s = false -> conn s' = false) ->
  ws s' = ws s \/ ws s' = notify_o (ws s) -> pendadd s' = pendadd s ->
  (io_sc (io s') = true -> io_sc (io s) = true \/ nreq s = 0%nat) -> Inv2 s'.
Proof.
  intros s s' [Htok Hq Hw Hsc Hqw Hnd Hlen Hq1 Hfl Hs1] Eq En Eqw Hc Ews Epa Hio.
  assert (Hsc' : forall p, WSc2 s p -> WSc2 s' p).
  { intros p [A B]. unfold WSc2. rewrite En. split; auto. intros Hx. destruct (B Hx); auto. }
  assert (Hs1' : (1 <= nreq s)%nat -> conn s' = false \/ (0 < queue s)%nat \/ pendadd s = 1%nat \/
                                     existsb w_busy (ws s) = true) by (intros Hn; destruct (Hs1 Hn); auto).
  assert (Hfl' : io_sc (io s') = true -> nreq s = 0%nat) by (intros Hx; destruct (Hio Hx); auto).
  destruct Ews as [Ews|Ews]; constructor; rewrite ?Eq, ?En, ?Eqw, ?Epa, ?Ews,
    ?count_busy_notify_o, ?existsb_busy_notify_o, ?length_notify_o; auto.
  - intros j p Hj. specialize (Hw _ _ Hj). unfold WInv2 in *. rewrite En, Eqw. exact Hw.
  - intros j p Hj. apply Hsc'. eauto.
  - intros j p Hj. apply (winv2_notify s s' j p En Eqw Hw Hj).
  - intros j q Hj. destruct (notify_o_nth _ _ _ Hj) as (p & Hp & [->|[Pp ->]]); [apply Hsc'; eauto|].
    destruct p; try discriminate Pp; split; intros; discriminate.
  - intros w Hin. apply notify_o_idle; auto.
  - intros Hx. apply notify_o_nonidle; auto.
Qed.

Lemma inv2_step_io : forall c s ch s' l,
  Inv1 s -> Inv2 s -> step_io c s ch = Some (s', l) -> Inv2 s'.
Proof.
  intros c s ch s' l HI1 HI H.
  destruct (step_io_queue _ _ _ _ _ H) as [Q|[(its & ww & Eio & ->)|(its & ww & Eio & En & ->)]].
  - eapply inv2_quiet; try apply Q. exact HI.
  - (* requests.append: requests_lock is held, so no worker is between pop and add_task, and with requests
       empty nobody serves requests[0]: the I/O thread becomes the owner *)
    pose proof (i1_io_r _ HI1) as Hr. pose proof (i1_w _ HI1) as Hw1. rewrite Eio in Hr. specialize (Hr eq_refl).
    inv2_pre. rewrite Eio in *. simpl in Hfl, Htok, Hs1.
    assert (Hb0 : nreq s = 0%nat -> count_busy (ws s) = 0%nat).
    { intros Hn. apply count_busy_none. intros j p Hj. unfold w_busy.
      destruct (w_main p) eqn:Em.
      - destruct (Hw j p Hj) as [Hm _]. specialize (Hm Em). lia.
      - destruct (w_chain p) eqn:Ec; auto.
        destruct (Hw1 j p Hj) as (_ & Hrr & _).
        assert (w_holds_r p = true) by (destruct p; simpl in Ec; try discriminate; reflexivity).
        specialize (Hrr H0). congruence. }
    constructor; simpl; unfold pendadd; simpl; auto; try lia; try (intros; discriminate).
    + destruct (nreq s) eqn:En; simpl; [specialize (Hb0 eq_refl)|]; try lia.
    + intros j p Hj. destruct (Hw j p Hj). unfold WInv2; simpl. split; auto; intros; lia.
    + intros j p Hj. destruct (Hw1 j p Hj) as (_ & Hrr & _). unfold WSc2; simpl.
      split; intros Hx; exfalso;
        (assert (Hh : w_holds_r p = true) by (destruct p; simpl in Hx; try discriminate; reflexivity));
        specialize (Hrr Hh); congruence.
    + intros _. destruct (nreq s) eqn:En; simpl; auto.
      destruct Hs1 as [H1|[H1|[H1|H1]]]; auto; try lia.
  - (* add_task from received() *)
    rewrite add_task_wake. destruct (wake_fields s) as (F1 & F2 & F3 & F4).
    pose proof (wake_nonidle s HI) as Hni. destruct (inv2_wake s HI) as [Htok' ? ? ? ? ? ? ? ? ?].
    unfold pendadd in Htok'. rewrite F1, F2, F4, Eio, En in Htok'. simpl in Htok'.
    constructor; unfold pendadd; simpl; rewrite ?F2, ?F3; auto; try lia; intros; discriminate.
Qed.

Lemma idle_upd : forall (l : list wpc) (q : list nat) i pc p',
  (forall w, In w q -> nth_error l w = Some WIdle) -> nth_error l i = Some pc -> w_idle pc = false ->
  forall w, In w q -> nth_error (upd i p' l) w = Some WIdle.
Proof.
  intros l q i pc p' Hqw Hg Hi w Hin. specialize (Hqw w Hin). rewrite nth_error_upd_other; auto.
  intro; subst. rewrite Hg in Hqw. inversion Hqw; subst. discriminate.
Qed.

Lemma wsc2_upd : forall s s' i p',
  (forall j p, nth_error (ws s) j = Some p -> WSc2 s p) -> ws s' = upd i p' (ws s) ->
  (nreq s = 0%nat -> nreq s' = 0%nat) -> (conn s = false -> conn s' = false) -> WSc2 s' p' ->
  forall j p, nth_error (ws s') j = Some p -> WSc2 s' p.
Proof.
  intros s s' i p' H Ews Hn Hc Hp' j p Hj. rewrite Ews in Hj. apply nth_error_upd_inv in Hj.
  destruct Hj as [[-> ->]|[_ Hj]]; auto. destruct (H _ _ Hj) as [A B]. split; intros Hx.
  - auto.
  - destruct (B Hx); auto.
Qed.

(* ownership of the channel stays where it is, or moves between this worker and the queue *)
Lemma inv2_move : forall s s' i pc p',
  Inv2 s -> nth_error (ws s) i = Some pc -> ws s' = upd i p' (ws s) -> WSc2 s p' ->
  qwait s' = qwait s -> nreq s' = nreq s -> conn s' = conn s -> io s' = io s ->
  (queue s' + b2n (w_busy p') = queue s + b2n (w_busy pc))%nat ->
  ((0 < queue s')%nat -> (1 <= nreq s)%nat) ->
  (w_main p' = true -> w_main pc = true \/ (0 < queue s)%nat) ->
  w_idle p' = false -> w_idle pc = false -> Inv2 s'.
Proof.
  intros s s' i pc p' HI Hg Ews Hp' Eqw En Ec Eio Etok Hq' Hm Hi' Hi. inv2_pre.
  assert (Hsc' : forall j p, nth_error (ws s') j = Some p -> WSc2 s' p).
  { apply (wsc2_upd s s' i p' Hsc Ews); try congruence. unfold WSc2 in *. rewrite En, Ec. exact Hp'. }
  pose proof (count_busy_upd _ _ _ p' Hg) as Hc.
  constructor; unfold pendadd; try exact Hsc'; rewrite ?Ews, ?Eqw, ?En, ?Ec, ?Eio; auto; try lia.
  - intros j p Hj. apply nth_error_upd_inv in Hj. destruct Hj as [[-> ->]|[Hn Hj]].
    + unfold WInv2. rewrite En, Eqw. split; [|intros; congruence].
      intros Hx. destruct (Hm Hx) as [Hy|Hy]; [apply (Hw _ _ Hg); auto | auto].
    + specialize (Hw _ _ Hj). unfold WInv2 in *. rewrite En, Eqw. auto.
  - apply (idle_upd _ _ _ _ _ Hqw Hg); auto.
  - rewrite length_upd; auto.
  - intros _. exists i, p'. split; auto. eapply nth_error_upd_same; eauto.
  - intros Hn. destruct (w_busy p') eqn:Bp'; [right; right; right; eapply existsb_upd_new; eauto|].
    destruct (w_busy pc) eqn:Bpc; simpl in Etok; [right; left; lia|].
    destruct (Hs1 Hn) as [H1|[H1|[H1|H1]]]; auto; [right; left; lia|].
    right; right; right. eapply existsb_upd_keep; eauto.
Qed.

Lemma busy_exclusive : forall s i pc,
  (queue s + count_busy (ws s) + pendadd s <= 1)%nat ->
  nth_error (ws s) i = Some pc -> w_busy pc = true ->
  queue s = 0%nat /\ pendadd s = 0%nat /\ count_busy (ws s) = 1%nat /\
  (forall j p, j <> i -> nth_error (ws s) j = Some p -> w_busy p = false).
Proof.
  intros s i pc Htok Hg Hb. pose proof (count_busy_ge _ _ _ Hg) as Hge. rewrite Hb in Hge. simpl in Hge.
  repeat split; try lia.
  intros j p Hn Hj. pose proof (count_busy_two _ _ _ _ _ Hn Hj Hg) as H2. rewrite Hb in H2.
  destruct (w_busy p); auto. simpl in H2. lia.
Qed.

Lemma NoDup_app_single : forall (l : list nat) x, NoDup l -> ~ In x l -> NoDup (l ++ [x]).
Proof.
  induction l; simpl; intros.
  - repeat constructor; auto.
  - inversion H; subst. constructor.
    + intro Hin. apply in_app_or in Hin. destruct Hin as [Hin|[<-|[]]]; auto.
    + apply IHl; auto.
Qed.

(* handler_thread finds the queue empty and waits *)
Lemma inv2_go_idle : forall s i pc,
  Inv2 s -> nth_error (ws s) i = Some pc -> w_busy pc = false -> w_idle pc = false -> queue s = 0%nat ->
  Inv2 (set_qwait (set_ws s (upd i WIdle (ws s))) (qwait s ++ [i])).
Proof.
  intros s i pc HI Hg Hb Hi Hq0. inv2_pre.
  assert (Hsc' : forall j p, nth_error (upd i WIdle (ws s)) j = Some p -> WSc2 s p).
  { intros j p Hj. apply nth_error_upd_inv in Hj. destruct Hj as [[-> ->]|[_ Hj]]; eauto. split; simpl; intros; discriminate. }
  assert (Hnotin : ~ In i (qwait s)).
  { intro Hin. specialize (Hqw _ Hin). rewrite Hg in Hqw. inversion Hqw; subst. discriminate. }
  constructor; simpl; unfold pendadd; simpl; try exact Hsc'; auto; try lia.
  - rewrite (count_busy_upd_same _ _ _ _ Hg); auto.
  - intros j p Hj. apply nth_error_upd_inv in Hj. destruct Hj as [[-> ->]|[Hn Hj]].
    + split; simpl; intros; try discriminate. apply in_or_app. right. left. auto.
    + destruct (Hw _ _ Hj). split; auto. intros. apply in_or_app. auto.
  - intros w Hin. apply in_app_or in Hin. destruct Hin as [Hin|[<-|[]]].
    + rewrite nth_error_upd_other; auto. intro; subst. contradiction.
    + eapply nth_error_upd_same; eauto.
  - apply NoDup_app_single; auto.
  - rewrite length_upd; auto.
  - intros Hn. destruct (Hs1 Hn) as [H1|[H1|[H1|H1]]]; auto.
    right; right; right. eapply existsb_upd_keep; eauto.
Qed.

(* The worker that owns the channel moves on and stays the owner, or gives the channel up with requests empty
   or the channel disconnected.  Nobody else serves requests[0], so requests may shrink (pop, clear). *)
Lemma inv2_owner : forall s s' i pc p',
  Inv2 s -> nth_error (ws s) i = Some pc -> w_busy pc = true -> w_idle p' = false ->
  ws s' = upd i p' (ws s) -> queue s' = queue s -> qwait s' = qwait s -> conn s' = conn s -> io s' = io s ->
  (nreq s' <= nreq s)%nat ->
  (nreq s' = nreq s \/ nreq s' = 0%nat \/ match io s with IoRcvAdd _ _ => False | _ => True end) ->
  WSc2 s' p' -> (w_main p' = true -> (1 <= nreq s')%nat) ->
  (w_busy p' = true \/ nreq s' = 0%nat \/ conn s = false) -> Inv2 s'.
Proof.
  intros s s' i pc p' HI Hg Hb Hi' Ews Eq Eqw Ec Eio Hle Hpa' Hp' Hm Hwhy.
  destruct (busy_exclusive s i pc (i2_tok _ HI) Hg Hb) as (Hq0 & Hpa & Hcb & Hoth). inv2_pre.
  assert (Hsc' : forall j p, nth_error (ws s') j = Some p -> WSc2 s' p).
  { apply (wsc2_upd s s' i p' Hsc Ews); auto; [lia|congruence]. }
  pose proof (count_busy_upd _ _ _ p' Hg) as Hc. rewrite Hb in Hc. simpl in Hc.
  assert (Epa : match io s with IoRcvAdd _ _ => if (nreq s' =? 1)%nat then 1%nat else 0%nat | _ => 0%nat end = 0%nat).
  { destruct (io s); auto. destruct Hpa' as [->|[->|[]]]; auto. }
  assert (Hbp : (b2n (w_busy p') <= 1)%nat) by (destruct (w_busy p'); simpl; lia).
  constructor; unfold pendadd; try exact Hsc'; rewrite ?Ews, ?Eq, ?Eqw, ?Ec, ?Eio, ?Epa; auto; try lia.
  - apply upd_forall; [|split; [exact Hm|intros; congruence]].
    intros j p Hn Hj. specialize (Hoth _ _ Hn Hj). destruct (Hw _ _ Hj) as [_ Hid]. split; rewrite ?Eqw; auto.
    intros Hx. unfold w_busy in Hoth. rewrite Hx in Hoth. discriminate.
  - apply (idle_upd _ _ _ _ _ Hqw Hg). destruct pc; auto; discriminate.
  - rewrite length_upd; auto.
  - intros Hf. specialize (Hfl Hf). lia.
  - intros Hn. destruct Hwhy as [H0|[H0|H0]]; [|lia|auto].
    right; right; right. eapply existsb_upd_new; eauto.
Qed.

(* inv2_owner with the premises that hold by computation *)
Ltac owner_step HI Hg :=
  eapply (inv2_owner _ _ _ _ _ HI Hg); simpl; try reflexivity; auto; try lia;
  try (simpl; intros; discriminate); try (split; simpl; intros; discriminate).

Lemma inv2_step_w : forall c s i ch s' l,
  Inv1 s -> Inv2 s -> step_w c s i ch = Some (s', l) -> Inv2 s'.
Proof.
  intros c s i ch s' l HI1 HI H. unfold step_w in H.
  destruct (getw s i) as [pc|] eqn:Hg; [|discriminate]. unfold getw in Hg.
  destruct (i2_sc _ HI _ _ Hg) as (Hsc1 & Hsc2). pose proof (i2_q _ HI) as Hq.
  step_w_cases H; simpl in Hsc1, Hsc2.
  all: repeat match goal with
              | H : _ && _ = true |- _ => apply andb_true_iff in H; destruct H
              end.
  (* Most steps leave the ownership alone (the new program point is in the same class as the old), or are
     WAcq / WNotif taking an entry from the queue: inv2_move.  Its premises hold by computation; the
     arithmetic ones by i2_q; WSc2 at WScA (requests empty) by i2_sc at WK6, which has just read connected = True. *)
  all: try (eapply (inv2_move s _ i _ _ HI Hg); simpl;
            first [ reflexivity | (intros; discriminate) | (simpl; lia) | (simpl; intros; first [lia | right; lia])
                  | (split; simpl; intros; try discriminate; auto;
                     try (destruct (Hsc2 eq_refl); [assumption | congruence]); fail)
                  | auto ]; fail).
  (* a flush: only total_outbufs_len and the buffers change *)
  all: try (destruct HI; constructor; simpl; auto; fail).
  - (* WAcq, queue empty: wait on queue_cv *)
    apply (inv2_go_idle s i _ HI Hg); auto.
  - (* WNotif, queue empty again *)
    apply (inv2_go_idle s i _ HI Hg); auto.
  - (* the close branch empties requests *)
    owner_step HI Hg.
  - (* WK4 *)
    owner_step HI Hg.
    (* requests.pop(0): requests_lock keeps the I/O thread from being between requests.append and add_task *)
    right; right. destruct HI1 as [_ Hr Hw1 _]. destruct (Hw1 _ _ Hg) as (_ & Hrr & _). specialize (Hrr eq_refl).
    destruct (io s); auto. simpl in Hr. specialize (Hr eq_refl). congruence.
  - (* connected is False after the pop *)
    owner_step HI Hg. split; simpl; intros; [discriminate|auto].
  - (* the worker found another request and submits the channel again *)
    nat_hyps. rewrite add_task_wake. destruct (wake_fields s) as (F1 & F2 & F3 & F4).
    eapply (inv2_move (wake s) _ i WK5b WK7 (inv2_wake s HI) (wake_nth_keep s i _ HI Hg eq_refl)); simpl;
      rewrite ?F1, ?F2; auto; try lia; try discriminate. split; intros; discriminate.
  - (* no further request *)
    nat_hyps. owner_step HI Hg. split; simpl; intros; [discriminate|left; lia].
Qed.
