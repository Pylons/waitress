(* Language equality between each gate, as applied at its call site in the
   source today (Gen/GenRegex.v, regenerated on every run), and the RFC grammar
   (Spec/Grammar.v).  Each lemma is decided reflectively: equiv_check explores
   the product of derivative automata over the 256-symbol alphabet inside the
   kernel (vm_compute) and equiv_check_sound (equiv_check_under, where the call
   site guarantees a side condition) lifts the verdict to all byte strings of
   every length. *)
From Coq Require Import List NArith.
From Coq Require Import Bool Lia.
From WV Require Import Lib.Regex Lib.RegexDec Gen.GenRegex Spec.Grammar Proof.RegexFacts.
Import ListNotations.
Local Open Scope N_scope.

Definition any_bytes : re := Star (Cls [(0, 255)]).
Lemma Lang_any_bytes s : bytes_ok s -> Lang any_bytes s.
Proof.
  intro Hs. unfold any_bytes. apply Lang_star_cls. unfold bytes_ok in Hs.
  rewrite Forall_forall in *. intros x Hx. specialize (Hs x Hx). simpl.
  rewrite orb_false_r, andb_true_iff, !N.leb_le. lia.
Qed.

(* crack_first_line additionally refuses methods containing lower-case letters *)
Definition upper_method_prefix : re := Cat (Plus method_char) (Cat SP any_bytes).

Lemma chunk_size_exact : forall s, bytes_ok s ->
  (Lang gate_chunk_size s <-> Lang spec_chunk_size s).
Proof. apply equiv_check_sound. vm_compute. reflexivity. Qed.

Lemma chunk_ext_exact : forall s, bytes_ok s ->
  (Lang gate_chunk_ext s <-> Lang spec_chunk_ext s).
Proof. apply equiv_check_sound. vm_compute. reflexivity. Qed.

(* The header splitter refuses lines containing CR or LF before they reach
   these two gates (get_header_lines); the statement is for exactly those
   strings.  Without the side condition the '$' anchors would also admit a
   final LF. *)
Lemma content_length_exact : forall s, bytes_ok s -> Lang no_crlf s ->
  (Lang gate_content_length s <-> Lang spec_content_length s).
Proof. apply equiv_check_under. vm_compute. reflexivity. Qed.

Lemma header_field_exact : forall s, bytes_ok s -> Lang no_crlf s ->
  (Lang gate_header_field s <-> Lang spec_header_field s).
Proof. apply equiv_check_under. vm_compute. reflexivity. Qed.

Lemma request_line_exact : forall s, bytes_ok s -> Lang no_crlf s ->
  (Lang gate_request_line s /\ Lang upper_method_prefix s <-> Lang spec_request_line s).
Proof.
  intros s Hs Hn. rewrite <- Lang_And. revert s Hs Hn.
  apply equiv_check_under. vm_compute. reflexivity.
Qed.

Lemma quoted_string_exact : forall s, bytes_ok s ->
  (Lang gate_quoted_string s <-> Lang quoted_string s).
Proof. apply equiv_check_sound. vm_compute. reflexivity. Qed.

(* non-vacuity: each language is inhabited by a non-trivial string, and the
   classic near-misses are outside *)
Example chunk_size_some : matches gate_chunk_size [49; 97; 70] = true.   (* "1aF" *)
Proof. vm_compute. reflexivity. Qed.
Example chunk_size_no_lf : matches gate_chunk_size [53; 10] = false.     (* "5\n" *)
Proof. vm_compute. reflexivity. Qed.
Example chunk_size_no_0x : matches gate_chunk_size [48; 120; 53] = false. (* "0x5" *)
Proof. vm_compute. reflexivity. Qed.
Example content_length_no_plus : matches gate_content_length [43; 53] = false. (* "+5" *)
Proof. vm_compute. reflexivity. Qed.
Example header_field_some :
  matches gate_header_field [72;111;115;116;58;32;97;32;98;9] = true.    (* "Host: a b\t" *)
Proof. vm_compute. reflexivity. Qed.
Example header_field_no_ws_before_colon :
  matches gate_header_field [72;111;115;116;32;58;97] = false.           (* "Host :a" *)
Proof. vm_compute. reflexivity. Qed.
Example request_line_some :
  matches gate_request_line [71;69;84;32;47;32;72;84;84;80;47;49;46;49] = true. (* "GET / HTTP/1.1" *)
Proof. vm_compute. reflexivity. Qed.
