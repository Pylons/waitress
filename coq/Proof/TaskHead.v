(* The response head: what build_response_header emits, line by line (C08). *)
From Coq Require Import String.
From Coq Require Import List NArith ZArith Bool Lia Arith Permutation.
From WV Require Import Lib.PyBytes Gen.GenTables Model.Task Proof.PyBytesFacts Proof.TaskSort Proof.TaskLines.
Import ListNotations.
Local Open Scope N_scope.

Definition clean (s : str) : Prop := has_crlf s = false.
Definition clean_field (h : str * str) : Prop := clean (fst h) /\ clean (snd h).
Definition task_clean (t : task) : Prop := clean (t_status t) /\ Forall clean_field (t_rh t).
Definition cfg_clean (c : cfg) : Prop := clean (c_ident c) /\ clean (c_date c).

Lemma clean_app a b : clean (a ++ b) <-> clean a /\ clean b.
Proof. apply has_crlf_app. Qed.

Lemma clean_firstn n s : clean s -> clean (firstn n s).
Proof. intro H. rewrite <- (firstn_skipn n s) in H. apply clean_app in H. tauto. Qed.
Lemma clean_skipn n s : clean s -> clean (skipn n s).
Proof. intro H. rewrite <- (firstn_skipn n s) in H. apply clean_app in H. tauto. Qed.

Lemma split_fuel_clean fuel s sep : clean s -> Forall clean (split_fuel fuel s sep).
Proof.
  revert s; induction fuel as [|f IH]; intros s H; cbn [split_fuel].
  - constructor; auto.
  - destruct (find s sep); [|constructor; auto].
    constructor. apply clean_firstn; auto. apply IH. apply clean_skipn; auto.
Qed.

Lemma join_clean sep l : clean sep -> Forall clean l -> clean (join sep l).
Proof.
  intros Hs H. induction H as [|x l Hx Hl IH]; [reflexivity|].
  destruct l as [|y l]; [exact Hx|].
  change (join sep (x :: y :: l)) with (x ++ sep ++ join sep (y :: l)).
  apply clean_app; split; auto. apply clean_app; split; auto.
Qed.

Lemma z_to_dec_clean z : clean (z_to_dec z).
Proof.
  assert (D : forall n, clean (to_dec n)).
  { intro n. destruct (to_dec_shape n) as [_ F]. induction F as [|x l Hx _ IH]; [reflexivity|].
    apply has_crlf_cons. unfold CR, LF. repeat split; try exact IH; lia. }
  unfold z_to_dec. destruct z as [|p|p]; [apply D|apply D|].
  apply has_crlf_cons. unfold CR, LF. repeat split; try lia. apply D.
Qed.

Section Oracle.
Variable cap : str -> str.
Variable lower : str -> str.
Hypothesis Hcap : forall s, clean s -> clean (cap s).

Lemma norm_name_clean n : clean n -> clean (norm_name cap n).
Proof.
  intro H. unfold norm_name. apply join_clean. reflexivity.
  apply Forall_forall. intros x Hx. apply in_map_iff in Hx as (y & <- & Hy).
  apply Hcap. unfold split in Hy.
  pose proof (split_fuel_clean (S (length n)) n [45] H) as HF.
  rewrite Forall_forall in HF. auto.
Qed.

(* the application fields as they appear in the head: names normalised in letter
   case only; a Content-Length field is dropped for a status without body *)
Definition norm_field (h : str * str) : str * str := (norm_name cap (fst h), snd h).
Definition kept (hb : bool) (h : str * str) : bool :=
  negb (beqb (norm_name cap (fst h)) (lit "Content-Length") && negb hb).
Definition norm_fields (hb : bool) (l : list (str * str)) : list (str * str) :=
  map norm_field (filter (kept hb) l).

Lemma bh_fold_rh hb l a :
  ac_rh (fold_left (bh_step cap hb) l a) = ac_rh a ++ norm_fields hb l.
Proof.
  revert a; induction l as [|h l IH]; intro a; cbn [fold_left].
  - unfold norm_fields. simpl. rewrite app_nil_r. auto.
  - rewrite IH. unfold norm_fields. cbn [filter]. unfold bh_step, kept.
    destruct (beqb (norm_name cap (fst h)) _ && negb hb); cbn [negb].
    + reflexivity.
    + cbn [ac_rh map]. rewrite <- app_assoc. reflexivity.
Qed.

Lemma norm_fields_clean hb l : Forall clean_field l -> Forall clean_field (norm_fields hb l).
Proof.
  intro H. unfold norm_fields. apply Forall_forall. intros x Hx.
  apply in_map_iff in Hx as (y & <- & Hy). apply filter_In in Hy as [Hy _].
  rewrite Forall_forall in H. destruct (H y Hy). split; auto. apply norm_name_clean; auto.
Qed.

(* the fields the server adds on its own *)
Definition server_field (c : cfg) (h : str * str) : Prop :=
  (fst h = lit "Content-Length" /\ exists z, snd h = z_to_dec z)
  \/ h = (lit "Connection", lit "close")
  \/ h = (lit "Connection", lit "Keep-Alive")
  \/ h = (lit "Transfer-Encoding", lit "chunked")
  \/ h = (lit "Server", c_ident c)
  \/ h = (lit "Via", c_ident c)
  \/ h = (lit "Via", lit "waitress")
  \/ h = (lit "Date", c_date c).

Lemma server_field_clean c h : cfg_clean c -> server_field c h -> clean_field h.
Proof.
  intros [Hi Hd] H. unfold server_field in H.
  destruct H as [[Hn [z Hz]]|[H|[H|[H|[H|[H|[H|H]]]]]]]; subst; split; try reflexivity; auto.
  - rewrite Hn. reflexivity.
  - rewrite Hz. apply z_to_dec_clean.
Qed.

(* t' extends t by server fields only; of the other attributes at most
   close_on_finish (towards True) and chunked_response differ *)
Definition ext (c : cfg) (t t' : task) : Prop :=
  (exists sf, t_rh t' = t_rh t ++ sf /\ Forall (server_field c) sf)
  /\ t_status t' = t_status t /\ t_v11 t' = t_v11 t
  /\ t_complete t' = t_complete t /\ t_wrote_header t' = t_wrote_header t
  /\ t_clen t' = t_clen t /\ t_cbw t' = t_cbw t
  /\ (t_cof t = true -> t_cof t' = true).

Lemma ext_refl c t : ext c t t.
Proof. split; [exists []; rewrite app_nil_r; auto|repeat split; auto]. Qed.

Lemma ext_trans c t1 t2 t3 : ext c t1 t2 -> ext c t2 t3 -> ext c t1 t3.
Proof.
  intros [(s1 & E1 & F1) (A1 & A2 & A3 & A4 & A5 & A6 & A7)] [(s2 & E2 & F2) (B1 & B2 & B3 & B4 & B5 & B6 & B7)].
  split; [|repeat split; try congruence; auto].
  exists (s1 ++ s2). rewrite E2, E1, app_assoc. split; auto. apply Forall_app; auto.
Qed.

Lemma ext_append c t h : server_field c h -> ext c t (set_rh (t_rh t ++ [h]) t).
Proof. intro H. split; [exists [h]; auto|repeat split; auto]. Qed.

Lemma ext_set_cof c t : ext c t (set_cof true t).
Proof. split; [exists []; rewrite app_nil_r; auto|repeat split; auto]. Qed.
Lemma ext_set_chunked c t b : ext c t (set_chunked b t).
Proof. split; [exists []; rewrite app_nil_r; auto|repeat split; auto]. Qed.

Lemma ext_scof c t : ext c t (set_close_on_finish cap lower t).
Proof.
  unfold set_close_on_finish. eapply ext_trans; [|apply ext_set_cof].
  destruct (negb (t_wrote_header t)); [|apply ext_refl].
  destruct (fold_left _ (t_rh t) None); [apply ext_refl|].
  apply ext_append. unfold server_field. tauto.
Qed.

Lemma ext_bh_conn c conn fc clh t : ext c t (bh_conn cap lower conn fc clh t).
Proof.
  unfold bh_conn.
  destruct (negb (t_v11 t)).
  - destruct (beqb conn _ && negb fc && negb (t_cof t)); [|apply ext_scof].
    destruct (negb (truthy clh)); [apply ext_scof|]. apply ext_append. unfold server_field. tauto.
  - set (t1 := if beqb conn _ || fc then _ else t).
    assert (E1 : ext c t t1) by (subst t1; destruct (beqb conn _ || fc); [apply ext_scof|apply ext_refl]).
    destruct (negb (truthy clh)); auto.
    set (t2 := if has_body t1 then _ else t1).
    assert (E2 : ext c t1 t2).
    { subst t2. destruct (has_body t1); [|apply ext_refl].
      eapply ext_trans; [|apply ext_set_chunked]. apply ext_append. unfold server_field. tauto. }
    destruct (negb (t_cof t2)).
    + eapply ext_trans; [exact E1|]. eapply ext_trans; [exact E2|]. apply ext_scof.
    + eapply ext_trans; eauto.
Qed.

Lemma ext_bh_clen c a t : ext c t (snd (bh_clen a t)).
Proof.
  unfold bh_clen. destruct (ac_cl a); [apply ext_refl|].
  destruct (t_clen t); [|apply ext_refl].
  destruct (has_body t); [|apply ext_refl].
  cbn [snd]. apply ext_append. left. split; [reflexivity|]. eexists. reflexivity.
Qed.

Lemma ext_bh_server c a t : ext c t (bh_server c a t).
Proof.
  unfold bh_server. destruct (negb (truthy (ac_server a))).
  - destruct (c_ident c) eqn:E; [apply ext_refl|]. apply ext_append. rewrite <- E. unfold server_field. tauto.
  - destruct (c_ident c) eqn:E; apply ext_append; unfold server_field; rewrite ?E; tauto.
Qed.

Lemma ext_bh_date c a t : ext c t (bh_date c a t).
Proof.
  unfold bh_date. destruct (negb (truthy (ac_date a))); [|apply ext_refl].
  apply ext_append. unfold server_field. tauto.
Qed.

(* build_response_header after its normalising loop only extends *)
Lemma bh_prepare_ext c r t :
  ext c (set_rh (norm_fields (has_body t) (t_rh t)) t) (bh_prepare cap lower c r t).
Proof.
  unfold bh_prepare.
  set (a := bh_loop cap t).
  assert (E0 : ac_rh a = norm_fields (has_body t) (t_rh t)) by (subst a; unfold bh_loop; apply bh_fold_rh).
  rewrite E0. set (t0 := set_rh _ t).
  pose proof (ext_bh_clen c a t0) as E1.
  destruct (bh_clen a t0) as [clh t1]. cbn [snd] in E1.
  eapply ext_trans; [exact E1|]. eapply ext_trans; [apply ext_bh_conn|].
  eapply ext_trans; [apply ext_bh_server|apply ext_bh_date].
Qed.

Theorem bh_prepare_fields c r t :
  exists sf, t_rh (bh_prepare cap lower c r t) = norm_fields (has_body t) (t_rh t) ++ sf
             /\ Forall (server_field c) sf
             /\ t_status (bh_prepare cap lower c r t) = t_status t
             /\ t_v11 (bh_prepare cap lower c r t) = t_v11 t.
Proof.
  destruct (bh_prepare_ext c r t) as [(sf & Es & Fs) (As & Bs & _)]. exists sf. auto.
Qed.

Definition head_lines (t : task) : list str := first_line t :: map header_line (sort_hdrs (t_rh t)).

Lemma header_line_clean h : clean_field h -> clean (header_line h).
Proof.
  intros [H1 H2]. unfold header_line. apply clean_app; split; [exact H1|].
  apply clean_app; split; [reflexivity|exact H2].
Qed.

Lemma first_line_clean t : clean (t_status t) -> clean (first_line t).
Proof.
  intro H. unfold first_line, version_str. destruct (t_v11 t);
    (apply clean_app; split; [reflexivity|]; apply clean_app; split; [reflexivity|];
     apply clean_app; split; [reflexivity|auto]).
Qed.

Lemma head_lines_clean t : task_clean t -> Forall clean (head_lines t).
Proof.
  intros [Hs Hf]. unfold head_lines. constructor. apply first_line_clean; auto.
  apply Forall_forall. intros x Hx. apply in_map_iff in Hx as (h & <- & Hh).
  apply header_line_clean. rewrite Forall_forall in Hf. apply Hf.
  eapply Permutation_in. apply sort_perm. exact Hh.
Qed.

Lemma bh_prepare_clean c r t : cfg_clean c -> task_clean t -> task_clean (bh_prepare cap lower c r t).
Proof.
  intros Hc [Hs Hf]. destruct (bh_prepare_fields c r t) as (sf & E & F & S1 & _).
  split. rewrite S1; auto. rewrite E. apply Forall_app. split.
  apply norm_fields_clean; auto.
  eapply Forall_impl; [|exact F]. intros h. apply server_field_clean; auto.
Qed.

Lemma encode_latin1_ok s b : encode_latin1 s = Ok b -> b = s.
Proof. unfold encode_latin1. destruct (forallb _ s); intro H; inversion H; auto. Qed.

Theorem head_lines_exact c r t t' b :
  cfg_clean c -> task_clean t ->
  build_response_header cap lower c r t = (t', Ok b) ->
  exists sf,
    Forall (server_field c) sf /\
    let fields := norm_fields (has_body t) (t_rh t) ++ sf in
    split b CRLF =
      (lit "HTTP/" ++ version_str t ++ [32] ++ t_status t)
        :: map header_line (sort_hdrs fields) ++ [[]; []]
    /\ Forall clean (firstn (S (length fields)) (split b CRLF))
    /\ Permutation (sort_hdrs fields) fields
    /\ (forall n, filter (same_name n) (sort_hdrs fields) = filter (same_name n) fields).
Proof.
  intros Hc Ht H. unfold build_response_header in H. inversion H as [[Ht' Hb]]. clear H.
  apply encode_latin1_ok in Hb. subst b.
  destruct (bh_prepare_fields c r t) as (sf & E & F & S1 & V1).
  pose proof (bh_prepare_clean c r t Hc Ht) as Hcl.
  set (tp := bh_prepare cap lower c r t) in *.
  exists sf. split; auto. cbn zeta.
  assert (Hsplit : split (head_text tp) CRLF = head_lines tp ++ [[]; []]).
  { unfold head_text. apply split_head. apply head_lines_clean; auto. }
  rewrite Hsplit. unfold head_lines at 1. rewrite E. unfold first_line, version_str. rewrite S1, V1.
  split; [reflexivity|]. split.
  - replace (S (length (norm_fields (has_body t) (t_rh t) ++ sf))) with (length (head_lines tp)).
    + rewrite firstn_app, Nat.sub_diag, firstn_all. cbn [firstn]. rewrite app_nil_r.
      apply head_lines_clean; auto.
    + unfold head_lines. cbn [length]. rewrite map_length, E.
      f_equal. apply Permutation_length. apply sort_perm.
  - split. apply sort_perm. intro n. apply sort_stable.
Qed.

End Oracle.
