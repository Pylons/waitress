(* HTTPChannel.received (sequential model): totality -- no escaping exception,
   no spinning, the request under construction stays well-formed. *)
From Coq Require Import List NArith ZArith Bool Lia Arith.
From RecordUpdate Require Import RecordUpdate.
From WV Require Import Lib.PyBytes Lib.Regex Gen.GenRegex Model.Receiver Model.UrlSplit Model.Parser Model.ChanSeq
  Proof.PyBytesFacts Proof.ReceiverTotal Proof.ParserTotal.
Import ListNotations.
Local Open Scope N_scope.

Ltac csimpl := cbn [set ChanSeq.request ChanSeq.requests ChanSeq.sent_continue ChanSeq.will_close
  ChanSeq.close_when_flushed ChanSeq.outlog ChanSeq.add_task_calls] in *.

Definition wf_chan (a : adj) (c : chan) : Prop :=
  match request c with None => True | Some r => wf_p a r end.

Lemma wf_p_expect a r : wf_p a r -> headers_finished r = true ->
  wf_p a (r <| expect_continue := false |>).
Proof.
  intros (Wc & We & Wb & Wh & Wbb) Hhf. unfold wf_p, wf_body in *. psimpl.
  split; [exact Wc|]. split; [exact We|]. split; [|split; [exact Wh | exact Wbb]].
  destruct (body r) as [[f|c]|]; auto.
  destruct Wb as (hp & -> & _). discriminate.
Qed.

(* one iteration of the `while data:` loop, after parser.received returned *)
Definition post (c : chan) (r1 : parser) : chan :=
      let c := c <| request := Some r1 |> in
      let '(c, r2) :=
        if expect_continue r1 && headers_finished r1
           && (match requests c with [] => true | _ => false end) && negb (sent_continue c)
        then send_continue c r1 else (c, r1) in
      let c := c <| request := Some r2 |> in
        if completed r2 then
          let c := c <| sent_continue := false |> in
          let c :=
            if negb (empty r2) then
              let c := c <| requests := requests c ++ [r2] |> in
              if (length (requests c) =? 1)%nat
              then c <| add_task_calls := S (add_task_calls c) |> else c
            else c in
          c <| request := None |>
        else c.

Lemma received_loop_eq fuel a c data :
  received_loop fuel a c data =
  match fuel with
  | O => COutOfFuel
  | S f =>
    let r0 := match request c with Some r => r | None => parser_init end in
    match Parser.received a r0 data with
    | REscapes => CEscapes
    | ROutOfFuel => COutOfFuel
    | RUnmodelled => CUnmodelled
    | ROk r1 n =>
      let c := post c r1 in
      if (Z.of_nat (length data) <=? n)%Z then COk c
      else received_loop f a c (skipn (Z.to_nat n) data)
    end
  end.
Proof.
  destruct fuel; [reflexivity|]. cbn [received_loop]. cbv zeta.
  destruct (received a _ data); try reflexivity.
  unfold post. destruct (expect_continue p && headers_finished p && _ && _); reflexivity.
Qed.

Lemma post_wf a c r1 : (completed r1 = true \/ wf_p a r1) -> wf_chan a (post c r1).
Proof.
  intros H. unfold post.
  destruct (expect_continue r1 && headers_finished r1 && _ && _) eqn:Hc.
  - apply andb_true_iff in Hc as [Hc _]. apply andb_true_iff in Hc as [Hc _].
    apply andb_true_iff in Hc as [_ Hhf].
    unfold send_continue. cbv beta iota zeta. psimpl.
    destruct (completed r1) eqn:Hcomp.
    + unfold wf_chan. destruct (negb (empty r1)); [destruct (_ =? _)%nat|]; csimpl; exact I.
    + unfold wf_chan. csimpl. destruct H as [H|H]; [congruence|]. apply wf_p_expect; auto.
  - cbv beta iota zeta. destruct (completed r1) eqn:Hcomp.
    + unfold wf_chan. destruct (negb (empty r1)); [destruct (_ =? _)%nat|]; csimpl; exact I.
    + unfold wf_chan. csimpl. destruct H as [H|H]; [congruence|]. exact H.
Qed.

Lemma loop_total a fuel : forall c data, wf_chan a c -> data <> [] -> (length data < fuel)%nat ->
  received_loop fuel a c data = CUnmodelled \/
  exists c', received_loop fuel a c data = COk c' /\ wf_chan a c'.
Proof.
  induction fuel as [|f IH]; intros c data W Hd Hl; [lia|].
  rewrite received_loop_eq. cbv zeta.
  set (r0 := match request c with Some r => r | None => parser_init end).
  assert (W0 : wf_p a r0).
  { subst r0. unfold wf_chan in W. destruct (request c); [exact W | apply wf_p_init]. }
  destruct (received_total a r0 data W0 Hd) as [E|(r1 & n & E & Bn & Hr)]; rewrite E; [left; reflexivity|].
  pose proof (post_wf a c r1 Hr) as Wp.
  destruct (Z.of_nat (length data) <=? n)%Z eqn:Hn.
  - right. eexists. split; [reflexivity | exact Wp].
  - apply Z.leb_gt in Hn. apply IH; auto.
    + apply skipn_nonempty. lia.
    + rewrite skipn_length. lia.
Qed.

(* HTTPChannel.received never lets an exception escape, never spins, and leaves
   the request under construction well-formed *)
Theorem chan_received_total a c data : wf_chan a c ->
  chan_received a c data = CUnmodelled \/
  exists c', chan_received a c data = COk c' /\ wf_chan a c'.
Proof.
  intros W. unfold chan_received. destruct data as [|x data]; [right; eauto|].
  destruct (will_close c || close_when_flushed c); [right; eauto|].
  apply loop_total; [exact W | discriminate | simpl; lia].
Qed.

Lemma wf_chan_init a : wf_chan a chan_init.
Proof. exact I. Qed.

Theorem feed_total a : forall reads c, wf_chan a c ->
  feed a c reads = CUnmodelled \/ exists c', feed a c reads = COk c' /\ wf_chan a c'.
Proof.
  intros reads. induction reads as [|d rest IH]; intros c W; [right; exists c; split; [reflexivity | exact W]|].
  cbn [feed]. destruct (chan_received_total a c d W) as [E|(c' & E & W')]; rewrite E; auto.
Qed.
