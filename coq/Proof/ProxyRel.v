(* Two-run (relational) reasoning about parse_proxy_headers: if two environs
   agree outside a set D of keys and the blocks that read keys inside D are
   switched off by the configuration, the two runs do the same thing and the
   resulting environs still agree outside D.  Used for C16 (d) kinds. *)
From Coq Require Import List NArith ZArith Bool Lia.
From WV Require Import Lib.PyBytes Lib.PyStrProxy Lib.Regex Gen.GenRegex Model.Proxy Spec.ProxySpec
  Proof.ProxyDict Proof.ProxyStr Proof.ProxyStages Proof.ProxyTotal.
Import ListNotations.
Local Open Scope N_scope.

Definition rrelG {A} (R : A -> A -> Prop) (r1 r2 : result A) : Prop :=
  match r1, r2 with
  | Ok a, Ok b => R a b
  | Malformed h1, Malformed h2 => h1 = h2
  | Exn x, Exn y => x = y
  | _, _ => False
  end.

Lemma rrelG_bind_same {A B} (R : B -> B -> Prop) (r : result A) f1 f2 :
  (forall a, rrelG R (f1 a) (f2 a)) -> rrelG R (bind r f1) (bind r f2).
Proof. intro H. destruct r; cbn; auto. Qed.

Lemma rrelG_bind {A B} (RA : A -> A -> Prop) (RB : B -> B -> Prop) r1 r2 f1 f2 :
  rrelG RA r1 r2 -> (forall a b, RA a b -> rrelG RB (f1 a) (f2 b)) -> rrelG RB (bind r1 f1) (bind r2 f2).
Proof. intros H Hf. destruct r1, r2; cbn in *; auto; contradiction. Qed.

Lemma rrelG_catch_all {A} (R : A -> A -> Prop) h r1 r2 :
  rrelG R r1 r2 -> rrelG R (catch_all h r1) (catch_all h r2).
Proof. destruct r1, r2; cbn; auto; try contradiction. Qed.

Lemma rrelG_handler {A} (R : A -> A -> Prop) key h (e1 e2 : environ) r1 r2 :
  lookup key e1 = lookup key e2 -> rrelG R r1 r2 ->
  rrelG R (handler_single key h e1 r1) (handler_single key h e2 r2).
Proof.
  intros Hl H. destruct r1, r2; cbn in *; auto; try contradiction.
  rewrite Hl. destruct (lookup key e2); cbn; auto.
Qed.

Record rel (D : str -> bool) (s1 s2 : pst) : Prop := {
  r_env : agree D (env s1) (env s2);
  r_client : client s1 = client s2;
  r_fhost : fhost s1 = fhost s2;
  r_fproto : fproto s1 = fproto s2;
  r_fport : fport s1 = fport s2;
  r_fwd : opt_truthy (fwd s1) = opt_truthy (fwd s2);
  r_unt : unt s1 = unt s2
}.

Definition rrel D := rrelG (rel D).

Lemma rrel_refl_ok D s1 s2 : rel D s1 s2 -> rrel D (Ok s1) (Ok s2).
Proof. auto. Qed.

Ltac relrec := constructor; cbn [env client fhost fproto fport fwd unt]; auto using agree_set.

Lemma lblk_rel D x k tph s1 s2 :
  rel D s1 s2 -> (has tph (lname x) = true -> D (lkey x) = false) ->
  rrel D (lblk x k tph s1) (lblk x k tph s2).
Proof.
  intros [] HD. destruct x; cbn [lblk lname lkey] in *; [unfold blk_xff|unfold blk_xfh].
  all: destruct (has tph _); [|constructor; auto].
  all: rewrite (r_env0 _ (HD eq_refl)); destruct (lookup _ (env s2)); [|constructor; auto].
  all: apply rrelG_catch_all; cbv zeta; apply rrelG_bind_same; intro cs; apply rrelG_bind_same; intro c.
  all: rewrite r_unt0; apply rrelG_bind_same; intro u; cbn; relrec.
Qed.

Lemma sblk_rel D x tph s1 s2 :
  rel D s1 s2 -> (has tph (sname x) = true -> D (skey x) = false) ->
  rrel D (sblk x tph s1) (sblk x tph s2).
Proof.
  intros [] HD. destruct x; cbn [sblk sname skey] in *; [unfold blk_proto|unfold blk_port].
  all: destruct (has tph _); [|constructor; auto].
  all: pose proof (r_env0 _ (HD eq_refl)) as Hl; apply rrelG_handler; [exact Hl|].
  all: rewrite (single_value_env _ _ _ Hl), r_unt0.
  all: apply rrelG_bind_same; intro v; apply rrelG_bind_same; intro u; cbn; relrec.
Qed.

Lemma blk_by_rel D tph s1 s2 : rel D s1 s2 -> rrel D (blk_by tph s1) (blk_by tph s2).
Proof.
  intros []. unfold blk_by. destruct (has tph n_xfby); [|constructor; auto].
  rewrite r_unt0. apply rrelG_bind_same. intro u. cbn. relrec.
Qed.

(* forwarded = environ.get("HTTP_FORWARDED") and the block that uses it, together *)
Lemma blk_fwd_rel D k tph s1 s2 :
  rel D s1 s2 -> fwd s1 = Some [] -> fwd s2 = Some [] ->
  (has tph n_fwd = true -> D k_fwd = false) ->
  rrel D (blk_forwarded k (blk_fwd_get tph s1)) (blk_forwarded k (blk_fwd_get tph s2)).
Proof.
  intros [] F1 F2 HD. unfold blk_fwd_get. destruct (has tph n_fwd).
  - pose proof (r_env0 k_fwd (HD eq_refl)) as Hl. unfold blk_forwarded. cbn [fwd env client fhost fproto fport unt].
    rewrite Hl. destruct (lookup k_fwd (env s2)) as [[|c f]|] eqn:El; try (cbn; relrec; rewrite El; reflexivity).
    apply rrelG_bind_same. intro ps. cbv zeta.
    rewrite r_client0.
    destruct (fold_left fwd_fill _ _) as [[a b] d]. cbn. relrec.
  - unfold blk_forwarded. rewrite F1, F2. cbn. constructor; auto.
Qed.

Lemma stage_proto_rel D s1 s2 : rel D s1 s2 -> rrel D (stage_proto s1) (stage_proto s2).
Proof.
  intros []. rewrite !stage_proto_exact, r_fproto0, r_fwd0.
  destruct (cat_scheme (fproto s2)); [reflexivity|].
  unfold after_proto. rewrite r_fproto0, r_fport0. destruct (truthy (fproto s2)); relrec.
Qed.

Lemma stage_host_rel D s1 s2 : D k_url_scheme = false -> rel D s1 s2 -> rrel D (stage_host s1) (stage_host s2).
Proof.
  intros HD []. rewrite !stage_host_exact. cbv zeta. unfold host_written.
  rewrite r_fhost0, r_fport0, r_fwd0, (r_env0 k_url_scheme HD).
  destruct (truthy (fhost s2)); [|constructor; auto].
  destruct (empty_host (fhost s2)); [reflexivity|].
  destruct (has_port (fhost s2)); [relrec|].
  destruct (lookup k_url_scheme (env s2)); [relrec|]. destruct (_ || _); [reflexivity|relrec].
Qed.

Lemma stage_port_rel D s1 s2 : rel D s1 s2 -> rel D (stage_port s1) (stage_port s2).
Proof.
  intros []. unfold stage_port. rewrite r_fport0. destruct (truthy (fport s2)); relrec.
Qed.

Lemma stage_client_rel D s1 s2 : rel D s1 s2 -> rrel D (stage_client s1) (stage_client s2).
Proof.
  intros []. rewrite !stage_client_spec, r_client0.
  destruct (client s2) as [[|c0 c']|] eqn:Ec.
  - constructor; auto; congruence.
  - cbv zeta. rewrite r_fwd0. destruct (bad_client (c0 :: c')); [reflexivity|]. cbn [rrel rrelG]. relrec; try congruence.
    destruct (port_text (c0 :: c')); auto using agree_set.
  - constructor; auto; congruence.
Qed.

Lemma parse_apply_rel D s1 s2 : D k_url_scheme = false -> rel D s1 s2 -> rrel D (parse_apply s1) (parse_apply s2).
Proof.
  intros HD H. unfold parse_apply.
  apply rrelG_bind with (RA := rel D); [apply stage_proto_rel; exact H|]. intros a b Hab.
  apply rrelG_bind with (RA := rel D); [apply stage_host_rel; auto|]. intros a' b' Hab'.
  apply stage_client_rel. apply stage_port_rel. exact Hab'.
Qed.

(* the conditions under which the set D of differing keys is never read *)
Record unread (D : str -> bool) (tph : list str) : Prop := {
  ur_xff : has tph n_xff = true -> D k_xff = false;
  ur_xfh : has tph n_xfh = true -> D k_xfh = false;
  ur_proto : has tph n_xfproto = true -> D k_xfproto = false;
  ur_port : has tph n_xfport = true -> D k_xfport = false;
  ur_fwd : has tph n_fwd = true -> D k_fwd = false;
  ur_scheme : D k_url_scheme = false
}.

Lemma init_rel D e1 e2 : agree D e1 e2 -> rel D (init_pst e1) (init_pst e2).
Proof. intro H. constructor; auto. Qed.

Lemma rrel_ok_inv D r1 r2 s1 : rrel D r1 r2 -> r1 = Ok s1 -> exists s2, r2 = Ok s2 /\ rel D s1 s2.
Proof. intros H ->. destruct r2; cbn in H; try contradiction. eauto. Qed.

Lemma parse_select_rel D k tph e1 e2 : unread D tph -> agree D e1 e2 ->
  rrel D (parse_select e1 k tph) (parse_select e2 k tph).
Proof.
  intros [] Ha. unfold parse_select.
  pose proof (lblk_rel D LFor k tph _ _ (init_rel D _ _ Ha) ur_xff0) as R1. cbn [lblk] in R1.
  destruct (blk_xff k tph (init_pst e1)) as [a1| |] eqn:A1, (blk_xff k tph (init_pst e2)) as [b1| |] eqn:B1;
    cbn in R1; try contradiction; cbn [bind]; auto.
  pose proof (lblk_rel D LHost k tph _ _ R1 ur_xfh0) as R2. cbn [lblk] in R2.
  destruct (blk_xfh k tph a1) as [a2| |] eqn:A2, (blk_xfh k tph b1) as [b2| |] eqn:B2;
    cbn in R2; try contradiction; cbn [bind]; auto.
  pose proof (sblk_rel D SProto tph _ _ R2 ur_proto0) as R3. cbn [sblk] in R3.
  destruct (blk_proto tph a2) as [a3| |] eqn:A3, (blk_proto tph b2) as [b3| |] eqn:B3;
    cbn in R3; try contradiction; cbn [bind]; auto.
  pose proof (sblk_rel D SPort tph _ _ R3 ur_port0) as R4. cbn [sblk] in R4.
  destruct (blk_port tph a3) as [a4| |] eqn:A4, (blk_port tph b3) as [b4| |] eqn:B4;
    cbn in R4; try contradiction; cbn [bind]; auto.
  pose proof (blk_by_rel D tph _ _ R4) as R5.
  destruct (blk_by tph a4) as [a5| |] eqn:A5, (blk_by tph b4) as [b5| |] eqn:B5;
    cbn in R5; try contradiction; cbn [bind]; auto.
  apply blk_fwd_rel; auto.
  - apply (before_fwd _ _ _ _ _ _ _ _ A1 A2 A3 A4 A5).
  - apply (before_fwd _ _ _ _ _ _ _ _ B1 B2 B3 B4 B5).
Qed.

Lemma clear_agree D e1 e2 u : agree D e1 e2 -> agree D (clear_untrusted_headers e1 u) (clear_untrusted_headers e2 u).
Proof.
  intro H. unfold clear_untrusted_headers.
  destruct (u_for u), (u_host u), (u_proto u), (u_port u), (u_by u), (u_fwd u); auto 10 using agree_pop.
Qed.

Lemma middleware_rel D c e1 e2 :
  unread D (tph_of c) -> D k_remote_addr = false -> agree D e1 e2 ->
  rrelG (agree D) (middleware c e1) (middleware c e2).
Proof.
  intros Hu Hra Ha. unfold middleware. rewrite (Ha k_remote_addr Hra).
  destruct (lookup k_remote_addr e2) as [peer|]; [|reflexivity].
  destruct (opt_str_eqb (trusted_proxy c) (Some s_star) || opt_str_eqb (Some peer) (trusted_proxy c)).
  - unfold parse_proxy_headers. fold (tph_of c).
    pose proof (parse_select_rel D (trusted_proxy_count c) (tph_of c) e1 e2 Hu Ha) as R1.
    destruct (parse_select e1 _ _) as [a| |], (parse_select e2 _ _) as [b| |]; cbn in R1; try contradiction; cbn [bind]; auto.
    pose proof (parse_apply_rel D a b (ur_scheme _ _ Hu) R1) as R2.
    destruct (parse_apply a) as [a'| |], (parse_apply b) as [b'| |]; cbn in R2; try contradiction; cbn [bind]; auto.
    destruct R2. cbn. rewrite r_unt0. destruct (clear_untrusted c); auto using clear_agree.
  - cbn. destruct (clear_untrusted c); auto. repeat apply agree_pop. exact Ha.
Qed.
