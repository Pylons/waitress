(* The capstone: for every accepted run with a well-formed target and version
   1.0 / 1.1, the environ of the model and the environ of Spec/Pep3333
   (spec_environ) are the same finite map. *)
From Coq Require Import List NArith ZArith Bool Lia.
From RecordUpdate Require Import RecordUpdate.
From WV Require Import Lib.PyBytes Lib.Regex Gen.GenRegex Model.Receiver Model.UrlSplit Model.Parser
  Model.Environ Spec.Pep3333 Proof.EnvironDict Proof.EnvironParse Proof.EnvironRun Proof.EnvironFields
  Proof.EnvironTarget Proof.EnvironLatin1 Proof.EnvironBody.
Import ListNotations.
Local Open Scope N_scope.

Definition sval_of (v : evalue) : sval :=
  match v with
  | VStr s => SStr s
  | VTuple10 => SVersion10
  | VStderr => SObject
  | VBool b => SBool b
  | VInput d => SInput d
  | VFileWrapper => SObject
  | VDisconnected => SObject
  end.

Definition gateway_of (a : adj) (c : config) : gateway :=
  {| gw_prefix := url_prefix c; gw_server_name := server_name c;
     gw_server_port := str_port (effective_port c); gw_software := ident c;
     gw_remote_addr := addr0 (peer_addr c); gw_remote_port := str_addr1 (peer_addr c);
     gw_scheme := adj_url_scheme a |}.

Lemma slookup_app e1 e2 k :
  slookup (e1 ++ e2) k = match slookup e1 k with Some v => Some v | None => slookup e2 k end.
Proof. induction e1 as [|[k' v] e1 IH]; cbn [app slookup]; auto. destruct (beqb k k'); auto. Qed.

Definition smap (e : edict) : list (bytes * sval) := map (fun kv => (fst kv, sval_of (snd kv))) e.

Lemma slookup_smap e k : slookup (smap e) k = option_map sval_of (eget e k).
Proof. induction e as [|[k' v] e IH]; cbn [smap map slookup eget fst snd]; auto. destruct (beqb k k'); auto. Qed.

(* an entry may move to the end over keys other than its own *)
Lemma slookup_move l1 k0 v0 l2 k :
  slookup l2 k0 = None ->
  slookup (l1 ++ (k0, v0) :: l2) k = slookup (l1 ++ l2 ++ [(k0, v0)]) k.
Proof.
  intro H. rewrite !slookup_app. cbn [slookup]. destruct (slookup l1 k); [reflexivity|].
  destruct (beqb k k0) eqn:E.
  - apply beqb_eq in E. subst k. rewrite H. reflexivity.
  - destruct (slookup l2 k); reflexivity.
Qed.

Lemma slookup_flat_entries rq ks k :
  slookup (flat_map (fun k' => match spec_header rq k' with Some v => [(k', SStr v)] | None => [] end) ks) k
  = if existsb (beqb k) ks then option_map SStr (spec_header rq k) else None.
Proof.
  induction ks as [|k' ks IH]; cbn [flat_map existsb]; auto.
  rewrite slookup_app, IH. destruct (beqb k k') eqn:E; cbn [orb].
  - apply beqb_eq in E. subst k'. destruct (spec_header rq k) as [v|]; cbn [slookup option_map].
    + rewrite beqb_refl. reflexivity.
    + destruct (existsb (beqb k) ks); reflexivity.
  - destruct (spec_header rq k') as [v'|]; cbn [slookup]; [rewrite E|]; reflexivity.
Qed.

Lemma existsb_beqb k l : existsb (beqb k) l = true <-> In k l.
Proof.
  rewrite existsb_exists. split.
  - intros (x & I & E). apply beqb_eq in E. subst. exact I.
  - intro I. exists k. auto using beqb_refl.
Qed.

(* nodup_keys keeps the first occurrence of every key not yet seen *)
Lemma nodup_keys_mem k ks : forall seen,
  existsb (beqb k) (nodup_keys ks seen) = existsb (beqb k) ks && negb (existsb (beqb k) seen).
Proof.
  induction ks as [|x ks IH]; intro seen; cbn [nodup_keys existsb]; [reflexivity|].
  destruct (existsb (beqb x) seen) eqn:E.
  - rewrite IH. destruct (beqb k x) eqn:Ek; [|reflexivity].
    apply beqb_eq in Ek. subst x. rewrite E. apply andb_false_r.
  - cbn [existsb]. rewrite IH. cbn [existsb]. destruct (beqb k x) eqn:Ek; [|reflexivity].
    apply beqb_eq in Ek. subst x. rewrite E. reflexivity.
Qed.

(* the keys under which header_entries can have an entry (header_keys before nodup_keys) *)
Definition key_candidates (rq : request) : list bytes :=
  (if rq_chunked rq then [c_CONTENT_LENGTH] else [])
  ++ map (fun nv => cgi_key (fst nv)) (filter (fun nv => negb (has_underscore (fst nv))) (rq_fields rq)).

Lemma field_values_some fields k :
  field_values fields k <> [] ->
  In k (map (fun nv => cgi_key (fst nv)) (filter (fun nv => negb (has_underscore (fst nv))) fields)).
Proof.
  unfold field_values. induction fields as [|[n v] fields IH]; cbn [flat_map filter fst snd]; [tauto|].
  destruct (has_underscore n); cbn [negb andb app map].
  - exact IH.
  - destruct (beqb (cgi_key n) k) eqn:E; cbn [app fst].
    + intros _. left. apply beqb_eq. exact E.
    + intro H. right. apply IH. exact H.
Qed.

Lemma spec_header_some_in rq k v : spec_header rq k = Some v -> In k (key_candidates rq).
Proof.
  unfold spec_header, key_candidates.
  destruct (beqb (rq_version rq) c_1_1 && beqb k c_HTTP_TRANSFER_ENCODING); [discriminate|].
  destruct (rq_chunked rq); cbn [andb].
  - destruct (beqb k c_CONTENT_LENGTH) eqn:E.
    + intros _. apply beqb_eq in E. left. auto.
    + intro H. right. apply field_values_some. intro X. rewrite X in H. discriminate.
  - intro H. cbn [app]. apply field_values_some. intro X. rewrite X in H. discriminate.
Qed.

Lemma key_candidates_header_form rq k : In k (key_candidates rq) -> is_header_key k = true.
Proof.
  unfold key_candidates. intro H. apply in_app_or in H as [H|H].
  - destruct (rq_chunked rq); [|contradiction]. destruct H as [<-|[]]. reflexivity.
  - apply in_map_iff in H as ([n v] & <- & _). apply cgi_key_header_form.
Qed.

Lemma slookup_header_entries rq k :
  slookup (header_entries rq) k = if is_header_key k then option_map SStr (spec_header rq k) else None.
Proof.
  unfold header_entries, header_keys. fold (key_candidates rq).
  rewrite slookup_flat_entries, nodup_keys_mem, andb_true_r.
  destruct (existsb (beqb k) (key_candidates rq)) eqn:E.
  - apply existsb_beqb in E. rewrite (key_candidates_header_form _ _ E). reflexivity.
  - destruct (is_header_key k); auto.
    destruct (spec_header rq k) as [v|] eqn:S; auto.
    apply spec_header_some_in, existsb_beqb in S. congruence.
Qed.

(* the 21 entries of spec_environ that come before SERVER_PROTOCOL and the header
   entries: the 20 server keys other than SERVER_PROTOCOL, in the order of the
   model's dict literal, and waitress.client_disconnected *)
Definition spec_server_part (gw : gateway) (rq : request) : list (bytes * sval) :=
  firstn 21 (spec_environ gw rq).

Lemma spec_environ_split gw rq :
  spec_environ gw rq =
  spec_server_part gw rq
  ++ match spec_protocol rq with
     | Some v => [(k_SERVER_PROTOCOL, SStr v)]
     | None => []
     end
  ++ header_entries rq.
Proof. reflexivity. Qed.

(* The dict literal of the model followed by waitress.client_disconnected is
   the server part of the specification with one entry, SERVER_PROTOCOL, in
   eighth place (after the first 7 entries) instead of last. *)
Lemma server_part_same_map a c p lines k :
  url_scheme p = adj_url_scheme a -> upper_str (command p) = command p ->
  version p = s_1_0 \/ version p = s_1_1 ->
  path p = pct_decode (raw_path (request_uri p)) -> query p = raw_query (request_uri p) ->
  slookup (smap (base_environ c p ++ [(k_waitress_client_disconnected, VDisconnected)])) k =
  slookup (spec_server_part (gateway_of a c) (request_of p lines)
           ++ match spec_protocol (request_of p lines) with
              | Some v => [(k_SERVER_PROTOCOL, SStr v)]
              | None => []
              end) k.
Proof.
  intros Hscheme Hmethod Hversion Hpath Hquery.
  assert (P : spec_protocol (request_of p lines) = Some (k_HTTPslash ++ task_version p)).
  { unfold spec_protocol, request_of, task_version. cbn [rq_version].
    change c_1_0 with s_1_0. change c_1_1 with s_1_1.
    destruct Hversion as [E|E]; rewrite E; reflexivity. }
  rewrite P. set (S := spec_server_part (gateway_of a c) (request_of p lines)).
  assert (E : smap (base_environ c p ++ [(k_waitress_client_disconnected, VDisconnected)]) =
              firstn 7 S ++ (k_SERVER_PROTOCOL, SStr (k_HTTPslash ++ task_version p)) :: skipn 7 S).
  { unfold base_environ. cbn [smap map app fst snd sval_of].
    rewrite Hmethod, Hscheme, environ_path_spec, Hpath, Hquery. reflexivity. }
  rewrite E, slookup_move by reflexivity. rewrite app_assoc, firstn_skipn. reflexivity.
Qed.

Theorem environ_image a c ds p :
  Forall ok ds ->
  feed_all a ds = Some p -> completed p = true -> error p = None -> empty p = false ->
  wf_target (request_uri p) -> (version p = s_1_0 \/ version p = s_1_1) ->
  exists hp fl lines,
    head_of ds hp /\ head_lines hp fl lines /\
    forall k, option_map sval_of (eget (get_environment c p) k) =
              slookup (spec_environ (gateway_of a c) (request_of p lines)) k.
Proof.
  intros Hds H Hc He Hm W V.
  destruct (run_accepted_head _ _ _ H Hc He Hm) as (p0 & p1 & hp & fl & lines & h1 & AR & AH).
  destruct (request_line_image _ _ _ _ _ _ _ _ _ Hds AR AH) as (RL & SC & PQ). destruct (PQ W) as (P & Q).
  exists hp, fl, lines. split; [exact (ar_head _ _ _ _ _ _ AR)|]. split; [exact (ah_find _ _ _ _ _ _ _ AH)|].
  intro k. rewrite spec_environ_split, app_assoc, slookup_app, slookup_header_entries.
  rewrite <- (server_part_same_map a c p lines k), slookup_smap;
    [|exact SC|apply upper_str_identity, RL|exact V|exact P|exact Q].
  destruct (is_header_key k) eqn:HK.
  - (* a protocol-specific key is free in the server part *)
    rewrite (header_entries_image _ _ _ _ _ _ _ _ _ AR AH c k HK).
    rewrite server_part_free by exact HK.
    destruct (spec_header (request_of p lines) k); reflexivity.
  - rewrite get_environment_other by exact HK.
    destruct (eget _ k); reflexivity.
Qed.
