(* Chunked coding: what Task.write emits is decoded by the client back to the
   application's bytes (C03). *)
From Coq Require Import List NArith Bool Lia Arith ZifyBool.
From WV Require Import Lib.PyBytes Gen.GenTables Model.Task Spec.ClientParse Proof.PyBytesFacts.
Import ListNotations.
Local Open Scope N_scope.

Lemma hexval_hexdigit d : d < 16 -> hexval (hexdigit_upper d) = Some d.
Proof.
  intro H. unfold hexdigit_upper, hexval.
  destruct (d <? 10) eqn:E.
  - assert ((48 <=? 48 + d) && (48 + d <=? 57) = true) as -> by lia. f_equal. lia.
  - assert ((48 <=? 55 + d) && (55 + d <=? 57) = false) as -> by lia.
    assert ((97 <=? 55 + d) && (55 + d <=? 102) = false) as -> by lia.
    assert ((65 <=? 55 + d) && (55 + d <=? 70) = true) as -> by lia. f_equal. lia.
Qed.

Lemma hex_roundtrip_fuel fuel : forall n acc, n < 16 ^ N.of_nat fuel ->
  hex_value_acc (to_hex_fuel fuel n acc) 0 = hex_value_acc acc n.
Proof.
  induction fuel as [|f IH]; intros n acc Hn.
  - simpl in Hn. assert (n = 0) by lia. subst. reflexivity.
  - cbn [to_hex_fuel].
    assert (Hd : n mod 16 < 16) by (apply N.mod_lt; lia).
    destruct (n <? 16) eqn:E.
    + cbn [hex_value_acc]. rewrite hexval_hexdigit by auto.
      rewrite N.mod_small by lia. f_equal.
    + rewrite IH.
      * cbn [hex_value_acc]. rewrite hexval_hexdigit by auto. f_equal.
        rewrite (N.div_mod n 16) at 3 by lia. reflexivity.
      * rewrite Nat2N.inj_succ, N.pow_succ_r' in Hn.
        apply N.div_lt_upper_bound; lia.
Qed.

Lemma size_bound n : n < 16 ^ N.of_nat (S (N.to_nat (N.size n))).
Proof.
  rewrite Nat2N.inj_succ, N2Nat.id.
  destruct n as [|p]; [reflexivity|].
  assert (H : N.pos p < 2 ^ N.size (N.pos p)) by (apply N.size_gt).
  eapply N.lt_le_trans; [exact H|].
  eapply N.le_trans with (16 ^ N.size (N.pos p)).
  - apply N.pow_le_mono_l. lia.
  - apply N.pow_le_mono_r; lia.
Qed.

Theorem hex_roundtrip n : hex_value (to_hex_upper n) = n.
Proof.
  unfold hex_value, to_hex_upper. rewrite hex_roundtrip_fuel by apply size_bound. reflexivity.
Qed.

(* the digits are 0-9A-F: hexadecimal, and none of CR, ';' *)
Definition is_hex_upper (x : N) : bool := ((48 <=? x) && (x <=? 57)) || ((65 <=? x) && (x <=? 70)).

Lemma hexdigit_is_hex d : d < 16 -> is_hex_upper (hexdigit_upper d) = true.
Proof. intro H. unfold is_hex_upper, hexdigit_upper. destruct (d <? 10) eqn:E; lia. Qed.

Lemma to_hex_fuel_digits fuel : forall n acc, forallb is_hex_upper acc = true ->
  forallb is_hex_upper (to_hex_fuel fuel n acc) = true.
Proof.
  induction fuel as [|f IH]; intros n acc Ha; cbn [to_hex_fuel]; auto.
  assert (Hd : n mod 16 < 16) by (apply N.mod_lt; lia).
  assert (Hc : forallb is_hex_upper (hexdigit_upper (n mod 16) :: acc) = true).
  { cbn [forallb]. rewrite hexdigit_is_hex by auto. exact Ha. }
  destruct (n <? 16); auto.
Qed.

Lemma to_hex_digits n : forallb is_hex_upper (to_hex_upper n) = true.
Proof. unfold to_hex_upper. apply to_hex_fuel_digits. reflexivity. Qed.

Lemma to_hex_fuel_nonempty fuel n acc : to_hex_fuel (S fuel) n acc <> [].
Proof.
  revert n acc. induction fuel as [|f IH]; intros n acc; cbn [to_hex_fuel].
  - destruct (n <? 16); discriminate.
  - destruct (n <? 16); [discriminate|]. apply IH.
Qed.

Lemma to_hex_nonempty n : to_hex_upper n <> [].
Proof. unfold to_hex_upper. apply to_hex_fuel_nonempty. Qed.

Definition no_cr (l : bytes) : Prop := forallb (fun x => negb (x =? 13)) l = true.

Lemma read_line_exact l rest : no_cr l -> read_line (l ++ [13; 10] ++ rest) = Some (l, rest).
Proof.
  unfold no_cr. induction l as [|x l IH]; intro H.
  - reflexivity.
  - cbn [forallb] in H. apply andb_true_iff in H as [Hx Hl].
    change ((x :: l) ++ [13; 10] ++ rest) with (x :: (l ++ [13; 10] ++ rest)). cbn [read_line].
    destruct (x =? 13); [discriminate|]. cbn [andb].
    rewrite IH by auto. reflexivity.
Qed.

Lemma hex_no_cr s : forallb is_hex_upper s = true -> no_cr s.
Proof.
  unfold no_cr. induction s as [|x s IH]; intro H; auto.
  cbn [forallb] in *. apply andb_true_iff in H as [Hx Hs]. rewrite IH by auto.
  unfold is_hex_upper in Hx. destruct (x =? 13) eqn:E; [lia|reflexivity].
Qed.

Lemma hex_no_semicolon s : forallb is_hex_upper s = true -> find s [59] = None.
Proof.
  intro H. apply find_char_none. unfold memb. induction s as [|x s IH]; auto.
  cbn [forallb existsb] in *. apply andb_true_iff in H as [Hx Hs]. rewrite IH by auto.
  unfold is_hex_upper in Hx. destruct (59 =? x) eqn:E; [lia|reflexivity].
Qed.

Lemma hex_all_hex s : s <> [] -> forallb is_hex_upper s = true -> all_hex s = true.
Proof.
  intros Hne H. unfold all_hex. destruct s as [|x s]; [congruence|].
  revert H. generalize (x :: s). clear. induction l as [|y l IH]; intro H; auto.
  cbn [forallb] in *. apply andb_true_iff in H as [Hy Hl]. rewrite IH by auto.
  unfold is_hex_upper in Hy. unfold hexval.
  destruct ((48 <=? y) && (y <=? 57)) eqn:E1; [reflexivity|].
  destruct ((97 <=? y) && (y <=? 102)) eqn:E2; [reflexivity|].
  destruct ((65 <=? y) && (y <=? 70)) eqn:E3; [reflexivity|]. lia.
Qed.

(* what Task.write sends for one application chunk under chunked coding *)
Definition encode_chunk (d : bytes) : bytes :=
  match d with
  | [] => []                                   (* `if chunk:` -- nothing is written *)
  | _ => to_hex_upper (lenN d) ++ CRLF ++ d ++ CRLF
  end.

Definition encode_chunked (cs : list bytes) : bytes :=
  flat_map encode_chunk cs ++ chunk_terminator.

Lemma decode_terminator fuel rest : decode_chunked (S fuel) (chunk_terminator ++ rest) = Some ([], rest).
Proof.
  unfold chunk_terminator. cbn [decode_chunked].
  change ([48; 13; 10; 13; 10] ++ rest) with ([48] ++ [13; 10] ++ ([13; 10] ++ rest)).
  rewrite read_line_exact by reflexivity.
  cbn. reflexivity.
Qed.

Lemma decode_one_chunk fuel d more : d <> [] ->
  decode_chunked (S fuel) (encode_chunk d ++ more) =
  match decode_chunked fuel more with
  | Some (body, rest) => Some (d ++ body, rest)
  | None => None
  end.
Proof.
  intro Hd. unfold encode_chunk. destruct d as [|x d]; [congruence|]. set (dd := x :: d) in *.
  cbn [decode_chunked].
  pose proof (to_hex_digits (lenN dd)) as Hh.
  pose proof (to_hex_nonempty (lenN dd)) as Hne.
  rewrite <- !app_assoc.
  rewrite read_line_exact by (apply hex_no_cr; auto).
  rewrite hex_no_semicolon by auto.
  rewrite hex_all_hex by auto. cbn [negb].
  rewrite hex_roundtrip.
  assert (Hlen : lenN dd =? 0 = false) by (unfold lenN; subst dd; cbn [length]; lia).
  rewrite Hlen.
  assert (Hlt : lenN (dd ++ CRLF ++ more) <? lenN dd + 2 = false).
  { unfold lenN. rewrite !app_length. cbn [length CRLF]. lia. }
  rewrite Hlt.
  unfold lenN. rewrite Nat2N.id.
  rewrite firstn_app, firstn_all, Nat.sub_diag. cbn [firstn]. rewrite app_nil_r.
  rewrite skipn_app, skipn_all, Nat.sub_diag. cbn [skipn List.app].
  assert (Hs : startswith (CRLF ++ more) [13; 10] = true) by (destruct more; reflexivity).
  rewrite Hs. cbn [negb]. reflexivity.
Qed.

Theorem chunk_roundtrip cs rest fuel : (length cs < fuel)%nat ->
  decode_chunked fuel (encode_chunked cs ++ rest) = Some (concat cs, rest).
Proof.
  unfold encode_chunked. revert fuel. induction cs as [|d cs IH]; intros fuel Hf.
  - destruct fuel; [simpl in Hf; lia|]. cbn [flat_map List.app concat]. apply decode_terminator.
  - destruct fuel as [|f]; [simpl in Hf; lia|]. cbn [flat_map concat]. rewrite <- !app_assoc.
    destruct d as [|x d].
    + cbn [encode_chunk List.app]. rewrite app_assoc. apply IH. simpl in Hf. lia.
    + rewrite decode_one_chunk by discriminate. rewrite app_assoc, IH by (simpl in Hf; lia). reflexivity.
Qed.
