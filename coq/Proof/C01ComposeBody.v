(* C01, composition, step 2: the body of one message.  What Parser.received
   makes of the rest of the stream once the head has installed a body
   receiver (T2: fixed and chunked), with the consumed-byte count, the 413
   limit on the running count, and the rest of the stream left for the next
   message. *)
From Coq Require Import List NArith ZArith Bool Lia Arith.
From RecordUpdate Require Import RecordUpdate.
From WV Require Import Lib.PyBytes Lib.Regex Gen.GenRegex Model.Receiver Model.UrlSplit Model.Parser Spec.Ref9112.
From WV Require Import Proof.PyBytesFacts Proof.ReceiverTotal Proof.ParserTotal Proof.SplitParser.
From WV Require Import Proof.C01Lib Proof.C01Body Proof.C01ComposeLib.
Import ListNotations.
Local Open Scope N_scope.

(* what the body phase never touches *)
Definition same_head (p q : parser) : Prop :=
  command q = command p /\ request_uri q = request_uri p /\ version q = version p /\
  connection_close q = connection_close p /\ empty q = empty p /\ headers_finished q = headers_finished p.

Lemma same_head_refl p : same_head p p.
Proof. repeat split. Qed.

Lemma zleb_N a b : (Z.of_N a <=? 0 + Z.of_N b)%Z = (a <=? b).
Proof.
  destruct (a <=? b) eqn:E.
  - apply N.leb_le in E. apply Z.leb_le. lia.
  - apply N.leb_gt in E. apply Z.leb_gt. lia.
Qed.

Lemma body_fixed_complete a p k rest :
  completed p = false -> body p = Some (BFixed (fixed_init k)) -> body_bytes_received p = 0%Z ->
  chunked p = false -> 0 < k -> (max_request_body_size a <=? k) = false -> k <= lenN rest ->
  exists q, received a p rest = ROk q (Z.of_N k) /\ same_head p q /\ completed q = true /\ error q = error p
    /\ body q = Some (BFixed {| f_remain := 0; f_buf := firstn (N.to_nat k) rest; f_completed := true |})
    /\ headers q = headers p.
Proof.
  intros Hc Hb Hbb Hch Hk Hmax Hl.
  rewrite (received_body_eq a p _ rest Hc Hb). rewrite (fixed_equiv_complete k rest Hk Hl).
  unfold body_fin. cbv zeta. rewrite Hbb, zleb_N, Hmax. cbn [f_completed]. psimpl. rewrite Hch.
  eexists. split; [reflexivity|]. psimpl. repeat split.
Qed.

Lemma body_fixed_short a p k rest :
  completed p = false -> body p = Some (BFixed (fixed_init k)) -> body_bytes_received p = 0%Z ->
  (max_request_body_size a <=? k) = false -> lenN rest < k ->
  exists q, received a p rest = ROk q (Z.of_nat (length rest)) /\ same_head p q /\ completed q = false.
Proof.
  intros Hc Hb Hbb Hmax Hl.
  rewrite (received_body_eq a p _ rest Hc Hb). rewrite (fixed_equiv_incomplete k rest Hl).
  unfold body_fin. cbv zeta. rewrite Hbb, zleb_N.
  replace (max_request_body_size a <=? lenN rest) with false
    by (symmetry; apply N.leb_gt; apply N.leb_gt in Hmax; lia).
  cbn [f_completed].
  replace (Z.of_N (lenN rest)) with (Z.of_nat (length rest)) by (unfold lenN; lia).
  eexists. split; [reflexivity|]. psimpl. repeat split. exact Hc.
Qed.

Lemma zleb_N' a b : (Z.of_N a <=? 0 + b)%Z = (a <=? Z.to_N b) \/ (b < 0)%Z.
Proof.
  destruct (Z.ltb_spec b 0); [right; assumption|left].
  destruct (a <=? Z.to_N b) eqn:E.
  - apply N.leb_le in E. apply Z.leb_le. lia.
  - apply N.leb_gt in E. apply Z.leb_gt. lia.
Qed.

Lemma body_chunked a p rest :
  completed p = false -> body p = Some (BChunked chunked_init) -> body_bytes_received p = 0%Z ->
  chunked p = true -> bytes_ok rest ->
  match ref_chunked d_recv rest with
  | ChDone bd rest' =>
      rest' = skipn (length rest - length rest') rest /\ (length rest' <= length rest)%nat /\
      exists q, received a p rest = ROk q (Z.of_nat (length rest - length rest')) /\ same_head p q /\
        completed q = true /\
        if max_request_body_size a <=? lenN rest - lenN rest'
        then error q = Some EBodyTooLarge
        else error q = error p /\
             (exists st, body q = Some (BChunked st) /\ c_buf st = bd) /\
             headers q = hset (headers p) s_CONTENT_LENGTH (to_dec (lenN bd))
  | ChBad ex =>
      exists q n, received a p rest = ROk q n /\ same_head p q /\ completed q = true /\
        exists e, error q = Some e /\ perr_code e = if max_request_body_size a <=? ex then 413 else 400
  | ChIncomplete =>
      exists q, received a p rest = ROk q (Z.of_nat (length rest)) /\ same_head p q /\
        if max_request_body_size a <=? lenN rest
        then completed q = true /\ error q = Some EBodyTooLarge
        else completed q = false
  end.
Proof.
  intros Hc Hb Hbb Hch Hok.
  pose proof (chunked_equiv_dev rest Hok) as A.
  rewrite (received_body_eq a p _ rest Hc Hb).
  destruct (ref_chunked d_recv rest) as [bd rest'|ex|] eqn:ER; cbn [agrees] in A.
  - destruct A as (st & E & Hcomp & Herr & Hbuf).
    pose proof (read_chunks_le _ _ _ _ _ _ _ ER) as Hle.
    destruct (read_chunks_suffix _ _ _ _ _ _ _ ER) as [k Hk].
    split; [apply (skipn_suffix_len _ _ k Hk)|]. split; [exact Hle|].
    rewrite E. unfold body_fin. cbv zeta. rewrite Hbb, Herr, Hcomp.
    replace (Z.of_nat (length rest) - Z.of_nat (length rest'))%Z with (Z.of_nat (length rest - length rest')) by lia.
    rewrite <- nat_N_Z, Nat2N.inj_sub, zleb_N. fold (lenN rest) (lenN rest').
    destruct (max_request_body_size a <=? lenN rest - lenN rest').
    + eexists. split; [reflexivity|]. psimpl. repeat split.
    + psimpl. rewrite Hch. eexists. split; [reflexivity|]. psimpl. cbn [body_len]. rewrite Hbuf.
      repeat split. eexists. split; [reflexivity | exact Hbuf].
  - destruct A as (st & e & E & Herr).
    rewrite E. unfold body_fin. cbv zeta. rewrite Hbb, Herr.
    pose proof (chunked_received_err chunked_init rest st _ I E) as CE. rewrite Herr in CE.
    replace (Z.of_nat (length rest) - Z.of_N (lenN rest) + Z.of_N ex)%Z with (Z.of_N ex) by (unfold lenN; lia).
    rewrite zleb_N.
    destruct (max_request_body_size a <=? ex).
    + eexists _, _. split; [reflexivity|]. psimpl. repeat split. exists EBodyTooLarge. split; reflexivity.
    + eexists _, _. split; [reflexivity|]. psimpl. repeat split. exists e. split; [reflexivity|].
      destruct e; try contradiction; reflexivity.
  - destruct A as (st & E & Hcomp & Herr).
    rewrite E. unfold body_fin. cbv zeta. rewrite Hbb, Herr, Hcomp.
    rewrite <- nat_N_Z, zleb_N. fold (lenN rest).
    destruct (max_request_body_size a <=? lenN rest).
    + eexists. split; [reflexivity|]. psimpl. repeat split.
    + eexists. split; [reflexivity|]. psimpl. repeat split. exact Hc.
Qed.
