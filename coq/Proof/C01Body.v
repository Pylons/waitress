(* T2 -- bodies.  The fixed receiver delivers exactly the next n bytes; the
   chunked receiver run on a stream in ONE call yields the same decoded bytes,
   the same end offset and the same verdict as the reference's recursive
   descent decoder. *)
From Coq Require Import List NArith ZArith Bool Lia Arith.
From WV Require Import Lib.PyBytes Lib.Regex Gen.GenRegex Spec.Grammar Proof.C10Gates.
From WV Require Import Model.Receiver Spec.Ref9112 Proof.PyBytesFacts Proof.RegexFacts Proof.ReceiverTotal Proof.C01Lib.
Import ListNotations.
Local Open Scope N_scope.

Theorem fixed_equiv_complete : forall n s, 0 < n -> n <= lenN s ->
  fixed_received (fixed_init n) s =
  ({| f_remain := 0; f_buf := firstn (N.to_nat n) s; f_completed := true |}, Z.of_N n).
Proof.
  intros n s Hn Hl. unfold fixed_received, fixed_init. cbn [f_remain f_buf f_completed].
  replace (n <? 1) with false by (symmetry; apply N.ltb_ge; lia).
  replace (n <=? lenN s) with true by (symmetry; apply N.leb_le; lia). reflexivity.
Qed.

Theorem fixed_equiv_incomplete : forall n s, lenN s < n ->
  fixed_received (fixed_init n) s =
  ({| f_remain := n - lenN s; f_buf := s; f_completed := false |}, Z.of_N (lenN s)).
Proof.
  intros n s Hl. unfold fixed_received, fixed_init. cbn [f_remain f_buf f_completed].
  replace (n <? 1) with false by (symmetry; apply N.ltb_ge; lia).
  replace (n <=? lenN s) with false by (symmetry; apply N.leb_gt; lia). reflexivity.
Qed.

Lemma startswith_crlf s : startswith s CRLF =
  match s with x :: y :: _ => (x =? 13) && (y =? 10) | _ => false end.
Proof.
  destruct s as [|x [|y r]]; cbn [startswith CRLF]; auto.
  - rewrite andb_false_r. reflexivity.
  - rewrite startswith_nil, andb_true_r, (N.eqb_sym 13 x), (N.eqb_sym 10 y). reflexivity.
Qed.

Lemma read_line_find : forall s acc,
  read_line s acc = match find s CRLF with
                    | Some pos => Some (rev acc ++ firstn pos s, skipn (pos + 2) s)
                    | None => None
                    end.
Proof.
  induction s as [|x r IH]; intro acc.
  - reflexivity.
  - rewrite find_cons, startswith_crlf. cbn [read_line].
    destruct r as [|y r'].
    + reflexivity.
    + destruct ((x =? 13) && (y =? 10)).
      * cbn. rewrite app_nil_r. reflexivity.
      * rewrite IH. destruct (find (y :: r') CRLF) as [pos|]; cbn [option_map]; [|reflexivity].
        cbn [firstn rev]. rewrite <- app_assoc. reflexivity.
Qed.

Lemma find_crlf_zero s : find s CRLF = Some O <-> startswith s CRLF = true.
Proof.
  destruct s as [|x s]; [cbn; split; discriminate|].
  rewrite find_cons. destruct (startswith (x :: s) CRLF); [tauto|].
  destruct (find s CRLF); cbn; split; discriminate.
Qed.

Lemma hexdig_ranges x : x < 256 -> in_ranges x [(48,57); (65,70); (97,102)] = is_hexdig x.
Proof.
  apply (byte_table (fun x => in_ranges x [(48,57); (65,70); (97,102)]) is_hexdig). vm_compute. reflexivity.
Qed.

Lemma gate_chunk_size_ref sz : bytes_ok sz ->
  matches gate_chunk_size sz = nonempty sz && forallb is_hexdig sz.
Proof.
  intro Hok. apply iff_bool. rewrite matches_correct, (chunk_size_exact sz Hok).
  unfold spec_chunk_size, HEXDIG.
  rewrite Lang_plus_forallb, (forallb_ranges _ _ sz Hok hexdig_ranges), <- nonempty_ne, andb_true_iff. tauto.
Qed.

Lemma gate_chunk_ext_ref e : bytes_ok e -> matches gate_chunk_ext e = matches spec_chunk_ext e.
Proof.
  intro Hok. apply iff_bool. rewrite !matches_correct. apply chunk_ext_exact. exact Hok.
Qed.

Lemma take_until_none c s : memb c s = false -> take_until (fun x => x =? c) s = s.
Proof.
  induction s as [|x s IH]; cbn [take_until memb existsb]; auto. intro H.
  apply orb_false_iff in H as [H1 H2]. rewrite (N.eqb_sym x c), H1, IH; auto.
Qed.

Lemma take_until_some c pre post : memb c pre = false ->
  take_until (fun x => x =? c) (pre ++ c :: post) = pre.
Proof.
  induction pre as [|x pre IH]; cbn [take_until memb existsb app].
  - rewrite N.eqb_refl. reflexivity.
  - intro H. apply orb_false_iff in H as [H1 H2]. rewrite (N.eqb_sym x c), H1, IH; auto.
Qed.

Lemma verdict_ref line : bytes_ok line ->
  parse_chunk_line line = match control_line_verdict line with
                          | LVSize n => Some n
                          | _ => None
                          end.
Proof.
  intro Hok. unfold parse_chunk_line, control_line_verdict.
  destruct (memb_split 59 line) as [H|(pre & post & -> & H)].
  - rewrite find_char_none by exact H. rewrite take_until_none by exact H.
    rewrite skipn_all. cbn [negb].
    rewrite (gate_chunk_size_ref line Hok).
    change (matches spec_chunk_ext []) with true. rewrite andb_true_r.
    destruct (nonempty line && forallb is_hexdig line); reflexivity.
  - rewrite find_char_app by exact H. rewrite take_until_some by exact H.
    cbn [Nat.add]. rewrite skipn_app_exact, firstn_app_exact.
    apply bytes_ok_app in Hok as [Ho1 Ho2].
    rewrite (gate_chunk_size_ref pre Ho1), (gate_chunk_ext_ref _ Ho2).
    destruct (matches spec_chunk_ext (59 :: post)); cbn [negb]; [|rewrite andb_false_r; reflexivity].
    rewrite andb_true_r. destruct (nonempty pre && forallb is_hexdig pre); reflexivity.
Qed.

Lemma lf_cr_lf_cons y r : lf_cr_lf (y :: r) = (y =? 10) && startswith r CRLF.
Proof.
  rewrite startswith_crlf. destruct r as [|b [|c r']]; cbn [lf_cr_lf].
  - rewrite andb_false_r. reflexivity.
  - rewrite andb_false_r. reflexivity.
  - rewrite andb_assoc. reflexivity.
Qed.

Lemma startswith_crlfcrlf x r : startswith (x :: r) CRLFCRLF = (x =? 13) && lf_cr_lf r.
Proof.
  destruct r as [|a [|b [|c r']]]; cbn [startswith CRLFCRLF lf_cr_lf];
    rewrite ?andb_false_r; auto.
  rewrite startswith_nil, andb_true_r, (N.eqb_sym 13 x), (N.eqb_sym 10 a), (N.eqb_sym 13 b), (N.eqb_sym 10 c).
  rewrite !andb_assoc. reflexivity.
Qed.

Lemma adc_fdn : forall s n,
  after_double_crlf s n = option_map (fun p => n + N.of_nat p) (find_double_newline s).
Proof.
  unfold find_double_newline.
  induction s as [|x r IH]; intro n; [reflexivity|].
  cbn [after_double_crlf]. rewrite find_cons, startswith_crlfcrlf.
  destruct ((x =? 13) && lf_cr_lf r).
  - cbn. f_equal.
  - rewrite IH. destruct (find r CRLFCRLF); cbn; [f_equal; lia|reflexivity].
Qed.

Lemma adc_shift s n : after_double_crlf s n = option_map (fun p => n + p) (after_double_crlf s 0).
Proof.
  rewrite !adc_fdn. destruct (find_double_newline s); cbn; [f_equal|reflexivity].
Qed.

Lemma head_crlf_false x r : startswith (x :: r) CRLF = false -> (x =? 13) && lf_cr_lf r = false.
Proof.
  rewrite startswith_crlf. destruct r as [|y r']; [intros _; apply andb_false_r|].
  rewrite lf_cr_lf_cons. intro H. destruct (x =? 13), (y =? 10); cbn in *; auto; discriminate.
Qed.

Lemma adc_none : forall tr n, find tr CRLF = None -> after_double_crlf tr n = None.
Proof.
  induction tr as [|x r IH]; intros n; [reflexivity|].
  rewrite find_cons. destruct (startswith (x :: r) CRLF) eqn:E; [discriminate|].
  destruct (find r CRLF) eqn:F; [discriminate|]. intros _.
  cbn [after_double_crlf]. rewrite (head_crlf_false _ _ E). apply IH. reflexivity.
Qed.

Lemma adc_find_crlf : forall tr pos n, find tr CRLF = Some pos ->
  after_double_crlf tr n =
  if startswith (skipn (pos + 2) tr) CRLF then Some (n + N.of_nat pos + 4)
  else after_double_crlf (skipn (pos + 2) tr) (n + N.of_nat pos + 2).
Proof.
  induction tr as [|x r IH]; intros pos n; [discriminate|].
  rewrite find_cons. destruct (startswith (x :: r) CRLF) eqn:E.
  - intro H. injection H as <-. rewrite startswith_crlf in E.
    destruct r as [|y r']; [discriminate|]. apply andb_true_iff in E as [E1 E2].
    cbn [Nat.add skipn after_double_crlf]. rewrite lf_cr_lf_cons, E1, E2. cbn [andb].
    destruct (startswith r' CRLF).
    + f_equal. lia.
    + cbn [after_double_crlf]. apply N.eqb_eq in E2. subst y. cbn [N.eqb Pos.eqb andb].
      f_equal. lia.
  - destruct (find r CRLF) as [pos'|] eqn:F; [|discriminate]. intro H. injection H as <-.
    cbn [after_double_crlf]. rewrite (head_crlf_false _ _ E).
    rewrite (IH pos' (n + 1) eq_refl). cbn [Nat.add skipn].
    destruct (startswith (skipn (pos' + 2) r) CRLF); f_equal; lia.
Qed.

Lemma skipn_skipn' {A} : forall a b (l : list A), skipn a (skipn b l) = skipn (b + a) l.
Proof.
  intros a b. induction b as [|b IH]; intro l; [reflexivity|].
  destruct l; cbn [skipn Nat.add]; [destruct a; reflexivity|]. apply IH.
Qed.

(* the trailer section when trailer lines are not validated (F10): everything
   up to the first empty line *)
Lemma trailer_dev : forall fuel d tr, dv_trailer d = true -> (length tr < fuel)%nat ->
  read_trailer fuel d tr =
  if startswith tr CRLF then Some (Some (skipn 2 tr))
  else match after_double_crlf tr 0 with
       | Some p => Some (Some (skipn (N.to_nat p) tr))
       | None => None
       end.
Proof.
  induction fuel as [|f IH]; intros d tr Hd Hl; [lia|].
  cbn [read_trailer]. rewrite read_line_find. cbn [rev app].
  destruct (find tr CRLF) as [pos|] eqn:F.
  - pose proof (find_bound tr CRLF pos F) as Hlen. cbn [length CRLF] in Hlen.
    destruct pos as [|pos'].
    + apply find_crlf_zero in F as F'. rewrite F'. cbn [firstn Nat.add]. reflexivity.
    + assert (Hsw : startswith tr CRLF = false).
      { destruct (startswith tr CRLF) eqn:E; auto. apply find_crlf_zero in E. congruence. }
      rewrite Hsw. destruct tr as [|x tr']; [cbn in Hlen; lia|]. cbn [firstn]. rewrite Hd.
      rewrite IH; auto.
      2:{ rewrite skipn_length. lia. }
      rewrite (adc_find_crlf _ _ 0 F).
      destruct (startswith (skipn (S pos' + 2) (x :: tr')) CRLF).
      * f_equal. f_equal. rewrite skipn_skipn'. f_equal. lia.
      * rewrite (adc_shift _ (0 + N.of_nat (S pos') + 2)).
        destruct (after_double_crlf (skipn (S pos' + 2) (x :: tr')) 0); cbn [option_map]; [|reflexivity].
        f_equal. f_equal. rewrite skipn_skipn'. f_equal. lia.
  - assert (Hsw : startswith tr CRLF = false).
    { destruct (startswith tr CRLF) eqn:E; auto. apply find_crlf_zero in E. congruence. }
    rewrite Hsw, (adc_none _ _ F). reflexivity.
Qed.

(* the receiver between two chunks, with the body bytes decoded so far *)
Definition st_ctl (acc : bytes) : chunked_rcv :=
  {| chunk_remainder := 0; validate_chunk_end := false; control_line := []; chunk_end := [];
     all_chunks_received := false; trailer := []; c_completed := false; c_error := None; c_buf := acc |}.

Lemma loop_nil fuel st orig : chunked_loop fuel st [] orig = Some (st, orig).
Proof. destruct fuel; reflexivity. Qed.

Lemma loop_step f st s orig : s <> [] ->
  chunked_loop (S f) st s orig =
  match chunked_iter st s orig with
  | Continue st' s' => chunked_loop f st' s' orig
  | Break st' => Some (st', orig)
  | Return st' v => Some (st', v)
  end.
Proof. destruct s; [congruence|reflexivity]. Qed.

(* the chunk terminator: CRLF, or too little to tell, or an error *)
Lemma term_step_sw st s1 :
  term_step st s1 =
  if startswith s1 CRLF then Continue (set_validate (set_chunk_end st []) false) (skipn 2 s1)
  else if (length s1 <? 2)%nat then Continue (set_chunk_end st s1) []
  else Continue (term_bad st) s1.
Proof.
  unfold term_step. destruct (startswith s1 CRLF) eqn:E.
  - apply find_crlf_zero in E. rewrite E. reflexivity.
  - destruct (find s1 CRLF) as [[|p]|] eqn:F; [apply find_crlf_zero in F; congruence| |reflexivity].
    apply find_bound in F. cbn [length CRLF] in F.
    replace (length s1 <? 2)%nat with false by (symmetry; apply Nat.ltb_ge; lia). reflexivity.
Qed.

(* the receiver as it is: trailers not validated (F10) *)
Definition d_recv : devs := {| dv_trailer := true |}.

Definition agrees (r : chunked_result) (m : option (chunked_rcv * Z)) (orig : Z) (total : N) : Prop :=
  match r with
  | ChDone body rest =>
    exists st, m = Some (st, (orig - Z.of_nat (length rest))%Z)
               /\ c_completed st = true /\ c_error st = None /\ c_buf st = body
  | ChBad ex =>
    exists st e, m = Some (st, (orig - Z.of_N total + Z.of_N ex)%Z) /\ c_error st = Some e
  | ChIncomplete =>
    exists st, m = Some (st, orig) /\ c_completed st = false /\ c_error st = None
  end.

Lemma bytes_ok_skipn k s : bytes_ok s -> bytes_ok (skipn k s).
Proof. intro H. rewrite <- (firstn_skipn k s) in H. apply bytes_ok_app in H. tauto. Qed.
Lemma bytes_ok_firstn k s : bytes_ok s -> bytes_ok (firstn k s).
Proof. intro H. rewrite <- (firstn_skipn k s) in H. apply bytes_ok_app in H. tauto. Qed.

Lemma lenN_skipn k s : lenN (skipn k s) <= lenN s.
Proof. unfold lenN. rewrite skipn_length. lia. Qed.

Lemma agrees_inc st orig total : c_completed st = false -> c_error st = None ->
  agrees ChIncomplete (Some (st, orig)) orig total.
Proof. intros H1 H2. exists st. auto. Qed.

Lemma agrees_done st body rest n orig total :
  c_completed st = true -> c_error st = None -> c_buf st = body -> n = (orig - Z.of_nat (length rest))%Z ->
  agrees (ChDone body rest) (Some (st, n)) orig total.
Proof. intros H1 H2 H3 ->. exists st. auto. Qed.

Lemma agrees_bad st e ex n orig total :
  c_error st = Some e -> n = (orig - Z.of_N total + Z.of_N ex)%Z ->
  agrees (ChBad ex) (Some (st, n)) orig total.
Proof. intros H ->. exists st, e. auto. Qed.

(* a chunk's data: the flags stay, and when the chunk is complete its terminator is awaited *)
Lemma data_state_flags st w :
  c_completed (data_state st w) = c_completed st /\ c_error (data_state st w) = c_error st.
Proof. unfold data_state. cbv zeta. destruct (_ =? 0); split; reflexivity. Qed.

Lemma data_state_full st w : lenN w = chunk_remainder st ->
  data_state st w = set_validate (set_rem (buf_append st w) 0) true.
Proof. intro H. unfold data_state. cbv zeta. rewrite <- H, N.sub_diag. reflexivity. Qed.

Lemma chunks_agree : forall n s, (length s <= n)%nat ->
  forall acc fuel rf orig total,
  bytes_ok s -> (2 * length s + 4 <= fuel)%nat -> (length s < rf)%nat -> lenN s <= total ->
  agrees (read_chunks rf d_recv s total acc) (chunked_loop fuel (st_ctl acc) s orig) orig total.
Proof.
  induction n as [|n IH]; intros s Hn acc fuel rf orig total Hok Hfuel Hrf Htot;
    (destruct s as [|x0 s0];
     [destruct rf; [lia|]; cbn [read_chunks read_line]; rewrite loop_nil; apply agrees_inc; reflexivity|]);
    [cbn in Hn; lia|].
  assert (Hne : x0 :: s0 <> []) by discriminate.
  remember (x0 :: s0) as s eqn:Es. clear Es x0 s0.
  destruct rf as [|rf']; [lia|].
  destruct fuel as [|[|[|[|f4]]]]; try lia.
  cbn [read_chunks]. rewrite read_line_find. cbn [rev app].
  (* control line *)
  rewrite loop_step by exact Hne. rewrite chunked_iter_ctl by reflexivity.
  change (control_line (st_ctl acc) ++ s) with s. unfold ctl_step.
  destruct (find s CRLF) as [pos|] eqn:F.
  2:{ rewrite loop_nil. apply agrees_inc; reflexivity. }
  pose proof (find_bound s CRLF pos F) as Hlen. cbn [length CRLF] in Hlen.
  assert (Hs2 : length (skipn (pos + 2) s) = (length s - (pos + 2))%nat) by apply skipn_length.
  set (s2 := skipn (pos + 2) s) in *.
  assert (Hok2 : bytes_ok s2) by (apply bytes_ok_skipn; exact Hok).
  assert (Htot2 : lenN s2 <= total) by (pose proof (lenN_skipn (pos + 2) s); fold s2 in H; lia).
  unfold ctl_line. destruct (firstn pos s) as [|c l] eqn:Eline.
  { (* empty line: refused *) eapply agrees_bad; [reflexivity | lia]. }
  assert (Hokl : bytes_ok (c :: l)) by (rewrite <- Eline; apply bytes_ok_firstn; exact Hok).
  rewrite (verdict_ref _ Hokl).
  destruct (control_line_verdict (c :: l)) as [sz| |];
    [|eapply agrees_bad; [reflexivity | lia] | eapply agrees_bad; [reflexivity | lia]].
  destruct sz as [|psz].
  - (* last chunk: trailer *)
    cbn [N.ltb N.compare].
    destruct (list_eq_dec N.eq_dec s2 []) as [Es2|Es2].
    { rewrite Es2, loop_nil. cbn -[agrees]. apply agrees_inc; reflexivity. }
    rewrite loop_step by exact Es2. rewrite chunked_iter_trailer by reflexivity.
    change (trailer _ ++ s2) with s2. unfold trailer_step. rewrite trailer_dev by (auto; lia).
    destruct (startswith s2 CRLF) eqn:Esw.
    + apply agrees_done; try reflexivity.
      rewrite startswith_crlf in Esw. destruct s2 as [|a [|b s2'']]; try discriminate.
      cbn [skipn length]. lia.
    + rewrite adc_fdn. destruct (find_double_newline s2) as [p|] eqn:Ef; cbn [option_map].
      * apply fdn_Some in Ef as (i & Ei & ->).
        pose proof (find_bound s2 CRLFCRLF i Ei) as Hl4. cbn [length CRLFCRLF] in Hl4.
        apply agrees_done; try reflexivity.
        replace (N.to_nat (0 + N.of_nat (i + 4))) with (i + 4)%nat by lia.
        rewrite skipn_length. lia.
      * rewrite loop_nil. apply agrees_inc; reflexivity.
  - (* a chunk of N.pos psz bytes *)
    replace (0 <? N.pos psz) with true by reflexivity.
    set (sz := N.pos psz) in *. set (k := N.to_nat sz).
    destruct (list_eq_dec N.eq_dec s2 []) as [Es2|Es2].
    { rewrite Es2, loop_nil, firstn_nil. cbn [length].
      replace (Nat.ltb 0 k) with true by (symmetry; apply Nat.ltb_lt; lia).
      apply agrees_inc; reflexivity. }
    rewrite loop_step by exact Es2. rewrite chunked_iter_data by reflexivity.
    unfold data_step. cbv zeta. change (chunk_remainder (set_rem _ sz)) with sz. fold k.
    set (st := set_rem (set_control (st_ctl acc) []) sz).
    destruct (Nat.ltb (length (firstn k s2)) k) eqn:Elt.
    + (* fewer than sz bytes there *)
      apply Nat.ltb_lt in Elt. rewrite firstn_length in Elt.
      rewrite firstn_all2 by lia. rewrite skipn_all, loop_nil.
      destruct (data_state_flags st s2) as [Ec Ee]. apply agrees_inc; [rewrite Ec | rewrite Ee]; reflexivity.
    + apply Nat.ltb_ge in Elt. rewrite firstn_length in Elt.
      assert (Hk : (k <= length s2)%nat) by lia.
      assert (Hw : length (firstn k s2) = k) by (rewrite firstn_length; lia).
      rewrite Hw, data_state_full by (unfold lenN; rewrite Hw; subst st k; cbn [chunk_remainder set_rem]; lia).
      set (st1 := set_validate _ true).
      set (after := skipn k s2).
      assert (Hafter : length after = (length s2 - k)%nat) by apply skipn_length.
      destruct after as [|a [|b rest']] eqn:Eafter; [rewrite loop_nil; apply agrees_inc; reflexivity| |];
        (* chunk terminator *)
        (rewrite loop_step by discriminate; rewrite chunked_iter_term by reflexivity; rewrite term_step_sw;
         change (chunk_end st1 ++ ?x) with x; rewrite startswith_crlf).
      * cbn [length Nat.ltb Nat.leb]. rewrite loop_nil. apply agrees_inc; reflexivity.
      * destruct ((a =? 13) && (b =? 10)) eqn:Eab.
        -- (* properly terminated: next chunk *)
           cbn [skipn]. apply (IH rest' ltac:(cbn [length] in *; lia) (acc ++ firstn k s2));
             try (cbn [length] in *; lia).
           ++ assert (bytes_ok (a :: b :: rest')) by (rewrite <- Eafter; apply bytes_ok_skipn; exact Hok2).
              apply (bytes_ok_skipn 2 (a :: b :: rest')). exact H.
           ++ unfold lenN in *. cbn [length] in *. lia.
        -- (* not terminated by CRLF: refused once the trailer is through *)
           cbn [length Nat.ltb Nat.leb].
           rewrite loop_step by discriminate. rewrite chunked_iter_trailer by reflexivity.
           change (trailer (term_bad st1) ++ ?x) with x. unfold trailer_step. rewrite startswith_crlf, Eab, adc_fdn.
           destruct (find_double_newline (a :: b :: rest')) as [p|] eqn:Ef; cbn [option_map].
           ++ apply fdn_Some in Ef as (i & Ei & ->).
              pose proof (find_bound _ CRLFCRLF i Ei) as Hl4. cbn [length CRLFCRLF] in Hl4.
              eapply agrees_bad; [reflexivity|].
              assert (lenN (a :: b :: rest') <= total) by (unfold lenN in *; rewrite Hafter; lia).
              unfold lenN in *. cbn [length] in *. lia.
           ++ rewrite loop_nil. eapply agrees_bad; [reflexivity | lia].
Qed.

Theorem chunked_equiv_dev : forall s, bytes_ok s ->
  agrees (ref_chunked d_recv s) (chunked_received chunked_init s) (Z.of_nat (length s)) (lenN s).
Proof.
  intros s Hok. unfold ref_chunked, chunked_received, chunked_fuel. cbn [c_completed chunked_init control_line chunk_end length].
  apply (chunks_agree (length s)); auto; try lia.
Qed.

Lemma read_trailer_suffix : forall fuel d tr r, read_trailer fuel d tr = Some (Some r) -> exists k, r = skipn k tr.
Proof.
  induction fuel as [|fu IHf]; intros d0 tr r; cbn [read_trailer]; [discriminate|].
  rewrite read_line_find. cbn [rev app].
  destruct (find tr CRLF) as [q|] eqn:Fq; [|discriminate].
  destruct (firstn q tr) as [|c0 l0].
  - intro E. injection E as <-. eauto.
  - destruct (dv_trailer d0).
    + intro E. apply IHf in E as [k ->]. rewrite skipn_skipn'. eauto.
    + destruct (has_crlf_byte (c0 :: l0)); [discriminate|].
      destruct (parse_field_line (c0 :: l0)); [|discriminate].
      intro E. apply IHf in E as [k ->]. rewrite skipn_skipn'. eauto.
Qed.

Lemma read_chunks_suffix : forall rf d s total acc body rest,
  read_chunks rf d s total acc = ChDone body rest -> exists k, rest = skipn k s.
Proof.
  induction rf as [|rf IH]; intros d s total acc body rest; cbn [read_chunks]; [discriminate|].
  rewrite read_line_find. cbn [rev app].
  destruct (find s CRLF) as [pos|] eqn:F; [|discriminate].
  destruct (firstn pos s) as [|c l'].
  - discriminate.
  - destruct (parse_chunk_line (c :: l')) as [[|p]|]; [| |discriminate].
    + destruct (read_trailer (S (length (skipn (pos + 2) s))) d (skipn (pos + 2) s)) as [[r|]|] eqn:Et;
        try discriminate.
      intro E. injection E as _ <-. apply read_trailer_suffix in Et as [k ->]. rewrite skipn_skipn'. eauto.
    + cbv zeta. destruct (Nat.ltb _ _); [discriminate|].
      destruct (skipn (N.to_nat (N.pos p)) (skipn (pos + 2) s)) as [|a0 [|b0 r']] eqn:Es; try discriminate.
      destruct ((a0 =? 13) && (b0 =? 10)); [|discriminate].
      intro E. apply IH in E as [k ->].
      replace r' with (skipn 2 (skipn (N.to_nat (N.pos p)) (skipn (pos + 2) s))) by (rewrite Es; reflexivity).
      rewrite !skipn_skipn'. eauto.
Qed.

Lemma read_chunks_le rf d s total acc body rest :
  read_chunks rf d s total acc = ChDone body rest -> (length rest <= length s)%nat.
Proof. intro H. apply read_chunks_suffix in H as [k ->]. rewrite skipn_length. lia. Qed.

(* F10: "0\r\nfoo\r\n\r\n" ; the former F11: "\r\n0\r\n\r\n" *)
Definition f10_body : bytes := [48;13;10; 102;111;111;13;10; 13;10].
Definition f11_body : bytes := [13;10; 48;13;10; 13;10].

(* F11 is repaired (272e5a4): an empty line where a chunk-size is expected is refused by both *)
Example chunked_empty_line_refused :
  ref_chunked no_devs f11_body = ChBad (lenN f11_body) /\
  exists st, chunked_received chunked_init f11_body = Some (st, 7%Z) /\ c_error st = Some EInvalidChunkSize.
Proof. split; [vm_compute; reflexivity|]. eexists. vm_compute. split; reflexivity. Qed.

(* "5;a=b\r\nhello\r\n0\r\nX: y\r\n\r\nNEXT" *)
Example chunked_equiv_example :
  ref_chunked no_devs [53;59;97;61;98;13;10; 104;101;108;108;111;13;10; 48;13;10; 88;58;32;121;13;10; 13;10; 78;69;88;84]
  = ChDone [104;101;108;108;111] [78;69;88;84].
Proof. vm_compute. reflexivity. Qed.
