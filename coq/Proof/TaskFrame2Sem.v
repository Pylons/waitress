(* C03, the frame theorems, model side.

   Applications of the class [wapp]: one start_response, then any number of
   calls of the write() callable (empty ones included), then an iterable
   (sized, generator, or a file wrapper that is not handed over) of byte
   chunks (empty ones included); nothing raised, client connected.

   Every write() call and every non-empty chunk is one Task.write; [tw_seq] is
   that sequence, [ws_sem] is its pure meaning once the head is out (chunk
   coding / Content-Length clamp / no-body statuses). *)
From Coq Require Import String.
From Coq Require Import List NArith ZArith Bool Lia Arith.
From WV Require Import Lib.PyBytes Gen.GenTables Model.Task Spec.ClientParse
  Proof.TaskLines Proof.TaskHead Proof.TaskStart Proof.TaskRun Proof.TaskChunk Proof.TaskC09
  Proof.TaskBody Proof.TaskSimple.
Import ListNotations.
Local Open Scope N_scope.

Definition wapp (status : str) (hs : list (pyobj * pyobj)) (ws : list bytes) (kind : ikind)
           (chunks : list bytes) (hc : bool) : app :=
  mkApp (AStart (PStr status) hs None :: map AWrite ws) kind (plain_steps chunks) hc None.

Lemma simple_app_wapp status hs kind chunks hc :
  simple_app status hs kind chunks hc = wapp status hs [] kind chunks hc.
Proof. reflexivity. Qed.

Definition nonempty (d : bytes) : bool := match d with [] => false | _ => true end.

(* the blocks a file wrapper delivers: iteration stops at the first empty read *)
Fixpoint take_ne (chunks : list bytes) : list bytes :=
  match chunks with
  | [] => []
  | [] :: _ => []
  | d :: rest => d :: take_ne rest
  end.

(* the Task.write calls the iteration makes *)
Definition eff (kind : ikind) (chunks : list bytes) : list bytes :=
  if is_file kind then take_ne chunks else filter nonempty chunks.

(* the bytes the iterable delivers *)
Definition produced (kind : ikind) (chunks : list bytes) : bytes :=
  if is_file kind then file_content (plain_steps chunks) else concat chunks.

Lemma concat_filter_nonempty chunks : concat (filter nonempty chunks) = concat chunks.
Proof. induction chunks as [|[|x d] l IH]; cbn [filter nonempty concat List.app]; congruence. Qed.

Lemma concat_take_ne chunks : concat (take_ne chunks) = file_content (plain_steps chunks).
Proof.
  induction chunks as [|[|x d] l IH]; cbn [take_ne concat plain_steps map file_content s_res]; auto.
  fold (plain_steps l). rewrite IH. reflexivity.
Qed.

Lemma concat_eff kind chunks : concat (eff kind chunks) = produced kind chunks.
Proof. unfold eff, produced. destruct (is_file kind); [apply concat_take_ne|apply concat_filter_nonempty]. Qed.

Definition wb (t : task) (data : bytes) : task * bytes :=
  match data with
  | [] => (t, [])
  | _ :: _ =>
      if has_body t then
        if t_chunked t then (t, to_hex_upper (lenN data) ++ CRLF ++ data ++ CRLF)
        else match t_clen t with
             | Some cl => let tw := py_slice_to data (cl - t_cbw t)%Z in
                          (set_cbw (t_cbw t + Z.of_nat (length tw))%Z t, tw)
             | None => (t, data)
             end
      else (set_cbw (t_cbw t + Z.of_nat (length data))%Z t, [])
  end.

Fixpoint ws_sem (t : task) (ds : list bytes) : task * bytes :=
  match ds with
  | [] => (t, [])
  | d :: ds' => let '(t1, b1) := wb t d in let '(t2, b2) := ws_sem t1 ds' in (t2, b1 ++ b2)
  end.

Lemma wb_same t d : same_head t (fst (wb t d)).
Proof.
  unfold wb. destruct d; [apply same_head_refl|].
  destruct (has_body t); [destruct (t_chunked t); [apply same_head_refl|destruct (t_clen t)]|];
    cbn [fst]; unfold same_head; cbn; tauto.
Qed.

Lemma ws_sem_same ds : forall t, same_head t (fst (ws_sem t ds)).
Proof.
  induction ds as [|d ds IH]; intro t; cbn [ws_sem]; [apply same_head_refl|].
  pose proof (wb_same t d) as S1. destruct (wb t d) as [t1 b1]. cbn [fst] in S1.
  pose proof (IH t1) as S2. destruct (ws_sem t1 ds) as [t2 b2]. cbn [fst] in *.
  eapply same_head_trans; eauto.
Qed.

Lemma ws_sem_app a : forall t b,
  ws_sem t (a ++ b) = (fst (ws_sem (fst (ws_sem t a)) b), snd (ws_sem t a) ++ snd (ws_sem (fst (ws_sem t a)) b)).
Proof.
  induction a as [|d a IH]; intros t b; cbn [List.app ws_sem fst snd].
  - destruct (ws_sem t b); reflexivity.
  - destruct (wb t d) as [t1 b1]. rewrite IH.
    destruct (ws_sem t1 a) as [t2 b2]. cbn [fst snd]. rewrite app_assoc. reflexivity.
Qed.

Lemma ws_sem_chunked ds : forall t, has_body t = true -> t_chunked t = true ->
  ws_sem t ds = (t, flat_map encode_chunk ds).
Proof.
  induction ds as [|d ds IH]; intros t Hb Hk; cbn [ws_sem flat_map]; auto.
  assert (E : wb t d = (t, encode_chunk d)).
  { unfold wb, encode_chunk. destruct d; auto. rewrite Hb, Hk. reflexivity. }
  rewrite E, IH by auto. reflexivity.
Qed.

Lemma ws_sem_eof ds : forall t, has_body t = true -> t_chunked t = false -> t_clen t = None ->
  ws_sem t ds = (t, concat ds).
Proof.
  induction ds as [|d ds IH]; intros t Hb Hk Hc; cbn [ws_sem concat]; auto.
  assert (E : wb t d = (t, d)).
  { unfold wb. destruct d; auto. rewrite Hb, Hk, Hc. reflexivity. }
  rewrite E, IH by auto. reflexivity.
Qed.

Lemma ws_sem_nobody ds : forall t, has_body t = false ->
  snd (ws_sem t ds) = [] /\ t_cbw (fst (ws_sem t ds)) = (t_cbw t + Z.of_nat (length (concat ds)))%Z.
Proof.
  induction ds as [|d ds IH]; intros t Hb; cbn [ws_sem concat fst snd length].
  - split; auto. lia.
  - pose proof (wb_same t d) as S1.
    assert (E : snd (wb t d) = [] /\ t_cbw (fst (wb t d)) = (t_cbw t + Z.of_nat (length d))%Z).
    { unfold wb. destruct d; cbn [fst snd length]; [split; auto; lia|]. rewrite Hb. cbn. auto. }
    destruct (wb t d) as [t1 b1]. cbn [fst snd] in *. destruct E as [-> E2].
    destruct (IH t1) as [I1 I2]; [rewrite (same_head_has_body _ _ S1); auto|].
    destruct (ws_sem t1 ds) as [t2 b2]. cbn [fst snd] in *. subst b2. split; auto.
    rewrite I2, E2, app_length, Nat2Z.inj_add. lia.
Qed.

Lemma firstn_app_firstn {A} n (a b : list A) :
  firstn n (a ++ b) = firstn n a ++ firstn (n - length a) b.
Proof. apply firstn_app. Qed.

(* Content-Length clamp: never more than the declared length goes out *)
Lemma ws_sem_len ds : forall t cl, has_body t = true -> t_chunked t = false -> t_clen t = Some cl ->
  (0 <= t_cbw t <= cl)%Z ->
  snd (ws_sem t ds) = firstn (Z.to_nat (cl - t_cbw t)) (concat ds)
  /\ t_cbw (fst (ws_sem t ds)) = Z.min cl (t_cbw t + Z.of_nat (length (concat ds)))%Z.
Proof.
  induction ds as [|d ds IH]; intros t cl Hb Hk Hc Hr; cbn [ws_sem concat fst snd length].
  - rewrite firstn_nil. split; auto. lia.
  - pose proof (wb_same t d) as S1.
    assert (E : snd (wb t d) = firstn (Z.to_nat (cl - t_cbw t)) d
                /\ t_cbw (fst (wb t d)) = Z.min cl (t_cbw t + Z.of_nat (length d))%Z).
    { unfold wb. destruct d as [|x d]; [rewrite firstn_nil; cbn; split; auto; lia|].
      rewrite Hb, Hk, Hc. cbn [fst snd t_cbw set_cbw]. unfold py_slice_to.
      destruct (cl - t_cbw t <? 0)%Z eqn:En; [lia|]. split; auto.
      rewrite firstn_length. generalize (length (x :: d)). clear - Hr En. intro n. lia. }
    destruct (wb t d) as [t1 b1]. cbn [fst snd] in *. destruct E as [-> E2].
    destruct S1 as (A1 & A2 & A3 & A4 & A5 & A6 & A7 & A8).
    destruct (IH t1 cl) as [I1 I2]; try congruence.
    { unfold has_body in *. rewrite A1. exact Hb. }
    { rewrite E2. clear - Hr. lia. }
    destruct (ws_sem t1 ds) as [t2 b2]. cbn [fst snd] in *. subst b2.
    rewrite firstn_app. split.
    + f_equal. f_equal. rewrite E2. generalize (length d). clear - Hr. intro n. lia.
    + rewrite I2, E2, app_length, Nat2Z.inj_add. generalize (length d) (length (concat ds)). clear - Hr. intros n m. lia.
Qed.

Section Sem.
Variable cap : str -> str.
Variable lower : str -> str.
Variable c : cfg.
Variable r : req.

Lemma write_body_wb t ch data :
  exists ch', write_body None (t, ch) data = ((fst (wb t data), ch'), Ok tt)
              /\ chan_wire ch' = chan_wire ch ++ snd (wb t data).
Proof.
  unfold write_body, wb. destruct data as [|x data].
  - exists ch. cbn. rewrite app_nil_r. auto.
  - destruct (has_body t).
    + destruct (t_chunked t).
      * destruct (to_hex_upper (lenN (x :: data)) ++ CRLF ++ (x :: data) ++ CRLF) as [|y tw] eqn:Et.
        { exfalso. pose proof (to_hex_nonempty (lenN (x :: data))) as Hne.
          destruct (to_hex_upper (lenN (x :: data))); [congruence|discriminate]. }
        rewrite write_soon_connected. eexists. split; [reflexivity|]. destruct ch as [w n]. apply chan_wire_push.
      * destruct (t_clen t) as [cl|].
        -- cbn [fst snd]. destruct (py_slice_to (x :: data) (cl - t_cbw t)) as [|y tw].
           ++ exists ch. rewrite app_nil_r. auto.
           ++ rewrite write_soon_connected. eexists. split; [reflexivity|]. destruct ch as [w n]. apply chan_wire_push.
        -- rewrite write_soon_connected. eexists. split; [reflexivity|]. destruct ch as [w n]. apply chan_wire_push.
    + exists ch. cbn. rewrite app_nil_r. auto.
Qed.

(* a sequence of Task.write calls *)
Fixpoint tw_seq (s : st) (ds : list bytes) : st * outcome unit :=
  match ds with
  | [] => (s, Ok tt)
  | d :: ds' => match task_write cap lower c r None s d with
                | (s1, Exn e) => (s1, Exn e)
                | (s1, Ok _) => tw_seq s1 ds'
                end
  end.

Lemma tw_seq_app a : forall s b,
  tw_seq s (a ++ b) = match tw_seq s a with
                      | (s1, Exn e) => (s1, Exn e)
                      | (s1, Ok _) => tw_seq s1 b
                      end.
Proof.
  induction a as [|d a IH]; intros s b; cbn [List.app tw_seq]; auto.
  destruct (task_write cap lower c r None s d) as [s1 [u|e]]; auto.
Qed.

Lemma run_actions_writes ws : forall s,
  run_actions cap lower c r None s (map AWrite ws) = tw_seq s ws.
Proof.
  induction ws as [|w ws IH]; intro s; cbn [map run_actions run_action tw_seq]; auto.
  destruct (task_write cap lower c r None s w) as [s1 [u|e]]; auto.
Qed.

Lemma task_write_clen s d s' o : task_write cap lower c r None s d = (s', o) -> t_clen (fst s') = t_clen (fst s).
Proof.
  unfold task_write. destruct (negb (t_complete (fst s))); [intro H; inversion H; auto|].
  destruct s as [t ch]. unfold write_header. cbn [fst].
  destruct (negb (t_wrote_header t)).
  - unfold build_response_header. destruct (keeps_bh_prepare cap lower c r t) as (_ & _ & K3 & _).
    destruct (encode_latin1 _); [|intro H; inversion H; subst; auto].
    destruct (write_soon None ch _) as [ch1 [u|e]]; [|intro H; inversion H; subst; auto].
    destruct (write_body_wb (set_wrote true (bh_prepare cap lower c r t)) ch1 d) as (ch2 & E & _).
    rewrite E. intro H; inversion H; subst. cbn [fst].
    destruct (wb_same (set_wrote true (bh_prepare cap lower c r t)) d) as (_ & _ & _ & _ & _ & A6 & _).
    rewrite A6. exact K3.
  - destruct (write_body_wb t ch d) as (ch2 & E & _). rewrite E. intro H; inversion H; subst. cbn [fst].
    destruct (wb_same t d) as (_ & _ & _ & _ & _ & A6 & _). exact A6.
Qed.

Lemma tw_seq_clen ds : forall s s' o, tw_seq s ds = (s', o) -> t_clen (fst s') = t_clen (fst s).
Proof.
  induction ds as [|d ds IH]; intros s s' o H; cbn [tw_seq] in H; [inversion H; auto|].
  destruct (task_write cap lower c r None s d) as [s1 [u|e]] eqn:E.
  - rewrite (IH _ _ _ H). eapply task_write_clen; eauto.
  - inversion H; subst. eapply task_write_clen; eauto.
Qed.

Lemma iterate_plain_nf chunks : forall l1 first t ch,
  first && l1 && match t_clen t with None => true | Some _ => false end = false ->
  iterate cap lower c r None false l1 first (t, ch) (plain_steps chunks) = tw_seq (t, ch) (filter nonempty chunks).
Proof.
  induction chunks as [|d chunks IH]; intros l1 first t ch Hf; [reflexivity|].
  cbn [plain_steps map iterate run_actions s_acts s_res andb]. fold (plain_steps chunks).
  assert (Et : (if first then match t_clen t with
                              | None => if l1 then set_clen (Some (Z.of_nat (length d))) t else t
                              | Some _ => t end else t) = t).
  { destruct first; auto. destruct (t_clen t); auto. destruct l1; auto. discriminate. }
  rewrite Et. destruct d as [|x d]; cbn [filter nonempty].
  - apply IH. reflexivity.
  - cbn [tw_seq]. destruct (task_write cap lower c r None (t, ch) (x :: d)) as [[t2 ch2] [u|e]]; auto.
Qed.

Lemma iterate_plain_file chunks : forall first t ch,
  iterate cap lower c r None true false first (t, ch) (plain_steps chunks) = tw_seq (t, ch) (take_ne chunks).
Proof.
  induction chunks as [|d chunks IH]; intros first t ch; [reflexivity|].
  cbn [plain_steps map iterate run_actions s_acts s_res andb]. fold (plain_steps chunks).
  destruct d as [|x d]; cbn [take_ne]; [reflexivity|].
  assert (Et : (if first then match t_clen t with None => t | Some _ => t end else t) = t)
    by (destruct first; auto; destruct (t_clen t); auto).
  rewrite Et. cbn [tw_seq]. destruct (task_write cap lower c r None (t, ch) (x :: d)) as [[t2 ch2] [u|e]]; auto.
Qed.

Lemma tw_seq_after ds : forall t ch, t_complete t = true -> t_wrote_header t = true ->
  exists ch', tw_seq (t, ch) ds = ((fst (ws_sem t ds), ch'), Ok tt)
              /\ chan_wire ch' = chan_wire ch ++ snd (ws_sem t ds).
Proof.
  induction ds as [|d ds IH]; intros t ch Hc Hw; cbn [tw_seq ws_sem].
  - exists ch. cbn. rewrite app_nil_r. auto.
  - rewrite task_write_body by auto.
    destruct (write_body_wb t ch d) as (ch1 & E & W1). rewrite E.
    pose proof (wb_same t d) as (A1 & A2 & A3 & A4 & A5 & A6 & A7 & A8).
    destruct (wb t d) as [t1 b1]. cbn [fst snd] in *.
    destruct (IH t1 ch1) as (ch2 & E2 & W2); try congruence.
    rewrite E2. destruct (ws_sem t1 ds) as [t2 b2]. cbn [fst snd] in *.
    exists ch2. split; auto. rewrite W2, W1, app_assoc. reflexivity.
Qed.

Lemma tw_seq_fresh d ds t ch s' :
  t_complete t = true -> t_wrote_header t = false ->
  tw_seq (t, ch) (d :: ds) = (s', Ok tt) ->
  exists tp head, build_response_header cap lower c r t = (tp, Ok head)
    /\ fst s' = fst (ws_sem (set_wrote true tp) (d :: ds))
    /\ chan_wire (snd s') = chan_wire ch ++ head ++ snd (ws_sem (set_wrote true tp) (d :: ds)).
Proof.
  intros Hc Hw H. cbn [tw_seq] in H. unfold task_write in H. cbn [fst] in H. rewrite Hc in H. cbn [negb] in H.
  destruct (write_header cap lower c r None (t, ch)) as [s1 o1] eqn:Eh.
  pose proof (write_header_fresh cap lower c r t ch s1 o1 Hw Eh) as Hh.
  destruct (build_response_header cap lower c r t) as [tp [head|e]] eqn:Eb.
  2: { subst o1. inversion H. }
  destruct Hh as (-> & Ht & Hwire). destruct s1 as [t1 ch1]. cbn [fst snd] in *. subst t1.
  assert (Kc : t_complete tp = true).
  { unfold build_response_header in Eb. injection Eb as <- _.
    destruct (keeps_bh_prepare cap lower c r t) as (K1 & _). congruence. }
  destruct (write_body_wb (set_wrote true tp) ch1 d) as (ch2 & E2 & W2). rewrite E2 in H.
  pose proof (wb_same (set_wrote true tp) d) as (A1 & A2 & A3 & A4 & A5 & A6 & A7 & A8).
  destruct (wb (set_wrote true tp) d) as [t2 b2] eqn:Ewb. cbn [fst snd] in *.
  destruct (tw_seq_after ds t2 ch2) as (ch3 & E3 & W3); try (cbn [t_complete t_wrote_header set_wrote] in *; congruence).
  rewrite E3 in H. inversion H; subst s'. clear H. destruct (ws_sem t2 ds) as [t3 b3] eqn:Ews. cbn [fst snd] in *.
  exists tp, head. split; auto. cbn [ws_sem]. rewrite Ewb, Ews. cbn [fst snd]. split; auto.
  rewrite W3, W2, Hwire, <- !app_assoc. reflexivity.
Qed.

Definition toofew (t : task) : bool :=
  match t_clen t with
  | Some cl => negb (t_cbw t =? cl)%Z && negb (r_head r)
  | None => false
  end.

Definition toofew_adj (t : task) : task :=
  match t_clen t with
  | Some cl => if negb (t_cbw t =? cl)%Z && negb (r_head r) then set_close_on_finish cap lower t else t
  | None => t
  end.

Lemma toofew_adj_spec t : toofew_adj t = if toofew t then set_close_on_finish cap lower t else t.
Proof. unfold toofew_adj, toofew. destruct (t_clen t); auto. Qed.

(* the iterable is iterated, not handed over to the channel (whatever the status; after a
   1xx/204/304 status NO iterable is handed over: fix d117733, see execute_body_iterated) *)
Definition no_handover (kind : ikind) (ws : list bytes) : Prop :=
  is_file kind = false \/ kind = KFile false \/ ws <> [].

Lemma execute_body_iterated kind chunks t ch a :
  a_kind a = kind -> a_steps a = plain_steps chunks ->
  is_file kind = false \/ kind = KFile false \/ t_wrote_header t = true \/ has_body t = false ->
  len1 kind && match t_clen t with None => true | Some _ => false end = false ->
  execute_body cap lower c r None (t, ch) a =
  match tw_seq (t, ch) (eff kind chunks) with
  | (s1, Exn e) => (s1, Exn e, true)
  | ((t2, ch2), Ok _) => ((toofew_adj t2, ch2), Ok tt, true)
  end.
Proof.
  intros Ek Es Hnh Hl. unfold execute_body. rewrite Es.
  set (ho := match a_kind a with KFile _ => _ | _ => None end).
  assert (Hho : ho = None).
  { subst ho. rewrite Ek. destruct kind as [n| |sk]; auto.
    destruct Hnh as [H|[H|[H|H]]]; [discriminate| | |].
    - inversion H; subst sk. reflexivity.
    - rewrite H. destruct (_ =? 0)%Z; reflexivity.
    - (* fix d117733: no hand-over after a 1xx/204/304 status *)
      rewrite H. destruct (_ =? 0)%Z; [reflexivity|]. destruct (t_wrote_header t); reflexivity. }
  rewrite Hho. clear Hho ho. rewrite Ek. unfold eff.
  destruct kind as [n| |sk]; cbn [is_file].
  - rewrite iterate_plain_nf by (cbn [len1] in Hl; rewrite andb_true_l; exact Hl).
    destruct (tw_seq _ _) as [[t2 ch2] [u|e]]; reflexivity.
  - rewrite iterate_plain_nf by reflexivity.
    destruct (tw_seq _ _) as [[t2 ch2] [u|e]]; reflexivity.
  - rewrite iterate_plain_file.
    destruct (tw_seq _ _) as [[t2 ch2] [u|e]]; reflexivity.
Qed.

End Sem.
