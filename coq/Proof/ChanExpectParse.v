(* Proof/ChanExpectParse.v -- where parse_header (Model/Parser.v) assigns
   expect_continue: only inside the `if version == "1.1"` block, from the Expect
   field.  (That completed / headers_finished / empty are never assigned is part
   of ParserTotal.parse_header_frame.) *)
From Coq Require Import List NArith ZArith Bool.
From RecordUpdate Require Import RecordUpdate.
From WV Require Import Lib.PyBytes Lib.Regex Gen.GenRegex Model.Receiver Model.UrlSplit Model.Parser Model.ChanSeq
  Proof.ParserTotal.
Import ListNotations.
Local Open Scope N_scope.

(* the value `expect == "100-continue"` computed by parse_header from the headers dict *)
Definition expect_value (p : parser) : bool :=
  beqb (lower_latin1 (hget_default (headers p) s_EXPECT [])) s_100_continue.

(* either untouched, or assigned under version 1.1 from the dict as it is now *)
Definition expect_from (p p1 : parser) : Prop :=
  expect_continue p1 = expect_continue p \/ (version p1 = s_1_1 /\ expect_continue p1 = expect_value p1).

(* the stages of parse_header (ParserTotal.parse_header_eq), last one first *)
Lemma ph_tail_expect p :
  let p1 := fst (ph_tail p) in
  version p1 = version p /\ headers p1 = headers p /\ expect_continue p1 = expect_continue p.
Proof. unfold ph_tail. repeat ph_step; cbn [fst]; psimpl; auto. Qed.

Lemma ph_v11_expect p h1 c : expect_from p (fst (ph_v11 p h1 (version p) c)).
Proof.
  unfold ph_v11, expect_from. destruct (beqb (version p) s_1_1) eqn:E; [apply beqb_eq in E|left; reflexivity].
  repeat ph_step; cbn [fst]; unfold expect_value; psimpl; auto.
Qed.

Lemma ph_mid_expect a p h1 uri : expect_from p (fst (ph_mid a p h1 uri (version p))).
Proof.
  unfold ph_mid. destruct (split_uri uri) as [sc nl pa qu fr| | |]; try (left; reflexivity).
  cbv zeta. set (c := hget_default h1 s_CONNECTION []).
  match goal with |- context [ph_v11 ?q h1 _ c] => set (q1 := q) end.
  assert (F : version q1 = version p /\ expect_continue q1 = expect_continue p)
    by (subst q1; destruct (_ && _); destruct (_ && _); psimpl; auto).
  destruct F as [Fv Fe]. unfold expect_from. rewrite <- Fv, <- Fe. clearbody q1.
  pose proof (ph_v11_expect q1 h1 c) as V. unfold expect_from in V.
  destruct (ph_v11 q1 h1 (version q1) c) as [p1 [e|]]; cbn [fst] in *; [exact V|].
  pose proof (ph_tail_expect p1) as (Tv & Th & Te). unfold expect_value in *.
  rewrite Tv, Th, Te. exact V.
Qed.

Lemma parse_header_expect a p hp : expect_from p (fst (parse_header a p hp)).
Proof.
  rewrite parse_header_eq.
  destruct (find hp CRLF); [|left; reflexivity]. cbv zeta.
  destruct (has_cr_or_lf _); [left; reflexivity|].
  destruct (get_header_lines _); [left; reflexivity|].
  destruct (add_header_lines _ l) as [[e h0]|h1]; [left; reflexivity|].
  destruct (crack_first_line _) as [[[cmd uri] ver]|]; [|left; reflexivity].
  destruct (beqb cmd [] && beqb uri [] && beqb ver []); [left; reflexivity|].
  match goal with |- context [ph_mid a ?q h1 uri ver] => exact (ph_mid_expect a q h1 uri) end.
Qed.
