(* T1 -- the field section of the head.  For every list of header lines the
   verdict and the resulting dict of the model (get_header_lines' folding,
   then add_header_line per line through the HEADER_FIELD_RE gate) equal those
   of the reference's character-by-character field-line parser.  The gate is
   consumed only through C10Gates.header_field_exact (the gate IS the grammar). *)
From Coq Require Import List NArith ZArith Bool Lia Arith.
From WV Require Import Lib.PyBytes Lib.Regex Lib.RegexDec Gen.GenRegex Spec.Grammar Proof.C10Gates.
From WV Require Import Model.Receiver Model.UrlSplit Model.Parser Spec.Ref9112.
From WV Require Import Proof.PyBytesFacts Proof.RegexFacts Proof.C01Lib Proof.C01Dict Proof.C01Framing.
Import ListNotations.
Local Open Scope N_scope.

Definition tchar_ranges : list (N * N) :=
  [(33,33); (35,35); (36,36); (37,37); (38,38); (39,39); (42,42); (43,43);
   (45,45); (46,46); (94,94); (95,95); (96,96); (124,124); (126,126);
   (48,57); (65,90); (97,122)].
Definition fchar_ranges : list (N * N) := [(9,9); (32,126); (128,255)].

Lemma tchar_ranges_ok x : x < 256 -> in_ranges x tchar_ranges = is_tchar x.
Proof. apply (byte_table (fun x => in_ranges x tchar_ranges) is_tchar). vm_compute. reflexivity. Qed.

Lemma fchar_ranges_ok x : x < 256 -> in_ranges x fchar_ranges = is_field_char x.
Proof. apply (byte_table (fun x => in_ranges x fchar_ranges) is_field_char). vm_compute. reflexivity. Qed.

Definition simple_field : re := Cat token (Cat (Sym 58) (Star (Cls fchar_ranges))).

(* equality of two regular languages, decided by the derivative-based checker of Lib/RegexDec.v *)
Lemma spec_header_field_simple : forall s, bytes_ok s ->
  (Lang spec_header_field s <-> Lang simple_field s).
Proof. apply equiv_check_sound. vm_compute. reflexivity. Qed.

Lemma no_colon_tchar name : bytes_ok name ->
  forallb (fun x => in_ranges x tchar_ranges) name = true -> forallb (fun x => negb (x =? 58)) name = true.
Proof. intros _ H. rewrite memb_forallb, (forallb_avoid _ 58 name eq_refl H). reflexivity. Qed.

Lemma first_occurrence_unique c pre post pre' post' :
  memb c pre = false -> memb c pre' = false ->
  pre ++ c :: post = pre' ++ c :: post' -> pre = pre' /\ post = post'.
Proof.
  intros H1 H2 E. pose proof (find_char_app c pre post H1) as F. rewrite E, (find_char_app c pre' post' H2) in F.
  injection F as L. assert (Ep : pre = pre').
  { rewrite <- (firstn_app_exact pre (c :: post)), E, <- L. apply firstn_app_exact. }
  subst pre'. apply app_inv_head in E. injection E as ->. auto.
Qed.

Lemma simple_field_shape s : bytes_ok s ->
  (Lang simple_field s <->
   exists name rest, s = name ++ 58 :: rest /\ name <> [] /\ forallb is_tchar name = true
                     /\ forallb is_field_char rest = true).
Proof.
  intro Hok. unfold simple_field, token, tchar. fold tchar_ranges. split.
  - intro H. apply Lang_Cat in H as (u & v & -> & Hu & Hv).
    apply Lang_Cat in Hv as (c & w & -> & Hc & Hw). apply Lang_Sym in Hc. subst c.
    apply bytes_ok_app in Hok as [Ho1 Ho2]. apply (bytes_ok_app [58]) in Ho2 as [_ Ho2].
    rewrite Lang_plus_forallb, (forallb_ranges _ _ u Ho1 tchar_ranges_ok) in Hu.
    rewrite Lang_star_forallb, (forallb_ranges _ _ w Ho2 fchar_ranges_ok) in Hw.
    exists u, w. tauto.
  - intros (name & rest & -> & Hne & Hn & Hr).
    apply bytes_ok_app in Hok as [Ho1 Ho2]. apply (bytes_ok_app [58]) in Ho2 as [_ Ho2].
    apply LCat; [|apply (LCat _ _ [58]); [apply Lang_Sym; reflexivity|]].
    + rewrite Lang_plus_forallb, (forallb_ranges _ _ name Ho1 tchar_ranges_ok). auto.
    + rewrite Lang_star_forallb, (forallb_ranges _ _ rest Ho2 fchar_ranges_ok). exact Hr.
Qed.

Lemma split_colon_none s acc : memb 58 s = false -> split_colon s acc = None.
Proof.
  revert acc; induction s as [|x s IH]; intros acc H; cbn [split_colon memb existsb] in *; auto.
  apply orb_false_iff in H as [H1 H2]. rewrite (N.eqb_sym x 58), H1. auto.
Qed.

Lemma split_colon_some pre post acc : memb 58 pre = false ->
  split_colon (pre ++ 58 :: post) acc = Some (rev acc ++ pre, post).
Proof.
  revert acc; induction pre as [|x pre IH]; intros acc H; cbn [app split_colon memb existsb] in *.
  - rewrite app_nil_r. reflexivity.
  - apply orb_false_iff in H as [H1 H2]. rewrite (N.eqb_sym x 58), H1.
    rewrite IH; auto. simpl. rewrite <- app_assoc. reflexivity.
Qed.

Definition line_ok (l : bytes) : Prop := bytes_ok l /\ has_crlf_byte l = false.

Lemma gate_header_field_ref l : line_ok l ->
  matches gate_header_field l = match parse_field_line l with Some _ => true | None => false end.
Proof.
  intros [Hok Hcr]. pose proof (has_crlf_clean l Hok Hcr) as Hc.
  pose proof (header_field_exact l Hok (clean_no_crlf l Hc)) as E1.
  pose proof (spec_header_field_simple l Hok) as E2.
  pose proof (simple_field_shape l Hok) as E3.
  rewrite <- matches_correct in E1.
  assert (E : matches gate_header_field l = true <->
              exists name rest, l = name ++ 58 :: rest /\ name <> [] /\ forallb is_tchar name = true
                                /\ forallb is_field_char rest = true) by tauto.
  clear E1 E2 E3. unfold parse_field_line.
  destruct (memb_split 58 l) as [H|(pre & post & -> & H)].
  - rewrite split_colon_none by exact H.
    destruct (matches gate_header_field l); auto.
    destruct E as [E _]. destruct (E eq_refl) as (name & rest & -> & _).
    unfold memb in H. rewrite existsb_app in H. apply orb_false_iff in H as [_ H]. discriminate H.
  - rewrite split_colon_some by exact H. simpl.
    destruct (nonempty pre && forallb is_tchar pre && forallb is_field_char post) eqn:C.
    + apply E. apply andb_true_iff in C as [C C3]. apply andb_true_iff in C as [C1 C2].
      exists pre, post. repeat split; auto. apply nonempty_ne; auto.
    + destruct (matches gate_header_field (pre ++ 58 :: post)); auto.
      destruct E as [E _]. destruct (E eq_refl) as (name & rest & Eq & Hne & Hn & Hr).
      destruct (first_occurrence_unique 58 pre post name rest H (forallb_avoid is_tchar 58 _ eq_refl Hn) Eq) as [-> ->].
      apply nonempty_ne in Hne. rewrite Hne, Hn, Hr in C. discriminate.
Qed.

Lemma partition_colon pre post : memb 58 pre = false ->
  partition (pre ++ 58 :: post) [58] = (pre, [58], post).
Proof.
  intro H. unfold partition. rewrite find_char_app by exact H. simpl.
  rewrite firstn_app, Nat.sub_diag, firstn_all. simpl. rewrite app_nil_r.
  replace (length pre + 1)%nat with (length (pre ++ [58])) by (rewrite app_length; simpl; lia).
  replace (pre ++ 58 :: post) with ((pre ++ [58]) ++ post) by (rewrite <- app_assoc; reflexivity).
  rewrite skipn_app, Nat.sub_diag, skipn_all. reflexivity.
Qed.

Lemma header_key_norm name : header_key name = norm_name name.
Proof.
  unfold header_key, norm_name, replace_byte, upper_ascii. rewrite map_map. apply map_ext.
  intro x. unfold upper_ascii_b, is_lower.
  destruct ((97 <=? x) && (x <=? 122)) eqn:E.
  - apply andb_true_iff in E as [E1 E2]. apply N.leb_le in E1, E2.
    replace (x =? 45) with false by (symmetry; apply N.eqb_neq; lia).
    replace (x - 32 =? 45) with false by (symmetry; apply N.eqb_neq; lia). reflexivity.
  - reflexivity.
Qed.

(* one step of the reference on the dict *)
Definition ref_add (h : hdict) (f : bytes * bytes) : perr + hdict :=
  let '(name, value) := f in
  if memb 95 name then inr h
  else let k := norm_name name in
       if is_single_key k && (match lookup h k with Some _ => true | None => false end)
       then inl EDuplicateHeader else inr (combine_add h k value).

Lemma add_header_line_ref h l : line_ok l ->
  add_header_line h l = match parse_field_line l with
                        | None => inl EInvalidHeader
                        | Some f => ref_add h f
                        end.
Proof.
  intro Hl. unfold add_header_line. rewrite (gate_header_field_ref l Hl).
  unfold parse_field_line.
  destruct (memb_split 58 l) as [H|(pre & post & -> & H)].
  - rewrite split_colon_none by exact H. reflexivity.
  - rewrite split_colon_some by exact H. simpl app.
    destruct (nonempty pre && forallb is_tchar pre && forallb is_field_char post); cbn [negb]; [|reflexivity].
    rewrite partition_colon by exact H. unfold ref_add.
    destruct (memb 95 pre); [reflexivity|].
    rewrite header_key_norm, strip_sp_htab. change lookup with hget.
    destruct (hget h (norm_name pre)) as [old|] eqn:E.
    + change (is_singleton (norm_name pre)) with (is_single_key (norm_name pre)). destruct (is_single_key (norm_name pre)); cbn [andb]; [reflexivity|].
      rewrite <- (hset_combine_some _ _ _ _ E). reflexivity.
    + rewrite andb_false_r. rewrite hset_combine_none by exact E. reflexivity.
Qed.

Lemma has_cr_or_lf_ref l : has_cr_or_lf l = has_crlf_byte l.
Proof.
  unfold has_cr_or_lf, has_crlf_byte. rewrite !memb_existsb.
  induction l as [|x l IH]; cbn [existsb]; auto. rewrite <- IH.
  destruct (x =? 13), (x =? 10), (existsb (fun y => y =? 13) l), (existsb (fun y => y =? 10) l); reflexivity.
Qed.

(* the reversed accumulator r of get_header_lines: its head is the line still open to
   continuation (the reference's [pending]), its tail the lines already closed *)
Lemma unfold_go : forall ls r, Forall (fun l => l <> []) ls ->
  match unfold_lines ls (hd_error r) with
  | Some out => header_lines_go ls r = inr (rev (tl r) ++ out)
  | None => exists e, header_lines_go ls r = inl e /\ perr_code e = 400
  end.
Proof.
  induction ls as [|l ls IH]; intros r Hne; cbn [unfold_lines header_lines_go].
  - destruct r as [|p r]; cbn [hd_error tl rev]; rewrite ?app_nil_r; reflexivity.
  - inversion Hne as [|? ? Hl Hls]; subst.
    destruct l as [|c l']; [congruence|].
    rewrite has_cr_or_lf_ref.
    destruct (has_crlf_byte (c :: l')); [eexists; split; reflexivity|].
    change (is_ows c) with ((c =? 32) || (c =? 9)).
    destruct ((c =? 32) || (c =? 9)).
    + destruct r as [|p r]; cbn [hd_error]; [eexists; split; reflexivity|].
      exact (IH ((p ++ c :: l') :: r) Hls).
    + specialize (IH ((c :: l') :: r) Hls). cbn [hd_error tl] in IH. unfold bytes in *.
      destruct (unfold_lines ls (Some (c :: l'))); [|exact IH].
      rewrite IH. destruct r as [|p r]; cbn [hd_error tl rev]; [|rewrite <- app_assoc]; reflexivity.
Qed.

Lemma has_crlf_app a b : has_crlf_byte (a ++ b) = has_crlf_byte a || has_crlf_byte b.
Proof. unfold has_crlf_byte. apply existsb_app. Qed.

Lemma line_ok_app a b : line_ok a -> line_ok b -> line_ok (a ++ b).
Proof.
  intros [A1 A2] [B1 B2]. split.
  - apply bytes_ok_app; auto.
  - rewrite has_crlf_app, A2, B2. reflexivity.
Qed.

Lemma unfold_lines_ok : forall ls pending out, Forall bytes_ok ls ->
  (forall p, pending = Some p -> line_ok p) ->
  unfold_lines ls pending = Some out -> Forall line_ok out.
Proof.
  induction ls as [|l ls IH]; intros pending out Hok Hp; cbn [unfold_lines].
  - intro E. injection E as <-. destruct pending; constructor; auto.
  - inversion Hok as [|? ? Hl Hls]; subst.
    destruct (has_crlf_byte l) eqn:Ec; try discriminate.
    destruct l as [|c l']; try discriminate.
    assert (Hlo : line_ok (c :: l')) by (split; auto).
    destruct (is_ows c).
    + destruct pending as [p|]; try discriminate.
      apply IH; auto. intros q E. injection E as <-. apply line_ok_app; auto.
    + destruct (unfold_lines ls (@Some bytes (c :: l'))) as [out'|] eqn:E; try discriminate.
      intro E2. injection E2 as <-.
      assert (Forall line_ok out').
      { apply (IH (@Some bytes (c :: l')) out' Hls); [intros q Eq; injection Eq as <-; exact Hlo | exact E]. }
      destruct pending; auto.
Qed.

Fixpoint ref_adds (h : hdict) (fs : list (bytes * bytes)) : perr + hdict :=
  match fs with
  | [] => inr h
  | f :: r => match ref_add h f with
              | inl e => inl e
              | inr h' => ref_adds h' r
              end
  end.

Lemma add_header_lines_ref : forall joined h, Forall line_ok joined ->
  match parse_fields joined with
  | Some fs => match ref_adds h fs with
               | inr h' => add_header_lines h joined = inr h'
               | inl e => exists h', add_header_lines h joined = inl (e, h')
               end
  | None => exists e h', add_header_lines h joined = inl (e, h') /\ perr_code e = 400
  end.
Proof.
  induction joined as [|l ls IH]; intros h Hok; cbn [parse_fields add_header_lines ref_adds].
  - reflexivity.
  - inversion Hok as [|? ? Hl Hls]; subst.
    rewrite (add_header_line_ref h l Hl).
    destruct (parse_field_line l) as [f|].
    + destruct (ref_add h f) as [e|h1] eqn:Ea.
      * destruct (parse_fields ls).
        -- cbn [ref_adds]. rewrite Ea. eauto.
        -- exists e, h. split; auto.
           unfold ref_add in Ea. destruct f as [name value].
           destruct (memb 95 name); try discriminate.
           destruct (is_single_key (norm_name name) && _); try discriminate.
           injection Ea as <-. reflexivity.
      * specialize (IH h1 Hls). destruct (parse_fields ls) as [fs|].
        -- cbn [ref_adds]. rewrite Ea. exact IH.
        -- exact IH.
    + destruct (parse_fields ls); eauto.
Qed.

(* the reference's own formulation: drop "_" names, scan for repeated
   singletons, combine *)
Definition fold_add (h : hdict) (fs : list (bytes * bytes)) : hdict :=
  fold_left (fun d f => combine_add d (norm_name (fst f)) (snd f)) fs h.

Lemma ref_adds_scan : forall fs h seen,
  (forall k, existsb (beqb k) seen = match lookup h k with Some _ => true | None => false end) ->
  ref_adds h fs =
  if no_repeated_single seen (drop_underscore fs) then inr (fold_add h (drop_underscore fs))
  else inl EDuplicateHeader.
Proof.
  induction fs as [|[name value] fs IH]; intros h seen Hinv; cbn [ref_adds drop_underscore filter fst].
  - reflexivity.
  - unfold ref_add. destruct (memb 95 name) eqn:Eu; cbn [negb].
    + apply IH. exact Hinv.
    + cbn [no_repeated_single fold_add fold_left fst snd].
      rewrite Hinv.
      destruct (is_single_key (norm_name name) &&
                match lookup h (norm_name name) with Some _ => true | None => false end); [reflexivity|].
      apply IH. intro k. cbn [existsb]. rewrite lookup_combine_add, Hinv. reflexivity.
Qed.

Theorem head_equiv : forall ls, Forall bytes_ok ls -> Forall (fun l => l <> []) ls ->
  match header_lines_go ls [] with
  | inl e => head_fields ls = None /\ perr_code e = 400
  | inr joined =>
    match add_header_lines [] joined with
    | inl (e, _) => head_fields ls = None /\ perr_code e = 400
    | inr h => exists fs, head_fields ls = Some fs /\ combined fs = h
    end
  end.
Proof.
  intros ls Hok Hne. pose proof (unfold_go ls [] Hne) as G. cbn [hd_error tl rev app] in G. unfold head_fields.
  destruct (unfold_lines ls None) as [out|] eqn:U.
  - rewrite G.
    assert (Hout : Forall line_ok out).
    { eapply unfold_lines_ok; eauto. intros p E. discriminate E. }
    pose proof (add_header_lines_ref out [] Hout) as A.
    destruct (parse_fields out) as [fs|] eqn:P.
    + rewrite (ref_adds_scan fs [] []) in A by (intro k; reflexivity).
      destruct (no_repeated_single [] (drop_underscore fs)).
      * rewrite A. exists (drop_underscore fs). split; reflexivity.
      * destruct A as [h' A]. rewrite A. split; reflexivity.
    + destruct A as (e & h' & A & Hc). rewrite A. split; auto.
  - destruct G as (e & G & Hc). rewrite G. split; auto.
Qed.

(* non-vacuity: two Host lines are a refusal, folding and combination work *)
Example head_equiv_example :
  head_fields [[72;111;115;116;58;32;97]; [88;45;65;58;49]; [9;50]; [120;45;97;58;32;51;32]]
  = Some [([72;111;115;116], [97]); ([88;45;65], [49;9;50]); ([120;45;97], [51])]
  /\ combined [([72;111;115;116], [97]); ([88;45;65], [49;9;50]); ([120;45;97], [51])]
     = [([72;79;83;84], [97]); ([88;95;65], [49;9;50;44;32;51])]
  /\ head_fields [[72;111;115;116;58;97]; [104;79;83;84;58;98]] = None.
Proof. repeat split; vm_compute; reflexivity. Qed.
