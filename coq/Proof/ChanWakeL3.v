(* Proof/ChanWakeL3.v -- layer 3 of the C05 invariant: total_outbufs_len counts the
   buffered bytes (every writer holds outbuf_lock since 8bcf05e), and connected / closed
   follow handle_close. *)
From Coq Require Import List ZArith Bool Arith Lia.
From WV Require Import Model.ChanWake Proof.ChanWakeInv Proof.ChanWakeBase Proof.ChanWakeL1 Proof.ChanWakeL2.
Import ListNotations.
Open Scope Z_scope.

(* the size of the write_soon in progress *)
Definition wpc_n (p : wpc) : option Z :=
  match p with
  | WWs1 n | WWs2 n | WWs3 n | WWs4 n => Some n
  | WHw1 (SWr n) | WHwC (SWr n) | WHwF (SWr n) | WHwEP (SWr n) | WHwEW (SWr n) | WHwEPk (SWr n) _ | WHwEN (SWr n)
  | WHwL1 (SWr n) | WHwL2 (SWr n) | WHwLP (SWr n) | WHwLW (SWr n) | WHwLPk (SWr n) | WHwLN (SWr n) => Some n
  | _ => None
  end.

(* the worker changes total_outbufs_len / the buffers in its next steps *)
Definition w_writer (p : wpc) : bool :=
  match p with WHwF _ | WWs4 _ | WWsF _ => true | _ => false end.

Definition tot_ok (s : state) : Prop :=
  match io s with
  | IoHCc _ => True
  | _ => conn s = true -> total s = pend s
  end.

Record Inv3 (s : state) : Prop := {
  i3_pend : 0 <= pend s;
  i3_tot : tot_ok s;
  i3_c2 : closed s = true -> conn s = false;
  i3_c3 : conn s = false -> closed s = true \/ io_hc_late (io s) = true;
  i3_late : io_hc_late (io s) = true -> conn s = false;
  i3_scx : forall j p, nth_error (ws s) j = Some p -> w_scx p = true -> conn s = false;
  i3_n : forall j p n, nth_error (ws s) j = Some p -> wpc_n p = Some n -> 0 < n
}.

Lemma inv3_init : forall nw, Inv3 (init nw).
Proof.
  intros. constructor; unfold tot_ok; simpl; intros; try lia; try discriminate; auto.
  - apply nth_error_In in H. apply repeat_spec in H. subst. discriminate.
  - apply nth_error_In in H. apply repeat_spec in H. subst. discriminate.
Qed.

Lemma notified_n : forall p, wpc_n (notified p) = wpc_n p.
Proof. destruct p; try reflexivity; destruct st; reflexivity. Qed.

Lemma inv3_step_io : forall c s ch s' l,
  Inv3 s -> step_io c s ch = Some (s', l) -> Inv3 s'.
Proof.
  intros c s ch s' l [Hpe Ht3 Hc2 Hc3 Hlate Hscx Hn] H.
  assert (Hio : (0 <= pend s' /\ tot_ok s') /\ (closed s' = true -> conn s' = false) /\
                (conn s' = false -> closed s' = true \/ io_hc_late (io s') = true) /\
                (io_hc_late (io s') = true -> conn s' = false) /\ (conn s = false -> conn s' = false)).
  { (* The fields move at: IoSc1 (pend and total grow by cont_len); the flushes IoScF, IoFlL (both shrink by
       the same n <= pend); IoHCb (total := 0; from here to IoHCc tot_ok asks nothing); IoHCc (connected := False,
       io_hc_late holds from IoHCd on); IoHCx (closed := True).  Elsewhere they are untouched by computation. *)
    clear Hscx Hn. step_io_cases H; z_hyps; unfold cont_len, tot_ok in *.
    all: match goal with E : io _ = _ |- _ => rewrite E in Ht3 end.
    all: try rewrite (add_task_eta s); simpl in *; try match goal with E : io _ = _ |- _ => rewrite ?E end.
    all: repeat split; intros; try discriminate; auto; try lia; try congruence.
    (* the flushes: total = pend before *)
    all: try (specialize (Ht3 ltac:(assumption)); lia).
    (* connected was False already: closed or late before, by i3_c3 *)
    all: destruct (Hc3 ltac:(assumption)); congruence. }
  destruct Hio as ((A & B) & C & D & E & F). constructor; auto.
  - intros j q Hj Hq. destruct (step_io_nth _ _ _ _ _ _ _ H Hj) as [->|(p & Hp & [->|[Pp ->]])].
    + discriminate.
    + exact (F (Hscx _ _ Hp Hq)).
    + destruct p; discriminate.
  - intros j q n Hj Hq. destruct (step_io_nth _ _ _ _ _ _ _ H Hj) as [->|(p & Hp & [->|[Pp ->]])].
    + discriminate.
    + exact (Hn _ _ _ Hp Hq).
    + rewrite notified_n in Hq. exact (Hn _ _ _ Hp Hq).
Qed.

Lemma inv3_step_w : forall c s i ch s' l,
  Inv3 s -> step_w c s i ch = Some (s', l) -> Inv3 s'.
Proof.
  intros c s i ch s' l [Hpe Ht3 Hc2 Hc3 Hlate Hscx Hn] H. pose proof H as Hs. unfold step_w in H.
  destruct (getw s i) as [pc|] eqn:Hg; [|discriminate]. unfold getw in Hg.
  destruct (step_w_frame _ _ _ _ _ _ _ Hg Hs) as (Eio & Ec & Ecl & _). clear Hs.
  assert (Hw : forall j p, nth_error (ws s) j = Some p ->
                 (w_scx p = true -> conn s = false) /\ (forall n, wpc_n p = Some n -> 0 < n)) by (split; eauto).
  destruct (Hw _ _ Hg) as (Hsi & Hni).
  assert (Hown : 0 <= pend s' /\ total s' - pend s' = total s - pend s /\
                 forall j q, nth_error (ws s') j = Some q ->
                   (w_scx q = true -> conn s = false) /\ (forall n, wpc_n q = Some n -> 0 < n)).
  { (* The bytes move at: WWs4 (+n, and 0 < n by i3_n), WSc1 (+cont_len), the flushes WHwF, WWsF, WScF (-n with
       n <= pend).  The size n of a write_soon is handed on from WWs1 (where 0 < n is checked at WApp) to WWs4;
       WScX is entered only from WSc1 with connected = False. *)
    clear Ht3 Hc2 Hc3 Hlate Hscx Hn. step_w_cases H; z_hyps; unfold cont_len.
    all: try (specialize (Hni _ eq_refl)).
    all: try rewrite (add_task_eta s); split; [|split]; simpl; try lia.
    (* a flush that leaves the worker where it is *)
    all: try exact Hw.
    all: apply upd_forall;
           [ intros j0 p0 _; revert j0 p0;
             first [exact Hw | apply add_task_forall; [exact Hw | split; intros; discriminate]] | simpl in Hsi |- * ].
    all: split; [intros; try discriminate; auto | intros n' E; try discriminate E; inversion E; subst; auto]. }
  destruct Hown as (A & B & C). constructor; rewrite ?Eio, ?Ec, ?Ecl; auto.
  - unfold tot_ok in *. rewrite Eio, Ec. destruct (io s); auto; intros Hx; specialize (Ht3 Hx); lia.
  - intros j q Hj Hq. eapply C; eauto.
  - intros j q n Hj Hq. eapply C; eauto.
Qed.
