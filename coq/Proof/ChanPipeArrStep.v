(* Proof/ChanPipeArrStep.v -- layer L5 is preserved by every step. *)
From Coq Require Import List Arith Bool ZArith Lia.
From WV Require Import Model.ChanPipe Proof.ChanPipeBase Proof.ChanPipeArr.
Import ListNotations.

Section Step.
Variable P : params.

Ltac frame5 HL5 :=
  apply (L5_frame P _ _) with (6 := HL5); cbn; try reflexivity.

Lemma skipn_skipn : forall (A : Type) (l : list A) a b, skipn a (skipn b l) = skipn (b + a) l.
Proof.
  intros A l a b. revert l. induction b as [|b IH]; intro l; simpl; auto.
  destruct l; simpl; auto. destruct a; reflexivity.
Qed.

Lemma recv_pend : forall (avail : list item) k (extra : list item),
  cranks (whole_items (map Whole (firstn k avail) ++ map Piece extra)) ++ cranks (skipn k avail) = cranks avail.
Proof.
  intros. rewrite whole_items_app, whole_items_map_whole, whole_items_map_piece, app_nil_r.
  rewrite <- cranks_app. rewrite firstn_skipn. reflexivity.
Qed.

Lemma recv_pend_whole : forall (avail : list item) k,
  cranks (whole_items (map Whole (firstn k avail) ++ [])) ++ cranks (skipn k avail) = cranks avail.
Proof. intros. exact (recv_pend avail k []). Qed.

Theorem L5_step : forall st c st' l, L5 P st -> step P st c = Some (st', l) -> L5 P st'.
Proof.
  intros st c st' l HL5 Hs.
  destruct c as [e | me e].
  - step_io Hs; fl_out; cbn [sh io wk ipc] in *.
    (* all program points but IoRecv, IoRcItem and IoRcApp2 leave what L5 reads alone *)
    all: try solve [frame5 HL5].
    all: try solve [destruct icomp; frame5 HL5].
    all: unfold L5, pend in *; cbn [sh io wk ipc i_items i_cur i_comp io_hold arrivals nxt set_nxt set_pst set_olock set_arrivals set_requests set_ipc] in *.
    (* IoRcItem, ten of its eleven cases: the item goes from the items of this read into the parser's
       hands, or carries no completing rank; the list of ranks is the same up to computation *)
    all: try solve [cbn in *; exact HL5].
    (* IoRecv, with / without a fragment at the end: the left-over items of the previous read are
       dropped, the new ones come from the stream *)
    all: try solve [ rewrite <- skipn_skipn; rewrite recv_pend; cbn [app] in *; eapply sorted_drop_mid; exact HL5 ].
    all: try solve [ rewrite <- skipn_skipn; rewrite recv_pend_whole; cbn [app] in *; eapply sorted_drop_mid; exact HL5 ].
    (* IoRcItem, the remaining case: a rank leaves the middle of the list *)
    all: try solve [ cbn [app]; eapply sorted_drop_mid; exact HL5 ].
    (* IoRcApp2: requests.append, the rank moves from the parser's hands to the arrivals *)
    all: try solve [ rewrite map_app; cbn [map app]; rewrite <- app_assoc; cbn [app] in *; exact HL5 ].
  - step_wk Hs; fl_out; cbn [sh io wk ipc] in *.
    all: try solve [frame5 HL5].
Qed.
End Step.
