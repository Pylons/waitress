(* C16 (d): a header kind that is not trusted has no influence, and is
   removed when clearing is on. *)
From Coq Require Import List NArith ZArith Bool Lia.
From WV Require Import Lib.PyBytes Lib.PyStrProxy Lib.Regex Gen.GenRegex Model.Proxy Spec.ProxySpec
  Proof.ProxyDict Proof.ProxyStr Proof.ProxyStages Proof.ProxyTotal Proof.ProxyConverse2 Proof.ProxyHops Proof.ProxyRel Proof.ProxyC15.
Import ListNotations.
Local Open Scope N_scope.

Inductive kind := KFor | KHost | KProto | KPort | KBy | KFwd.
Definition key_of (kd : kind) : str :=
  match kd with KFor => k_xff | KHost => k_xfh | KProto => k_xfproto | KPort => k_xfport | KBy => k_xfby | KFwd => k_fwd end.
Definition name_of (kd : kind) : str :=
  match kd with KFor => n_xff | KHost => n_xfh | KProto => n_xfproto | KPort => n_xfport | KBy => n_xfby | KFwd => n_fwd end.
Definition uflag (kd : kind) (u : uset) : bool :=
  match kd with KFor => u_for u | KHost => u_host u | KProto => u_proto u | KPort => u_port u | KBy => u_by u | KFwd => u_fwd u end.

Definition only (K : str) : str -> bool := fun k => beqb k K.

Lemma unread_kind c kd : has (tph_of c) (name_of kd) = false -> unread (only (key_of kd)) (tph_of c).
Proof.
  intro H. constructor; unfold only; destruct kd; cbn [key_of name_of] in *; intros; try congruence; reflexivity.
Qed.

Lemma clear_kind kd e u : uflag kd u = true -> lookup (key_of kd) (clear_untrusted_headers e u) = None.
Proof.
  intro H. rewrite clear_lookup. destruct kd; cbn [uflag key_of] in *; kb; rewrite ?andb_false_r, H; reflexivity.
Qed.

Lemma clear_other k e u : is_proxy_key k = false -> lookup k (clear_untrusted_headers e u) = lookup k e.
Proof.
  intro H. destruct (not_proxy_key k H) as (N1 & N2 & N3 & N4 & N5 & N6).
  rewrite clear_lookup, N1, N2, N3, N4, N5, N6, !andb_false_r. reflexivity.
Qed.

(* header parsing leaves an untrusted kind alone: its flag stays in the untrusted set, its key is not written *)
Definition kind_kept (tph : list str) (e : environ) (s : pst) : Prop :=
  forall kd, has tph (name_of kd) = false ->
    uflag kd (unt s) = true /\ lookup (key_of kd) (env s) = lookup (key_of kd) e.

Lemma kept_step tph e s s' : kind_kept tph e s ->
  (forall kd, has tph (name_of kd) = false ->
     uflag kd (unt s') = uflag kd (unt s) /\ lookup (key_of kd) (env s') = lookup (key_of kd) (env s)) ->
  kind_kept tph e s'.
Proof. intros H Hs kd Hk. destruct (H kd Hk), (Hs kd Hk). split; congruence. Qed.

(* The block of one kind removes that kind's flag and writes that kind's key; every other kind keeps its
   flag and its key, because the names (hence the keys) are different. *)
Definition lkd x := match x with LFor => KFor | LHost => KHost end.
Definition skd x := match x with SProto => KProto | SPort => KPort end.

Lemma key_of_differs kd kd' : name_of kd <> name_of kd' -> beqb (key_of kd) (key_of kd') = false.
Proof. destruct kd, kd'; try reflexivity; congruence. Qed.

Lemma lrm_uflag x kd u u' : lrm x u = Ok u' -> name_of kd <> name_of (lkd x) -> uflag kd u' = uflag kd u.
Proof. intros H Hn. apply lrm_ok in H as ->. destruct x, kd; try reflexivity; cbn in Hn; congruence. Qed.

Lemma srm_uflag x kd u u' : srm x u = Ok u' -> name_of kd <> name_of (skd x) -> uflag kd u' = uflag kd u.
Proof. intros H Hn. apply srm_ok in H as ->. destruct x, kd; try reflexivity; cbn in Hn; congruence. Qed.

Lemma rm_by_uflag kd u u' : rm_by u = Ok u' -> name_of kd <> n_xfby -> uflag kd u' = uflag kd u.
Proof.
  unfold rm_by. destruct (u_by u); [|discriminate]. intros H Hn. injection H as <-.
  destruct kd; try reflexivity. cbn in Hn. congruence.
Qed.

Lemma select_kept e k tph s : parse_select e k tph = Ok s -> kind_kept tph e s.
Proof.
  intro H. apply select_ok_inv in H as (s1 & s2 & s3 & s4 & s5 & E1 & E2 & E3 & E4 & E5 & E6).
  destruct (before_fwd _ _ _ _ _ _ _ _ E1 E2 E3 E4 E5) as (F5 & _).
  assert (I0 : kind_kept tph e (init_pst e)) by (intros kd _; destruct kd; split; reflexivity).
  assert (SL : forall x s s', lblk x k tph s = Ok s' -> kind_kept tph e s -> kind_kept tph e s').
  { intros x s0 s0' E I. apply lblk_ok in E as [[-> _]|(? & ? & ? & u & Ht & _ & _ & _ & Hu & ->)]; [exact I|].
    apply (kept_step _ _ _ _ I). intros kd Hk.
    assert (Hn : name_of kd <> name_of (lkd x)) by (destruct x; cbn [lkd name_of lname] in *; congruence).
    destruct x; (split; [exact (lrm_uflag _ _ _ _ Hu Hn)|apply lookup_set_other, (key_of_differs kd _ Hn)]). }
  assert (SS : forall x s s', sblk x tph s = Ok s' -> kind_kept tph e s -> kind_kept tph e s').
  { intros x s0 s0' E I. apply sblk_ok in E as [[-> _]|(? & u & Ht & _ & Hu & ->)]; [exact I|].
    apply (kept_step _ _ _ _ I). intros kd Hk.
    assert (Hn : name_of kd <> name_of (skd x)) by (destruct x; cbn [skd name_of sname] in *; congruence).
    destruct x; (split; [exact (srm_uflag _ _ _ _ Hu Hn)|reflexivity]). }
  pose proof (SS SPort _ _ E4 (SS SProto _ _ E3 (SL LHost _ _ E2 (SL LFor _ _ E1 I0)))) as I4.
  assert (I5 : kind_kept tph e s5).
  { apply (kept_step _ _ _ _ I4). intros kd Hk. pose proof (blk_by_ok _ _ _ E5) as (-> & _). split; [|reflexivity].
    unfold blk_by in E5. destruct (has tph n_xfby) eqn:Ht; [|injection E5 as <-; reflexivity].
    apply bind_ok in E5 as (u & Hu & E5). injection E5 as <-. apply (rm_by_uflag _ _ _ Hu). congruence. }
  (* the Forwarded block runs only when Forwarded is trusted, and then writes HTTP_FORWARDED alone *)
  unfold blk_fwd_get in E6. destruct (has tph n_fwd) eqn:Hf.
  - assert (Hn : forall kd, has tph (name_of kd) = false -> name_of kd <> name_of KFwd) by (cbn; congruence).
    apply blk_forwarded_ok in E6 as [[-> _]|(? & ? & _ & _ & _ & ->)]; intros kd Hk; destruct (I5 kd Hk) as [_ L];
      (split; [destruct kd; try reflexivity; destruct (Hn _ Hk eq_refl)|]); cbn [env]; [exact L|].
    rewrite lookup_set_other; [exact L|apply (key_of_differs kd KFwd (Hn _ Hk))].
  - apply blk_forwarded_ok in E6 as [[-> _]|(raw & ps & Hfw & Htr & _ & _)]; [exact I5|].
    rewrite F5 in Hfw. injection Hfw as <-. discriminate.
Qed.

Lemma middleware_ok_inv c e o : middleware c e = Ok o ->
  (on_trusted_path c e = false /\ o = if clear_untrusted c then clear_untrusted_headers e u_all else e) \/
  (on_trusted_path c e = true /\ exists s s',
     parse_select e (trusted_proxy_count c) (tph_of c) = Ok s /\ parse_apply s = Ok s' /\
     o = if clear_untrusted c then clear_untrusted_headers (env s') (unt s') else env s').
Proof.
  unfold middleware, on_trusted_path. destruct (lookup k_remote_addr e) as [peer|]; [|discriminate].
  destruct (opt_str_eqb (trusted_proxy c) (Some s_star) || opt_str_eqb (Some peer) (trusted_proxy c)).
  - unfold parse_proxy_headers. fold (tph_of c). intro H. right. split; auto.
    apply bind_ok in H as ([e' u] & H & Ho). apply bind_ok in H as (s & Hs & H).
    apply bind_ok in H as (s' & Hs' & H). injection H as <- <-. injection Ho as <-. eauto.
  - cbn. intro H. injection H as <-. left. auto.
Qed.

Lemma kinds_untouched c kd e o :
  has (tph_of c) (name_of kd) = false -> clear_untrusted c = false ->
  middleware c e = Ok o -> lookup (key_of kd) o = lookup (key_of kd) e.
Proof.
  intros Hk Hc H.
  apply middleware_ok_inv in H as [[_ ->]|(_ & s & s' & Hs & Ha & ->)]; rewrite Hc; [reflexivity|].
  assert (Hm : ~ In (key_of kd) metadata_keys).
  { intro Hin. apply metadata_not_proxy in Hin. destruct kd; vm_compute in Hin; discriminate. }
  destruct (ap_other _ _ (apply_ok _ _ Ha) (key_of kd)) as [Hin| ->]; [contradiction|].
  apply (select_kept _ _ _ _ Hs). exact Hk.
Qed.
