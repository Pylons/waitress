(* Proof/ChanPipeExamples.v -- the hypotheses of the C04 theorems are satisfiable by non-trivial
   executions.  sched_two is the (default) schedule of a REAL run of two pipelined GET requests on
   the real HTTPChannel (harness/chanpipe.py, scenario "two-get"), mapped to the model's choices by
   the correspondence harness and expanded by the extracted runner (mode "exp"): both requests are
   served, in order, and both responses (94 bytes each: a header write of 93 bytes and a body
   write of 1 byte) are on the wire. *)
From Coq Require Import List Arith Bool ZArith.
From WV Require Import Model.ChanPipe Proof.ChanPipeBase Proof.ChanPipeOwn Proof.ChanPipeLog
                       Proof.ChanPipeOut Proof.ChanPipeOutStep Proof.ChanPipeSpec Proof.ChanPipeRefute.
Import ListNotations.

Definition P_two : params :=
  {| p_look := 0; p_sb := 1%Z; p_clen := 25; p_nw := 1; p_unlocked := false;
     p_script := [ {| r_expect := false; r_nobody := false; r_writes := [93; 1]; r_close := false |};
                   {| r_expect := false; r_nobody := false; r_writes := [93; 1]; r_close := false |} ] |}.

Definition sched_two : list choice :=
  [CWk 0 ENone; CWk 0 ENone] ++
  repeat (CIo ENone) 7 ++
  [CIo (ESel true false)] ++
  [CIo ENone] ++
  [CIo (ERecv 2 false)] ++
  repeat (CIo ENone) 22 ++
  repeat (CWk 0 ENone) 15 ++
  [CWk 0 (ESend 93 93)] ++
  repeat (CWk 0 ENone) 16 ++
  [CWk 0 (ESend 1 1)] ++
  repeat (CWk 0 ENone) 37 ++
  [CWk 0 (ESend 93 93)] ++
  repeat (CWk 0 ENone) 16 ++
  [CWk 0 (ESend 1 1)] ++
  repeat (CWk 0 ENone) 17 ++
  [CIo (ESel false false)] ++
  repeat (CIo ENone) 7.

(* the premises of C04_wire / C04_complete hold: the current shape of handle_write, the connection
   is open, nobody is inside a task *)
Example two_premises :
  p_unlocked P_two = false /\ connected (sh (run P_two sched_two)) = true /\
  in_task (wpc (wk (run P_two sched_two) 0)) = false.
Proof. vm_compute. auto. Qed.

(* ... and the conclusion is not vacuous: both requests arrived, were started and executed, in
   order, and the wire carries the two complete responses, nothing pending *)
Example two_served :
  arrivals (sh (run P_two sched_two)) = [0; 1] /\ starts (sh (run P_two sched_two)) = [0; 1] /\
  execs (sh (run P_two sched_two)) = [0; 1] /\
  wire (sh (run P_two sched_two)) = resp_toks 0 0 94 ++ resp_toks 1 0 94 /\
  pending (sh (run P_two sched_two)) = [] /\
  units (sh (run P_two sched_two)) = [UResp 0 94; UResp 1 94].
Proof. vm_compute. repeat split; reflexivity. Qed.

(* a state in the middle of the run: worker 0 owns the connection (it is inside the first task)
   while the second request is queued on the channel: the dispatcher holds no entry *)
Example mid_owner :
  let st := run P_two (firstn 45 sched_two) in
  wk_owner (wpc (wk st 0)) = true /\ requests (sh st) = [0; 1] /\ queue (sh st) = 0.
Proof. vm_compute. auto. Qed.

(* the premises of the quiescence statement: the only worker is parked, not notified *)
Example two_quiescent : all_parked 1 (run P_two sched_two) = true.
Proof. vm_compute. reflexivity. Qed.

(* the F18 schedule on the repaired shape contains a worker-side send_continue (wsc), and the
   wire statement holds of it *)
Example f18_fixed_in_scope :
  wsc (sh (run P18_fixed sched18)) = true /\ wire_ok P18_fixed (run P18_fixed sched18) = true.
Proof. vm_compute. auto. Qed.
