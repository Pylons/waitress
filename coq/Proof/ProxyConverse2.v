(* Writing the selection into the environ in closed form (apply_closed), and the exact characterisation
   of a trusted peer's request: refused exactly when Spec.refusal_reason says so, with the header it
   names; otherwise handed on with exactly the environ Spec.spec_out describes, key by key. *)
From Coq Require Import String.
From Coq Require Import List NArith ZArith Bool Lia.
From WV Require Import Lib.PyBytes Lib.PyStrProxy Lib.Regex Gen.GenRegex Spec.Grammar Model.Proxy
  Spec.ProxySpec Proof.ProxyDict Proof.ProxyStr Proof.ProxyStages Proof.ProxyTotal
  Proof.ProxyCats Proof.ProxyConverse1.
Import ListNotations.
Local Open Scope N_scope.

Definition cstr (o : option str) : str := match o with Some c => c | None => [] end.
Definition sel_of (s : pst) : selection :=
  {| sel_client := cstr (client s); sel_host := fhost s; sel_proto := fproto s; sel_port := fport s |}.

Lemma pure_by_proj tph s : client (pure_by tph s) = client s /\ fhost (pure_by tph s) = fhost s /\
  fproto (pure_by tph s) = fproto s /\ fport (pure_by tph s) = fport s.
Proof. unfold pure_by. destruct (has tph n_xfby); auto. Qed.
Lemma pure_port_proj tph s : client (pure_port tph s) = client s /\ fhost (pure_port tph s) = fhost s /\
  fproto (pure_port tph s) = fproto s.
Proof. unfold pure_port. destruct (has tph n_xfport); auto. Qed.
Lemma pure_proto_proj tph s : client (pure_proto tph s) = client s /\ fhost (pure_proto tph s) = fhost s /\
  fport (pure_proto tph s) = fport s.
Proof. unfold pure_proto. destruct (has tph n_xfproto); auto. Qed.
Lemma pure_xfh_proj p tph s : client (pure_xfh p tph s) = client s /\ fproto (pure_xfh p tph s) = fproto s /\
  fport (pure_xfh p tph s) = fport s.
Proof. unfold pure_xfh. destruct (has tph n_xfh); [|auto]. destruct (lookup k_xfh (env s)); auto. Qed.
Lemma pure_xff_proj p tph s : fhost (pure_xff p tph s) = fhost s /\ fproto (pure_xff p tph s) = fproto s /\
  fport (pure_xff p tph s) = fport s.
Proof. unfold pure_xff. destruct (has tph n_xff); [|auto]. destruct (lookup k_xff (env s)); auto. Qed.

Lemma pre_fwd_client_opt p tph e :
  client (pre_fwd p tph e) =
  if has tph n_xff then option_map (fun raw => xff_address (picked raw (Pos.to_nat p))) (lookup k_xff e) else None.
Proof.
  unfold pre_fwd.
  rewrite (proj1 (pure_by_proj _ _)), (proj1 (pure_port_proj _ _)), (proj1 (pure_proto_proj _ _)),
    (proj1 (pure_xfh_proj _ _ _)).
  unfold pure_xff. cbn [init_pst env]. destruct (has tph n_xff); [|reflexivity]. destruct (lookup k_xff e); reflexivity.
Qed.

Lemma pre_fwd_client p tph e : cstr (client (pre_fwd p tph e)) = xf_client tph (Pos.to_nat p) e.
Proof.
  rewrite pre_fwd_client_opt. unfold xf_client. model_names.
  destruct (has tph n_xff); [|reflexivity]. destruct (lookup k_xff e); reflexivity.
Qed.

Lemma pre_fwd_host p tph e : fhost (pre_fwd p tph e) = xf_host tph (Pos.to_nat p) e.
Proof.
  unfold pre_fwd.
  rewrite (proj1 (proj2 (pure_by_proj _ _))), (proj1 (proj2 (pure_port_proj _ _))), (proj1 (proj2 (pure_proto_proj _ _))).
  unfold pure_xfh, xf_host. model_names. rewrite pure_xff_env by reflexivity. cbn [init_pst env].
  destruct (has tph n_xfh); [destruct (lookup k_xfh e); [reflexivity|]|]; apply (pure_xff_proj p tph (init_pst e)).
Qed.

(* X-Forwarded-Proto / -Port: read by their own block from the environ as it is in e *)
Lemma pre_fwd_proto p tph e : fproto (pre_fwd p tph e) = xf_single nm_xfproto hk_xfproto tph e.
Proof.
  unfold pre_fwd.
  rewrite (proj1 (proj2 (proj2 (pure_by_proj _ _)))), (proj2 (proj2 (pure_port_proj _ _))).
  unfold pure_proto, xf_single, hdr. model_names. rewrite pure_xfh_env, pure_xff_env by reflexivity. cbn [init_pst env].
  destruct (has tph n_xfproto); [reflexivity|].
  rewrite (proj1 (proj2 (pure_xfh_proj _ _ _))). apply (pure_xff_proj p tph (init_pst e)).
Qed.

Lemma pre_fwd_port p tph e : fport (pre_fwd p tph e) = xf_single nm_xfport hk_xfport tph e.
Proof.
  unfold pre_fwd. rewrite (proj2 (proj2 (proj2 (pure_by_proj _ _)))).
  unfold pure_port, xf_single, hdr. model_names.
  rewrite pure_proto_env, pure_xfh_env, pure_xff_env by reflexivity. cbn [init_pst env].
  destruct (has tph n_xfport); [reflexivity|].
  rewrite (proj2 (proj2 (pure_proto_proj _ _))), (proj2 (proj2 (pure_xfh_proj _ _ _))). apply (pure_xff_proj p tph (init_pst e)).
Qed.

Lemma sel_state_selection p tph e :
  sel_of (sel_state p tph e) = select tph (Pos.to_nat p) e /\
  opt_truthy (fwd (sel_state p tph e)) = fwd_active tph e.
Proof.
  unfold sel_state. fold (pre_fwd p tph e).
  pose proof (pre_fwd_env p tph e k_fwd eq_refl eq_refl) as L.
  pose proof (pre_fwd_fwd p tph e) as F.
  pose proof (pre_fwd_client p tph e) as Hc. pose proof (pre_fwd_host p tph e) as Hh.
  pose proof (pre_fwd_proto p tph e) as Hp. pose proof (pre_fwd_port p tph e) as Ho.
  unfold select, fwd_active, blk_fwd_get, pure_fwd, sel_of.
  model_names.
  destruct (has tph n_fwd); cbn [andb fwd].
  - unfold hdr. rewrite L. destruct (lookup k_fwd e) as [[|c raw']|]; cbn [truthy client fhost fproto fport fwd opt_truthy].
    + rewrite Hc, Hh, Hp, Ho. split; reflexivity.
    + split; [|reflexivity]. f_equal. rewrite <- Hc.
      destruct (fwd_oldest t_for (c :: raw') (Pos.to_nat p)); reflexivity.
    + rewrite Hc, Hh, Hp, Ho. split; reflexivity.
  - rewrite F. cbn [opt_truthy truthy]. rewrite Hc, Hh, Hp, Ho. split; [reflexivity|rewrite F; reflexivity].
Qed.

Lemma sel_state_inactive p tph e : fwd_active tph e = false ->
  client (sel_state p tph e) = client (pre_fwd p tph e).
Proof.
  unfold fwd_active, hdr, sel_state. fold (pre_fwd p tph e). unfold pure_fwd, blk_fwd_get.
  model_names.
  destruct (has tph n_fwd); cbn [andb fwd].
  - rewrite (pre_fwd_env p tph e k_fwd eq_refl eq_refl). destruct (lookup k_fwd e) as [[|c r]|]; try reflexivity. discriminate.
  - rewrite pre_fwd_fwd. reflexivity.
Qed.

Lemma cat_scheme_lower p : cat_scheme p = false -> truthy p = true ->
  beqb (lower_latin1 p) t_http || beqb (lower_latin1 p) t_https = true.
Proof. unfold cat_scheme. intros H Ht. rewrite Ht in H. cbn [andb] in H. apply negb_false_iff in H. exact H. Qed.

Lemma meta_key_cases key :
  (key = k_remote_addr \/ key = k_remote_host \/ key = k_remote_port \/ key = k_server_name \/
   key = k_server_port \/ key = k_http_host \/ key = k_url_scheme) \/
  (beqb key k_remote_addr = false /\ beqb key k_remote_host = false /\ beqb key k_remote_port = false /\
   beqb key k_server_name = false /\ beqb key k_server_port = false /\ beqb key k_http_host = false /\
   beqb key k_url_scheme = false).
Proof.
  destruct (beqb key k_remote_addr) eqn:E1; [apply beqb_eq in E1; auto 10|].
  destruct (beqb key k_remote_host) eqn:E2; [apply beqb_eq in E2; auto 10|].
  destruct (beqb key k_remote_port) eqn:E3; [apply beqb_eq in E3; auto 10|].
  destruct (beqb key k_server_name) eqn:E4; [apply beqb_eq in E4; auto 10|].
  destruct (beqb key k_server_port) eqn:E5; [apply beqb_eq in E5; auto 10|].
  destruct (beqb key k_http_host) eqn:E6; [apply beqb_eq in E6; auto 10|].
  destruct (beqb key k_url_scheme) eqn:E7; [apply beqb_eq in E7; auto 10|]. auto 10.
Qed.

(* comparisons of two key literals are evaluated *)
Ltac kb :=
  repeat match goal with
  | |- context [beqb ?a ?b] =>
    let v := eval vm_compute in (beqb a b) in
    match v with true => change (beqb a b) with true | false => change (beqb a b) with false end
  end.

(* The environ parse_apply leaves, in the specification's values: one conditional assignment per key,
   in the order of the code. *)
Definition applied_env (sl : selection) (e : environ) : environ :=
  let a := unbracket (addr_text (sel_client sl)) in
  cset (truthy (sel_client sl)) k_remote_host a
    (oset k_remote_port (port_text (sel_client sl))
      (cset (truthy (sel_client sl)) k_remote_addr a
        (cset (truthy (final_port sl)) k_server_port (final_port sl)
          (cset (truthy (sel_host sl)) k_http_host (http_host_value sl e)
            (cset (truthy (sel_host sl)) k_server_name (server_name_value (sel_host sl))
              (cset (truthy (sel_proto sl)) k_url_scheme (lower_latin1 (sel_proto sl)) e)))))).

Lemma applied_env_lookup sl e key : lookup key (applied_env sl e) = meta_out sl e key.
Proof.
  unfold applied_env, meta_out, final_scheme. cbv zeta. rewrite !lookup_cset, lookup_oset, !lookup_cset.
  model_names.
  destruct (meta_key_cases key) as [[->|[->|[->|[->|[->|[->| ->]]]]]]|(N1 & N2 & N3 & N4 & N5 & N6 & N7)];
    [kb|kb|kb|kb|kb|kb|kb|rewrite N1, N2, N3, N4, N5, N6, N7];
    rewrite ?andb_false_r, ?andb_true_r; cbn [orb]; destruct (port_text (sel_client sl)); reflexivity.
Qed.

(* environ["wsgi.url_scheme"] is read (a host without port, port 80 or 443) and absent *)
Definition scheme_missing (sl : selection) (e : environ) : bool :=
  truthy (sel_host sl) && negb (has_port (sel_host sl)) &&
  (beqb (port_before_host sl) s_80 || beqb (port_before_host sl) s_443) &&
  match final_scheme sl e with None => true | Some _ => false end.

Theorem apply_closed s :
  let sl := sel_of s in let f := opt_truthy (fwd s) in
  if cat_scheme (sel_proto sl) then parse_apply s = Malformed (category_header f CatScheme)
  else if empty_host (sel_host sl) then parse_apply s = Malformed (category_header f CatEmptyHost)
  else if scheme_missing sl (env s) then parse_apply s = Exn KeyError
  else if bad_client (sel_client sl) then parse_apply s = Malformed (category_header f CatEmptyClient)
  else exists s', parse_apply s = Ok s' /\ unt s' = unt s /\ env s' = applied_env sl (env s).
Proof.
  cbv zeta. unfold parse_apply. cbn [sel_of sel_proto sel_host sel_client].
  rewrite stage_proto_exact. destruct (cat_scheme (fproto s)) eqn:Cs; [reflexivity|]. cbn [bind].
  set (s1 := after_proto s).
  assert (A1 : client s1 = client s /\ fhost s1 = fhost s /\ fwd s1 = fwd s /\ unt s1 = unt s /\
               fport s1 = port_before_host (sel_of s) /\
               lookup k_url_scheme (env s1) = final_scheme (sel_of s) (env s) /\
               env s1 = cset (truthy (fproto s)) k_url_scheme (lower_latin1 (fproto s)) (env s)).
  { unfold s1, after_proto, final_scheme, port_before_host. cbn [sel_of sel_proto sel_port].
    model_names.
    destruct (truthy (fproto s)); cbn [client fhost fwd unt fport env andb cset]; repeat split; auto.
    - destruct (truthy (fport s)); reflexivity.
    - apply lookup_set_same. }
  destruct A1 as (A1c & A1h & A1f & A1u & A1o & A1s & A1e).
  set (s2 := if truthy (fhost s) then host_written s1 (http_host_value (sel_of s) (env s)) (final_port (sel_of s)) else s1).
  assert (SH : stage_host s1 = if empty_host (fhost s) then Malformed (if opt_truthy (fwd s) then h_fwd_host else h_xfh)
                               else if scheme_missing (sel_of s) (env s) then Exn KeyError else Ok s2).
  { rewrite stage_host_exact. cbv zeta. rewrite A1h, A1f, A1o, A1s.
    unfold s2, scheme_missing, http_host_value, final_port, empty_host, port_is_default. cbn [sel_of sel_host].
    destruct (truthy (fhost s)); cbn [andb]; [|reflexivity].
    destruct (negb _); [reflexivity|]. destruct (has_port (fhost s)); cbn [negb andb]; [reflexivity|].
    destruct (final_scheme (sel_of s) (env s)); [rewrite andb_false_r; reflexivity|].
    rewrite !andb_true_r. destruct (_ || _); reflexivity. }
  rewrite SH. destruct (empty_host (fhost s)); [reflexivity|].
  destruct (scheme_missing (sel_of s) (env s)); [reflexivity|]. cbn [bind].
  assert (A2 : client s2 = client s /\ fwd s2 = fwd s /\ unt s2 = unt s /\ fport s2 = final_port (sel_of s) /\
               env s2 = cset (truthy (fhost s)) k_http_host (http_host_value (sel_of s) (env s))
                          (cset (truthy (fhost s)) k_server_name (server_name_value (fhost s)) (env s1))).
  { unfold s2, final_port, host_written. cbn [sel_of sel_host]. rewrite A1h.
    destruct (truthy (fhost s)); cbn [client fwd unt fport env andb cset]; auto 6. }
  destruct A2 as (A2c & A2f & A2u & A2o & A2e).
  destruct (stage_port_facts s2) as (A3c & A3f & A3u & _).
  rewrite stage_client_spec, A3c, A2c, A3f, A2f.
  unfold applied_env. cbn [sel_of sel_host sel_proto sel_client].
  rewrite <- A1e, <- A2e, <- A2o, <- stage_port_env.
  destruct (client s) as [[|c0 c']|] eqn:Ec; cbn [cstr]; cbv zeta;
    [| destruct (bad_client (c0 :: c')); [reflexivity|] |];
    (eexists; split; [reflexivity|]; split; [cbn [unt]; congruence|]); reflexivity.
Qed.

Lemma scheme_present s : has_key k_url_scheme (env s) -> scheme_missing (sel_of s) (env s) = false.
Proof.
  intro Hk. unfold scheme_missing, final_scheme. model_names.
  destruct (truthy (sel_proto _)); [apply andb_false_r|].
  destruct (lookup k_url_scheme (env s)) eqn:E; [apply andb_false_r|destruct (Hk E)].
Qed.

(* with wsgi.url_scheme in the environ (every WSGI environ has it): refused exactly on selection_reason *)
Theorem apply_exact s : has_key k_url_scheme (env s) ->
  match selection_reason (sel_of s) with
  | Some c => parse_apply s = Malformed (category_header (opt_truthy (fwd s)) c)
  | None => exists s', parse_apply s = Ok s' /\ unt s' = unt s /\
                       forall key, lookup key (env s') = meta_out (sel_of s) (env s) key
  end.
Proof.
  intro Hk. pose proof (apply_closed s) as C. cbv zeta in C. unfold selection_reason.
  destruct (cat_scheme _); [exact C|]. destruct (empty_host _); [exact C|].
  rewrite (scheme_present s Hk) in C. destruct (bad_client _); [exact C|].
  destruct C as (s' & H1 & H2 & H3). exists s'. repeat split; auto.
  intro key. rewrite H3. apply applied_env_lookup.
Qed.

Definition present (key : str) (e : environ) : bool := match lookup key e with Some _ => true | None => false end.

Lemma pure_fwd_env p s key : beqb key k_fwd = false -> lookup key (env (pure_fwd p s)) = lookup key (env s).
Proof.
  intro H. unfold pure_fwd. destruct (fwd s) as [[|c r]|]; try reflexivity. cbn [env]. apply lookup_set_other. exact H.
Qed.

Lemma fwd_get_env tph s : env (blk_fwd_get tph s) = env s.
Proof. unfold blk_fwd_get. destruct (has tph n_fwd); reflexivity. Qed.

Lemma sel_env_other p tph e key : beqb key k_xff = false -> beqb key k_xfh = false -> beqb key k_fwd = false ->
  lookup key (env (sel_state p tph e)) = lookup key e.
Proof.
  intros H1 H2 H3. unfold sel_state. rewrite pure_fwd_env by exact H3. rewrite fwd_get_env.
  apply (pre_fwd_env p tph e key H1 H2).
Qed.

Lemma sel_env_xff p tph e :
  lookup k_xff (env (sel_state p tph e)) =
  if has tph n_xff then match lookup k_xff e with Some raw => Some (pruned raw (Pos.to_nat p)) | None => None end
  else lookup k_xff e.
Proof.
  unfold sel_state. rewrite pure_fwd_env by reflexivity. rewrite fwd_get_env, pure_by_env, pure_port_env, pure_proto_env.
  rewrite pure_xfh_env by reflexivity. unfold pure_xff. cbn [init_pst env].
  destruct (has tph n_xff); [|reflexivity]. destruct (lookup k_xff e) eqn:E; cbn [env]; [apply lookup_set_same|exact E].
Qed.

Lemma sel_env_xfh p tph e :
  lookup k_xfh (env (sel_state p tph e)) =
  if has tph n_xfh then match lookup k_xfh e with Some raw => Some (pruned raw (Pos.to_nat p)) | None => None end
  else lookup k_xfh e.
Proof.
  unfold sel_state. rewrite pure_fwd_env by reflexivity. rewrite fwd_get_env, pure_by_env, pure_port_env, pure_proto_env.
  assert (L : lookup k_xfh (env (pure_xff p tph (init_pst e))) = lookup k_xfh e) by (apply pure_xff_env; reflexivity).
  unfold pure_xfh. rewrite L.
  destruct (has tph n_xfh); [|exact L]. destruct (lookup k_xfh e) eqn:E; cbn [env]; [apply lookup_set_same|exact L].
Qed.

Lemma sel_env_fwd p tph e :
  lookup k_fwd (env (sel_state p tph e)) =
  if fwd_active tph e then Some (pruned (hdr hk_fwd e) (Pos.to_nat p)) else lookup k_fwd e.
Proof.
  unfold sel_state. fold (pre_fwd p tph e).
  pose proof (pre_fwd_env p tph e k_fwd eq_refl eq_refl) as L. pose proof (pre_fwd_fwd p tph e) as F.
  unfold fwd_active, pure_fwd, blk_fwd_get. model_names.
  destruct (has tph n_fwd); cbn [andb fwd env].
  - unfold hdr. rewrite L. destruct (lookup k_fwd e) as [[|c r]|] eqn:E; cbn [truthy env]; try exact L.
    apply lookup_set_same.
  - rewrite F. exact L.
Qed.

Lemma pure_fwd_unt p s : unt (pure_fwd p s) = unt s.
Proof. unfold pure_fwd. destruct (fwd s) as [[|c r]|]; reflexivity. Qed.

Lemma pure_xff_unt_eq p tph s :
  unt (pure_xff p tph s) = if has tph n_xff && present k_xff (env s) then u_without_for (unt s) else unt s.
Proof. unfold pure_xff, present. destruct (has tph n_xff); [|reflexivity]. destruct (lookup k_xff (env s)); reflexivity. Qed.
Lemma pure_xfh_unt_eq p tph s :
  unt (pure_xfh p tph s) = if has tph n_xfh && present k_xfh (env s) then u_without_host (unt s) else unt s.
Proof. unfold pure_xfh, present. destruct (has tph n_xfh); [|reflexivity]. destruct (lookup k_xfh (env s)); reflexivity. Qed.

Lemma sel_unt p tph e :
  unt (sel_state p tph e) =
  if has tph n_fwd then u_all_but_fwd
  else {| u_for := negb (has tph n_xff && present k_xff e); u_host := negb (has tph n_xfh && present k_xfh e);
          u_proto := negb (has tph n_xfproto); u_port := negb (has tph n_xfport); u_by := negb (has tph n_xfby);
          u_fwd := true |}.
Proof.
  unfold sel_state. rewrite pure_fwd_unt. unfold blk_fwd_get. destruct (has tph n_fwd); [reflexivity|].
  assert (L : present k_xfh (env (pure_xff p tph (init_pst e))) = present k_xfh e).
  { unfold present. rewrite pure_xff_env by reflexivity. reflexivity. }
  unfold pure_by, pure_port, pure_proto.
  destruct (has tph n_xfby), (has tph n_xfport), (has tph n_xfproto); cbn [unt];
    rewrite pure_xfh_unt_eq, pure_xff_unt_eq, L; cbn [init_pst env unt];
    destruct (has tph n_xfh && present k_xfh e), (has tph n_xff && present k_xff e); reflexivity.
Qed.

Lemma lookup_pop_if (b : bool) k key (e : environ) :
  lookup key (if b then pop k e else e) = if b && beqb key k then None else lookup key e.
Proof. destruct b; cbn [andb]; [apply lookup_pop|reflexivity]. Qed.

Lemma clear_lookup e u key :
  lookup key (clear_untrusted_headers e u) =
  if u_fwd u && beqb key k_fwd then None
  else if u_by u && beqb key k_xfby then None
  else if u_port u && beqb key k_xfport then None
  else if u_proto u && beqb key k_xfproto then None
  else if u_host u && beqb key k_xfh then None
  else if u_for u && beqb key k_xff then None
  else lookup key e.
Proof. unfold clear_untrusted_headers. rewrite !lookup_pop_if. reflexivity. Qed.

Lemma not_proxy_key key : is_proxy_key key = false ->
  beqb key k_xff = false /\ beqb key k_xfh = false /\ beqb key k_xfproto = false /\ beqb key k_xfport = false /\
  beqb key k_xfby = false /\ beqb key k_fwd = false.
Proof.
  unfold is_proxy_key, proxy_keys. cbn [existsb]. intro H.
  repeat (apply orb_false_iff in H as [? H]). repeat split; assumption.
Qed.

Lemma meta_out_proxy_key sl e key : is_proxy_key key = true -> meta_out sl e key = lookup key e.
Proof.
  unfold is_proxy_key, proxy_keys. cbn [existsb]. intro H.
  repeat (apply orb_true_iff in H as [H|H]); try discriminate; apply beqb_eq in H; subst key; reflexivity.
Qed.

Lemma meta_out_ext sl e1 e2 key :
  (forall k, is_proxy_key k = false -> lookup k e1 = lookup k e2) -> is_proxy_key key = false ->
  meta_out sl e1 key = meta_out sl e2 key.
Proof.
  intros H Hk. unfold meta_out, http_host_value, final_scheme.
  rewrite (H key Hk). rewrite (H mk_url_scheme eq_refl). reflexivity.
Qed.

Lemma list_reason_holds tph name key e c0 c : list_reason tph name key e c0 = Some c ->
  c = c0 /\ trusts tph name && match lookup key e with Some raw => cat_list_quoting raw | None => false end = true.
Proof.
  unfold list_reason. destruct (trusts tph name); [|discriminate]. destruct (lookup key e) as [raw|]; [|discriminate].
  destruct (cat_list_quoting raw); [|discriminate]. intro H. injection H as <-. auto.
Qed.

Lemma single_reason_holds tph name key e cq cs c : single_reason tph name key e cq cs = Some c ->
  c = cq /\ trusts tph name && cat_single_quoting (hdr key e) = true \/
  c = cs /\ trusts tph name && cat_several_values (hdr key e) = true.
Proof.
  unfold single_reason. destruct (trusts tph name); [|discriminate].
  destruct (cat_single_quoting (hdr key e)); [intro H; injection H as <-; auto|].
  destruct (cat_several_values (hdr key e)); [intro H; injection H as <-; auto|discriminate].
Qed.

Lemma syntax_reason_header tph e c b : syntax_reason tph e = Some c -> category_header b c = syntax_header c.
Proof.
  unfold syntax_reason.
  destruct (list_reason tph nm_xff hk_xff e CatXffQuoting) eqn:E1; cbn [orelse].
  { intro H. injection H as <-. apply list_reason_holds in E1 as [-> _]. reflexivity. }
  destruct (list_reason tph nm_xfh hk_xfh e CatXfhQuoting) eqn:E2; cbn [orelse].
  { intro H. injection H as <-. apply list_reason_holds in E2 as [-> _]. reflexivity. }
  destruct (single_reason tph nm_xfproto hk_xfproto e CatProtoQuoting CatProtoSeveral) eqn:E3; cbn [orelse].
  { intro H. injection H as <-. apply single_reason_holds in E3 as [[-> _]|[-> _]]; reflexivity. }
  destruct (single_reason tph nm_xfport hk_xfport e CatPortQuoting CatPortSeveral) eqn:E4; cbn [orelse].
  { intro H. injection H as <-. apply single_reason_holds in E4 as [[-> _]|[-> _]]; reflexivity. }
  destruct (fwd_active tph e); [|discriminate].
  intro H. pose proof (forwarded_reason_header _ _ H) as Hh.
  destruct c; try reflexivity; vm_compute in Hh; discriminate.
Qed.

Lemma proxy_key_cases key : is_proxy_key key = true ->
  key = k_xff \/ key = k_xfh \/ key = k_xfproto \/ key = k_xfport \/ key = k_xfby \/ key = k_fwd.
Proof.
  unfold is_proxy_key, proxy_keys. cbn [existsb]. intro H.
  repeat (apply orb_true_iff in H as [H|H]); try discriminate; apply beqb_eq in H; subst key; auto 10.
Qed.

Lemma middleware_trusted c e p : on_trusted_path c e = true -> trusted_proxy_count c = Zpos p ->
  middleware c e =
  bind (answer (syntax_reason (tph_of c) e) (sel_state p (tph_of c) e)) (fun s =>
  bind (parse_apply s) (fun s' =>
  Ok (if clear_untrusted c then clear_untrusted_headers (env s') (unt s') else env s'))).
Proof.
  intros Hp Hc. unfold middleware, on_trusted_path in *.
  destruct (lookup k_remote_addr e) as [peer|]; [|discriminate]. rewrite Hp.
  unfold parse_proxy_headers. fold (tph_of c). rewrite Hc, select_exact.
  destruct (answer _ _) as [s| |]; cbn [bind]; try reflexivity. destruct (parse_apply s); reflexivity.
Qed.

Lemma out_lookup tph p (clr : bool) e s' :
  let st := sel_state p tph e in
  unt s' = unt st ->
  (forall key, lookup key (env s') = meta_out (select tph (Pos.to_nat p) e) (env st) key) ->
  forall key, lookup key (if clr then clear_untrusted_headers (env s') (unt s') else env s') =
              spec_out tph (Pos.to_nat p) clr e key.
Proof.
  intros st Hunt He key. unfold spec_out.
  destruct (is_proxy_key key) eqn:Ek.
  - assert (Hl : lookup key (env s') = lookup key (env st)) by (rewrite He; apply meta_out_proxy_key; exact Ek).
    pose proof (sel_unt p tph e) as SU. fold st in SU.
    pose proof (sel_env_xff p tph e) as X1. pose proof (sel_env_xfh p tph e) as X2. pose proof (sel_env_fwd p tph e) as X3.
    fold st in X1, X2, X3.
    assert (Xo : forall k, beqb k k_xff = false -> beqb k k_xfh = false -> beqb k k_fwd = false ->
                 lookup k (env st) = lookup k e) by (intros; apply sel_env_other; assumption).
    unfold headers_out, header_out, kind_untrusted.
    model_names.
    assert (FA : fwd_active tph e = has tph n_fwd && truthy (hdr k_fwd e)) by reflexivity.
    apply proxy_key_cases in Ek.
    (* per key: cleared or not; Forwarded trusted or not; the kind trusted or not; the header present or not *)
    destruct Ek as [->|[->|[->|[->|[->| ->]]]]];
      (destruct clr; [rewrite clear_lookup, Hunt, SU|]; rewrite Hl; kb; rewrite ?andb_false_r, ?andb_true_r; cbn [andb orb negb];
       rewrite ?X1, ?X2, ?X3, ?FA; try (rewrite Xo by reflexivity); unfold present, hdr).
    1, 2: destruct (has tph n_fwd), (has tph n_xff), (lookup k_xff e); reflexivity.
    1, 2: destruct (has tph n_fwd), (has tph n_xfh), (lookup k_xfh e); reflexivity.
    1, 2: destruct (has tph n_fwd), (has tph n_xfproto), (lookup k_xfproto e); reflexivity.
    1, 2: destruct (has tph n_fwd), (has tph n_xfport), (lookup k_xfport e); reflexivity.
    1, 2: destruct (has tph n_fwd), (has tph n_xfby), (lookup k_xfby e); reflexivity.
    1, 2: destruct (has tph n_fwd), (lookup k_fwd e) as [[|c r]|]; reflexivity.
  - destruct (not_proxy_key key Ek) as (N1 & N2 & N3 & N4 & N5 & N6).
    assert (Hfin : lookup key (env s') = meta_out (select tph (Pos.to_nat p) e) e key).
    { rewrite He. apply meta_out_ext; [|exact Ek].
      intros k Hk'. destruct (not_proxy_key k Hk') as (M1 & M2 & _ & _ & _ & M6). apply sel_env_other; assumption. }
    destruct clr; [|exact Hfin].
    rewrite clear_lookup, N1, N2, N3, N4, N5, N6, !andb_false_r. exact Hfin.
Qed.

Theorem trusted_exact c e p :
  on_trusted_path c e = true -> has_key k_url_scheme e -> trusted_proxy_count c = Zpos p ->
  match refusal_reason (tph_of c) (Pos.to_nat p) e with
  | Some cat => middleware c e = Malformed (category_header (fwd_active (tph_of c) e) cat)
  | None => exists o, middleware c e = Ok o /\
                      forall key, lookup key o = spec_out (tph_of c) (Pos.to_nat p) (clear_untrusted c) e key
  end.
Proof.
  intros Hp Hk Hc. rewrite (middleware_trusted c e p Hp Hc). unfold refusal_reason. set (tph := tph_of c).
  destruct (syntax_reason tph e) as [cat|] eqn:Es; cbn [orelse answer bind].
  { rewrite (syntax_reason_header _ _ _ _ Es). reflexivity. }
  assert (Hst : parse_select e (Zpos p) tph = Ok (sel_state p tph e)) by (rewrite select_exact, Es; reflexivity).
  destruct (sel_state_selection p tph e) as [Hsel Hfw].
  pose proof (apply_exact _ (select_keys _ _ _ _ _ Hst Hk)) as AE. rewrite Hsel, Hfw in AE.
  destruct (selection_reason (select tph (Pos.to_nat p) e)) as [cat|]; [rewrite AE; reflexivity|].
  destruct AE as (s' & -> & Hu & He). cbn [bind]. eexists. split; [reflexivity|].
  apply out_lookup; assumption.
Qed.

(* an accepted request is handed on as Spec.spec_out says, whether or not wsgi.url_scheme is there *)
Theorem accepted_exact c e p o :
  on_trusted_path c e = true -> trusted_proxy_count c = Zpos p -> middleware c e = Ok o ->
  forall key, lookup key o = spec_out (tph_of c) (Pos.to_nat p) (clear_untrusted c) e key.
Proof.
  intros Hp Hc H. rewrite (middleware_trusted c e p Hp Hc) in H. set (tph := tph_of c) in *.
  destruct (syntax_reason tph e); [discriminate|]. cbn [answer bind] in H.
  pose proof (apply_closed (sel_state p tph e)) as C. cbv zeta in C.
  destruct (sel_state_selection p tph e) as [Hsel _]. rewrite Hsel in C.
  destruct (cat_scheme _); [rewrite C in H; discriminate|]. destruct (empty_host _); [rewrite C in H; discriminate|].
  destruct (scheme_missing _ _); [rewrite C in H; discriminate|]. destruct (bad_client _); [rewrite C in H; discriminate|].
  destruct C as (s' & Hs & Hu & He). rewrite Hs in H. injection H as <-.
  apply out_lookup; [exact Hu|]. intro key. rewrite He. apply applied_env_lookup.
Qed.
