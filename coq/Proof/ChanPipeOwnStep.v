(* Proof/ChanPipeOwnStep.v -- layer L1 is preserved by every step.  Seven steps change the
   request list or the dispatcher queue; six lemmas, stated on the update the model makes, cover
   them (L1_take serves two); all others go through L1_quiet. *)
From Coq Require Import List Arith Bool ZArith Lia.
From WV Require Import Model.ChanPipe Proof.ChanPipeBase Proof.ChanPipeOwn.
Import ListNotations.

Lemma is_c2_owner : forall pc, is_c2 pc = true -> wk_owner pc = true.
Proof. destruct pc; simpl; congruence. Qed.
Lemma is_sc_owner : forall pc, is_sc pc = true -> wk_owner pc = true.
Proof. destruct pc; simpl; congruence. Qed.

Section Moves.
Variables (s : shared) (i : iost) (w : nat -> wkst).
Hypothesis H : L1 {| sh := s; io := i; wk := w |}.

(* while a worker owns the connection nothing is queued and nobody else owns it *)
Lemma owner_alone : forall me, wk_owner (wpc (w me)) = true ->
  queue s = 0 /\ forall j, j <> me -> wk_owner (wpc (w j)) = false.
Proof.
  intros me Hme. split.
  - destruct (no_owner_dec _ H) as [Q|N]; auto. specialize (N me). cbn in N. congruence.
  - intros j Hj. destruct (wk_owner (wpc (w j))) eqn:E; auto.
    exfalso. apply Hj. apply (l1_uniq _ H); auto.
Qed.

(* handler_thread takes the channel off the queue *)
Lemma L1_take : forall me x s',
  queue s = S (queue s') -> requests s' = requests s -> connected s' = connected s ->
  wa1 (wpc x) = (true, false, false, false) ->
  L1 {| sh := s'; io := i; wk := upd w me x |}.
Proof.
  intros me x s' Hq Hr Hc Hx. injection Hx as X1 X2 X3 X4.
  pose proof (l1_q _ H) as Q. cbn in Q.
  assert (Q1 : queue s = 1) by lia. assert (Q0 : queue s' = 0) by lia.
  pose proof (l1_qown _ H Q1) as Hno. pose proof (l1_qreq _ H Q1) as Hne. cbn in Hno, Hne.
  assert (Hme : forall j, wk_owner (wpc (upd w me x j)) = true -> j = me).
  { intro j. upd_cases j me; auto. rewrite Hno. discriminate. }
  split; cbn; rewrite ?Hr, ?Hc, ?Q0; try lia; try discriminate.
  - intros j k A B. rewrite (Hme j A), (Hme k B). reflexivity.
  - intros; exact Hne.
  - intros C N. specialize (N me). rewrite upd_same in N. congruence.
  - intro j. upd_cases j me; [congruence | apply (l1_c2 _ H j)].
  - intro j. upd_cases j me; [congruence | apply (l1_sc _ H j)].
  - apply (l1_at _ H).
  - intros A B. destruct (l1_hand _ H A B) as [Z _]. cbn in Z. lia.
Qed.

(* the close branch of service() clears the request list and gives the connection up *)
Lemma L1_clear : forall me x,
  wk_owner (wpc (w me)) = true -> wa1 (wpc x) = (false, false, false, false) ->
  L1 {| sh := set_requests s []; io := i; wk := upd w me x |}.
Proof.
  intros me x Hme Hx. injection Hx as X1 X2 X3 X4.
  destruct (owner_alone me Hme) as [Q0 Hoth].
  assert (Hno : forall j, wk_owner (wpc (upd w me x j)) = false) by (intro j; upd_cases j me; auto).
  split; cbn; rewrite ?Q0; try lia; try discriminate; try congruence; auto.
  (* at: the I/O thread is not in the hand-over while a worker owns the connection *)
  intro A. exfalso. pose proof (l1_at _ H A) as B.
  destruct (l1_hand _ H (atacq_handing _ A) B) as [_ N]. cbn in N. rewrite N in Hme. discriminate.
Qed.

(* the keep branch pops the request it has served; the I/O thread is not inside received() *)
Lemma L1_pop : forall me x p,
  wk_owner (wpc (w me)) = true -> io_handing i = false ->
  wa1 (wpc x) = (true, true, false, false) ->
  L1 {| sh := set_popped (set_requests s (tl (requests s))) p; io := i; wk := upd w me x |}.
Proof.
  intros me x p Hme Hh Hx. injection Hx as X1 X2 X3 X4.
  destruct (owner_alone me Hme) as [Q0 Hoth].
  assert (Htl : tl (requests s) <> [] -> requests s <> []) by (destruct (requests s); simpl; congruence).
  assert (Hat : is_atacq (ipc i) = false).
  { destruct (is_atacq (ipc i)) eqn:A; auto. apply atacq_handing in A. congruence. }
  split; cbn; rewrite ?Q0, ?Hh, ?Hat; try lia; try discriminate.
  - intros j k. upd_cases j me; upd_cases k me; auto; intros A B; rewrite Hoth in *; auto; discriminate.
  - intro j. upd_cases j me; [congruence | rewrite Hoth by auto; discriminate].
  - intros C N. specialize (N me). rewrite upd_same in N. congruence.
  - intro j. upd_cases j me; [congruence | intros A B; apply (l1_c2 _ H j); auto].
  - intro j. upd_cases j me; [congruence | intro A; pose proof (l1_sc _ H j A) as E; cbn in E; rewrite E; reflexivity].
Qed.

(* add_task by the finishing worker: the connection goes back to the queue *)
Lemma L1_add_wk : forall me x t,
  wk_owner (wpc (w me)) = true -> postpop (wpc (w me)) = false ->
  wa1 (wpc x) = (false, false, false, false) ->
  L1 {| sh := set_queue (set_dlock s t) (S (queue s)); io := i; wk := upd w me x |}.
Proof.
  intros me x t Hme Hpp Hx. injection Hx as X1 X2 X3 X4.
  destruct (owner_alone me Hme) as [Q0 Hoth].
  pose proof (l1_ownreq _ H me Hme Hpp) as Hne. cbn in Hne.
  assert (Hno : forall j, wk_owner (wpc (upd w me x j)) = false) by (intro j; upd_cases j me; auto).
  split; cbn; rewrite ?Q0; try lia; auto.
  - intros j k A. rewrite Hno in A. discriminate.
  - intro j. upd_cases j me; [congruence | apply (l1_c2 _ H j)].
  - intro j. upd_cases j me; [congruence | apply (l1_sc _ H j)].
  - apply (l1_at _ H).
  - intros A B. destruct (l1_hand _ H A B) as [_ N]. cbn in N. rewrite N in Hme. discriminate.
Qed.

(* add_task by the I/O thread for the first request *)
Lemma L1_add_io : forall i' t,
  is_atacq (ipc i) = true -> io_handing i' = false -> is_atacq (ipc i') = false ->
  L1 {| sh := set_queue (set_dlock s t) (S (queue s)); io := i'; wk := w |}.
Proof.
  intros i' t Ha Hh' Ha'.
  pose proof (l1_at _ H Ha) as Hlen. cbn in Hlen.
  destruct (l1_hand _ H (atacq_handing _ Ha) Hlen) as [Q0 Hno]. cbn in Q0, Hno.
  split; cbn; rewrite ?Q0, ?Hh', ?Ha'; try lia; try discriminate; auto; try apply H.
  intros _ E. rewrite E in Hlen. discriminate.
Qed.

(* requests.append: the hand-over of a first request begins *)
Lemma L1_append : forall i' x a,
  (requests s = [] -> queue s = 0 /\ forall j, wk_owner (wpc (w j)) = false) ->
  io_handing i = false -> io_handing i' = true -> is_atacq (ipc i') = false ->
  L1 {| sh := set_arrivals (set_requests s (requests s ++ [x])) a; io := i'; wk := w |}.
Proof.
  intros i' x a Hemp Hh Hh' Ha'.
  split; cbn; rewrite ?Hh', ?Ha'; try discriminate; try apply H.
  - intros; apply app_one_nonnil.
  - intros; apply app_one_nonnil.
  - intros C N _ L. specialize (L eq_refl). rewrite len_app_one in L.
    apply (l1_cover _ H); auto; cbn; [|congruence]. intro E. rewrite E in L. simpl in L. lia.
  - intros j A _. destruct (requests s) eqn:E; [|apply (l1_c2 _ H j A); cbn; congruence].
    destruct (Hemp eq_refl) as [_ N]. apply is_c2_owner in A. congruence.
  - intros j A. exfalso. pose proof (l1_sc _ H j A) as E. destruct (Hemp E) as [_ N].
    apply is_sc_owner in A. congruence.
  - intros _ L. apply len1_app_one in L. auto.
Qed.

End Moves.

Section Step.
Variable P : params.

(* L1_quiet with the side conditions computed; what is left is stated at each use *)
Ltac quiet1_io HL1 :=
  apply (L1_quiet _ _) with (7 := HL1); cbn;
  [ reflexivity | reflexivity | first [ reflexivity | let X := fresh in intro X; first [ exact X | discriminate X ] ]
  | first [ left; reflexivity | right; split; [reflexivity|] ]
  | let X := fresh in intro X; first [ left; exact X | discriminate X | right ]
  | intro; left; reflexivity ].
Ltac quiet1_wk HL1 me Hw :=
  apply (L1_quiet _ _) with (7 := HL1); cbn;
  [ reflexivity | reflexivity | let X := fresh in intro X; exact X | left; reflexivity | left; assumption
  | let j := fresh "j" in intro j; unfold upd; destruct (Nat.eqb_spec j me);
    [ subst j; rewrite Hw; cbn;
      first [ left; reflexivity
            | right; unfold wk1_ok; cbn; repeat split; intros; try discriminate; try assumption ]
    | left; reflexivity ] ].

Theorem L1_step : forall st c st' l, L0 st -> L1 st -> step P st c = Some (st', l) -> L1 st'.
Proof.
  intros st c st' l HL0 HL1 Hs. destruct c as [e | me e].
  - pose proof (io_rl_empty_no_owner st HL0 HL1) as Hemp.
    step_io Hs; fl_out; cbn [sh io wk ipc] in *.
    all: try solve [quiet1_io HL1].
    + (* IoRcApp2 *) apply (L1_append _ _ _ HL1); try reflexivity. apply Hemp. reflexivity.
    + (* IoRcLen, one request *) quiet1_io HL1. apply Nat.eqb_eq. assumption.
    + (* IoRcLen, more than one *) quiet1_io HL1. apply Nat.eqb_neq. assumption.
    + (* IoRcAt AtAcq *) apply (L1_add_io _ _ _ HL1); reflexivity.
  - pose proof (L1_wk1 _ HL1 me) as Hk.
    pose proof (lock_ok_excl _ _ _ _ TIo (TW me) (l0_r _ HL0)) as Hrl. cbn in Hrl.
    (* K1 K2 K3: what L1 says of the worker at its old program point *)
    step_wk Hs; fl_out; cbn [sh io wk ipc] in *; unfold wk1_ok in Hk; cbn in Hk; destruct Hk as (K1 & K2 & K3).
    all: try solve [quiet1_wk HL1 me Hw].
    + (* WAcqD *) eapply (L1_take _ _ _ HL1); cbn; first [reflexivity | assumption].
    + (* WParked *) eapply (L1_take _ _ _ HL1); cbn; first [reflexivity | assumption].
    + (* WSvReq, IndexError *) quiet1_wk HL1 me Hw. congruence.
    + (* WCbClr *) apply (L1_clear _ _ _ HL1 me); rewrite ?Hw; reflexivity.
    + (* WKbPop *) apply (L1_pop _ _ _ HL1 me); try (rewrite ?Hw; reflexivity).
      destruct (io_handing i) eqn:X; auto. apply handing_rl in X. discriminate (Hrl X eq_refl).
    + (* WKbReq, no request left *) quiet1_wk HL1 me Hw. congruence.
    + (* WKbReq, a request is pending *) quiet1_wk HL1 me Hw. congruence.
    + (* WKbAt AtAcq *) apply (L1_add_wk _ _ _ HL1 me); rewrite ?Hw; reflexivity.
    + (* WKbConn2: still connected, so no request is pending (K2) *)
      quiet1_wk HL1 me Hw. discriminate (K2 eq_refl ltac:(assumption)).
    + (* WKbConn2 -> send_continue *) quiet1_wk HL1 me Hw.
      destruct (requests s) eqn:R; auto. discriminate (K2 eq_refl); congruence.
    + quiet1_wk HL1 me Hw. discriminate (K2 eq_refl ltac:(assumption)).
    + quiet1_wk HL1 me Hw. discriminate (K2 eq_refl ltac:(assumption)).
    + quiet1_wk HL1 me Hw. discriminate (K2 eq_refl ltac:(assumption)).
    + (* WKbSc ScRel: the request list is empty (K3) *)
      quiet1_wk HL1 me Hw. specialize (K3 eq_refl). contradiction.
Qed.
End Step.
