(* Header parsing and hop selection of the model in closed form, for a count k >= 1.  Every block of
   parse_proxy_headers either refuses, exactly on the category Spec.ProxySpec.syntax_reason names, or
   continues with a state given by an explicit expression over the specification's vocabulary. *)
From Coq Require Import String.
From Coq Require Import List NArith ZArith Bool Lia.
From WV Require Import Lib.PyBytes Lib.PyStrProxy Lib.Regex Lib.RegexDec Gen.GenRegex Spec.Grammar Model.Proxy
  Spec.ProxySpec Proof.ProxyDict Proof.ProxyStr Proof.ProxyStages Proof.ProxyTotal
  Proof.ProxyCats Proof.ProxyUnq.
Import ListNotations.
Local Open Scope N_scope.

Lemma suffix_map {A B} (g : A -> B) l k : suffix (map g l) k = map g (suffix l k).
Proof. unfold suffix. rewrite map_length. apply skipn_map. Qed.

Lemma elements_nonempty raw : elements raw <> [].
Proof. apply split_nonempty. Qed.

Lemma suffix_elements raw p : exists x r, suffix (elements raw) (Pos.to_nat p) = x :: r /\ picked raw (Pos.to_nat p) = x.
Proof.
  pose proof (suffix_nonempty (elements raw) (Pos.to_nat p) (elements_nonempty raw)) as Hn.
  assert (Hp : (1 <= Pos.to_nat p)%nat) by lia. specialize (Hn Hp).
  destruct (suffix (elements raw) (Pos.to_nat p)) as [|x r] eqn:E; [congruence|].
  exists x, r. split; [reflexivity|]. unfold picked. rewrite <- suffix_hd, E. reflexivity.
Qed.

Lemma index0_lastk {B} (g : str -> B) raw p :
  hd_error (py_lastk (map g (elements raw)) (Zpos p)) = Some (g (picked raw (Pos.to_nat p))).
Proof.
  rewrite py_lastk_pos, suffix_map. destruct (suffix_elements raw p) as (x & r & -> & ->). reflexivity.
Qed.

Lemma index0_ok (l : list str) x : hd_error l = Some x -> index0 l = Ok x.
Proof. destruct l; simpl; congruence. Qed.

(* The specification spells "in trusted_proxy_headers", the header names and the environ keys a second
   time (it is written without reference to the model); the proofs fold them to the model's. *)
Ltac model_names :=
  change trusts with has in *;
  change nm_xff with n_xff in *; change nm_xfh with n_xfh in *; change nm_xfproto with n_xfproto in *;
  change nm_xfport with n_xfport in *; change nm_xfby with n_xfby in *; change nm_fwd with n_fwd in *;
  change hk_xff with k_xff in *; change hk_xfh with k_xfh in *; change hk_xfproto with k_xfproto in *;
  change hk_xfport with k_xfport in *; change hk_xfby with k_xfby in *; change hk_fwd with k_fwd in *;
  change mk_remote_addr with k_remote_addr in *; change mk_remote_host with k_remote_host in *;
  change mk_remote_port with k_remote_port in *; change mk_server_name with k_server_name in *;
  change mk_server_port with k_server_port in *; change mk_http_host with k_http_host in *;
  change mk_url_scheme with k_url_scheme in *.

Lemma trusts_has tph name : trusts tph name = has tph name.
Proof. reflexivity. Qed.

Lemma hdr_header_or_empty key e : hdr key e = header_or_empty key e.
Proof. reflexivity. Qed.

Definition syntax_header (c : category) : str := category_header false c.

Definition answer (o : option category) (s : pst) : result pst :=
  match o with Some c => Malformed (syntax_header c) | None => Ok s end.

Lemma answer_bind o rest (s sfin : pst) (K : pst -> result pst) :
  (o = None -> K s = answer rest sfin) -> bind (answer o s) K = answer (orelse o rest) sfin.
Proof. destruct o; cbn [answer bind orelse]; auto. Qed.

Lemma list_reason_env tph name key e1 e2 c : lookup key e1 = lookup key e2 ->
  list_reason tph name key e1 c = list_reason tph name key e2 c.
Proof. unfold list_reason. intros ->. reflexivity. Qed.

Lemma single_reason_env tph name key e1 e2 cq cs : lookup key e1 = lookup key e2 ->
  single_reason tph name key e1 cq cs = single_reason tph name key e2 cq cs.
Proof. intro H. unfold single_reason. rewrite (hdr_env _ _ _ H). reflexivity. Qed.

Definition u_without_for (u : uset) : uset :=
  {| u_for := false; u_host := u_host u; u_proto := u_proto u; u_port := u_port u; u_by := u_by u; u_fwd := u_fwd u |}.
Definition u_without_host (u : uset) : uset :=
  {| u_for := u_for u; u_host := false; u_proto := u_proto u; u_port := u_port u; u_by := u_by u; u_fwd := u_fwd u |}.
Definition u_without_proto (u : uset) : uset :=
  {| u_for := u_for u; u_host := u_host u; u_proto := false; u_port := u_port u; u_by := u_by u; u_fwd := u_fwd u |}.
Definition u_without_port (u : uset) : uset :=
  {| u_for := u_for u; u_host := u_host u; u_proto := u_proto u; u_port := false; u_by := u_by u; u_fwd := u_fwd u |}.
Definition u_without_by (u : uset) : uset :=
  {| u_for := u_for u; u_host := u_host u; u_proto := u_proto u; u_port := u_port u; u_by := false; u_fwd := u_fwd u |}.

Definition pure_xff (p : positive) (tph : list str) (s : pst) : pst :=
  if has tph n_xff then
    match lookup k_xff (env s) with
    | Some raw =>
      {| env := set k_xff (pruned raw (Pos.to_nat p)) (env s);
         client := Some (xff_address (picked raw (Pos.to_nat p)));
         fhost := fhost s; fproto := fproto s; fport := fport s; fwd := fwd s; unt := u_without_for (unt s) |}
    | None => s
    end
  else s.
Lemma blk_xff_exact p tph s : u_for (unt s) = true ->
  blk_xff (Zpos p) tph s = answer (list_reason tph nm_xff hk_xff (env s) CatXffQuoting) (pure_xff p tph s).
Proof.
  intro Hu. unfold blk_xff, list_reason, pure_xff. model_names. destruct (has tph n_xff); [|reflexivity].
  destruct (lookup k_xff (env s)) as [raw|]; [|reflexivity].
  cbv zeta. rewrite (mapM_decide xff_hop _ _ _ xff_hop_value).
  unfold cat_list_quoting. change comma with c_comma.
  destruct (existsb (fun h => bad_quoting (strip h)) (split raw [c_comma])); [reflexivity|].
  cbn [bind]. change (split raw [c_comma]) with (elements raw).
  rewrite (index0_ok _ _ (index0_lastk xff_address raw p)). cbn [bind].
  unfold rm_for. rewrite Hu. cbn [bind catch_all].
  unfold pruned, elements. rewrite py_lastk_pos. reflexivity.
Qed.

Definition pure_xfh (p : positive) (tph : list str) (s : pst) : pst :=
  if has tph n_xfh then
    match lookup k_xfh (env s) with
    | Some raw =>
      {| env := set k_xfh (pruned raw (Pos.to_nat p)) (env s);
         client := client s;
         fhost := field_value (strip (picked raw (Pos.to_nat p)));
         fproto := fproto s; fport := fport s; fwd := fwd s; unt := u_without_host (unt s) |}
    | None => s
    end
  else s.
Lemma blk_xfh_exact p tph s : u_host (unt s) = true ->
  blk_xfh (Zpos p) tph s = answer (list_reason tph nm_xfh hk_xfh (env s) CatXfhQuoting) (pure_xfh p tph s).
Proof.
  intro Hu. unfold blk_xfh, list_reason, pure_xfh. model_names. destruct (has tph n_xfh); [|reflexivity].
  destruct (lookup k_xfh (env s)) as [raw|]; [|reflexivity].
  cbv zeta. rewrite (mapM_decide xfh_hop _ _ _ xfh_hop_value).
  unfold cat_list_quoting. change comma with c_comma.
  destruct (existsb (fun h => bad_quoting (strip h)) (split raw [c_comma])); [reflexivity|].
  cbn [bind]. change (split raw [c_comma]) with (elements raw).
  rewrite (index0_ok _ _ (index0_lastk (fun h => field_value (strip h)) raw p)). cbn [bind].
  unfold rm_host. rewrite Hu. cbn [bind catch_all].
  unfold pruned, elements. rewrite py_lastk_pos. reflexivity.
Qed.

Lemma hdr_absent_good key e : lookup key e = None ->
  cat_single_quoting (hdr key e) = false /\ cat_several_values (hdr key e) = false.
Proof. intro H. unfold hdr. rewrite H. split; reflexivity. Qed.

Definition pure_proto (tph : list str) (s : pst) : pst :=
  if has tph n_xfproto then
    {| env := env s; client := client s; fhost := fhost s; fproto := field_value (hdr k_xfproto (env s));
       fport := fport s; fwd := fwd s; unt := u_without_proto (unt s) |}
  else s.

Lemma blk_proto_exact tph s : u_proto (unt s) = true ->
  blk_proto tph s =
  answer (single_reason tph nm_xfproto hk_xfproto (env s) CatProtoQuoting CatProtoSeveral) (pure_proto tph s).
Proof.
  intro Hu. unfold blk_proto, single_reason, pure_proto. model_names. destruct (has tph n_xfproto); [|reflexivity].
  rewrite single_value_exact. unfold handler_single.
  destruct (lookup k_xfproto (env s)) as [v|] eqn:El.
  - destruct (cat_single_quoting (hdr k_xfproto (env s))); [reflexivity|].
    destruct (cat_several_values (hdr k_xfproto (env s))); [reflexivity|].
    cbn [bind orb]. unfold rm_proto. rewrite Hu. reflexivity.
  - destruct (hdr_absent_good _ _ El) as [-> ->]. cbn [bind orb]. unfold rm_proto. rewrite Hu. reflexivity.
Qed.

Definition pure_port (tph : list str) (s : pst) : pst :=
  if has tph n_xfport then
    {| env := env s; client := client s; fhost := fhost s; fproto := fproto s;
       fport := field_value (hdr k_xfport (env s)); fwd := fwd s; unt := u_without_port (unt s) |}
  else s.

Lemma blk_port_exact tph s : u_port (unt s) = true ->
  blk_port tph s =
  answer (single_reason tph nm_xfport hk_xfport (env s) CatPortQuoting CatPortSeveral) (pure_port tph s).
Proof.
  intro Hu. unfold blk_port, single_reason, pure_port. model_names. destruct (has tph n_xfport); [|reflexivity].
  rewrite single_value_exact. unfold handler_single.
  destruct (lookup k_xfport (env s)) as [v|] eqn:El.
  - destruct (cat_single_quoting (hdr k_xfport (env s))); [reflexivity|].
    destruct (cat_several_values (hdr k_xfport (env s))); [reflexivity|].
    cbn [bind orb]. unfold rm_port. rewrite Hu. reflexivity.
  - destruct (hdr_absent_good _ _ El) as [-> ->]. cbn [bind orb]. unfold rm_port. rewrite Hu. reflexivity.
Qed.

Definition pure_by (tph : list str) (s : pst) : pst :=
  if has tph n_xfby then
    {| env := env s; client := client s; fhost := fhost s; fproto := fproto s; fport := fport s; fwd := fwd s;
       unt := u_without_by (unt s) |}
  else s.

Lemma blk_by_exact tph s : u_by (unt s) = true -> blk_by tph s = Ok (pure_by tph s).
Proof.
  intro Hu. unfold blk_by, pure_by. destruct (has tph n_xfby); [|reflexivity].
  unfold rm_by. rewrite Hu. reflexivity.
Qed.

Lemma fold_proj (g : forwarded_t -> str) (name : str) :
  (forall acc q, g (upd_pair acc q) =
                 if memb eqc q && beqb (pair_token q) name then field_value (pair_value q) else g acc) ->
  forall l a, g (fold_left (fun acc p => upd_pair acc (lower_latin1 p)) l a) =
              fold_left (fun acc p => let q := lower_latin1 p in
                                      if memb eqc q && beqb (pair_token q) name then field_value (pair_value q) else acc)
                        l (g a).
Proof.
  intros Hg. induction l as [|x l IH]; intro a; [reflexivity|].
  cbn [fold_left]. rewrite IH, Hg. reflexivity.
Qed.

(* a pair writes the field its token names, and no other ("by", "for", "host", "proto" are different) *)
Lemma upd_fields acc q :
  let upd name old := if memb eqc q && beqb (pair_token q) name then field_value (pair_value q) else old in
  f_for (upd_pair acc q) = upd t_for (f_for acc) /\ f_host (upd_pair acc q) = upd t_host (f_host acc) /\
  f_proto (upd_pair acc q) = upd t_proto (f_proto acc).
Proof.
  unfold upd_pair. destruct (memb eqc q); [|auto]. cbn [andb]. cbv zeta.
  change t_for with s_for. change t_host with s_host. change t_proto with s_proto.
  destruct (beqb (pair_token q) s_by) eqn:E1; [apply beqb_eq in E1; rewrite E1; auto|].
  destruct (beqb (pair_token q) s_for) eqn:E2; [apply beqb_eq in E2; rewrite E2; auto|].
  destruct (beqb (pair_token q) s_host) eqn:E3; [apply beqb_eq in E3; rewrite E3; auto|].
  destruct (beqb (pair_token q) s_proto); auto.
Qed.

Lemma element_for el : f_for (element_fields el) = fwd_field t_for el.
Proof. unfold element_fields, fwd_field. rewrite (fold_proj f_for t_for (fun acc q => proj1 (upd_fields acc q))). reflexivity. Qed.
Lemma element_host el : f_host (element_fields el) = fwd_field t_host el.
Proof. unfold element_fields, fwd_field. rewrite (fold_proj f_host t_host (fun acc q => proj1 (proj2 (upd_fields acc q)))). reflexivity. Qed.
Lemma element_proto el : f_proto (element_fields el) = fwd_field t_proto el.
Proof. unfold element_fields, fwd_field. rewrite (fold_proj f_proto t_proto (fun acc q => proj2 (proj2 (upd_fields acc q)))). reflexivity. Qed.

Lemma oldest_fields (g : forwarded_t -> str) name raw p :
  (forall el, g (element_fields el) = fwd_field name el) ->
  first_nonempty (map g (py_lastk (map element_fields (elements raw)) (Zpos p))) = fwd_oldest name raw (Pos.to_nat p).
Proof.
  intro Hg. rewrite py_lastk_pos, suffix_map, map_map. unfold fwd_oldest. f_equal.
  apply map_ext. exact Hg.
Qed.

Definition pure_fwd (p : positive) (s : pst) : pst :=
  match fwd s with
  | Some (c :: raw') =>
    let raw := c :: raw' in
    let k := Pos.to_nat p in
    {| env := set k_fwd (pruned raw k) (env s);
       client := match fwd_oldest t_for raw k with [] => client s | x => Some x end;
       fhost := fwd_oldest t_host raw k;
       fproto := fwd_oldest t_proto raw k;
       fport := []; fwd := fwd s; unt := unt s |}
  | _ => s
  end.
Definition fwd_refused (s : pst) : bool :=
  match fwd s with Some (c :: raw') => cat_forwarded (c :: raw') | _ => false end.

Lemma blk_forwarded_exact p s : fwd_precond s ->
  blk_forwarded (Zpos p) s = if fwd_refused s then Malformed h_fwd else Ok (pure_fwd p s).
Proof.
  intro Hp. unfold blk_forwarded, fwd_refused, pure_fwd.
  destruct (fwd s) as [[|c raw']|] eqn:Ef; try reflexivity.
  set (raw := c :: raw'). cbv zeta.
  assert (Hl : lookup k_fwd (env s) <> None) by (apply Hp; rewrite Ef; reflexivity).
  rewrite (mapM_decide fwd_element _ _ _ fwd_element_exact).
  unfold cat_forwarded. change comma with c_comma.
  destruct (existsb element_bad (split raw [c_comma])) eqn:Eb.
  - destruct (lookup k_fwd (env s)); [reflexivity|congruence].
  - cbn [bind]. rewrite fwd_fill_fold.
    change (split raw [c_comma]) with (elements raw).
    rewrite (oldest_fields f_for t_for raw p element_for), (oldest_fields f_host t_host raw p element_host),
      (oldest_fields f_proto t_proto raw p element_proto).
    (* the loop variables after the loop: the fields of the last element, which is in the suffix *)
    assert (Hne : map element_fields (elements raw) <> []).
    { intro H. apply map_eq_nil in H. eapply elements_nonempty; eauto. }
    assert (Hk : (1 <= Pos.to_nat p)%nat) by lia.
    assert (Hsuf : suffix (map element_fields (elements raw)) (Pos.to_nat p) <> []) by (apply suffix_nonempty; auto).
    rewrite <- (suffix_last _ (Pos.to_nat p) fwd_empty Hne Hk).
    pose proof (first_nonempty_default _ f_host fwd_empty Hsuf) as Dh.
    pose proof (first_nonempty_default _ f_proto fwd_empty Hsuf) as Dp.
    rewrite <- !py_lastk_pos in Dh, Dp.
    rewrite (oldest_fields f_host t_host raw p element_host) in Dh.
    rewrite (oldest_fields f_proto t_proto raw p element_proto) in Dp.
    rewrite <- py_lastk_pos. rewrite Dh, Dp.
    unfold pruned, elements. rewrite py_lastk_pos. reflexivity.
Qed.

Definition sel_state (p : positive) (tph : list str) (e : environ) : pst :=
  pure_fwd p (blk_fwd_get tph (pure_by tph (pure_port tph (pure_proto tph (pure_xfh p tph (pure_xff p tph (init_pst e))))))).

Lemma pure_xff_unt p tph s :
  u_host (unt (pure_xff p tph s)) = u_host (unt s) /\ u_proto (unt (pure_xff p tph s)) = u_proto (unt s) /\
  u_port (unt (pure_xff p tph s)) = u_port (unt s) /\ u_by (unt (pure_xff p tph s)) = u_by (unt s).
Proof. unfold pure_xff. destruct (has tph n_xff); [|auto]. destruct (lookup k_xff (env s)); auto. Qed.

Lemma pure_xfh_unt p tph s :
  u_for (unt (pure_xfh p tph s)) = u_for (unt s) /\ u_proto (unt (pure_xfh p tph s)) = u_proto (unt s) /\
  u_port (unt (pure_xfh p tph s)) = u_port (unt s) /\ u_by (unt (pure_xfh p tph s)) = u_by (unt s).
Proof. unfold pure_xfh. destruct (has tph n_xfh); [|auto]. destruct (lookup k_xfh (env s)); auto. Qed.

Lemma pure_proto_unt tph s :
  u_for (unt (pure_proto tph s)) = u_for (unt s) /\ u_host (unt (pure_proto tph s)) = u_host (unt s) /\
  u_port (unt (pure_proto tph s)) = u_port (unt s) /\ u_by (unt (pure_proto tph s)) = u_by (unt s).
Proof. unfold pure_proto. destruct (has tph n_xfproto); auto. Qed.

Lemma pure_port_unt tph s :
  u_for (unt (pure_port tph s)) = u_for (unt s) /\ u_host (unt (pure_port tph s)) = u_host (unt s) /\
  u_proto (unt (pure_port tph s)) = u_proto (unt s) /\ u_by (unt (pure_port tph s)) = u_by (unt s).
Proof. unfold pure_port. destruct (has tph n_xfport); auto. Qed.

Lemma pure_xff_env p tph s key : beqb key k_xff = false -> lookup key (env (pure_xff p tph s)) = lookup key (env s).
Proof.
  intro H. unfold pure_xff. destruct (has tph n_xff); [|reflexivity].
  destruct (lookup k_xff (env s)); [|reflexivity]. cbn [env]. apply lookup_set_other. exact H.
Qed.

Lemma pure_xfh_env p tph s key : beqb key k_xfh = false -> lookup key (env (pure_xfh p tph s)) = lookup key (env s).
Proof.
  intro H. unfold pure_xfh. destruct (has tph n_xfh); [|reflexivity].
  destruct (lookup k_xfh (env s)); [|reflexivity]. cbn [env]. apply lookup_set_other. exact H.
Qed.

Lemma pure_proto_env tph s : env (pure_proto tph s) = env s.
Proof. unfold pure_proto. destruct (has tph n_xfproto); reflexivity. Qed.
Lemma pure_port_env tph s : env (pure_port tph s) = env s.
Proof. unfold pure_port. destruct (has tph n_xfport); reflexivity. Qed.
Lemma pure_by_env tph s : env (pure_by tph s) = env s.
Proof. unfold pure_by. destruct (has tph n_xfby); reflexivity. Qed.

Lemma pure_xff_fwd p tph s : fwd (pure_xff p tph s) = fwd s.
Proof. unfold pure_xff. destruct (has tph n_xff); [|reflexivity]. destruct (lookup k_xff (env s)); reflexivity. Qed.
Lemma pure_xfh_fwd p tph s : fwd (pure_xfh p tph s) = fwd s.
Proof. unfold pure_xfh. destruct (has tph n_xfh); [|reflexivity]. destruct (lookup k_xfh (env s)); reflexivity. Qed.
Lemma pure_proto_fwd tph s : fwd (pure_proto tph s) = fwd s.
Proof. unfold pure_proto. destruct (has tph n_xfproto); reflexivity. Qed.
Lemma pure_port_fwd tph s : fwd (pure_port tph s) = fwd s.
Proof. unfold pure_port. destruct (has tph n_xfport); reflexivity. Qed.
Lemma pure_by_fwd tph s : fwd (pure_by tph s) = fwd s.
Proof. unfold pure_by. destruct (has tph n_xfby); reflexivity. Qed.

Definition pre_fwd (p : positive) (tph : list str) (e : environ) : pst :=
  pure_by tph (pure_port tph (pure_proto tph (pure_xfh p tph (pure_xff p tph (init_pst e))))).

Lemma pre_fwd_env p tph e key : beqb key k_xff = false -> beqb key k_xfh = false ->
  lookup key (env (pre_fwd p tph e)) = lookup key e.
Proof.
  intros H1 H2. unfold pre_fwd. rewrite pure_by_env, pure_port_env, pure_proto_env, pure_xfh_env, pure_xff_env by assumption.
  reflexivity.
Qed.

Lemma pre_fwd_fwd p tph e : fwd (pre_fwd p tph e) = Some [].
Proof. unfold pre_fwd. rewrite pure_by_fwd, pure_port_fwd, pure_proto_fwd, pure_xfh_fwd, pure_xff_fwd. reflexivity. Qed.

Lemma orelse_none {A} (a b : option A) : orelse a b = None <-> a = None /\ b = None.
Proof. destruct a; cbn; split; try tauto; try discriminate; intros [H _]; discriminate. Qed.

Lemma syntax_none tph e : syntax_reason tph e = None ->
  list_reason tph nm_xff hk_xff e CatXffQuoting = None /\ list_reason tph nm_xfh hk_xfh e CatXfhQuoting = None /\
  single_reason tph nm_xfproto hk_xfproto e CatProtoQuoting CatProtoSeveral = None /\
  single_reason tph nm_xfport hk_xfport e CatPortQuoting CatPortSeveral = None /\
  (if fwd_active tph e then forwarded_reason (hdr hk_fwd e) else None) = None.
Proof.
  unfold syntax_reason. intro H. apply orelse_none in H as [H1 H]. apply orelse_none in H as [H2 H].
  apply orelse_none in H as [H3 H]. apply orelse_none in H as [H4 H5]. auto.
Qed.

Lemma first_some_none {A B} (f : A -> option B) l :
  first_some f l = None <-> existsb (fun x => match f x with Some _ => true | None => false end) l = false.
Proof.
  induction l as [|x l IH]; [split; reflexivity|]. cbn [first_some existsb].
  destruct (f x); cbn [orb]; [split; discriminate|exact IH].
Qed.

Lemma existsb_ext' {A} (f g : A -> bool) l : (forall x, f x = g x) -> existsb f l = existsb g l.
Proof. intro H. induction l as [|x l IH]; [reflexivity|]. cbn [existsb]. rewrite H, IH. reflexivity. Qed.

Lemma pair_reason_bad q : match pair_reason q with Some _ => true | None => false end = pair_bad q.
Proof.
  unfold pair_reason, pair_bad. destruct (cat_pair_no_eq q); [reflexivity|].
  destruct (cat_pair_padded q); [reflexivity|]. destruct (cat_pair_quoting q); reflexivity.
Qed.

Definition is_some {B} (o : option B) : bool := match o with Some _ => true | None => false end.
Lemma first_some_existsb {A B} (f : A -> option B) (g : A -> bool) l :
  (forall x, is_some (f x) = g x) -> is_some (first_some f l) = existsb g l.
Proof.
  intro H. induction l as [|x l IH]; [reflexivity|]. cbn [first_some existsb].
  rewrite <- H. destruct (f x); [reflexivity|exact IH].
Qed.

Lemma element_reason_bad el : match element_reason el with Some _ => true | None => false end = element_bad el.
Proof. apply (first_some_existsb (fun p => pair_reason (lower_latin1 p))). intro p. apply pair_reason_bad. Qed.

Lemma forwarded_reason_bad raw : match forwarded_reason raw with Some _ => true | None => false end = cat_forwarded raw.
Proof. apply (first_some_existsb element_reason). intro el. apply element_reason_bad. Qed.

Lemma forwarded_reason_header raw c : forwarded_reason raw = Some c -> syntax_header c = h_fwd.
Proof.
  unfold forwarded_reason. generalize (elements raw). intro l.
  induction l as [|el l IH]; [discriminate|]. cbn [first_some].
  destruct (element_reason el) as [c'|] eqn:Ee; [|exact IH].
  intro H. injection H as ->. unfold element_reason in Ee.
  revert Ee. generalize (split (strip el) [semi]). intro ps.
  induction ps as [|q ps IHp]; [discriminate|]. cbn [first_some].
  destruct (pair_reason (lower_latin1 q)) as [c''|] eqn:Ep; [|exact IHp].
  intro H. injection H as ->. unfold pair_reason in Ep.
  destruct (cat_pair_no_eq _); [injection Ep as <-; reflexivity|].
  destruct (cat_pair_padded _); [injection Ep as <-; reflexivity|].
  destruct (cat_pair_quoting _); [injection Ep as <-; reflexivity|discriminate].
Qed.

Definition fwd_part (tph : list str) (e : environ) : option category :=
  if fwd_active tph e then forwarded_reason (hdr hk_fwd e) else None.

Lemma fwd_tail p tph e s5 : lookup k_fwd (env s5) = lookup k_fwd e -> fwd s5 = Some [] ->
  blk_forwarded (Zpos p) (blk_fwd_get tph s5) = answer (fwd_part tph e) (pure_fwd p (blk_fwd_get tph s5)).
Proof.
  intros L5 F5. rewrite blk_forwarded_exact by (apply fwd_get_precond; exact F5).
  unfold fwd_part, fwd_refused, fwd_active, blk_fwd_get. model_names.
  destruct (has tph n_fwd); cbn [andb fwd].
  - unfold hdr. rewrite L5. destruct (lookup k_fwd e) as [[|c raw']|]; cbn [truthy]; try reflexivity.
    pose proof (forwarded_reason_bad (c :: raw')) as Hb.
    destruct (forwarded_reason (c :: raw')) as [cat|] eqn:Er; rewrite <- Hb; cbn [answer].
    + rewrite (forwarded_reason_header _ _ Er). reflexivity.
    + reflexivity.
  - rewrite F5. reflexivity.
Qed.

Theorem select_exact e p tph :
  parse_select e (Zpos p) tph = answer (syntax_reason tph e) (sel_state p tph e).
Proof.
  unfold parse_select, syntax_reason, sel_state.
  (* each block finds in its state the header as it is in e, and its own flag still set *)
  destruct (pure_xff_unt p tph (init_pst e)) as (U1h & U1p & U1o & U1b).
  destruct (pure_xfh_unt p tph (pure_xff p tph (init_pst e))) as (_ & U2p & U2o & U2b).
  destruct (pure_proto_unt tph (pure_xfh p tph (pure_xff p tph (init_pst e)))) as (_ & _ & U3o & U3b).
  destruct (pure_port_unt tph (pure_proto tph (pure_xfh p tph (pure_xff p tph (init_pst e))))) as (_ & _ & _ & U4b).
  assert (E2 : forall key, beqb key k_xff = false -> beqb key k_xfh = false ->
               lookup key (env (pure_xfh p tph (pure_xff p tph (init_pst e)))) = lookup key e).
  { intros key H1 H2. rewrite pure_xfh_env, pure_xff_env by assumption. reflexivity. }
  rewrite blk_xff_exact by reflexivity. apply answer_bind. intros _.
  rewrite blk_xfh_exact by (rewrite U1h; reflexivity).
  rewrite (list_reason_env _ _ hk_xfh _ e) by (apply pure_xff_env; reflexivity). apply answer_bind. intros _.
  rewrite blk_proto_exact by (rewrite U2p, U1p; reflexivity).
  rewrite (single_reason_env _ _ hk_xfproto _ e) by (apply E2; reflexivity). apply answer_bind. intros _.
  rewrite blk_port_exact by (rewrite U3o, U2o, U1o; reflexivity).
  rewrite (single_reason_env _ _ hk_xfport _ e) by (rewrite pure_proto_env; apply E2; reflexivity). apply answer_bind. intros _.
  rewrite blk_by_exact by (rewrite U4b, U3b, U2b, U1b; reflexivity). cbn [bind].
  apply fwd_tail.
  - rewrite pure_by_env, pure_port_env, pure_proto_env. apply E2; reflexivity.
  - rewrite pure_by_fwd, pure_port_fwd, pure_proto_fwd, pure_xfh_fwd, pure_xff_fwd. reflexivity.
Qed.
