(* C03, the frame theorems: examples showing that their hypotheses are
   satisfiable, for the concrete case mapping (py_cap / py_lower). *)
From Coq Require Import String.
From Coq Require Import List NArith ZArith Bool Lia Arith Permutation.
From WV Require Import Lib.PyBytes Gen.GenTables Model.Task Spec.ClientParse
  Proof.TaskHead Proof.TaskStart Proof.TaskRun Proof.TaskChunk Proof.TaskClient Proof.TaskOracle
  Proof.TaskC08 Proof.TaskC09 Proof.TaskFrame Proof.TaskBody Proof.TaskSimple Proof.TaskFrameClient
  Proof.TaskFrameEnd Proof.TaskC03 Proof.TaskFrame2Sem Proof.TaskFrame2Run Proof.TaskFrame2Head
  Proof.TaskFrame2End Proof.TaskFrame2Err Proof.TaskFrame2File Proof.TaskFrame2FileEnd.
Import ListNotations.
Local Open Scope N_scope.

(* 304 with a seekable file of 6 bytes, HTTP/1.1 keep-alive request: head only, closed *)
Example file_nobody_example :
  let res := run_task sample_cfg sample_req (fapp (lit "304 Not Modified") [] [lit "abcd"; lit "ef"] true) None in
  o_raw res = None /\ o_handover res = false /\ o_closes res = 1%nat
  /\ wire (o_writes res)
     = lit "HTTP/1.1 304 Not Modified" ++ CRLF ++ lit "Connection: close" ++ CRLF
       ++ lit "Date: Thu, 01 Jan 2026 00:00:00 GMT" ++ CRLF ++ lit "Server: waitress" ++ CRLF ++ CRLF.
Proof. vm_compute. repeat split; reflexivity. Qed.

Section Declared.
Variables (c : cfg) (r : req) (status : str) (pre post : list (pyobj * pyobj)) (clname v : str) (cl : Z).
Variables (ws : list bytes) (kind : ikind).

(* the hypotheses shared by the three theorems about a declared Content-Length *)
Definition declared_ok : Prop :=
  cfg_clean c /\ r_error r = None /\ no_handover kind ws
  /\ Forall (not_cl py_lower) post
  /\ beqb (py_lower clname) (lit "content-length") = true /\ py_int v = Some cl
  /\ all_digits v = true /\ Z.of_N (dec_value v) = cl
  /\ plain_fields py_cap (strs_of pre) /\ plain_fields py_cap (strs_of post)
  /\ norm_name py_cap clname = lit "Content-Length"
  /\ no_body_st status = false.

End Declared.

Definition ct_hdr : pyobj * pyobj := (PStr (lit "content-type"), PStr (lit "text/plain")).

(* write() twice, then a generator with an empty and a non-empty chunk, HTTP/1.1 *)
Example write_example :
  let res := run_task sample_cfg sample_req (wapp (lit "200 OK") [ct_hdr] [lit "pre"; []] KGen [[]; lit "xyz"] true) None in
  o_raw res = None /\ no_handover KGen [lit "pre"; []] /\ plain_fields py_cap (strs_of [ct_hdr])
  /\ exists resp, parse_stream [false] (wire (o_writes res)) = ([resp], [])
                  /\ rs_framing resp = FChunked /\ rs_body resp = lit "prexyz".
Proof.
  cbn zeta. split; [vm_compute; reflexivity|]. split; [right; right; discriminate|].
  split; [unfold plain_fields, plain_name; repeat constructor|].
  vm_compute. eexists. repeat split; reflexivity.
Qed.

(* a non-seekable file wrapper read in blocks, HTTP/1.0: close-delimited *)
Example file_blocks_example :
  let r10 := mkReq (lit "1.0") None false false None in
  let res := run_task sample_cfg r10 (wapp (lit "200 OK") [] [] (KFile false) [lit "abcd"; lit "ef"; []] true) None in
  o_raw res = None /\ o_handover res = false
  /\ exists resp, parse_stream [false] (wire (o_writes res)) = ([resp], [])
                  /\ rs_framing resp = FEof /\ rs_body resp = lit "abcdef".
Proof. vm_compute. repeat split; try reflexivity. eexists. repeat split; reflexivity. Qed.

Definition cl_hdr (v : str) : pyobj * pyobj := (PStr (lit "Content-Length"), PStr v).

(* declared 4, produced 2 + 5: cut at 4, connection kept *)
Example cut_example :
  let res := run_task sample_cfg sample_req
               (wapp (lit "200 OK") ([ct_hdr] ++ cl_hdr (lit "4") :: []) [lit "ab"] KGen [lit "cdefg"] true) None in
  o_raw res = None /\ o_next res = true
  /\ exists resp, parse_stream [false] (wire (o_writes res)) = ([resp], [])
                  /\ rs_framing resp = FLength 4 /\ rs_body resp = lit "abcd".
Proof. vm_compute. repeat split; try reflexivity. eexists. repeat split; reflexivity. Qed.

(* declared 9, produced 5: the client is left waiting, the connection is closed *)
Example short_example :
  let res := run_task sample_cfg sample_req
               (wapp (lit "200 OK") ([] ++ cl_hdr (lit "9") :: []) [] KGen [lit "hello"] true) None in
  o_raw res = None /\ o_close res = true /\ o_next res = false
  /\ parse_one false (wire (o_writes res)) = None.
Proof. vm_compute. repeat split; reflexivity. Qed.

Example declared_ok_example :
  declared_ok sample_cfg sample_req (lit "200 OK") [ct_hdr] [] (lit "Content-Length") (lit "4") 4%Z [lit "ab"] KGen.
Proof.
  unfold declared_ok. split; [apply sample_cfg_clean|]. split; [reflexivity|]. split; [left; reflexivity|].
  split; [constructor|]. repeat split; try reflexivity; unfold plain_fields, plain_name; repeat constructor.
Qed.

(* 204 with a body the application should not have produced: dropped, closed *)
Example nobody_example :
  let res := run_task sample_cfg sample_req (wapp (lit "204 No Content") [] [] KGen [lit "oops"] true) None in
  o_raw res = None /\ o_close res = true
  /\ exists resp, parse_stream [false] (wire (o_writes res)) = ([resp], [])
                  /\ rs_framing resp = FNoBody /\ rs_body resp = [].
Proof. vm_compute. repeat split; try reflexivity. eexists. repeat split; reflexivity. Qed.

(* a failure after the head: an exception raised by the second iteration step *)
Definition late_failure_app : app :=
  mkApp [AStart (PStr (lit "200 OK")) [] None] KGen
        [mkStep [] (SYield (lit "part")); mkStep [] (SRaise AppException)] true None.

Example late_failure_example :
  let res := run_task sample_cfg sample_req late_failure_app None in
  o_raw res = Some AppException /\ o_wrote_header1 res = true
  /\ o_close res = true /\ o_closes res = 1%nat
  /\ parse_one false (wire (o_writes res)) = None.
Proof. vm_compute. repeat split; reflexivity. Qed.

(* a seekable file of 6 bytes read in blocks of 4, no declared length: handed over, kept alive *)
Example file_handover_example :
  let res := run_task sample_cfg sample_req (fapp (lit "200 OK") [ct_hdr] [lit "abcd"; lit "ef"] true) None in
  o_raw res = None /\ o_handover res = true /\ o_next res = true
  /\ exists resp, parse_stream [false] (wire (o_writes res)) = ([resp], [])
                  /\ rs_framing resp = FLength 6 /\ rs_body resp = lit "abcdef".
Proof. vm_compute. repeat split; try reflexivity. eexists. repeat split; reflexivity. Qed.

(* the same file behind a declared length of 4: cut by prepare(size) *)
Example file_cut_example :
  let res := run_task sample_cfg sample_req
               (fapp (lit "200 OK") ([] ++ cl_hdr (lit "4") :: []) [lit "abcd"; lit "ef"] true) None in
  o_raw res = None /\ o_handover res = true
  /\ exists resp, parse_stream [false] (wire (o_writes res)) = ([resp], [])
                  /\ rs_framing resp = FLength 4 /\ rs_body resp = lit "abcd".
Proof. vm_compute. repeat split; try reflexivity. eexists. repeat split; reflexivity. Qed.
