(* Proof/DispatcherExamples.v -- the hypotheses of the C14 theorems are satisfiable
   by non-trivial reachable states (all by computation). *)
From Coq Require Import List Arith ZArith Bool.
From WV Require Import Lib.Conc Model.Dispatcher Spec.Pool Proof.DispatcherSpec.
Import ListNotations.

(* two workers parked, nothing queued: quiescent, requested = live = 2 *)
Definition ex_idle : list choice := [CResize 2; CWork 0; CWork 1].
Example ex_idle_quiescent :
  quiescent (runD ex_idle) = true /\ length (workers (runD ex_idle)) = 2 /\
  queue (runD ex_idle) = [] /\ requested (runD ex_idle) = 2.
Proof. vm_compute. auto. Qed.

(* a task submitted to a pool without workers: quiescent with a non-empty queue *)
Definition ex_noworkers : list choice := [CResize 1; CWork 0; CResize 0; CWork 0; CSubmit 0].
Example ex_noworkers_quiescent :
  quiescent (runD ex_noworkers) = true /\ queue (runD ex_noworkers) = [0] /\
  workers (runD ex_noworkers) = [].
Proof. vm_compute. auto. Qed.

(* a non-quiescent state in which a notification is pending while another worker sleeps *)
Definition ex_pending : list choice := [CResize 2; CWork 0; CWork 1; CSubmit 1].
Example ex_pending_state :
  quiescent (runD ex_pending) = false /\ queue (runD ex_pending) = [0] /\
  qwait (runD ex_pending) = [0] /\ workers (runD ex_pending) = [(0, WWait); (1, WNotified)].
Proof. vm_compute. auto. Qed.

(* one task running (it submitted a follow-up), two queued, then
   shutdown(cancel_pending=True) whose expiration passes while the task still runs:
   the two queued tasks and the follow-up are cancelled, the running one is not *)
Definition ex_shutdown : list choice :=
  [CResize 1; CWork 0; CSubmit 0; CSubmit 0; CSubmit 0; CWork 0; CFollow 0 0;
   CSdCall true; CSd true; CSd false; CSd false; CSd false].
Example ex_shutdown_returns :
  exists s' l, step (runD ex_shutdown) (CSd false) = Some (s', l) /\ In (LSdReturn true) l /\
    sd_snap s' = [1; 2; 3] /\ st s' 0 = Running 0 /\ st s' 3 = Cancelled.
Proof. eexists. eexists. split. vm_compute. reflexivity. vm_compute. auto 10. Qed.

Example ex_shutdown_trace :
  submits (traceD ex_shutdown) = [0; 1; 2; 3] /\ takes (traceD ex_shutdown) = [0; 1; 2; 3] /\
  starts (traceD ex_shutdown) = [0].
Proof. vm_compute. auto. Qed.

(* shutdown(cancel_pending=False): the queue is left as it is, all workers stop *)
Definition ex_shutdown_false : list choice :=
  [CResize 1; CWork 0; CSubmit 0; CSubmit 0; CWork 0; CSdCall false; CSd false; CFinish 0 true; CWork 0].
Example ex_shutdown_false_returns :
  exists s' l, step (runD ex_shutdown_false) (CSd false) = Some (s', l) /\ In (LSdReturn false) l /\
    queue s' = [1] /\ workers s' = [] /\ st s' 1 = Queued /\ st s' 0 = Done.
Proof. eexists. eexists. split. vm_compute. reflexivity. vm_compute. auto 10. Qed.

(* the cancel loop holds the lock: nobody else can take a critical section *)
Definition ex_cancelling : list choice :=
  [CResize 1; CWork 0; CSubmit 0; CSubmit 0; CSubmit 0; CWork 0; CSdCall true; CSd true; CSd false].
Example ex_cancelling_locked :
  sd (runD ex_cancelling) = SdCancel /\ lock (runD ex_cancelling) = Some OShutdown /\
  step (runD ex_cancelling) (CSubmit 0) = None /\ step (runD ex_cancelling) (CWork 0) = None /\
  queue (runD ex_cancelling) = [2].
Proof. vm_compute. auto 10. Qed.
