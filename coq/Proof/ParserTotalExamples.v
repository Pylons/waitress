(* C06: the boundaries of the three limits on concrete streams (computed in the
   model), and non-trivial states satisfying the hypotheses of the C06 theorems. *)
From Coq Require Import List NArith ZArith Bool Lia Arith.
From RecordUpdate Require Import RecordUpdate.
From WV Require Import Lib.PyBytes Lib.Regex Gen.GenRegex Model.Receiver Model.UrlSplit Model.Parser Model.ChanSeq
  Proof.PyBytesFacts Proof.ReceiverTotal Proof.ParserTotal Proof.ParserTotalChan Proof.ParserTotalLimits.
Import ListNotations.
Local Open Scope N_scope.

Definition adjx (mh mb : N) : adj :=
  {| max_request_header_size := mh; max_request_body_size := mb; adj_url_scheme := [104;116;116;112] |}.

(* error of every queued request after feeding the reads to a fresh channel *)
Definition errs (a : adj) (reads : list bytes) : list (option perr) :=
  match feed a chan_init reads with
  | COk c => map error (requests c)
  | _ => []
  end.

Definition bytewise (s : bytes) : list bytes := map (fun b => [b]) s.

(* POST with Content-Length: 9 and its body, max_request_body_size = 10 *)
Definition cl_9 : bytes := [80;79;83;84;32;47;32;72;84;84;80;47;49;46;49;13;10;67;111;110;116;101;110;116;45;76;101;110;103;116;104;58;32;57;13;10;13;10;120;120;120;120;120;120;120;120;120].
(* POST with Content-Length: 10 and its body, max_request_body_size = 10 *)
Definition cl_10 : bytes := [80;79;83;84;32;47;32;72;84;84;80;47;49;46;49;13;10;67;111;110;116;101;110;116;45;76;101;110;103;116;104;58;32;49;48;13;10;13;10;120;120;120;120;120;120;120;120;120;120].
(* POST with Content-Length: 11 and its body, max_request_body_size = 10 *)
Definition cl_11 : bytes := [80;79;83;84;32;47;32;72;84;84;80;47;49;46;49;13;10;67;111;110;116;101;110;116;45;76;101;110;103;116;104;58;32;49;49;13;10;13;10;120;120;120;120;120;120;120;120;120;120;120].

Example declared_below : errs (adjx 262144 10) [cl_9] = [None] /\ errs (adjx 262144 10) (bytewise cl_9) = [None].
Proof. split; vm_compute; reflexivity. Qed.
Example declared_at : errs (adjx 262144 10) [cl_10] = [Some EBodyTooLarge]
  /\ errs (adjx 262144 10) (bytewise cl_10) = [Some EBodyTooLarge].
Proof. split; vm_compute; reflexivity. Qed.
Example declared_above : hd None (errs (adjx 262144 10) [cl_11]) = Some EBodyTooLarge.
Proof. vm_compute; reflexivity. Qed.

(* a head of exactly 39 bytes, max_request_header_size = 40 *)
Definition head_39 : bytes := [71;69;84;32;47;32;72;84;84;80;47;49;46;49;13;10;88;58;32;97;97;97;97;97;97;97;97;97;97;97;97;97;97;97;97;13;10;13;10].
(* a head of exactly 40 bytes, max_request_header_size = 40 *)
Definition head_40 : bytes := [71;69;84;32;47;32;72;84;84;80;47;49;46;49;13;10;88;58;32;97;97;97;97;97;97;97;97;97;97;97;97;97;97;97;97;97;13;10;13;10].
(* a head of exactly 41 bytes, max_request_header_size = 40 *)
Definition head_41 : bytes := [71;69;84;32;47;32;72;84;84;80;47;49;46;49;13;10;88;58;32;97;97;97;97;97;97;97;97;97;97;97;97;97;97;97;97;97;97;13;10;13;10].

Example head_below : errs (adjx 40 1000) [head_39] = [None] /\ errs (adjx 40 1000) (bytewise head_39) = [None].
Proof. split; vm_compute; reflexivity. Qed.
Example head_at : errs (adjx 40 1000) [head_40] = [Some EHeaderTooLarge] /\ errs (adjx 40 1000) (bytewise head_40) = [Some EHeaderTooLarge].
Proof. split; vm_compute; reflexivity. Qed.
Example head_above : errs (adjx 40 1000) [head_41] = [Some EHeaderTooLarge].
Proof. vm_compute; reflexivity. Qed.

(* a well-formed chunked body of exactly 19 wire bytes, max_request_body_size = 20 *)
Definition chunked_19 : bytes := [80;79;83;84;32;47;32;72;84;84;80;47;49;46;49;13;10;84;114;97;110;115;102;101;114;45;69;110;99;111;100;105;110;103;58;32;99;104;117;110;107;101;100;13;10;13;10;57;13;10;100;100;100;100;100;100;100;100;100;13;10;48;13;10;13;10].
(* a well-formed chunked body of exactly 20 wire bytes, max_request_body_size = 20 *)
Definition chunked_20 : bytes := [80;79;83;84;32;47;32;72;84;84;80;47;49;46;49;13;10;84;114;97;110;115;102;101;114;45;69;110;99;111;100;105;110;103;58;32;99;104;117;110;107;101;100;13;10;13;10;97;13;10;100;100;100;100;100;100;100;100;100;100;13;10;48;13;10;13;10].
(* a well-formed chunked body of exactly 21 wire bytes, max_request_body_size = 20 *)
Definition chunked_21 : bytes := [80;79;83;84;32;47;32;72;84;84;80;47;49;46;49;13;10;84;114;97;110;115;102;101;114;45;69;110;99;111;100;105;110;103;58;32;99;104;117;110;107;101;100;13;10;13;10;98;13;10;100;100;100;100;100;100;100;100;100;100;100;13;10;48;13;10;13;10].

Example chunked_below : errs (adjx 262144 20) [chunked_19] = [None] /\ errs (adjx 262144 20) (bytewise chunked_19) = [None].
Proof. split; vm_compute; reflexivity. Qed.
Example chunked_at : errs (adjx 262144 20) [chunked_20] = [Some EBodyTooLarge] /\ hd None (errs (adjx 262144 20) (bytewise chunked_20)) = Some EBodyTooLarge.
Proof. split; vm_compute; reflexivity. Qed.
Example chunked_above : hd None (errs (adjx 262144 20) [chunked_21]) = Some EBodyTooLarge.
Proof. vm_compute; reflexivity. Qed.

(* a parser in the middle of a chunked body (one data byte missing): a body receiver
   is installed and the request is not completed *)
Example ex_wf_chunked :
  match feed (adjx 262144 20) chan_init [firstn 55 chunked_19] with
  | COk c => match request c with
             | Some r => body r <> None /\ completed r = false
             | None => False
             end
  | _ => False
  end.
Proof. vm_compute. split; [discriminate | reflexivity]. Qed.

Example ex_wf_chan : wf_chan (adjx 40 1000) (chan_init <| request := Some (P0 [71;69;84]) |>).
Proof. apply wf_p_P0; [reflexivity | right; reflexivity]. Qed.
