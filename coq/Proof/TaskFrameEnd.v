(* What build_response_header makes of a task whose application fields play
   no part in framing or persistence ([plain_fields]), without a declared
   length and with exactly one Content-Length field (C03). *)
From Coq Require Import String.
From Coq Require Import List NArith ZArith Bool Lia Arith Permutation.
From WV Require Import Lib.PyBytes Gen.GenTables Model.Task Spec.ClientParse
  Proof.TaskSort Proof.TaskLines Proof.TaskHead Proof.TaskStart Proof.TaskRun Proof.TaskChunk Proof.TaskClient
  Proof.TaskC08 Proof.TaskLadder Proof.TaskC09 Proof.TaskFrame Proof.TaskBody Proof.TaskSimple Proof.TaskFrameClient.
Import ListNotations.
Local Open Scope N_scope.

Section End2End.
Variable cap : str -> str.
Variable lower : str -> str.
Hypothesis Hcap : forall s, clean s -> clean (cap s).
Hypothesis Hcap_conn : cap (lit "Connection") = lit "Connection".
Hypothesis Hcap_te : beqb (cap (lit "Transfer-Encoding")) (lit "Connection") = false.
Variable c : cfg.
Hypothesis Hc : cfg_clean c.
Variable r : req.

(* an application header name that plays no part in framing or persistence, as the
   client and the header builder see it after normalisation *)
Definition plain_name (k : str) : Prop :=
  let n := norm_name cap k in
  no_colon n
  /\ beqb n (lit "Content-Length") = false
  /\ beqb (cap n) (lit "Connection") = false
  /\ beqb (lower_ascii n) te_name = false
  /\ beqb (lower_ascii n) cl_name = false.

Definition plain_fields (l : list (str * str)) : Prop := Forall (fun h => plain_name (fst h)) l.

Lemma bh_fold_plain hb l : plain_fields l -> forall a,
  ac_cl (fold_left (bh_step cap hb) l a) = ac_cl a
  /\ ac_rh (fold_left (bh_step cap hb) l a) = ac_rh a ++ map (norm_field cap) l.
Proof.
  induction 1 as [|h l (H1 & H2 & _) Hl IH]; intro a; cbn [fold_left map].
  - rewrite app_nil_r. auto.
  - destruct (IH (bh_step cap hb a h)) as [E1 E2]. rewrite E1, E2.
    unfold bh_step. cbn zeta in H2. rewrite H2. cbn [andb ac_cl ac_rh]. rewrite <- app_assoc. auto.
Qed.

Lemma bh_loop_plain t : plain_fields (t_rh t) ->
  ac_rh (bh_loop cap t) = map (norm_field cap) (t_rh t) /\ ac_cl (bh_loop cap t) = None.
Proof.
  intro H. unfold bh_loop.
  destruct (bh_fold_plain (has_body t) (t_rh t) H (mkAcc [] None None None)) as [E1 E2]. auto.
Qed.

(* Server / Via / Date *)
Definition tail_field (h : str * str) : Prop :=
  fst h = lit "Server" \/ fst h = lit "Via" \/ fst h = lit "Date".

Definition tail_ext (t t' : task) : Prop :=
  exists sf, t_rh t' = t_rh t ++ sf /\ Forall tail_field sf
             /\ t_status t' = t_status t /\ t_chunked t' = t_chunked t /\ t_cof t' = t_cof t
             /\ t_v11 t' = t_v11 t.

Lemma tail_ext_refl t : tail_ext t t.
Proof. exists []. rewrite app_nil_r. repeat split; auto. Qed.

Lemma tail_ext_add t h : tail_field h -> tail_ext t (set_rh (t_rh t ++ [h]) t).
Proof. intro H. exists [h]. repeat split; auto. Qed.

Lemma tail_ext_trans a b d : tail_ext a b -> tail_ext b d -> tail_ext a d.
Proof.
  intros (s1 & E1 & F1 & A1 & A2 & A3 & A4) (s2 & E2 & F2 & B1 & B2 & B3 & B4).
  exists (s1 ++ s2). rewrite E2, E1, app_assoc. repeat split; try congruence. apply Forall_app; auto.
Qed.

Lemma bh_tail a t : tail_ext t (bh_date c a (bh_server c a t)).
Proof.
  eapply tail_ext_trans with (bh_server c a t).
  - unfold bh_server. destruct (negb (truthy (ac_server a))).
    + destruct (c_ident c); [apply tail_ext_refl|]. apply tail_ext_add. left. reflexivity.
    + apply tail_ext_add. right. left. reflexivity.
  - unfold bh_date. destruct (negb (truthy (ac_date a))); [|apply tail_ext_refl].
    apply tail_ext_add. right. right. reflexivity.
Qed.

Lemma noconn_plain l : plain_fields l -> NoConn cap (map (norm_field cap) l).
Proof.
  intro H. unfold NoConn. apply Forall_forall. intros x Hx. apply in_map_iff in Hx as (h & <- & Hh).
  unfold plain_fields in H. rewrite Forall_forall in H. destruct (H h Hh) as (_ & _ & H3 & _). exact H3.
Qed.

(* build_response_header after its Content-Length step: the decision table's
   fields, then Server / Via / Date *)
Lemma conn_tail a clh t :
  t_cof t = false -> t_wrote_header t = false -> t_chunked t = false -> NoConn cap (t_rh t) ->
  let tp := bh_date c a (bh_server c a (bh_conn cap lower (request_connection r) (r_connection_close r) clh t)) in
  let '(add, cof, chk) := conn_table (t_v11 t) (request_connection r) (r_connection_close r) (truthy clh) (has_body t) in
  exists tail, t_rh tp = t_rh t ++ add ++ tail /\ Forall tail_field tail
               /\ t_cof tp = cof /\ t_chunked tp = chk /\ t_status tp = t_status t /\ t_v11 tp = t_v11 t.
Proof.
  intros C W K N. cbn zeta.
  pose proof (bh_conn_table cap lower Hcap_te (request_connection r) (r_connection_close r) clh t C W K N) as T.
  cbn zeta in T.
  destruct (conn_table (t_v11 t) (request_connection r) (r_connection_close r) (truthy clh) (has_body t)) as [[add cof] chk].
  destruct T as (T1 & T2 & T3 & T4 & _ & _ & _ & T8 & _).
  destruct (bh_tail a (bh_conn cap lower (request_connection r) (r_connection_close r) clh t))
    as (tail & E & F & A1 & A2 & A3 & A4).
  exists tail. split; [rewrite E, T1, <- app_assoc; reflexivity|].
  split; [exact F|]. split; [rewrite A3; exact T2|]. split; [rewrite A2; exact T3|].
  split; [rewrite A1; exact T4|]. rewrite A4; exact T8.
Qed.

Lemma prepared_nolen t1 :
  t_cof t1 = false -> t_wrote_header t1 = false -> t_chunked t1 = false -> t_clen t1 = None ->
  plain_fields (t_rh t1) ->
  let tp := bh_prepare cap lower c r t1 in
  let '(add, cof, chk) := conn_table (t_v11 t1) (request_connection r) (r_connection_close r) false (has_body t1) in
  exists tail, t_rh tp = map (norm_field cap) (t_rh t1) ++ add ++ tail /\ Forall tail_field tail
               /\ t_cof tp = cof /\ t_chunked tp = chk /\ t_status tp = t_status t1 /\ t_v11 tp = t_v11 t1.
Proof.
  intros C W K L P. cbn zeta. unfold bh_prepare.
  destruct (bh_loop_plain t1 P) as [Erh Ecl].
  set (a := bh_loop cap t1) in *.
  assert (Eclen : bh_clen a (set_rh (ac_rh a) t1) = (None, set_rh (map (norm_field cap) (t_rh t1)) t1)).
  { unfold bh_clen. rewrite Ecl, Erh. cbn [t_clen set_rh]. rewrite L. reflexivity. }
  rewrite Eclen.
  exact (conn_tail a None (set_rh (map (norm_field cap) (t_rh t1)) t1) C W K (noconn_plain _ P)).
Qed.

Lemma filter_none {A} (P : A -> bool) l : Forall (fun x => P x = false) l -> filter P l = [].
Proof. induction 1 as [|x l Hx Hl IH]; cbn [filter]; [reflexivity|]. rewrite Hx. exact IH. Qed.

Lemma tail_no_colon tail : Forall tail_field tail -> Forall (fun h => no_colon (fst h)) tail.
Proof.
  intro H. eapply Forall_impl; [|exact H]. intros h [->|[->| ->]]; reflexivity.
Qed.

Lemma tail_not_named tail name :
  beqb (lower_ascii (lit "Server")) name = false -> beqb (lower_ascii (lit "Via")) name = false ->
  beqb (lower_ascii (lit "Date")) name = false ->
  Forall tail_field tail -> filter (field_is name) (map client_field tail) = [].
Proof.
  intros H1 H2 H3 H. apply filter_none. apply Forall_forall. intros x Hx.
  apply in_map_iff in Hx as (h & <- & Hh). rewrite Forall_forall in H.
  unfold field_is, client_field. cbn [fst]. destruct (H h Hh) as [->|[->| ->]]; assumption.
Qed.

Lemma plain_not_named l name :
  (name = te_name \/ name = cl_name) -> plain_fields l ->
  filter (field_is name) (map client_field (map (norm_field cap) l)) = [].
Proof.
  intros Hn H. apply filter_none. apply Forall_forall. intros x Hx.
  apply in_map_iff in Hx as (y & <- & Hy). apply in_map_iff in Hy as (h & <- & Hh).
  unfold plain_fields in H. rewrite Forall_forall in H. destruct (H h Hh) as (_ & _ & _ & H4 & H5).
  unfold field_is, client_field, norm_field. cbn [fst]. destruct Hn as [->| ->]; assumption.
Qed.

Lemma plain_no_colon l : plain_fields l -> Forall (fun h => no_colon (fst h)) (map (norm_field cap) l).
Proof.
  intro H. apply Forall_forall. intros x Hx. apply in_map_iff in Hx as (h & <- & Hh).
  unfold plain_fields in H. rewrite Forall_forall in H. destruct (H h Hh) as (H1 & _). exact H1.
Qed.

Hypothesis Hcap_cl : beqb (cap (lit "Content-Length")) (lit "Connection") = false.

Lemma sr_headers_cl clname v cl post pre : forall t acc t' l,
  Forall (not_cl lower) post -> beqb (lower clname) (lit "content-length") = true -> py_int v = Some cl ->
  sr_headers lower t (pre ++ (PStr clname, PStr v) :: post) acc = (t', Ok l) -> t_clen t' = Some cl.
Proof.
  induction pre as [|[k w] pre IH]; intros t acc t' l Hpost Hn Hv H.
  - cbn [List.app sr_headers] in H.
    destruct (has_crlf v); [discriminate|]. destruct (has_crlf clname); [discriminate|].
    destruct (negb (is_token clname)); [discriminate|].
    rewrite Hn, Hv in H.
    pose proof (sr_headers_no_cl lower post Hpost (set_clen (Some cl) t) (acc ++ [(clname, v)])) as F.
    rewrite H in F. cbn [fst t_clen set_clen] in F. exact F.
  - cbn [List.app sr_headers] in H.
    destruct k as [k|]; [|discriminate]. destruct w as [w|]; [|discriminate].
    destruct (has_crlf w); [discriminate|]. destruct (has_crlf k); [discriminate|].
    destruct (negb (is_token k)); [discriminate|].
    destruct (beqb (lower k) (lit "content-length")).
    + destruct (py_int w); [|discriminate]. eapply IH; eauto.
    + destruct (existsb (beqb (lower k)) hop_by_hop); [discriminate|]. eapply IH; eauto.
Qed.

Lemma start_response_cl t clname v cl pre post status t' :
  Forall (not_cl lower) post -> beqb (lower clname) (lit "content-length") = true -> py_int v = Some cl ->
  start_response lower t (PStr status) (pre ++ (PStr clname, PStr v) :: post) None = (t', Ok tt) ->
  t_clen t' = Some cl.
Proof.
  intros Hpost Hn Hv. unfold start_response.
  destruct (t_complete t && true); [discriminate|].
  destruct (has_crlf status); [discriminate|].
  destruct (sr_headers lower _ _ []) as [t4 [l|e]] eqn:E; [|discriminate].
  intro H. inversion H; subst. cbn [t_clen set_rh]. eapply sr_headers_cl; eauto.
Qed.

Definition cl_field_at (l1 : list (str * str)) (h : str * str) (l2 : list (str * str)) : Prop :=
  plain_fields l1 /\ plain_fields l2 /\ norm_name cap (fst h) = lit "Content-Length".

Lemma bh_loop_cl t l1 h l2 : t_rh t = l1 ++ h :: l2 -> cl_field_at l1 h l2 -> has_body t = true ->
  ac_rh (bh_loop cap t) = map (norm_field cap) (t_rh t) /\ ac_cl (bh_loop cap t) = Some (snd h).
Proof.
  intros Erh (P1 & P2 & Hn) Hb. unfold bh_loop. rewrite Erh, fold_left_app. cbn [fold_left].
  destruct (bh_fold_plain (has_body t) l1 P1 (mkAcc [] None None None)) as [A1 A2].
  set (a1 := fold_left (bh_step cap (has_body t)) l1 (mkAcc [] None None None)) in *. clearbody a1.
  set (a2 := bh_step cap (has_body t) a1 h).
  assert (B : ac_cl a2 = Some (snd h) /\ ac_rh a2 = ac_rh a1 ++ [norm_field cap h]).
  { subst a2. unfold bh_step, norm_field. rewrite Hn, Hb. cbn. auto. }
  destruct B as [B1 B2].
  destruct (bh_fold_plain (has_body t) l2 P2 a2) as [C1 C2].
  rewrite C1, C2, B1, B2, A2. cbn [ac_rh List.app]. rewrite map_app. cbn [map]. rewrite <- app_assoc. auto.
Qed.

Lemma noconn_cl l1 h l2 : cl_field_at l1 h l2 -> NoConn cap (map (norm_field cap) (l1 ++ h :: l2)).
Proof.
  intros (P1 & P2 & Hn). rewrite map_app. cbn [map]. apply Forall_app. split; [apply noconn_plain; auto|].
  constructor; [|apply noconn_plain; auto]. unfold norm_field. cbn [fst]. rewrite Hn. exact Hcap_cl.
Qed.

Lemma prepared_len t1 l1 h l2 :
  t_cof t1 = false -> t_wrote_header t1 = false -> t_chunked t1 = false ->
  t_rh t1 = l1 ++ h :: l2 -> cl_field_at l1 h l2 -> has_body t1 = true -> snd h <> [] ->
  let tp := bh_prepare cap lower c r t1 in
  let '(add, cof, chk) := conn_table (t_v11 t1) (request_connection r) (r_connection_close r) true true in
  exists tail, t_rh tp = map (norm_field cap) (t_rh t1) ++ add ++ tail /\ Forall tail_field tail
               /\ t_cof tp = cof /\ t_chunked tp = chk /\ t_status tp = t_status t1 /\ t_v11 tp = t_v11 t1.
Proof.
  intros C W K Erh P Hb Hv. cbn zeta. unfold bh_prepare.
  destruct (bh_loop_cl t1 l1 h l2 Erh P Hb) as [Eacc Ecl].
  set (a := bh_loop cap t1) in *.
  assert (Eclen : bh_clen a (set_rh (ac_rh a) t1) = (Some (snd h), set_rh (map (norm_field cap) (t_rh t1)) t1)).
  { unfold bh_clen. rewrite Ecl, Eacc. reflexivity. }
  rewrite Eclen.
  pose proof (conn_tail a (Some (snd h)) (set_rh (map (norm_field cap) (t_rh t1)) t1) C W K) as T.
  assert (Htr : truthy (Some (snd h)) = true) by (destruct (snd h); [congruence|reflexivity]).
  cbn zeta in T. rewrite Htr in T. change (has_body (set_rh _ t1)) with (has_body t1) in T. rewrite Hb in T.
  apply T. cbn [t_rh set_rh]. rewrite Erh. apply noconn_cl. exact P.
Qed.

Lemma strs_of_app a b : strs_of (a ++ b) = strs_of a ++ strs_of b.
Proof. unfold strs_of. apply map_app. Qed.

End End2End.
