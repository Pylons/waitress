(* Splitting a serialised head on CRLF gives back its lines, provided no line
   contains CR or LF (PyBytes.split = bytes.split). *)
From Coq Require Import List NArith Bool Lia Arith.
From WV Require Import Lib.PyBytes Model.Task Proof.PyBytesFacts.
Import ListNotations.
Local Open Scope N_scope.

Definition terminated (lines : list str) : str := flat_map (fun l => l ++ CRLF) lines.

Lemma has_crlf_app a b : has_crlf (a ++ b) = false <-> has_crlf a = false /\ has_crlf b = false.
Proof.
  unfold has_crlf, memb. rewrite !existsb_app.
  destruct (existsb (N.eqb LF) a), (existsb (N.eqb CR) a), (existsb (N.eqb LF) b), (existsb (N.eqb CR) b);
    simpl; split; intros; try discriminate; try tauto; destruct H; discriminate.
Qed.

Lemma has_crlf_cons x l : has_crlf (x :: l) = false <-> x <> CR /\ x <> LF /\ has_crlf l = false.
Proof.
  unfold has_crlf, memb. cbn [existsb]. rewrite !orb_false_iff, !N.eqb_neq. unfold CR, LF.
  intuition congruence.
Qed.

Lemma find_line l rest : has_crlf l = false -> find (l ++ CRLF ++ rest) CRLF = Some (length l).
Proof.
  unfold find. induction l as [|x l IH]; intro H.
  - change ([] ++ CRLF ++ rest) with (CR :: LF :: rest). cbn [find_from].
    assert (startswith (CR :: LF :: rest) CRLF = true) as -> by (destruct rest; reflexivity). reflexivity.
  - apply has_crlf_cons in H as (H1 & H2 & H3).
    cbn [List.app find_from].
    assert (startswith (x :: l ++ CRLF ++ rest) CRLF = false) as ->.
    { unfold CRLF. cbn [startswith]. unfold CR in H1. destruct (13 =? x) eqn:E; auto.
      apply N.eqb_eq in E. congruence. }
    rewrite find_from_shift, IH; auto.
Qed.

Lemma split_terminated lines : Forall (fun l => has_crlf l = false) lines ->
  forall fuel, (length (terminated lines) < fuel)%nat ->
  split_fuel fuel (terminated lines) CRLF = lines ++ [[]].
Proof.
  induction 1 as [|l ls Hl Hls IH]; intros fuel Hf.
  - destruct fuel; reflexivity.
  - destruct fuel as [|f]; [simpl in Hf; lia|].
    change (terminated (l :: ls)) with ((l ++ CRLF) ++ terminated ls) in *.
    rewrite <- app_assoc in *.
    cbn [split_fuel]. rewrite find_line by auto.
    rewrite firstn_app, firstn_all, Nat.sub_diag. cbn [firstn]. rewrite app_nil_r.
    rewrite skipn_app.
    assert (length l + length CRLF - length l = 2)%nat as -> by (simpl; lia).
    rewrite skipn_all2 by (simpl; lia). cbn [List.app].
    change (skipn 2 (CRLF ++ terminated ls)) with (terminated ls).
    rewrite IH. reflexivity.
    rewrite !app_length in Hf. simpl in Hf. lia.
Qed.

Lemma join_terminated l ls : join CRLF (l :: ls) ++ CRLF = terminated (l :: ls).
Proof.
  revert l; induction ls as [|m ls IH]; intro l.
  - simpl. rewrite app_nil_r. reflexivity.
  - change (join CRLF (l :: m :: ls)) with (l ++ CRLF ++ join CRLF (m :: ls)).
    rewrite <- !app_assoc. rewrite IH. unfold terminated. cbn [flat_map].
    rewrite <- !app_assoc. reflexivity.
Qed.

Theorem split_head l ls : Forall (fun x => has_crlf x = false) (l :: ls) ->
  split (join CRLF (l :: ls) ++ CRLF ++ CRLF) CRLF = (l :: ls) ++ [[]; []].
Proof.
  intro H. rewrite app_assoc, join_terminated.
  change (terminated (l :: ls) ++ CRLF) with (terminated (l :: ls) ++ terminated [[]]).
  unfold terminated at 1 2. rewrite <- flat_map_app.
  unfold split. fold (terminated ((l :: ls) ++ [[]])).
  rewrite split_terminated.
  - rewrite <- app_assoc. reflexivity.
  - apply Forall_app. split; auto.
  - apply Nat.lt_succ_diag_r.
Qed.
