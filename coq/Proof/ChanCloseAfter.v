(* Proof/ChanCloseAfter.v -- after a worker's close decision (service(): close_when_flushed := True
   under requests_lock) the channel is Closed for good: requests is empty (or being emptied by
   that worker, which still holds the lock), received() appends nothing, no dispatcher entry is
   created and no service() is entered any more -- in every schedule, for every lookahead. *)
From Coq Require Import List Arith Bool Lia.
From WV Require Import Lib.Conc Model.ChanClose Proof.ChanCloseBase Proof.ChanCloseTok
  Proof.ChanCloseSafe Proof.ChanCloseInv.
Import ListNotations.

(* labels that must not occur after the decision *)
Definition loud (x : label) : bool :=
  match x with LQueued _ | LServiceStart _ | LAddTask _ => true | _ => false end.
Definition is_wclose (x : label) : bool :=
  match x with LDecide DWorkerClose => true | _ => false end.

(* a second monitor: (seen the decision, still fine) *)
Definition astep (m : bool * bool) (x : label) : bool * bool :=
  (fst m || is_wclose x, snd m && negb (fst m && loud x)).
Definition arun (tr : list label) (m : bool * bool) : bool * bool := fold_left astep tr m.

Lemma arun_app : forall a b m, arun (a ++ b) m = arun b (arun a m).
Proof. intros. unfold arun. apply fold_left_app. Qed.

Lemma arun_cons : forall x t m, arun (x :: t) m = arun t (astep m x).
Proof. reflexivity. Qed.

Lemma a_ok_sticky : forall tr m, snd m = false -> snd (arun tr m) = false.
Proof. apply (fold_left_keeps astep (fun m => snd m = false)). intros m x H. simpl. now rewrite H. Qed.

Lemma a_seen_sticky : forall tr m, fst m = true -> fst (arun tr m) = true.
Proof. apply (fold_left_keeps astep (fun m => fst m = true)). intros m x H. simpl. now rewrite H. Qed.

Lemma closed_quiet : forall s c s' l, Inv s -> Closed s -> step s c = Some (s', l) ->
  forallb (fun x => negb (loud x)) l = true.
Proof.
  intros s c s' l I C H. destruct C as (_ & (N1 & N2 & N3 & N4 & N5) & Q & ST & _).
  destruct c as [e|w e|]; simpl in H.
  - io_inv H; try reflexivity; congruence.
  - pose proof (ST w) as STw. wk_inv H; try reflexivity; discriminate STw.
  - sd_inv H; reflexivity.
Qed.

Lemma step_label : forall s c s' l, Inv s -> step s c = Some (s', l) ->
  length l <= 1 /\ (existsb is_wclose l = true -> Closed s').
Proof.
  intros s c s' l I H.
  destruct c as [e|w e|]; simpl in H.
  - io_inv H; split; auto; discriminate.
  - wk_inv H; split; auto; try discriminate. intros _. apply worker_close_closes; assumption.
  - sd_inv H; split; auto; discriminate.
Qed.

Lemma arun_quiet : forall l m, forallb (fun x => negb (loud x)) l = true -> snd (arun l m) = snd m.
Proof.
  induction l as [|x l IH]; intros m H; simpl in *; auto.
  apply andb_true_iff in H. destruct H as [H1 H2]. rewrite IH by exact H2. simpl.
  destruct (loud x); [discriminate|]. rewrite andb_false_r. simpl. apply andb_true_r.
Qed.

Lemma arun_seen_iff : forall l m, fst (arun l m) = fst m || existsb is_wclose l.
Proof.
  induction l as [|x l IH]; intros m; simpl.
  - rewrite orb_false_r. reflexivity.
  - rewrite IH. simpl. rewrite orb_assoc. reflexivity.
Qed.

Theorem after_worker_close_monitor : forall L sched,
  let s := run step (init L) sched in
  let m := arun (trace step (init L) sched) (false, true) in
  snd m = true /\ (fst m = true -> Closed s).
Proof.
  intros L sched.
  pose proof (invariant_rule_tr _ _ _ step
    (fun s tr => Inv s /\ snd (arun tr (false, true)) = true /\
                 (fst (arun tr (false, true)) = true -> Closed s)) (init L)) as R.
  destruct R with (sched := sched) as (_ & A & B).
  - split; [apply Inv_init|]. simpl. split; [reflexivity | discriminate].
  - intros s tr c s' l (I & OK & CL) H.
    split; [eapply Inv_step; eauto|].
    rewrite arun_app. set (m := arun tr (false, true)) in *.
    destruct (step_label _ _ _ _ I H) as (SH & WC).
    destruct (fst m) eqn:SEEN.
    + (* the decision was taken before: the state is Closed, the step is quiet *)
      pose proof (closed_quiet s c s' l I (CL eq_refl) H) as Q.
      split; [rewrite (arun_quiet l m Q); exact OK|].
      intros _. eapply closed_stable; eauto.
    + split.
      * (* nothing seen before this step: a single label cannot be refused *)
        destruct l as [|x [|y l]]; simpl in *; try lia; auto.
        rewrite SEEN, OK. reflexivity.
      * intro F. rewrite arun_seen_iff, SEEN in F. simpl in F.
        exact (WC F).
  - split; assumption.
Qed.

(* by positions: nothing is queued, submitted or started after the worker's close decision *)
Theorem after_worker_close_positions : forall L sched i j x,
  let tr := trace step (init L) sched in
  nth_error tr i = Some (LDecide DWorkerClose) -> i < j -> nth_error tr j = Some x -> loud x = false.
Proof.
  intros L sched i j x tr Hi Lt Hj.
  destruct (after_worker_close_monitor L sched) as [OK _]. fold tr in OK.
  destruct (nth_error_split2 Hi Hj Lt) as (a & b1 & b2 & E).
  destruct (loud x) eqn:LX; auto. exfalso.
  rewrite E in OK.
  replace (a ++ LDecide DWorkerClose :: b1 ++ x :: b2)
    with ((a ++ [LDecide DWorkerClose]) ++ b1 ++ x :: b2) in OK by (rewrite <- app_assoc; reflexivity).
  rewrite arun_app, arun_app in OK.
  assert (S1 : fst (arun (a ++ [LDecide DWorkerClose]) (false, true)) = true).
  { rewrite arun_app. simpl. apply orb_true_r. }
  pose proof (a_seen_sticky b1 _ S1) as S2.
  simpl in OK. rewrite a_ok_sticky in OK; [discriminate|].
  simpl. rewrite S2, LX. simpl. apply andb_false_r.
Qed.
