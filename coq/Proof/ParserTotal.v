(* HTTPRequestParser.received: structure of parse_header (frame conditions,
   independence of the carry field header_plus, never "escapes"), received()
   restated phase by phase, its totality with bounds on the consumed count and
   preservation of the well-formedness of the parser state. *)
From Coq Require Import List NArith ZArith Bool Lia Arith.
From RecordUpdate Require Import RecordUpdate.
From WV Require Import Lib.PyBytes Lib.Regex Gen.GenRegex Model.Receiver Model.UrlSplit Model.Parser
  Proof.PyBytesFacts Proof.ReceiverTotal.
Import ListNotations.
Local Open Scope N_scope.

(* the two carry fields of the head phase set: the bytes held back, and their count *)
Definition cset (x : bytes) (k : N) (p : parser) : parser :=
  p <| header_plus := x |> <| header_bytes_received := k |>.

Ltac psimpl := cbn [set Parser.completed Parser.empty Parser.expect_continue Parser.headers_finished
  Parser.header_plus Parser.chunked Parser.content_length Parser.header_bytes_received Parser.body_bytes_received
  Parser.body Parser.version Parser.error Parser.connection_close Parser.headers Parser.first_line Parser.command
  Parser.request_uri Parser.p_scheme Parser.p_netloc Parser.path Parser.query Parser.fragment Parser.url_scheme] in *.

Ltac ph_step :=
  match goal with
  | |- context [match ?x with _ => _ end] =>
    lazymatch x with
    | context [match _ with _ => _ end] => fail
    | _ => destruct x eqn:?; psimpl
    end
  end.

(* the pieces of parse_header, copied literally *)
Definition ph_v11 (p : parser) (h1 : hdict) (ver connection : bytes) : parser * option perr :=
              if beqb ver s_1_1 then
                let te := hget_default h1 s_TRANSFER_ENCODING [] in
                let p := p <| headers := hpop h1 s_TRANSFER_ENCODING |> in
                let encs := te_encodings te in
                if negb (forallb (fun e => beqb e s_chunked) encs) then (p, Some ETENotSupported)
                else
                  let r : parser * option perr :=
                    match encs with
                    | [] => (p, None)
                    | _ =>
                      if negb (length encs =? 1)%nat then (p, Some ETEMultipleChunked)
                      else
                        let p := p <| chunked := true |> <| body := Some (BChunked chunked_init) |> in
                        let cl := hget (headers p) s_CONTENT_LENGTH in
                        let p := p <| headers := hpop (headers p) s_CONTENT_LENGTH |> in
                        (match cl with Some _ => p <| connection_close := true |> | None => p end, None)
                    end in
                  match r with
                  | (p, Some e) => (p, Some e)
                  | (p, None) =>
                    let expect := lower_latin1 (hget_default (headers p) s_EXPECT []) in
                    let p := p <| expect_continue := beqb expect s_100_continue |> in
                    let p := if existsb (fun t => beqb (strip_by is_sp_htab t) s_close)
                                        (split (lower_latin1 connection) [44])
                             then p <| connection_close := true |> else p in
                    (p, None)
                  end
              else (p, None).

Definition ph_tail (p : parser) : parser * ph_status :=
              if chunked p then (p, PSOk)
              else
                let cl := hget_default (headers p) s_CONTENT_LENGTH s_0 in
                if negb (matches gate_content_length cl) then (p, PSError EContentLengthInvalid)
                else if int_max_str_digits <? lenN cl then (p, PSError EContentLengthInvalid)
                else
                  let n := dec_value cl in
                  let p := p <| content_length := n |> in
                  (if 0 <? n then p <| body := Some (BFixed (fixed_init n)) |> else p, PSOk).

Definition ph_mid (a : adj) (p : parser) (h1 : hdict) (uri ver : bytes) : parser * ph_status :=
          match split_uri uri with
          | SBadURI => (p, PSError EBadURI)
          | SEscapes => (p, PSEscapes)
          | SUnmodelled => (p, PSUnmodelled)
          | SOk sc nl pa qu fr =>
            let p := p <| p_scheme := sc |> <| p_netloc := nl |> <| path := pa |>
                       <| query := qu |> <| fragment := fr |> <| url_scheme := adj_url_scheme a |> in
            let connection := hget_default h1 s_CONNECTION [] in
            let p := if beqb ver s_1_0 && negb (beqb (lower_latin1 connection) s_keep_alive)
                     then p <| connection_close := true |> else p in
            let p := if negb (beqb ver s_1_1)
                        && (match hget h1 s_TRANSFER_ENCODING with Some _ => true | None => false end)
                     then p <| connection_close := true |> else p in
            match ph_v11 p h1 ver connection with
            | (p, Some e) => (p, PSError e)
            | (p, None) => ph_tail p
            end
          end.

Lemma parse_header_eq a p hp :
  parse_header a p hp =
  match find hp CRLF with
  | None => (p, PSError EHeaderInvalid)
  | Some index =>
    let fl := rstrip_by is_reqline_ws (firstn index hp) in
    let header := skipn (index + 2) hp in
    if has_cr_or_lf fl then (p, PSError EBareCRLFFirstLine)
    else
    let p := p <| first_line := fl |> in
    match get_header_lines header with
    | inl e => (p, PSError e)
    | inr lines =>
      match add_header_lines (headers p) lines with
      | inl (e, h) => (p <| headers := h |>, PSError e)
      | inr h1 =>
        let p := p <| headers := h1 |> in
        match crack_first_line fl with
        | None => (p, PSError EMalformedMethod)
        | Some (cmd, uri, ver) =>
          if beqb cmd [] && beqb uri [] && beqb ver [] then (p, PSError EStartLineInvalid)
          else
          let p := p <| request_uri := uri |> <| command := cmd |> <| version := ver |> in
          ph_mid a p h1 uri ver
        end
      end
    end
  end.
Proof. reflexivity. Qed.

Lemma ph_v11_hp x k p h1 ver c :
  ph_v11 (cset x k p) h1 ver c = let '(p1, e) := ph_v11 p h1 ver c in (cset x k p1, e).
Proof.
  (* the cases of ph_v11: not HTTP/1.1; a coding other than chunked; no coding;
     several codings; chunked with or without Content-Length, "close" listed or not *)
  unfold ph_v11, cset. psimpl. destruct (beqb ver s_1_1); [|reflexivity].
  destruct (negb (forallb _ _)); [reflexivity|].
  destruct (te_encodings _) as [|e0 encs]; psimpl;
    [|destruct (negb (_ =? 1)%nat); [reflexivity|]; psimpl; destruct (hget _ s_CONTENT_LENGTH); psimpl];
    destruct (existsb _ _); reflexivity.
Qed.

Lemma ph_tail_hp x k p :
  ph_tail (cset x k p) = let '(p1, e) := ph_tail p in (cset x k p1, e).
Proof.
  unfold ph_tail, cset. psimpl. destruct (chunked p); [reflexivity|].
  destruct (negb _); [reflexivity|]. destruct (_ <? _); [reflexivity|]. psimpl.
  destruct (0 <? _); reflexivity.
Qed.

Lemma ph_mid_hp a x k p h1 uri ver :
  ph_mid a (cset x k p) h1 uri ver = let '(p1, e) := ph_mid a p h1 uri ver in (cset x k p1, e).
Proof.
  unfold ph_mid. destruct (split_uri uri) as [sc nl pa qu fr| | |]; try reflexivity.
  cbv zeta.
  set (c := hget_default h1 s_CONNECTION []).
  destruct (beqb ver s_1_0 && negb (beqb (lower_latin1 c) s_keep_alive));
  destruct (negb (beqb ver s_1_1) && _);
  (lazymatch goal with
   | |- (match ph_v11 ?q _ _ _ with _ => _ end) = (let '(_, _) := (match ph_v11 ?q' _ _ _ with _ => _ end) in _) =>
     change q with (cset x k q')
   end;
   rewrite ph_v11_hp; destruct (ph_v11 _ h1 ver c) as [p1 [e|]]; [reflexivity|]; apply ph_tail_hp).
Qed.

Lemma parse_header_hp a p x k h :
  parse_header a (cset x k p) h =
  let '(p1, st) := parse_header a p h in (cset x k p1, st).
Proof.
  rewrite !parse_header_eq.
  destruct (find h CRLF); [|reflexivity]. cbv zeta.
  destruct (has_cr_or_lf _); [reflexivity|].
  destruct (get_header_lines _); [reflexivity|].
  change (headers (cset x k p <| first_line := rstrip_by is_reqline_ws (firstn n h) |>)) with (headers p).
  change (headers (p <| first_line := rstrip_by is_reqline_ws (firstn n h) |>)) with (headers p).
  destruct (add_header_lines (headers p) l) as [[e h0]|h1]; [reflexivity|].
  destruct (crack_first_line _) as [[[cmd uri] ver]|]; [|reflexivity].
  destruct (beqb cmd [] && beqb uri [] && beqb ver []); [reflexivity|].
  exact (ph_mid_hp a x k (p <| first_line := rstrip_by is_reqline_ws (firstn n h) |> <| headers := h1 |>
                          <| request_uri := uri |> <| command := cmd |> <| version := ver |>) h1 uri ver).
Qed.

(* frame: what parse_header never touches *)
Definition frame (p p1 : parser) : Prop :=
  completed p1 = completed p /\ empty p1 = empty p /\ headers_finished p1 = headers_finished p /\
  header_plus p1 = header_plus p /\ header_bytes_received p1 = header_bytes_received p /\
  body_bytes_received p1 = body_bytes_received p /\ error p1 = error p.

Lemma frame_refl p : frame p p.
Proof. unfold frame; tauto. Qed.

Lemma frame_trans p q r : frame p q -> frame q r -> frame p r.
Proof. unfold frame. intuition congruence. Qed.

Ltac frame_tac := unfold frame; psimpl; repeat split; reflexivity.

(* which body receiver a successful parse_header leaves *)
Definition body_shape (p p1 : parser) : Prop :=
  (body p1 = body p /\ chunked p1 = chunked p /\ content_length p1 = content_length p) \/
  (body p1 = Some (BChunked chunked_init) /\ chunked p1 = true /\ content_length p1 = content_length p).

Definition tail_shape (p p1 : parser) : Prop :=
  (chunked p = true /\ p1 = p) \/
  (chunked p = false /\ chunked p1 = false /\ content_length p1 = 0 /\ body p1 = body p) \/
  (chunked p = false /\ chunked p1 = false /\ 0 < content_length p1 /\
   body p1 = Some (BFixed (fixed_init (content_length p1)))).

Definition head_result_shape (p1 : parser) : Prop :=
  (body p1 = None /\ chunked p1 = false /\ content_length p1 = 0) \/
  (body p1 = Some (BChunked chunked_init) /\ chunked p1 = true /\ content_length p1 = 0) \/
  (chunked p1 = false /\ 0 < content_length p1 /\ body p1 = Some (BFixed (fixed_init (content_length p1)))).

(* errors raised by parse_header are never the two limit errors *)
Definition limit_err (e : perr) : bool :=
  match e with EHeaderTooLarge | EBodyTooLarge => true | _ => false end.

(* What is known of one stage of parse_header, or of all of it, started on p
   and ending in q with status st: the frame, no exception other than the two
   caught ones, no limit error, and on success the body receiver. *)
Definition ph_ok (p q : parser) (st : ph_status) : Prop :=
  frame p q /\ st <> PSEscapes /\ (forall e, st = PSError e -> limit_err e = false) /\
  (st = PSOk -> body p = None -> chunked p = false -> content_length p = 0 -> head_result_shape q).

Lemma ph_ok_err p q e : frame p q -> limit_err e = false -> ph_ok p q (PSError e).
Proof.
  intros F L. split; [exact F|]. split; [discriminate|].
  split; [intros x H; injection H as <-; exact L | discriminate].
Qed.

Lemma ph_v11_ok p h1 ver c :
  let '(p1, e) := ph_v11 p h1 ver c in
  frame p p1 /\ body_shape p p1 /\ (forall x, e = Some x -> limit_err x = false).
Proof.
  (* the same cases as in ph_v11_hp; only "chunked" installs a body receiver *)
  assert (Same : forall q e, frame p q -> body q = body p -> chunked q = chunked p ->
                             content_length q = content_length p ->
                             match e with Some x => limit_err x = false | None => True end ->
                             frame p q /\ body_shape p q /\ (forall x, e = Some x -> limit_err x = false)).
  { intros q e F B C L E. split; [exact F|]. split; [left; auto|]. intros x ->. exact E. }
  unfold ph_v11. destruct (beqb ver s_1_1); [|apply Same; try reflexivity; apply frame_refl].
  cbv zeta. destruct (negb (forallb _ _)); [apply Same; try reflexivity; frame_tac|].
  destruct (te_encodings _) as [|e0 encs].
  - destruct (existsb _ _); apply Same; try reflexivity; frame_tac.
  - destruct (negb (_ =? 1)%nat); [apply Same; try reflexivity; frame_tac|]. psimpl.
    destruct (hget _ s_CONTENT_LENGTH); psimpl; destruct (existsb _ _);
      (split; [frame_tac|]); (split; [right; repeat split; reflexivity | discriminate]).
Qed.

Lemma ph_tail_ok p :
  let '(p1, st) := ph_tail p in
  frame p p1 /\ (forall e, st = PSError e -> limit_err e = false) /\ (st = PSOk -> tail_shape p p1).
Proof.
  unfold ph_tail. destruct (chunked p) eqn:Hc.
  { split; [apply frame_refl|]. split; [discriminate | left; auto]. }
  assert (Bad : frame p p /\ (forall e, PSError EContentLengthInvalid = PSError e -> limit_err e = false) /\
                (PSError EContentLengthInvalid = PSOk -> tail_shape p p)).
  { split; [apply frame_refl|]. split; [intros e H; injection H as <-; reflexivity | discriminate]. }
  destruct (negb _); [exact Bad|]. destruct (_ <? _); [exact Bad|]. cbv zeta.
  destruct (0 <? dec_value _) eqn:Hn; (split; [frame_tac|]); (split; [discriminate|]); intros _; unfold tail_shape; psimpl; right.
  - right. apply N.ltb_lt in Hn. repeat split; auto.
  - left. apply N.ltb_ge in Hn. repeat split; auto. lia.
Qed.

Lemma split_uri_no_escape u : split_uri u <> SEscapes.
Proof.
  unfold split_uri. destruct (beqb _ _).
  - repeat match goal with
           | |- context [match ?x with _ => _ end] =>
             lazymatch x with
             | context [match _ with _ => _ end] => fail
             | _ => destruct x
             end
           end; discriminate.
  - destruct (urlsplit u); discriminate.
Qed.

Lemma ph_tail_no_escape p : snd (ph_tail p) <> PSEscapes /\ snd (ph_tail p) <> PSUnmodelled.
Proof.
  unfold ph_tail. destruct (chunked p); [split; discriminate|].
  destruct (negb _); [split; discriminate|]. destruct (_ <? _); split; discriminate.
Qed.

Lemma ph_mid_ok a p h1 uri ver : let '(q, st) := ph_mid a p h1 uri ver in ph_ok p q st.
Proof.
  unfold ph_mid. pose proof (split_uri_no_escape uri) as NE.
  destruct (split_uri uri) as [sc nl pa qu fr| | |]; [|apply ph_ok_err; [apply frame_refl | reflexivity]|congruence|].
  2:{ split; [apply frame_refl|]. repeat split; discriminate. }
  cbv zeta. set (c := hget_default h1 s_CONNECTION []).
  match goal with |- context [ph_v11 ?q h1 ver c] => set (q1 := q) end.
  assert (F1 : frame p q1) by (subst q1; destruct (_ && _); destruct (_ && _); frame_tac).
  assert (B1 : body q1 = body p /\ chunked q1 = chunked p /\ content_length q1 = content_length p)
    by (subst q1; destruct (_ && _); destruct (_ && _); psimpl; auto).
  pose proof (ph_v11_ok q1 h1 ver c) as V.
  destruct (ph_v11 q1 h1 ver c) as [p2 [e|]]; destruct V as (F2 & S & E).
  { apply ph_ok_err; [eapply frame_trans; eauto | apply E; reflexivity]. }
  pose proof (ph_tail_ok p2) as T. pose proof (ph_tail_no_escape p2) as (N1 & _).
  destruct (ph_tail p2) as [p3 st]. cbn [snd] in N1. destruct T as (F3 & E3 & T).
  split; [eapply frame_trans; [|exact F3]; eapply frame_trans; eauto|]. split; [exact N1|]. split; [exact E3|].
  intros Hok Hb Hc Hl. specialize (T Hok). destruct B1 as (B1 & B2 & B3). unfold head_result_shape.
  destruct S as [(S1 & S2 & S3)|(S1 & S2 & S3)]; destruct T as [(T1 & ->)|[(T1 & T2 & T3 & T4)|(T1 & T2 & T3 & T4)]];
    try congruence.
  - left. repeat split; congruence.
  - right; right. auto.
  - right; left. repeat split; congruence.
Qed.

Lemma header_lines_go_err lines r e : header_lines_go lines r = inl e -> limit_err e = false.
Proof.
  revert r; induction lines as [|l rest IH]; intros r; cbn [header_lines_go]; [discriminate|].
  destruct l as [|c l']; [apply IH|].
  destruct (has_cr_or_lf _); [intros H; injection H as <-; reflexivity|].
  destruct (_ || _).
  - destruct r; [intros H; injection H as <-; reflexivity | apply IH].
  - apply IH.
Qed.

Lemma add_header_lines_err h lines e h' : add_header_lines h lines = inl (e, h') -> limit_err e = false.
Proof.
  revert h; induction lines as [|l rest IH]; intros h; cbn [add_header_lines]; [discriminate|].
  destruct (add_header_line h l) as [e0|h1] eqn:E; [|apply IH].
  intros H; injection H as <- <-. revert E. unfold add_header_line.
  destruct (negb _); [intros H; injection H as <-; reflexivity|].
  destruct (partition l [58]) as [[name x] rest0].
  destruct (memb 95 name); [discriminate|].
  destruct (hget h (header_key name)); [|discriminate].
  destruct (is_singleton _); [intros H; injection H as <-; reflexivity | discriminate].
Qed.

Lemma parse_header_ok a p h : let '(q, st) := parse_header a p h in ph_ok p q st.
Proof.
  rewrite parse_header_eq.
  destruct (find h CRLF); [|apply ph_ok_err; [apply frame_refl | reflexivity]]. cbv zeta.
  destruct (has_cr_or_lf _); [apply ph_ok_err; [apply frame_refl | reflexivity]|].
  destruct (get_header_lines _) as [e0|lines] eqn:G.
  { apply ph_ok_err; [frame_tac | exact (header_lines_go_err _ _ _ G)]. }
  destruct (add_header_lines _ lines) as [[e0 h0]|h1] eqn:A.
  { apply ph_ok_err; [frame_tac | exact (add_header_lines_err _ _ _ _ A)]. }
  destruct (crack_first_line _) as [[[cmd uri] ver]|]; [|apply ph_ok_err; [frame_tac | reflexivity]].
  destruct (beqb cmd [] && beqb uri [] && beqb ver []); [apply ph_ok_err; [frame_tac | reflexivity]|].
  match goal with |- context [ph_mid a ?q0 h1 uri ver] => pose proof (ph_mid_ok a q0 h1 uri ver) as M end.
  destruct (ph_mid a _ h1 uri ver) as [q st]. destruct M as (F & N & E & S).
  split; [eapply frame_trans; [|exact F]; frame_tac|]. split; [exact N|]. split; [exact E | exact S].
Qed.

Lemma parse_header_frame a p h : frame p (fst (parse_header a p h)).
Proof. pose proof (parse_header_ok a p h) as H. destruct (parse_header a p h). exact (proj1 H). Qed.

(* a parser that is still reading its head: everything but the two carry
   fields is as in a fresh parser *)
Definition P0 (hp : bytes) : parser :=
  parser_init <| header_plus := hp |> <| header_bytes_received := lenN hp |>.

Lemma fake_head_ok a hp n :
  snd (parse_header a (P0 hp <| header_bytes_received := n |>) fake_head_431) = PSOk.
Proof. vm_compute. reflexivity. Qed.

Definition wf_body (a : adj) (p : parser) : Prop :=
  match body p with
  | None => exists hp, p = P0 hp /\ find hp CRLFCRLF = None
  | Some (BFixed f) =>
      headers_finished p = true /\ f_completed f = false /\ 1 <= f_remain f
  | Some (BChunked c) =>
      headers_finished p = true /\ wf_c c /\ c_completed c = false /\ c_error c = None /\
      (Z.of_nat (phi c) <= body_bytes_received p)%Z /\ chunked p = true
  end.

Definition wf_p (a : adj) (p : parser) : Prop :=
  completed p = false /\ error p = None /\ wf_body a p /\
  (header_plus p = [] \/ lenN (header_plus p) < max_request_header_size a) /\
  (body_bytes_received p = 0 \/ body_bytes_received p < Z.of_N (max_request_body_size a))%Z.

Lemma wf_p_init a : wf_p a parser_init.
Proof.
  unfold wf_p, wf_body. cbn. repeat split; auto. exists []. repeat split.
Qed.

Lemma wf_p_P0 a hp :
  find hp CRLFCRLF = None -> (hp = [] \/ lenN hp < max_request_header_size a) -> wf_p a (P0 hp).
Proof.
  intros Hf Hl. unfold wf_p, wf_body. change (body (P0 hp)) with (@None body_rcv).
  split; [reflexivity|]. split; [reflexivity|]. split; [exists hp; auto|]. split; [exact Hl | left; reflexivity].
Qed.

Lemma P0_app hp data :
  P0 hp <| header_bytes_received := lenN hp + lenN data |> <| header_plus := hp ++ data |> = P0 (hp ++ data).
Proof. unfold P0. rewrite lenN_app. reflexivity. Qed.

(* the head branch of Parser.received, copied literally in three pieces (the 431
   answer, a head found at i, no head yet), over the accumulated string *)
Definition head_431 (a : adj) (p : parser) (consumed : Z) : rcv_res :=
      match parse_header a p fake_head_431 with
      | (p1, PSOk) => ROk (p1 <| error := Some EHeaderTooLarge |> <| completed := true |>) consumed
      | (_, PSError _) => REscapes
      | (_, PSEscapes) => REscapes
      | (_, PSUnmodelled) => RUnmodelled
      end.

Definition head_found (a : adj) (p0 : parser) (s : bytes) (i : nat) (consumed : Z) : rcv_res :=
  let p := p0 <| header_bytes_received := N.of_nat i |> in
  if max_request_header_size a <=? N.of_nat i then head_431 a p consumed
  else
      let hp := lstrip_by is_reqline_ws (strip_leading_crlf (length s) (firstn i s)) in
      match hp with
      | [] => ROk (p <| empty := true |> <| completed := true |> <| headers_finished := true |>) consumed
      | _ =>
        match parse_header a p hp with
        | (_, PSEscapes) => REscapes
        | (_, PSUnmodelled) => RUnmodelled
        | (p1, PSError e) =>
          ROk (p1 <| error := Some e |> <| completed := true |> <| headers_finished := true |>) consumed
        | (p1, PSOk) =>
          let p2 := match body p1 with
                    | None => p1 <| completed := true |>
                    | Some _ => p1
                    end in
          let p3 := if (0 <? content_length p2) && (max_request_body_size a <=? content_length p2)
                    then p2 <| error := Some EBodyTooLarge |> <| completed := true |> else p2 in
          ROk (p3 <| headers_finished := true |>) consumed
        end
      end.

Definition head_more (a : adj) (p0 : parser) (s : bytes) (datalen : N) : rcv_res :=
  let hbr := header_bytes_received p0 + datalen in
  let p := p0 <| header_bytes_received := hbr |> in
  if max_request_header_size a <=? hbr then head_431 a p (Z.of_N datalen)
  else ROk (p <| header_plus := s |>) (Z.of_N datalen).

Lemma received_head_eq a hp data :
  received a (P0 hp) data =
  match find_double_newline (hp ++ data) with
  | Some i => head_found a (P0 hp) (hp ++ data) i
                (Z.of_N (lenN data) - (Z.of_nat (length (hp ++ data)) - Z.of_nat i))%Z
  | None => head_more a (P0 hp) (hp ++ data) (lenN data)
  end.
Proof.
  unfold received. change (completed (P0 hp)) with false. change (body (P0 hp)) with (@None body_rcv).
  cbv iota. change (header_plus (P0 hp)) with hp. cbv zeta.
  change (header_bytes_received (P0 hp)) with (lenN hp).
  unfold head_found, head_more, head_431.
  change (header_bytes_received (P0 hp)) with (lenN hp).
  destruct (find_double_newline (hp ++ data)); cbv beta iota zeta; reflexivity.
Qed.

(* the 431 answer is always produced: the stand-in head parses *)
Lemma head_431_P0 a hp k n : exists p1,
  head_431 a (P0 hp <| header_bytes_received := k |>) n
  = ROk (p1 <| error := Some EHeaderTooLarge |> <| completed := true |>) n.
Proof.
  unfold head_431. pose proof (fake_head_ok a hp k) as Fk.
  destruct (parse_header a _ fake_head_431) as [p1 st]. cbn [snd] in Fk. subst st. eauto.
Qed.

(* what a head that ends at [i] leaves: below the header limit the message is
   complete (empty, refused, or without body) or the parser is well-formed at
   the start of its body; the declared length is then below the body limit *)
Lemma head_found_spec a hp s i n :
  head_found a (P0 hp) s i n = RUnmodelled \/
  exists r, head_found a (P0 hp) s i n = ROk r n /\
    (completed r = false ->
       headers_finished r = true /\
       ((hp = [] \/ lenN hp < max_request_header_size a) -> wf_p a r)) /\
    (if max_request_header_size a <=? N.of_nat i
     then completed r = true /\ error r = Some EHeaderTooLarge
     else error r <> Some EHeaderTooLarge /\
          (error r = Some EBodyTooLarge ->
             completed r = true /\ 0 < content_length r /\ max_request_body_size a <= content_length r) /\
          (error r = None -> content_length r = 0 \/ content_length r < max_request_body_size a)).
Proof.
  unfold head_found. cbv zeta.
  destruct (max_request_header_size a <=? N.of_nat i).
  { destruct (head_431_P0 a hp (N.of_nat i) n) as (p1 & ->). right. eexists. split; [reflexivity|].
    split; [discriminate | split; reflexivity]. }
  set (p := P0 hp <| header_bytes_received := N.of_nat i |>).
  destruct (lstrip_by _ _) as [|h0 hs].
  { right. eexists. split; [reflexivity|]. split; [discriminate|]. psimpl. cbn.
    split; [discriminate|]. split; [discriminate | auto]. }
  pose proof (parse_header_ok a p (h0 :: hs)) as Ok.
  destruct (parse_header a p (h0 :: hs)) as [p1 st]. destruct Ok as ((F1 & F2 & F3 & F4 & F5 & F6 & F7) & NE & Er & Sh).
  destruct st as [|e| |]; [|right|congruence|left; reflexivity].
  - right. eexists. split; [reflexivity|].
    destruct (Sh eq_refl eq_refl eq_refl eq_refl) as [(S1 & S2 & S3)|[(S1 & S2 & S3)|(S1 & S2 & S3)]].
    + rewrite S1. psimpl. rewrite S3. cbn [N.ltb N.compare andb]. psimpl. rewrite F7, S3.
      split; [discriminate|]. split; [discriminate|]. split; [discriminate | auto].
    + rewrite S1. psimpl. rewrite S3. cbn [N.ltb N.compare andb]. psimpl. rewrite F7, S3.
      split; [|split; [discriminate|]; split; [discriminate | auto]].
      intros _. split; [reflexivity|]. intros Hl. unfold wf_p, wf_body. psimpl. rewrite S1, F1, F7, F4, F6.
      split; [reflexivity|]. split; [reflexivity|]. split; [|split; [exact Hl | left; reflexivity]].
      split; [reflexivity|]. split; [apply wf_init|]. split; [reflexivity|]. split; [reflexivity|].
      split; [cbn; lia | exact S2].
    + rewrite S3. psimpl.
      destruct ((0 <? content_length p1) && (max_request_body_size a <=? content_length p1)) eqn:Hb; psimpl.
      * apply andb_true_iff in Hb as [Hb1 Hb2]. apply N.ltb_lt in Hb1. apply N.leb_le in Hb2.
        split; [discriminate|]. split; [discriminate|]. split; [auto | discriminate].
      * rewrite F7. split; [|split; [discriminate|]; split; [discriminate|]].
        -- intros _. split; [reflexivity|]. intros Hl. unfold wf_p, wf_body. psimpl. rewrite S3, F1, F7, F4, F6.
           split; [reflexivity|]. split; [reflexivity|]. split; [|split; [exact Hl | left; reflexivity]].
           split; [reflexivity|]. split; [reflexivity|]. cbn [fixed_init f_remain]. lia.
        -- intros _. apply andb_false_iff in Hb as [Hb|Hb]; [apply N.ltb_ge in Hb; lia | apply N.leb_gt in Hb; lia].
  - specialize (Er e eq_refl). eexists. split; [reflexivity|]. split; [discriminate|]. psimpl.
    split; [intros H; injection H as ->; discriminate|].
    split; [intros H; injection H as ->; discriminate | discriminate].
Qed.

(* the end of the body branch of Parser.received, copied literally: counter,
   413 test, receiver error, completion *)
Definition body_fin (a : adj) (p : parser) (br' : body_rcv) (consumed : Z)
    (brerr : option perr) (brdone : bool) : rcv_res :=
      let bbr := (body_bytes_received p + consumed)%Z in
      let p1 := p <| body := Some br' |> <| body_bytes_received := bbr |> in
      let max_body := max_request_body_size a in
      if (Z.of_N max_body <=? bbr)%Z
      then ROk (p1 <| error := Some EBodyTooLarge |> <| completed := true |>) consumed
      else match brerr with
      | Some e => ROk (p1 <| error := Some e |> <| completed := true |>) consumed
      | None =>
        if brdone then
          let p2 := p1 <| completed := true |> in
          ROk (if chunked p2
               then p2 <| headers := hset (headers p2) s_CONTENT_LENGTH (to_dec (body_len br')) |>
               else p2) consumed
        else ROk p1 consumed
      end.

Lemma received_body_eq a p br data : completed p = false -> body p = Some br ->
  received a p data =
  match br with
  | BFixed f => let '(f', n) := fixed_received f data in body_fin a p (BFixed f') n None (f_completed f')
  | BChunked c => match chunked_received c data with
                  | Some (c', n) => body_fin a p (BChunked c') n (c_error c') (c_completed c')
                  | None => ROutOfFuel
                  end
  end.
Proof.
  intros Hc Hb. unfold received, body_fin. rewrite Hc, Hb. cbv iota.
  destruct br as [f|c].
  - destruct (fixed_received f data) as [f' n]. reflexivity.
  - destruct (chunked_received c data) as [[c' n]|]; reflexivity.
Qed.

(* it completes the message, or only records the receiver and the count *)
Lemma body_fin_cases a p br' n e d :
  (exists p', body_fin a p br' n e d = ROk p' n /\ completed p' = true) \/
  (e = None /\ d = false /\ (body_bytes_received p + n < Z.of_N (max_request_body_size a))%Z /\
   body_fin a p br' n e d
   = ROk (p <| body := Some br' |> <| body_bytes_received := (body_bytes_received p + n)%Z |>) n).
Proof.
  unfold body_fin. cbv zeta.
  destruct (Z.of_N (max_request_body_size a) <=? body_bytes_received p + n)%Z eqn:Hmax; [left; eauto|].
  apply Z.leb_gt in Hmax. destruct e; [left; eauto|]. destruct d; [|right; auto].
  left. eexists. split; [reflexivity|]. psimpl. destruct (chunked p); reflexivity.
Qed.

Lemma received_head_total a hp data :
  find hp CRLFCRLF = None -> (hp = [] \/ lenN hp < max_request_header_size a) -> data <> [] ->
  received a (P0 hp) data = RUnmodelled \/
  exists p' n, received a (P0 hp) data = ROk p' n /\ (1 <= n <= Z.of_nat (length data))%Z /\
               (completed p' = true \/ wf_p a p').
Proof.
  intros Hf Hl Hd.
  assert (Ld : 1 <= lenN data) by (destruct data; [congruence | rewrite lenN_cons; lia]).
  rewrite received_head_eq.
  destruct (find_double_newline (hp ++ data)) as [i|] eqn:Hi.
  - (* the head ends in data, at least one byte of which belongs to it *)
    apply fdn_Some in Hi as (j & Hj & ->).
    pose proof (find_bound _ _ _ Hj) as B1. change (length CRLFCRLF) with 4%nat in B1.
    pose proof (find_app_none_l _ _ _ _ Hf Hj) as B2. change (length CRLFCRLF) with 4%nat in B2.
    rewrite app_length in B1.
    assert (Hn : (1 <= Z.of_N (lenN data) - (Z.of_nat (length (hp ++ data)) - Z.of_nat (j + 4))
                  <= Z.of_nat (length data))%Z).
    { rewrite app_length. unfold lenN. lia. }
    destruct (head_found_spec a hp (hp ++ data) (j + 4)
                (Z.of_N (lenN data) - (Z.of_nat (length (hp ++ data)) - Z.of_nat (j + 4)))%Z)
      as [->|(r & -> & W & _)]; [left; reflexivity | right].
    eexists _, _. split; [reflexivity|]. split; [exact Hn|].
    destruct (completed r); [left; reflexivity | right; apply W; [reflexivity | exact Hl]].
  - apply fdn_None in Hi.
    assert (Hn : (1 <= Z.of_N (lenN data) <= Z.of_nat (length data))%Z) by (unfold lenN in *; lia).
    unfold head_more. cbv zeta. change (header_bytes_received (P0 hp)) with (lenN hp).
    destruct (max_request_header_size a <=? lenN hp + lenN data) eqn:Hmax.
    + destruct (head_431_P0 a hp (lenN hp + lenN data) (Z.of_N (lenN data))) as (p1 & ->).
      right. eexists _, _. split; [reflexivity|]. split; [exact Hn|]. left. reflexivity.
    + right. eexists _, _. split; [reflexivity|]. split; [exact Hn|]. right.
      rewrite P0_app. apply N.leb_gt in Hmax. apply wf_p_P0; [exact Hi|]. right. rewrite lenN_app. lia.
Qed.

Lemma received_body_total a p br data :
  wf_p a p -> body p = Some br -> data <> [] ->
  exists p' n, received a p data = ROk p' n /\ (1 <= n <= Z.of_nat (length data))%Z /\
               (completed p' = true \/ wf_p a p').
Proof.
  intros (Wc & We & Wb & Wh & Wbb) Hb Hd. unfold wf_body in Wb. rewrite Hb in Wb.
  rewrite (received_body_eq a p br data Wc Hb).
  destruct br as [f|c].
  - destruct Wb as (Hhf & Hfc & Hfr).
    pose proof (fixed_received_spec f data Hfr Hd) as S.
    destruct (fixed_received f data) as [f' n]. destruct S as (Bn & Sf).
    destruct (body_fin_cases a p (BFixed f') n None (f_completed f'))
      as [(p' & -> & C)|(_ & Hc' & Hmax & ->)]; eexists _, _; (split; [reflexivity|]); (split; [exact Bn|]);
      [left; exact C | right].
    destruct Sf as [Sf|(S1 & S2 & S3)]; [congruence|].
    unfold wf_p, wf_body. psimpl.
    split; [exact Wc|]. split; [exact We|]. split; [|split; [exact Wh | right; exact Hmax]].
    split; [exact Hhf|]. split; [exact Hc' | exact S2].
  - destruct Wb as (Hhf & Wfc & Hcc & Hce & Hphi & Hch).
    destruct (chunked_received_spec c data Wfc Hcc Hd) as (c' & n & E & W' & Bn & Ph & Hall).
    rewrite E.
    destruct (body_fin_cases a p (BChunked c') n (c_error c') (c_completed c'))
      as [(p' & -> & C)|(He' & Hc' & Hmax & ->)]; eexists _, _; (split; [reflexivity|]); (split; [exact Bn|]);
      [left; exact C | right].
    unfold wf_p, wf_body. psimpl.
    split; [exact Wc|]. split; [exact We|]. split; [|split; [exact Wh | right; exact Hmax]].
    split; [exact Hhf|]. split; [exact W'|]. split; [exact Hc'|]. split; [exact He'|].
    split; [lia | exact Hch].
Qed.

(* HTTPRequestParser.received on a well-formed, not completed parser and a
   non-empty read: no exception escapes, the chunked loop does not run out of
   fuel, between 1 and len(data) bytes are consumed, and the parser is either
   completed or well-formed again.  (RUnmodelled: request-targets with a
   bracketed host, which UrlSplit.v does not model.) *)
Theorem received_total a p data : wf_p a p -> data <> [] ->
  received a p data = RUnmodelled \/
  exists p' n, received a p data = ROk p' n /\ (1 <= n <= Z.of_nat (length data))%Z /\
               (completed p' = true \/ wf_p a p').
Proof.
  intros W Hd. destruct (body p) as [br|] eqn:Hb.
  - right. eapply received_body_total; eauto.
  - destruct W as (Wc & We & Wb & Wh & Wbb). unfold wf_body in Wb. rewrite Hb in Wb.
    destruct Wb as (hp & -> & Hf). apply received_head_total; auto.
Qed.
