(* Proof/ChanExpect.v -- the theorems of C19 about the interleaving model
   Model/ChanExpect.v, for every schedule. *)
From Coq Require Import List Arith Bool Lia.
From RecordUpdate Require Import RecordUpdate.
From WV Require Lib.Conc.
From WV Require Import Model.ChanExpect Proof.ChanExpectBase Proof.ChanExpectLog Proof.ChanExpectCount.
Import ListNotations.

Record Inv (s : state) : Prop := { iA : InvA s; iB : InvB s; iC : InvC s }.

Lemma Inv_init : Inv init.
Proof. constructor; [apply InvA_init|apply InvB_init|apply InvC_init]. Qed.

Lemma Inv_step : forall s c s' l, Inv s -> step s c = Some (s', l) -> Inv s'.
Proof.
  intros s c s' l [HA HB HC] H. constructor.
  - eapply InvA_step; eauto.
  - eapply InvB_step; eauto.
  - eapply InvC_step; eauto.
Qed.

Lemma run_snoc : forall sched c, run_tr (sched ++ [c]) = exec1 (run_tr sched) c.
Proof. intros. unfold run_tr. rewrite fold_left_app. reflexivity. Qed.

(* the model's run is Lib/Conc's run of [step] from [init] *)
Theorem Inv_run : forall sched, Inv (run sched).
Proof. exact (Conc.invariant_rule _ _ _ step Inv init Inv_init Inv_step). Qed.

Lemma reachable_step : forall (P : state -> choice -> state -> list label -> Prop),
  (forall s c s' l, Inv s -> step s c = Some (s', l) -> P s c s' l) ->
  forall sched c s' l, step (run sched) c = Some (s', l) -> P (run sched) c s' l.
Proof. intros P H sched c s' l E. apply H; [apply Inv_run|assumption]. Qed.

Lemma reachable_trans : forall sched c s' l,
  step (run sched) c = Some (s', l) -> trans (run sched) c s' l.
Proof. intros sched c s' l. apply step_trans, (iA _ (Inv_run sched)). Qed.

(* at most one interim response per request (parser object) *)
Theorem count_le_one : forall sched i, cnt i (outlog (run sched)) <= 1.
Proof. intros sched i. apply (C_cnt _ (iC _ (Inv_run sched))). Qed.

(* a client that waits is not left waiting: whenever nobody is inside a critical
   section of requests_lock, the connection is up and not closing, and the
   request at the head of the line (no request queued or in service before it)
   has finished its header block asking for 100-continue, the interim response
   HAS BEEN appended, exactly once, and the flag is consumed *)
Theorem never_left_waiting : forall sched q,
  let s := run sched in
  rlock s = false -> connected s = true -> close_when_flushed s = false ->
  requests s = [] -> request s = Some q -> a_hf q = true -> g_asked q = true ->
  cnt (rid q) (outlog s) = 1 /\ a_expect q = false /\ sent_continue s = true.
Proof.
  intros sched q s Hrl Hcon Hcwf Hrs Hq Hhf Hask.
  destruct (Inv_run sched) as [HA HB HC]. fold s in HA, HB, HC.
  destruct (unlocked_idle s HA Hrl) as [Hns _].
  pose proof (C_good s HC q Hq) as G. unfold good_cur in G. rewrite Hns in G.
  destruct G as (G1 & G2 & G3).
  assert (He : a_expect q = false).
  { destruct (a_expect q) eqn:E; [|reflexivity]. exfalso. eapply (C_wait s HC); eauto. }
  unfold sent_for in *. rewrite Hask, He in *. simpl in *. auto.
Qed.

(* while an earlier request is queued or in service the interim response is
   deferred: the flag is still set and nothing has been sent for the object *)
Theorem deferred_while_queued : forall sched q,
  let s := run sched in
  rlock s = false -> request s = Some q -> a_expect q = true ->
  cnt (rid q) (outlog s) = 0.
Proof.
  intros sched q s Hrl Hq He.
  destruct (Inv_run sched) as [HA HB HC]. fold s in HA, HB, HC.
  destruct (unlocked_idle s HA Hrl) as [Hns _].
  pose proof (C_good s HC q Hq) as G. unfold good_cur in G. rewrite Hns in G.
  destruct G as (G1 & G2 & G3). unfold sent_for in G2. rewrite He, andb_false_r in G2. assumption.
Qed.

(* the two sending sites exclude each other: both run under requests_lock, at
   most one worker is inside service() of the channel, and a worker in
   send_continue excludes the I/O thread from received() *)
Theorem senders_exclusive : forall sched,
  let s := run sched in
  (rlock s = true <-> (io s <> IOIdle \/ In WSend (active s))) /\
  length (active s) + queued s <= 1 /\
  ~ (io s <> IOIdle /\ In WSend (active s)).
Proof.
  intros sched s. destruct (Inv_run sched) as [HA _ _]. fold s in HA.
  split; [apply (A_lock s HA)|]. split; [apply (A_one s HA)|].
  intros [H1 H2]. pose proof (A_wk s HA WSend H2) as W. simpl in W.
  destruct W as (_ & _ & W & _). auto.
Qed.

Lemma io_complete_no_interim : forall s m s' l i w, io_complete s m = (s', l) -> ~ In (LInterim i w) l.
Proof.
  intros s m s' l i w H Hin.
  destruct (io_complete_spec _ _ _ _ H) as (_ & _ & _ & _ & _ & _ & _ & _ & _ & S).
  destruct S as [(q & S)|[(q & S)|S]]; decompose [and] S; subst l; simpl in Hin.
  - destruct Hin as [Hin|Hin]; [discriminate|]. destruct (is_nil (requests s)); simpl in Hin; intuition discriminate.
  - intuition discriminate.
  - exact Hin.
Qed.

(* every interim response is appended by a thread that holds requests_lock, for
   the object under construction, whose header block is finished, when no
   request is queued or in service before it *)
Theorem interim_site : forall sched c s' l i w,
  step (run sched) c = Some (s', l) -> In (LInterim i w) l ->
  let s := run sched in
  rlock s = true /\ requests s = [] /\
  (exists q, request s = Some q /\ rid q = i /\ a_hf q = true /\ g_asked q = true) /\
  outlog s' = outlog s ++ [TInterim i w] /\
  (c = CIOSend /\ w = false \/ exists k, c = CWSend k /\ w = true).
Proof.
  intros sched c s' l i w H Hin s.
  destruct (Inv_run sched) as [HA HB HC]. fold s in HA, HB, HC.
  pose proof (reachable_trans _ _ _ _ H) as T. fold s in T.
  trans_cases T; clear H; simpl in Hin.
  (* only the two halves of send_continue emit the label *)
  1, 2, 5-14, 16, 17: exfalso; intuition discriminate.
  - exfalso. apply in_app_or in Hin. destruct Hin as [Hin|Hin].
    + destruct fresh; simpl in Hin; intuition discriminate.
    + destruct Hcase as [(_ & -> & _)|[_ Hc]]; [exact Hin|]. eapply io_complete_no_interim; eauto.
  - destruct Hin as [Hin|Hin]; [|exfalso; eapply io_complete_no_interim; eauto].
    inversion Hin; subst i w.
    assert (Hs : is_sending s = true) by (unfold is_sending; rewrite Hio; reflexivity).
    destruct (C_sending s HC Hs q Hq) as [Hask Hhf].
    split; [apply (io_busy_locked s HA); congruence|]. split; [assumption|].
    split; [exists q; auto|]. split; [|left; auto].
    destruct (io_complete_spec _ _ _ _ Hc) as (_ & _ & _ & _ & -> & _). reflexivity.
  - destruct Hin as [Hin|[]]. inversion Hin; subst i w.
    assert (Hs : is_sending s = true).
    { unfold is_sending. rewrite Hact. simpl. apply orb_true_r. }
    destruct (C_sending s HC Hs q Hq) as [Hask Hhf].
    split; [assumption|]. split; [assumption|].
    split; [exists q; auto|]. split; [reflexivity|]. right. eauto.
Qed.

(* where the interim response of object i sits in the sequence of appends:
   every chunk of a final response appended before it belongs to an earlier
   request, every chunk appended after it to request i or a later one *)
Theorem interim_position : forall sched l1 i w l2,
  outlog (run sched) = l1 ++ TInterim i w :: l2 ->
  (forall j, In (TFinal j) l1 -> j < i) /\
  (forall j, In (TFinal j) l2 -> i <= j) /\
  (forall j w', In (TInterim j w') l1 -> j <= i) /\
  (forall j w', In (TInterim j w') l2 -> i <= j).
Proof.
  intros sched l1 i w l2 E. pose proof (B_ord _ (iB _ (Inv_run sched))) as O. rewrite E in O.
  apply ordered_split in O. destruct O as [O1 O2]. rewrite Forall_forall in O1, O2.
  repeat split; intros.
  - specialize (O1 _ H). simpl in O1. lia.
  - specialize (O2 _ H). simpl in O2. lia.
  - specialize (O1 _ H). simpl in O1. lia.
  - specialize (O2 _ H). simpl in O2. lia.
Qed.

Definition ev_asks (ev : pev) : bool :=
  match ev with
  | EvHead431 (Some true) _ => true
  | EvHead (Some true) _ _ => true
  | _ => false
  end.

Definition quiet (s : state) : Prop :=
  askers s = [] /\ forall q, request s = Some q -> g_asked q = false.

Lemma astep_quiet : forall q ev q', astep q ev = Some q' -> ev_asks ev = false ->
  g_asked q = false -> g_asked q' = false.
Proof.
  intros q ev q' H He Hq.
  destruct (astep_cases _ _ _ H) as [->|[(_ & _ & c & ->)|(_ & _ & [(se & b & -> & ->)|[->|(se & b & c & -> & _ & ->)]])]];
    auto; destruct se as [[]|]; try discriminate He; simpl; rewrite ?Hq; reflexivity.
Qed.

Lemma quiet_step : forall s c s' l, InvA s -> quiet s -> step s c = Some (s', l) ->
  (forall ev more, c = CIOParse ev more -> ev_asks ev = false) -> quiet s'.
Proof.
  intros s c s' l HA [Q1 Q2] H Hev.
  trans_cases (step_trans _ _ _ _ HA H); clear H.
  (* neither askers nor the object under construction is touched *)
  1, 2, 5-12, 14-17: exact (conj Q1 Q2).
  - assert (Hq1 : g_asked q1 = false).
    { eapply astep_quiet; eauto. unfold parse_obj in Hq0.
      destruct (request s) as [q|]; destruct Hq0 as [-> _]; auto. }
    destruct (after_parse_fields s q1 fresh) as (F1 & _ & _ & _ & _ & _ & _ & _ & _ & _ & _ & _ & F14).
    fold s1 in F1, F14. rewrite Hq1 in F14.
    destruct Hcase as [(_ & _ & ->)|[_ Hc]].
    + split; simpl; [congruence|]. intros q Hq. inv_some. assumption.
    + destruct (io_complete_spec _ _ _ _ Hc) as (_ & _ & _ & _ & _ & _ & S8 & _ & _ & S11).
      split; [congruence|].
      destruct S11 as [(q & _ & _ & _ & Sr & _)|[(q & _ & _ & _ & Sr & _)|(_ & Sr & _)]];
        rewrite Sr; try discriminate. rewrite F1. intros q Hq. inv_some. assumption.
  - destruct (io_complete_spec _ _ _ _ Hc) as (_ & _ & _ & _ & _ & _ & S8 & _ & _ & S11).
    split; [exact (eq_trans S8 Q1)|].
    destruct S11 as [(q' & _ & _ & _ & Sr & _)|[(q' & _ & _ & _ & Sr & _)|(_ & Sr & _)]];
      rewrite Sr; try discriminate. exact Q2.
  - split; [exact Q1|]. simpl. intros q' Hq'. inv_some. simpl. auto.
Qed.

Lemma quiet_run : forall sched,
  (forall ev more, In (CIOParse ev more) sched -> ev_asks ev = false) -> quiet (run sched).
Proof.
  induction sched as [|c sched IH] using rev_ind; intros H.
  - split; [reflexivity|discriminate].
  - pose proof (iA _ (Inv_run sched)) as HA.
    unfold run in *. rewrite run_snoc. unfold exec1.
    assert (IH' : quiet (fst (run_tr sched))).
    { apply IH. intros ev more Hin. apply (H ev more). apply in_or_app. left. assumption. }
    destruct (step (fst (run_tr sched)) c) as [[s' l]|] eqn:E; simpl; [|assumption].
    eapply quiet_step; eauto. intros ev more ->. apply (H ev more). apply in_or_app. right. left. reflexivity.
Qed.

(* no parser call sets the flag (HTTP/1.0, no Expect field, another
   expectation) => no interim response, on any schedule *)
Theorem no_interim_unless_asked : forall sched,
  (forall ev more, In (CIOParse ev more) sched -> ev_asks ev = false) ->
  forall i w, ~ In (TInterim i w) (outlog (run sched)).
Proof.
  intros sched H i w Hin. apply (C_asked _ (iC _ (Inv_run sched))) in Hin.
  destruct (quiet_run sched H) as [Q _]. rewrite Q in Hin. exact Hin.
Qed.

(* a queued request is complete, not empty, and exactly its own header block was
   parsed into it (none for the 431 stub) *)
Theorem queued_own_head : forall sched r,
  In r (requests (run sched)) ->
  a_completed r = true /\ a_empty r = false /\ g_heads r <= 1.
Proof. intros sched r. apply (C_queued _ (iC _ (Inv_run sched))). Qed.

(* the request is never lost: except inside a turn of received() that is about to
   call send_continue, the object under construction is NOT completed -- a
   completed request has been queued (or dropped as empty) in the step that
   completed it or in the send_continue step that follows *)
Theorem completed_never_kept : forall sched q,
  (forall m, io (run sched) <> IOSend m) -> request (run sched) = Some q -> a_completed q = false.
Proof. intros sched q H. apply (C_nc _ (iC _ (Inv_run sched)) H). Qed.

(* and the step that ends the turn queues it: after CIOSend nothing completed stays *)
Theorem send_then_queue : forall sched s' l,
  step (run sched) CIOSend = Some (s', l) ->
  forall q, request (run sched) = Some q -> a_completed q = true ->
  request s' = None /\ sent_continue s' = false /\
  (a_empty q = false -> requests s' = [q] /\ In (LQueue (rid q)) l /\ In LAddTask l).
Proof.
  intros sched s' l H q Hq Hc. set (s := run sched) in *.
  pose proof (reachable_trans _ _ _ _ H) as T. fold s in T. clear H.
  remember CIOSend as c eqn:Ec.
  destruct T as [ | | |more q0 s2 l' Hio Hrs Hq0 Hcompl| | | | | | | | | | | | | ]; try discriminate Ec.
  rewrite Hq in Hq0. inv_some.
  destruct (io_complete_spec _ _ _ _ Hcompl) as (_ & _ & _ & _ & _ & _ & _ & _ & _ & S).
  simpl in S. rewrite Hq, Hrs in S.
  destruct S as [(q' & Sq & _ & Se & Sr & Ssc & Srs & _ & ->)|[(q' & Sq & _ & Se & Sr & Ssc & _)|(Sc & _)]].
  - inv_some. simpl. auto 10.
  - inv_some. repeat split; auto; congruence.
  - specialize (Sc q0 eq_refl). congruence.
Qed.

(* GET /a complete, then the head of an expecting POST /b in the same read while
   /a is queued; the worker serves /a and sends the interim response for /b *)
Definition sched_worker_sends : list choice :=
  [CIOEnter; CIOParse (EvHead None false true) true; CIOParse (EvHead (Some true) true false) false;
   CTake; CWBegin 0; CWWrite 0; CWEnd 0 false; CWKeep 0; CWSend 0].

Example ex_worker_sends :
  outlog (run sched_worker_sends) = [TFinal 0; TInterim 1 true] /\
  rlock (run sched_worker_sends) = false /\ requests (run sched_worker_sends) = [] /\
  (exists q, request (run sched_worker_sends) = Some q /\ rid q = 1 /\ a_hf q = true /\ g_asked q = true).
Proof. vm_compute. repeat split. eexists. repeat split. Qed.

(* the expecting request is at the head of the line: the I/O thread answers *)
Definition sched_io_sends : list choice :=
  [CIOEnter; CIOParse (EvHead (Some true) true false) false; CIOSend;
   CIOEnter; CIOParse (EvBody true) false; CTake; CWBegin 0; CWWrite 0].

Example ex_io_sends :
  outlog (run sched_io_sends) = [TInterim 0 false; TFinal 0].
Proof. vm_compute. auto. Qed.

(* the class of the former findings F5/F6: a request complete at the end of its
   header block gets its (one) interim response and is queued at once *)
Definition sched_complete_at_head : list choice :=
  [CIOEnter; CIOParse (EvHead (Some true) false true) false; CIOSend].

Example ex_complete_at_head :
  outlog (run sched_complete_at_head) = [TInterim 0 false] /\
  map rid (requests (run sched_complete_at_head)) = [0] /\
  queued (run sched_complete_at_head) = 1 /\ request (run sched_complete_at_head) = None /\
  sent_continue (run sched_complete_at_head) = false.
Proof. vm_compute. repeat split. Qed.
