(* String and list lemmas used by the C16 proofs: the fuelled / index based
   Python primitives of Lib/PyBytes.v (find, partition, rsplit) against the
   structurally recursive vocabulary of Spec/ProxySpec.v, the monadic list
   traversals of the model, and l[-k:]. *)
From Coq Require Import List NArith ZArith Bool Lia Arith.
From WV Require Import Lib.PyBytes Lib.PyStrProxy Model.Proxy Spec.ProxySpec Proof.RegexFacts.
Import ListNotations.
Local Open Scope N_scope.

Lemma memb_cons c y s : memb c (y :: s) = (c =? y) || memb c s.
Proof. reflexivity. Qed.

Lemma find_from_first c s i :
  find_from s [c] i = if memb c s then Some (i + List.length (take_until c s))%nat else None.
Proof.
  revert i. induction s as [|y s IH]; intro i.
  - reflexivity.
  - cbn [find_from]. rewrite startswith_single, memb_cons. cbn [take_until].
    rewrite (N.eqb_sym y c). destruct (c =? y) eqn:E; cbn [orb].
    + simpl. f_equal. lia.
    + rewrite IH. destruct (memb c s); auto. simpl. f_equal. lia.
Qed.

Lemma take_drop c s : memb c s = true -> s = take_until c s ++ c :: drop_through c s.
Proof.
  induction s as [|y s IH]; simpl; [discriminate|].
  rewrite (N.eqb_sym y c). destruct (c =? y) eqn:E; simpl.
  - intros _. apply N.eqb_eq in E. subst. reflexivity.
  - intro H. f_equal. auto.
Qed.

(* s cut at the first c *)
Lemma cut_at c s : memb c s = true ->
  firstn (List.length (take_until c s)) s = take_until c s /\
  skipn (List.length (take_until c s) + 1) s = drop_through c s.
Proof.
  intro E. pose proof (take_drop c s E) as H. split; rewrite H at 2.
  - rewrite firstn_app, Nat.sub_diag, firstn_all. simpl. apply app_nil_r.
  - rewrite skipn_app.
    replace (List.length (take_until c s) + 1 - List.length (take_until c s))%nat with 1%nat by lia.
    rewrite skipn_all2 by lia. reflexivity.
Qed.

Lemma partition_char c s :
  partition s [c] = if memb c s then (take_until c s, [c], drop_through c s) else (s, [], []).
Proof.
  unfold partition, find. rewrite find_from_first. destruct (memb c s) eqn:E; auto.
  destruct (cut_at c s E) as [H1 H2]. simpl. rewrite H1, H2. reflexivity.
Qed.

Lemma take_until_no c s : memb c s = false -> take_until c s = s.
Proof.
  induction s as [|y s IH]; simpl; auto. rewrite (N.eqb_sym y c).
  destruct (c =? y); simpl; [discriminate|]. intro H. f_equal. auto.
Qed.

Lemma rfind_from_char c s i best :
  rfind_from s [c] i best =
  match split_last c s with Some (a, _) => Some (i + List.length a)%nat | None => best end.
Proof.
  revert i best. induction s as [|y s IH]; intros i best.
  - reflexivity.
  - cbn [rfind_from split_last]. rewrite startswith_single, IH.
    destruct (split_last c s) as [[a b]|].
    + simpl. f_equal. lia.
    + rewrite (N.eqb_sym y c). destruct (c =? y); simpl; auto; f_equal; lia.
Qed.

Lemma split_last_app c s a b : split_last c s = Some (a, b) -> s = a ++ c :: b.
Proof.
  revert a b. induction s as [|y s IH]; intros a b; simpl; [discriminate|].
  destruct (split_last c s) as [[a' b']|].
  - intro H. injection H as <- <-. simpl. f_equal. auto.
  - destruct (y =? c) eqn:E; [|discriminate]. intro H. injection H as <- <-.
    apply N.eqb_eq in E. subst. reflexivity.
Qed.

Lemma split_last_none c s : split_last c s = None <-> memb c s = false.
Proof.
  induction s as [|y s IH]; simpl; [tauto|].
  rewrite (N.eqb_sym c y). destruct (split_last c s) as [[a b]|].
  - split; [discriminate|]. intro H. apply orb_false_iff in H as [_ H]. apply IH in H. discriminate.
  - destruct (y =? c); simpl; split; try discriminate; auto. intros _. apply IH. reflexivity.
Qed.

Lemma rsplit1_char c s :
  rsplit1 s [c] = match split_last c s with Some (a, b) => [a; b] | None => [s] end.
Proof.
  unfold rsplit1, rfind. rewrite rfind_from_char.
  destruct (split_last c s) as [[a b]|] eqn:E; auto.
  apply split_last_app in E. subst s. simpl.
  rewrite firstn_app, Nat.sub_diag, firstn_all. simpl. rewrite app_nil_r.
  rewrite skipn_app. replace (List.length a + 1 - List.length a)%nat with 1%nat by lia.
  rewrite skipn_all2 by lia. reflexivity.
Qed.

Lemma rsplit1_has c s : memb c s = true ->
  rsplit1 s [c] = [before_last c s; after_last c s].
Proof.
  intro H. rewrite rsplit1_char. unfold before_last, after_last.
  destruct (split_last c s) as [[a b]|] eqn:E; auto.
  apply split_last_none in E. congruence.
Qed.

Lemma last_opt_truthy s : truthy s = true -> exists x, last_opt s = Some x.
Proof.
  induction s as [|y s IH]; simpl; [discriminate|]. intros _.
  destruct s as [|z s]; [eauto|]. apply IH. reflexivity.
Qed.

Lemma last_opt_none s : last_opt s = None -> s = [].
Proof.
  destruct s as [|y s]; auto. intro H.
  destruct (last_opt_truthy (y :: s) eq_refl) as [x Hx]. congruence.
Qed.

Lemma truthy_false s : truthy s = false <-> s = [].
Proof. destruct s; simpl; split; congruence. Qed.

Lemma truthy_true s : truthy s = true <-> s <> [].
Proof. destruct s; simpl; split; congruence. Qed.

Section MapM.
  Context {A B : Type} (f : A -> result B).

  Lemma mapM_cons x l : mapM f (x :: l) = bind (f x) (fun y => bind (mapM f l) (fun ys => Ok (y :: ys))).
  Proof. reflexivity. Qed.

  (* an element on which f raises makes the traversal raise (f never yields Malformed here) *)
  Lemma mapM_exn l x e : In x l -> f x = Exn e -> (forall a h, f a <> Malformed h) ->
    exists e', mapM f l = Exn e'.
  Proof.
    intros Hin Hx Hm. induction l as [|a l IH]; [destruct Hin|].
    simpl. destruct Hin as [->|Hin].
    - rewrite Hx. simpl. eauto.
    - destruct (f a) as [y| |] eqn:Ea; simpl; eauto.
      + destruct (IH Hin) as [e' ->]. simpl. eauto.
      + exfalso. eapply Hm; eauto.
  Qed.

  Lemma mapM_no_malformed l : (forall a h, f a <> Malformed h) -> forall h, mapM f l <> Malformed h.
  Proof.
    intros Hm. induction l as [|a l IH]; intros h; simpl; [discriminate|].
    destruct (f a) as [y| |] eqn:Ea; simpl; try discriminate.
    - destruct (mapM f l) as [ys| |] eqn:Em; simpl; try discriminate. intro H. injection H as ->. eapply IH; eauto.
    - intro H. injection H as ->. eapply Hm; eauto.
  Qed.

  Lemma mapM_all_ok l : (forall x, In x l -> exists y, f x = Ok y) -> exists l', mapM f l = Ok l'.
  Proof.
    induction l as [|a l IH]; intro H; simpl; [eauto|].
    destruct (H a (or_introl eq_refl)) as [y ->]. simpl.
    destruct IH as [l' ->]; [intros; apply H; right; auto|]. simpl. eauto.
  Qed.
End MapM.

Lemma py_lastk_pos {A} (l : list A) p : py_lastk l (Zpos p) = suffix l (Pos.to_nat p).
Proof.
  unfold py_lastk, last_k, suffix, pick_index. f_equal.
  destruct (Nat.min_spec (Pos.to_nat p) (List.length l)) as [[? ->]|[? ->]]; lia.
Qed.

Lemma suffix_hd {A} (l : list A) k : hd_error (suffix l k) = pick l k.
Proof.
  unfold suffix, pick. generalize (pick_index (List.length l) k). intro i.
  revert l. induction i as [|i IH]; intros l; destruct l; simpl; auto.
Qed.

Lemma pick_some {A} (l : list A) k : l <> [] -> (1 <= k)%nat -> exists x, pick l k = Some x.
Proof.
  intros Hl Hk. unfold pick, pick_index.
  destruct (nth_error l (List.length l - Nat.min k (List.length l))) eqn:E; eauto.
  apply nth_error_None in E. destruct l as [|a l]; [congruence|].
  remember (List.length (a :: l)) as n eqn:Hn. assert (1 <= n)%nat by (subst n; simpl; lia).
  destruct (Nat.min_spec k n) as [[? Hm]|[? Hm]]; rewrite Hm in E; lia.
Qed.

Lemma suffix_nonempty {A} (l : list A) k : l <> [] -> (1 <= k)%nat -> suffix l k <> [].
Proof.
  intros Hl Hk H. destruct (pick_some l k Hl Hk) as [x Hx].
  rewrite <- suffix_hd, H in Hx. discriminate.
Qed.

Lemma suffix_last {A} (l : list A) k d : l <> [] -> (1 <= k)%nat -> last (suffix l k) d = last l d.
Proof.
  intros Hl Hk. unfold suffix, pick_index.
  assert (Hi : (List.length l - Nat.min k (List.length l) < List.length l)%nat).
  { destruct l as [|a l]; [congruence|].
    remember (List.length (a :: l)) as n eqn:Hn. assert (1 <= n)%nat by (subst n; simpl; lia).
    destruct (Nat.min_spec k n) as [[? ->]|[? ->]]; lia. }
  revert Hi. generalize (List.length l - Nat.min k (List.length l))%nat. intro i.
  revert l Hl. induction i as [|i IH]; intros l Hl Hi; [reflexivity|].
  destruct l as [|x l]; [congruence|]. simpl in Hi.
  cbn [skipn]. destruct l as [|y l]; [simpl in Hi; lia|].
  rewrite IH; [reflexivity|discriminate|simpl in *; lia].
Qed.

Lemma suffix_suffix_of {A} (l : list A) k : exists pre, l = pre ++ suffix l k.
Proof. unfold suffix. exists (firstn (pick_index (List.length l) k) l). symmetry. apply firstn_skipn. Qed.

Lemma split_nonempty s sep : split s sep <> [].
Proof.
  unfold split. generalize (S (List.length s)). intro fuel. revert s.
  destruct fuel; intro s; simpl; [discriminate|].
  destruct (find s sep); discriminate.
Qed.

Lemma first_nonempty_nil l : first_nonempty l = [] -> forall x, In x l -> x = [].
Proof.
  induction l as [|a l IH]; simpl; [tauto|].
  destruct a; [|discriminate]. intros H x [<-|Hin]; auto.
Qed.

Lemma first_nonempty_in l : first_nonempty l <> [] -> In (first_nonempty l) l.
Proof.
  induction l as [|a l IH]; simpl; [congruence|].
  destruct a; auto.
Qed.

(* the value the loop variable is left with is only used when no entry has the field: then it is empty *)
Lemma first_nonempty_default {A} (l : list A) (g : A -> str) d :
  l <> [] -> match first_nonempty (map g l) with [] => g (last l d) | x => x end = first_nonempty (map g l).
Proof.
  intro Hl. destruct (first_nonempty (map g l)) eqn:E; auto.
  apply (first_nonempty_nil _ E). apply in_map.
  destruct (exists_last Hl) as (l' & a & ->). rewrite last_last. apply in_or_app. right. left. reflexivity.
Qed.
