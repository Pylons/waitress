(* C17: OverflowableBuffer refines the FIFO queue of Spec/Fifo.v,
   for every history, every STRBUF_LIMIT and every overflow threshold. *)
From Coq Require Import List NArith ZArith Bool Lia ZifyBool Arith.
From WV Require Import Lib.PyBytes Model.Buffers Spec.Fifo Proof.Buffers Proof.PyBytesFacts.
Import ListNotations.
Local Open Scope Z_scope.

(* representation invariant of the OverflowableBuffer object *)
Definition inv (o : obuf) : Prop :=
  match ob_buf o with
  | None => ob_overflowed o = false
  | Some b => ob_strbuf o = [] /\ fb_inv b /\
              (fb_kind b = KBio \/ fb_kind b = KTmp) /\
              (ob_overflowed o = true <-> fb_kind b = KTmp)
  end.

(* abstraction function: the queued bytes *)
Definition abs (o : obuf) : queue :=
  match ob_buf o with
  | None => ob_strbuf o
  | Some b => fb_abs b
  end.

(* the specification operation an implementation operation stands for *)
Definition spec_of (p : op) : option qop :=
  match p with
  | OAppend s => Some (QAppend s)
  | OGet n false => Some (QPeek n)
  | OGet n true => Some (QTake n)
  | OSkip n _ => Some (QConsume n)
  | OLen => Some QLength
  | OGetFile => Some QView
  | OClose => None
  end.

Definition live (p : op) : Prop := p <> OClose.

Definition q_next_op (q : queue) (p : op) : queue :=
  match spec_of p with Some sp => q_next q sp | None => q end.

(* what an output of the implementation must be, given the queue before the
   operation and the output of the specification *)
Definition out_refines (q : queue) (so : qout) (p : op) (r : out) : Prop :=
  match p, so, r with
  | OAppend _, QUnit, RUnit => True
  | OGet _ false, QBytes want, RBytes b => is_prefix b q /\ (length want <= length b)%nat
  | OGet _ true, QBytes want, RBytes b => b = want
  | OSkip _ _, QUnit, RUnit => True
  | OSkip _ _, QErr, RExn ValueErrorSkip => True
  | OLen, QNum n, RLen z => z = n
  | OGetFile, QBytes want, RFile f =>
      f_closed f = false /\ (f_pos f <= length (f_content f))%nat /\ skipn (f_pos f) (f_content f) = want
  | _, _, _ => False
  end.

Definition out_ok (q : queue) (p : op) (r : out) : Prop :=
  match spec_of p with
  | Some sp => out_refines q (snd (q_step q sp)) p r
  | None => True
  end.

Lemma inv_new : inv o_new.
Proof. reflexivity. Qed.

Lemma abs_len o : inv o -> o_len o = q_len (abs o).
Proof.
  unfold inv, abs, o_len. destruct (ob_buf o) as [b|]; [|reflexivity].
  intros (_ & Hb & _). now apply fb_abs_len.
Qed.

(* plain bytes hold fewer than STRBUF_LIMIT bytes; an in-memory file holds
   fewer than [overflow] bytes (otherwise it has been moved to a temporary file) *)
Definition inv_thr (limit ovf : N) (o : obuf) : Prop :=
  match ob_buf o with
  | None => ob_strbuf o = [] \/ lenZ (ob_strbuf o) < Z.of_N limit
  | Some b => fb_kind b = KBio -> fb_remain b < Z.of_N ovf
  end.

(* a new file buffer of kind k, filled as _create_buffer fills it *)
Lemma fresh_filled k sb :
  exists b, fb_inv b /\ fb_abs b = sb /\ fb_kind b = k /\ fb_remain b = lenZ sb /\
    match sb with
    | [] => mkfbuf k newfile 0 = b
    | _ :: _ => fb_append false (mkfbuf k newfile 0) sb = Ok b
    end.
Proof.
  destruct sb as [|x sb].
  - exists (mkfbuf k newfile 0). repeat split; apply fb_inv_fresh.
  - destruct (fb_append_spec (mkfbuf k newfile 0) (x :: sb) (fb_inv_fresh k))
      as (b & Ha & Hi & Habs & Hk & _ & _ & Hr).
    exists b. repeat split; auto; apply Hi.
Qed.

(* the kind is chosen by the overflow threshold, so the size bounds hold afterwards *)
Lemma create_buffer_spec ovf o : inv o -> ob_buf o = None ->
  exists o' b, o_create_buffer FNone ovf o = (o', Ok b) /\ ob_buf o' = Some b /\
            inv o' /\ abs o' = ob_strbuf o /\ forall limit, inv_thr limit ovf o'.
Proof.
  intros Hi Hn. destruct o as [ob sb ovd]. cbn in Hn. subst ob.
  unfold o_create_buffer. cbn [ob_strbuf].
  remember (lenZ sb >=? Z.of_N ovf) as big eqn:E. set (k := if big then KTmp else KBio).
  replace (if big then o_set_large_buffer FNone _ else o_set_small_buffer FNone _)
    with (mkobuf (Some (mkfbuf k newfile 0)) sb big, @Ok fbuf (mkfbuf k newfile 0))
    by (subst k; destruct big; reflexivity).
  destruct (fresh_filled k sb) as (b & Hfb & Habs & Hk & Hr & Hb).
  exists (mkobuf (Some b) [] big), b.
  split; [destruct sb; cbn [ob_strbuf ob_overflowed is_create_write]; rewrite Hb; reflexivity|].
  unfold inv, abs, inv_thr. cbn [ob_buf ob_strbuf ob_overflowed]. rewrite Hk, Hr. subst k.
  destruct big; repeat split; auto; try apply Hfb; try discriminate. intros _ _. lia.
Qed.

Lemma inv_fb o b : inv o -> ob_buf o = Some b -> fb_inv b.
Proof. intros Hi Hb. unfold inv in Hi. rewrite Hb in Hi. tauto. Qed.

Lemma abs_some o b : ob_buf o = Some b -> abs o = fb_abs b.
Proof. intro Hb. unfold abs. now rewrite Hb. Qed.

(* a method that replaces the file buffer by one of the same kind: the invariant
   survives, and so do the bounds when the new buffer holds no more than the old *)
Lemma same_kind o b b' : inv o -> ob_buf o = Some b -> fb_inv b' -> fb_kind b' = fb_kind b ->
  let o' := mkobuf (Some b') (ob_strbuf o) (ob_overflowed o) in
  inv o' /\ abs o' = fb_abs b' /\
  forall limit ovf, fb_remain b' <= fb_remain b -> inv_thr limit ovf o -> inv_thr limit ovf o'.
Proof.
  intros Hi Hb Hi' Hk'. unfold inv in Hi. rewrite Hb in Hi. destruct Hi as (Hs & Hfb & Hk & Hov).
  unfold inv, abs, inv_thr. cbn [ob_buf ob_strbuf ob_overflowed].
  rewrite Hb, Hk'. repeat split; auto; try apply Hov; try apply Hi'.
  intros limit ovf Hle Ht Hkb. specialize (Ht Hkb). lia.
Qed.

Lemma append_tail_spec ovf s o b : inv o -> ob_buf o = Some b ->
  exists o', o_append_tail FNone ovf s o b = (o', Ok tt) /\ inv o' /\ abs o' = abs o ++ s /\
             forall limit, inv_thr limit ovf o'.
Proof.
  intros Hi Hb. rewrite (abs_some o b Hb).
  destruct (fb_append_spec b s (inv_fb o b Hi Hb)) as (b' & Ha & Hi' & Habs & Hk' & _).
  destruct (same_kind o b b' Hi Hb Hi' Hk') as (Hi2 & Ha2 & _). rewrite Habs in Ha2.
  assert (Hs : ob_strbuf o = [] /\ (ob_overflowed o = true -> fb_kind b = KTmp))
    by (unfold inv in Hi; rewrite Hb in Hi; split; apply Hi).
  destruct Hs as (Hs & Hov).
  unfold o_append_tail. cbn [is_append_write]. rewrite Ha. cbn [ob_overflowed ob_strbuf].
  destruct (ob_overflowed o) eqn:Eo; cbn [negb].
  - eexists; split; [reflexivity|]. refine (conj Hi2 (conj Ha2 _)).
    intros limit Hkb. cbn [ob_buf] in Hkb. rewrite Hk' in Hkb.
    assert (fb_kind b = KTmp) by now apply Hov. congruence.
  - destruct (fb_len b' >=? Z.of_N ovf) eqn:E.
    + unfold o_set_large_buffer. cbn [ob_buf ob_strbuf]. rewrite (fb_init_copy KTmp b' Hi').
      eexists; split; [reflexivity|].
      unfold inv, abs, inv_thr; cbn [ob_buf ob_strbuf ob_overflowed fb_kind].
      repeat split; auto; try apply Hi'; discriminate.
    + eexists; split; [reflexivity|]. refine (conj Hi2 (conj Ha2 _)).
      intros limit _. cbn [ob_buf]. unfold fb_len in E. lia.
Qed.

(* append() establishes the bounds whatever they were *)
Lemma append_spec_thr limit ovf o s : inv o ->
  exists o', o_append FNone limit ovf o s = (o', Ok tt) /\ inv o' /\ abs o' = abs o ++ s /\
             inv_thr limit ovf o'.
Proof.
  intro Hi. unfold o_append. destruct (ob_buf o) as [b|] eqn:Hb.
  - destruct (append_tail_spec ovf s o b Hi Hb) as (o' & H1 & H2 & H3 & H4). eauto 6.
  - destruct (lenZ (ob_strbuf o) + lenZ s <? Z.of_N limit) eqn:E.
    + eexists; split; [reflexivity|]. unfold inv, abs, inv_thr in *. rewrite Hb in *. cbn.
      repeat split; auto. right. unfold lenZ in *. rewrite app_length. lia.
    + destruct (create_buffer_spec ovf o Hi Hb) as (o1 & b & Hc & Hb1 & Hi1 & Ha1 & _).
      rewrite Hc. destruct (append_tail_spec ovf s o1 b Hi1 Hb1) as (o' & H1 & H2 & H3 & H4).
      exists o'. repeat split; auto. rewrite H3, Ha1. unfold abs. now rewrite Hb.
Qed.

Lemma append_spec limit ovf o s : inv o ->
  exists o', o_append FNone limit ovf o s = (o', Ok tt) /\ inv o' /\ abs o' = abs o ++ s.
Proof. intro Hi. destruct (append_spec_thr limit ovf o s Hi) as (o' & H1 & H2 & H3 & _). eauto. Qed.

Lemma get_tail_noskip n o b : inv o -> ob_buf o = Some b ->
  o_get_tail n false o b = (o, Ok (q_peek n (abs o))).
Proof.
  intros Hi Hb. rewrite (abs_some o b Hb).
  unfold o_get_tail. rewrite (fb_get_noskip b n (inv_fb o b Hi Hb)).
  destruct o as [ob sb ovd]; cbn in *. now subst.
Qed.

Lemma get_tail_skip n o b : inv o -> ob_buf o = Some b ->
  exists o', o_get_tail n true o b = (o', Ok (q_peek n (abs o))) /\ inv o' /\
             abs o' = skipn (length (q_peek n (abs o))) (abs o) /\
             forall limit ovf, inv_thr limit ovf o -> inv_thr limit ovf o'.
Proof.
  intros Hi Hb. rewrite (abs_some o b Hb).
  destruct (fb_get_skip b n (inv_fb o b Hi Hb)) as (b' & Hg & Hi' & Habs & Hk' & _ & _ & Hr).
  destruct (same_kind o b b' Hi Hb Hi' Hk') as (Hi2 & Ha2 & Ht2).
  unfold o_get_tail. rewrite Hg. eexists; split; [reflexivity|].
  refine (conj Hi2 (conj _ _)); [congruence|]. intros limit ovf. apply Ht2. unfold lenZ in Hr. lia.
Qed.

(* get(numbytes, skip=False): a prefix at least as long as requested, or everything;
   nothing changes at all *)
Lemma get_noskip_spec ovf o n : inv o ->
  exists b, o_get FNone ovf o n false = (o, Ok b) /\ (b = q_peek n (abs o) \/ b = abs o).
Proof.
  intro Hi. unfold o_get. destruct (ob_buf o) as [b|] eqn:Hb.
  - rewrite (get_tail_noskip n o b Hi Hb). eauto.
  - cbn [negb]. eexists; split; [reflexivity|]. right. unfold abs. now rewrite Hb.
Qed.

Lemma get_skip_spec ovf o n : inv o ->
  exists o', o_get FNone ovf o n true = (o', Ok (q_peek n (abs o))) /\ inv o' /\
             abs o' = skipn (length (q_peek n (abs o))) (abs o) /\
             forall limit, inv_thr limit ovf o -> inv_thr limit ovf o'.
Proof.
  intro Hi. unfold o_get. destruct (ob_buf o) as [b|] eqn:Hb.
  - destruct (get_tail_skip n o b Hi Hb) as (o' & H1 & H2 & H3 & H4). eauto 7.
  - cbn [negb]. destruct (create_buffer_spec ovf o Hi Hb) as (o1 & b & Hc & Hb1 & Hi1 & Ha1 & Ht1).
    rewrite Hc. destruct (get_tail_skip n o1 b Hi1 Hb1) as (o' & H1 & H2 & H3 & H4).
    assert (E : abs o = abs o1) by (rewrite Ha1; unfold abs; now rewrite Hb).
    rewrite E. eauto 8.
Qed.

Lemma skip_tail_ok n o b : inv o -> ob_buf o = Some b -> Z.of_N n <= q_len (abs o) ->
  exists o', o_skip_tail n o b = (o', Ok tt) /\ inv o' /\ abs o' = skipn (N.to_nat n) (abs o) /\
             forall limit ovf, inv_thr limit ovf o -> inv_thr limit ovf o'.
Proof.
  intros Hi Hb Hn. rewrite (abs_some o b Hb) in *. pose proof (inv_fb o b Hi Hb) as Hfb.
  rewrite <- (fb_abs_len b Hfb) in Hn.
  destruct (fb_skip_ok b n Hfb Hn) as (b' & Hg & Hi' & Habs & Hk' & _ & _ & Hr).
  destruct (same_kind o b b' Hi Hb Hi' Hk') as (Hi2 & Ha2 & Ht2).
  unfold o_skip_tail. rewrite Hg. eexists; split; [reflexivity|].
  refine (conj Hi2 (conj _ _)); [congruence|]. intros limit ovf. apply Ht2. lia.
Qed.

Lemma skip_tail_err n o b : inv o -> ob_buf o = Some b -> q_len (abs o) < Z.of_N n ->
  o_skip_tail n o b = (o, Exn ValueErrorSkip).
Proof.
  intros Hi Hb Hn. rewrite (abs_some o b Hb), <- (fb_abs_len b (inv_fb o b Hi Hb)) in Hn.
  unfold o_skip_tail. now rewrite (fb_skip_err b n Hn).
Qed.

Lemma skip_ok_spec_thr ovf o n ap : inv o -> Z.of_N n <= q_len (abs o) ->
  exists o', o_skip FNone ovf o n ap = (o', Ok tt) /\ inv o' /\ abs o' = skipn (N.to_nat n) (abs o) /\
             forall limit, inv_thr limit ovf o -> inv_thr limit ovf o'.
Proof.
  intros Hi Hn. unfold o_skip. destruct (ob_buf o) as [b|] eqn:Hb.
  - destruct (skip_tail_ok n o b Hi Hb Hn) as (o' & H1 & H2 & H3 & H4). eauto 7.
  - destruct (ap && (Z.of_N n =? lenZ (ob_strbuf o))) eqn:E.
    + eexists; split; [reflexivity|]. unfold inv, abs, inv_thr in *. rewrite Hb in *. cbn [ob_buf ob_strbuf ob_overflowed].
      repeat split; auto. rewrite skipn_all2; [reflexivity|]. unfold lenZ in E. lia.
    + destruct (create_buffer_spec ovf o Hi Hb) as (o1 & b & Hc & Hb1 & Hi1 & Ha1 & Ht1).
      rewrite Hc. assert (E1 : abs o = abs o1) by (rewrite Ha1; unfold abs; now rewrite Hb).
      rewrite E1 in *. destruct (skip_tail_ok n o1 b Hi1 Hb1 Hn) as (o' & H1 & H2 & H3 & H4). eauto 8.
Qed.

Lemma skip_ok_spec ovf o n ap : inv o -> Z.of_N n <= q_len (abs o) ->
  exists o', o_skip FNone ovf o n ap = (o', Ok tt) /\ inv o' /\ abs o' = skipn (N.to_nat n) (abs o).
Proof. intros Hi Hn. destruct (skip_ok_spec_thr ovf o n ap Hi Hn) as (o' & H1 & H2 & H3 & _). eauto. Qed.

(* the error branch of skip: ValueError, the queued bytes are untouched; a
   plain-bytes buffer has been migrated to a file representation on the way *)
Lemma skip_err_spec ovf o n ap : inv o -> q_len (abs o) < Z.of_N n ->
  exists o', o_skip FNone ovf o n ap = (o', Exn ValueErrorSkip) /\ inv o' /\ abs o' = abs o /\
             (ob_buf o <> None -> o' = o) /\ ob_buf o' <> None /\
             forall limit, inv_thr limit ovf o -> inv_thr limit ovf o'.
Proof.
  intros Hi Hn. unfold o_skip. destruct (ob_buf o) as [b|] eqn:Hb.
  - rewrite (skip_tail_err n o b Hi Hb Hn). exists o. repeat split; auto. rewrite Hb; discriminate.
  - destruct (ap && (Z.of_N n =? lenZ (ob_strbuf o))) eqn:E.
    + exfalso. unfold abs in Hn. rewrite Hb in Hn. unfold q_len, lenZ in *. lia.
    + destruct (create_buffer_spec ovf o Hi Hb) as (o1 & b & Hc & Hb1 & Hi1 & Ha1 & Ht1).
      rewrite Hc. assert (E1 : abs o = abs o1) by (rewrite Ha1; unfold abs; now rewrite Hb).
      rewrite E1 in Hn. rewrite (skip_tail_err n o1 b Hi1 Hb1 Hn).
      exists o1. repeat split; auto. * intro H; now elim H. * rewrite Hb1; discriminate.
Qed.

Lemma getfile_spec ovf o : inv o ->
  exists o' f, o_getfile FNone ovf o = (o', Ok f) /\ inv o' /\ abs o' = abs o /\
               f_closed f = false /\ (f_pos f <= length (f_content f))%nat /\
               skipn (f_pos f) (f_content f) = abs o /\
               forall limit, inv_thr limit ovf o -> inv_thr limit ovf o'.
Proof.
  assert (File : forall x b, inv x -> ob_buf x = Some b ->
            f_closed (fb_file b) = false /\ (f_pos (fb_file b) <= length (f_content (fb_file b)))%nat /\
            skipn (f_pos (fb_file b)) (f_content (fb_file b)) = abs x).
  { intros x b Hi Hb. rewrite (abs_some x b Hb). destruct (inv_fb x b Hi Hb) as (H1 & H2 & _). auto. }
  intro Hi. unfold o_getfile. destruct (ob_buf o) as [b|] eqn:Hb.
  - exists o, (fb_file b). destruct (File o b Hi Hb) as (H1 & H2 & H3). repeat split; auto.
  - destruct (create_buffer_spec ovf o Hi Hb) as (o1 & b & Hc & Hb1 & Hi1 & Ha1 & Ht1).
    rewrite Hc. exists o1, (fb_file b). destruct (File o1 b Hi1 Hb1) as (H1 & H2 & H3).
    assert (E1 : abs o1 = abs o) by (rewrite Ha1; unfold abs; now rewrite Hb).
    rewrite <- E1. repeat split; auto.
Qed.

Lemma is_prefix_refl (q : list N) : is_prefix q q.
Proof. exact (q_peek_prefix (-1) q). Qed.

Lemma step_refines limit ovf o p : inv o -> live p ->
  inv (fst (step limit ovf o p)) /\
  abs (fst (step limit ovf o p)) = q_next_op (abs o) p /\
  out_ok (abs o) p (snd (step limit ovf o p)) /\
  (inv_thr limit ovf o -> inv_thr limit ovf (fst (step limit ovf o p))).
Proof.
  intros Hi Hl. destruct p as [s | n sk | n ap | | |]; unfold step, step_f, q_next_op, out_ok; cbn [spec_of].
  - destruct (append_spec_thr limit ovf o s Hi) as (o' & H1 & H2 & H3 & H4). rewrite H1. cbn. auto.
  - destruct sk.
    + destruct (get_skip_spec ovf o n Hi) as (o' & H1 & H2 & H3 & H4). rewrite H1. cbn. auto.
    + destruct (get_noskip_spec ovf o n Hi) as (b & H1 & H2). rewrite H1. cbn.
      repeat split; auto; destruct H2 as [-> | ->].
      * apply q_peek_prefix. * apply is_prefix_refl. * lia. * apply q_peek_length_le.
  - unfold q_next, q_step. destruct (Z.of_N n <=? q_len (abs o)) eqn:E.
    + destruct (skip_ok_spec_thr ovf o n ap Hi ltac:(lia)) as (o' & H1 & H2 & H3 & H4). rewrite H1. cbn. auto.
    + destruct (skip_err_spec ovf o n ap Hi ltac:(lia)) as (o' & H1 & H2 & H3 & _ & _ & H4). rewrite H1. cbn. auto.
  - cbn. repeat split; auto. now apply abs_len.
  - destruct (getfile_spec ovf o Hi) as (o' & f & H1 & H2 & H3 & H4 & H5 & H6 & H7). rewrite H1. cbn. auto 6.
  - now elim Hl.
Qed.

Definition q_exec_op (q : queue) (ops : list op) : queue := fold_left q_next_op ops q.

(* a relation between buffer and queue that every step allowed by L preserves holds along a
   history of such steps; exec_invariant is the case of a relation blind to the queue *)
Lemma exec_simulation (L : op -> Prop) (R : obuf -> queue -> Prop) limit ovf :
  (forall o q p, R o q -> L p -> R (fst (step limit ovf o p)) (q_next_op q p)) ->
  forall ops o q, R o q -> Forall L ops -> R (exec limit ovf o ops) (q_exec_op q ops).
Proof.
  intro Hs. unfold exec, q_exec_op.
  induction ops as [|p ops IH]; intros o q Ho Hl; cbn [fold_left]; [exact Ho|].
  inversion Hl; subst. apply IH; auto.
Qed.

Lemma exec_invariant (L : op -> Prop) (P : obuf -> Prop) limit ovf :
  (forall o p, P o -> L p -> P (fst (step limit ovf o p))) ->
  forall ops o, P o -> Forall L ops -> P (exec limit ovf o ops).
Proof.
  intros Hs ops o. exact (exec_simulation L (fun o _ => P o) limit ovf (fun o _ p => Hs o p) ops o q_empty).
Qed.

Lemma exec_refines limit ovf ops : forall o, inv o -> Forall live ops ->
  inv (exec limit ovf o ops) /\ abs (exec limit ovf o ops) = q_exec_op (abs o) ops.
Proof.
  intros o Hi Hl. apply (exec_simulation live (fun o q => inv o /\ abs o = q)); auto.
  intros x q p (Hx & <-) Hp. destruct (step_refines limit ovf x p Hx Hp) as (H1 & H2 & _). auto.
Qed.

(* outputs along a history: each output is judged against the queue the
   specification has reached before the operation *)
Fixpoint trace_ok (q : queue) (ops : list op) (outs : list out) : Prop :=
  match ops, outs with
  | [], [] => True
  | p :: ops', r :: outs' => out_ok q p r /\ trace_ok (q_next_op q p) ops' outs'
  | _, _ => False
  end.

Lemma run_exec limit ovf ops : forall o, fst (run limit ovf o ops) = exec limit ovf o ops.
Proof.
  unfold exec. induction ops as [|p ops IH]; intro o; cbn [run fold_left]; [reflexivity|].
  destruct (step limit ovf o p) as [o1 r]. cbn [fst]. rewrite <- IH.
  destruct (run limit ovf o1 ops). reflexivity.
Qed.

Lemma run_refines limit ovf ops : forall o, inv o -> Forall live ops ->
  fst (run limit ovf o ops) = exec limit ovf o ops /\
  trace_ok (abs o) ops (snd (run limit ovf o ops)).
Proof.
  intros o Hi Hl. split; [apply run_exec|]. revert o Hi Hl.
  induction ops as [|p ops IH]; intros o Hi Hl; cbn [run]; [exact I|].
  inversion Hl as [|? ? Hp Hl']; subst.
  destruct (step_refines limit ovf o p Hi Hp) as (H1 & H2 & H3 & _).
  destruct (step limit ovf o p) as [o1 r]. cbn [fst snd] in *.
  specialize (IH o1 H1 Hl'). destruct (run limit ovf o1 ops) as [o2 rs]. cbn [snd trace_ok] in *.
  split; [exact H3|]. now rewrite <- H2.
Qed.

(* no operation raises when skip is only asked for what is queued *)
Definition respects (q : queue) (p : op) : Prop :=
  match p with OSkip n _ => Z.of_N n <= q_len q | OClose => False | _ => True end.

(* the only exception an acceptable output can be is the ValueError of skip(n) with n > len *)
Lemma out_ok_exn q p e : live p -> out_ok q p (RExn e) ->
  e = ValueErrorSkip /\ exists n ap, p = OSkip n ap /\ q_len q < Z.of_N n.
Proof.
  intros Hl H. unfold out_ok in H. destruct p as [s | n [|] | n ap | | |]; cbn in H; try tauto; [|now elim Hl].
  unfold q_step in H. destruct (Z.of_N n <=? q_len q) eqn:E; cbn in H; [tauto|].
  destruct e; try tauto. split; [reflexivity|]. exists n, ap. split; [reflexivity | lia].
Qed.

Lemma respects_live q p : respects q p -> live p.
Proof. intros Hr ->. exact Hr. Qed.

Lemma step_no_exn limit ovf o p : inv o -> respects (abs o) p ->
  forall e, snd (step limit ovf o p) <> RExn e.
Proof.
  intros Hi Hr e He. pose proof (respects_live _ _ Hr) as Hl.
  destruct (step_refines limit ovf o p Hi Hl) as (_ & _ & H & _). rewrite He in H.
  destruct (out_ok_exn _ _ _ Hl H) as (_ & n & ap & -> & Hn). cbn in Hr. lia.
Qed.

Definition op_appended (p : op) : list N :=
  match spec_of p with Some sp => q_appended_by sp | None => [] end.
Definition op_consumed (q : queue) (p : op) : nat :=
  match spec_of p with Some sp => q_consumed_by q sp | None => 0%nat end.
(* all bytes appended by a history, in order *)
Fixpoint appended_of (ops : list op) : list N :=
  match ops with [] => [] | p :: ops' => op_appended p ++ appended_of ops' end.
(* the number of bytes consumed by a history that starts with queue q *)
Fixpoint consumed_of (q : queue) (ops : list op) : nat :=
  match ops with [] => 0%nat | p :: ops' => (op_consumed q p + consumed_of (q_next_op q p) ops')%nat end.

Lemma one_step_stream q p X :
  q_next_op q p ++ X = skipn (op_consumed q p) (q ++ op_appended p ++ X) /\
  (op_consumed q p <= length q)%nat.
Proof.
  unfold q_next_op, op_consumed, op_appended.
  destruct p as [s | n [|] | n ap | | |]; cbn [spec_of q_appended_by q_consumed_by app skipn];
    unfold q_next, q_step, q_append, q_consume; cbn [fst];
    try (split; [reflexivity | lia]).
  - split; [now rewrite app_assoc | lia].
  - pose proof (q_peek_length_le n q). split; [now rewrite skipn_app_le | lia].
  - unfold q_len. destruct (Z.of_N n <=? Z.of_nat (length q)) eqn:E; cbn [fst].
    + split; [rewrite skipn_app_le; [reflexivity | lia] | lia].
    + split; [reflexivity | lia].
Qed.

Lemma stream_position ops : forall q,
  q_exec_op q ops = skipn (consumed_of q ops) (q ++ appended_of ops) /\
  (consumed_of q ops <= length q + length (appended_of ops))%nat.
Proof.
  unfold q_exec_op. induction ops as [|p ops IH]; intro q; cbn [fold_left consumed_of appended_of].
  - rewrite app_nil_r. cbn. split; [reflexivity | lia].
  - destruct (IH (q_next_op q p)) as (H1 & H2).
    destruct (one_step_stream q p (appended_of ops)) as (H3 & H4).
    rewrite H1, H3, skipn_skipn. split.
    + f_equal. lia.
    + assert (L : length (q_next_op q p ++ appended_of ops) =
                  (length (q ++ op_appended p ++ appended_of ops) - op_consumed q p)%nat)
        by (rewrite H3; apply skipn_length).
      rewrite !app_length in *. lia.
Qed.

Lemma close_str o : ob_buf o = None -> o_close o = o.
Proof. intro H. unfold o_close. now rewrite H. Qed.

(* a buffer whose file representation has been closed *)
Definition dead (o : obuf) : Prop :=
  exists b, ob_buf o = Some b /\ f_closed (fb_file b) = true.

Lemma close_file o b : ob_buf o = Some b -> dead (o_close o) /\ o_len (o_close o) = 0.
Proof.
  intro H. unfold o_close, dead, o_len. rewrite H. cbn. split; [|reflexivity].
  eexists; split; reflexivity.
Qed.

(* after close() of a file representation nothing comes out any more *)
Lemma dead_step limit ovf o p : dead o ->
  dead (fst (step limit ovf o p)) /\ (forall b, snd (step limit ovf o p) <> RBytes b) /\
  (p <> OClose -> fst (step limit ovf o p) = o).
Proof.
  intros (b & Hb & Hc).
  destruct p as [s | n sk | n ap | | |]; unfold step, step_f.
  - unfold o_append, o_append_tail, fb_append. rewrite Hb, Hc. cbn.
    repeat split; try discriminate. exists b; auto.
  - unfold o_get, o_get_tail, fb_get. rewrite Hb, Hc. cbn.
    repeat split; try discriminate. exists b; auto.
  - unfold o_skip, o_skip_tail, fb_skip. rewrite Hb, Hc.
    destruct (fb_remain b <? Z.of_N n); cbn; (repeat split; try discriminate; exists b; auto).
  - cbn. repeat split; try discriminate. exists b; auto.
  - unfold o_getfile. rewrite Hb. cbn. repeat split; try discriminate. exists b; auto.
  - unfold o_close. rewrite Hb. cbn. repeat split; try discriminate; try tauto.
    eexists; split; reflexivity.
Qed.

Theorem representation_bounds limit ovf ops : Forall live ops ->
  let o := exec limit ovf o_new ops in
  match rep_of o with
  | Str s => ob_overflowed o = false /\ (s = [] \/ lenZ s < Z.of_N limit)
  | Bio f r => ob_overflowed o = false /\ r < Z.of_N ovf
  | Tmp f r => ob_overflowed o = true
  end.
Proof.
  intros Hl o.
  assert (H : inv o /\ inv_thr limit ovf o).
  { apply (exec_invariant live (fun o => inv o /\ inv_thr limit ovf o)); [|split; [exact inv_new | now left]|exact Hl].
    intros x p (Hi & Ht) Hp. destruct (step_refines limit ovf x p Hi Hp) as (H1 & _ & _ & H4). auto. }
  destruct H as (Hi & Ht). unfold inv, inv_thr, rep_of in *.
  destruct (ob_buf o) as [b|]; [|auto].
  destruct Hi as (_ & _ & Hk & Hov).
  destruct (fb_kind b) eqn:Ek.
  - split; [|auto]. destruct (ob_overflowed o); [|reflexivity]. destruct Hov as [Hov _]. now specialize (Hov eq_refl).
  - now apply Hov.
  - destruct Hk; discriminate.
Qed.

(* close(): a no-op on plain bytes (nothing to close); on a file representation
   the length drops to 0 and from then on no operation yields bytes or changes
   the state *)
Theorem after_close limit ovf ops more : Forall live ops ->
  let o := exec limit ovf o_new ops in
  let oc := o_close o in
  (ob_buf o = None -> oc = o) /\
  (ob_buf o <> None ->
     o_len oc = 0 /\
     let o' := exec limit ovf oc more in
     dead o' /\ o_len o' = 0 /\
     forall p b, snd (step limit ovf o' p) <> RBytes b).
Proof.
  intros Hl o oc. split; [apply close_str|].
  intro Hb. destruct (ob_buf o) as [b|] eqn:E; [|now elim Hb].
  destruct (close_file o b E) as (Hd & Hlen). fold oc in Hd, Hlen. split; [exact Hlen|].
  cbv zeta.
  assert (H : dead (exec limit ovf oc more) /\ o_len (exec limit ovf oc more) = 0).
  { apply (exec_invariant (fun _ => True) (fun x => dead x /\ o_len x = 0)); [|auto|now apply Forall_forall].
    intros x p (Hx & Hlx) _. destruct (dead_step limit ovf x p Hx) as (H1 & _ & H3). split; [exact H1|].
    destruct p; try (rewrite H3 by discriminate; exact Hlx).
    unfold step, step_f. cbn [fst]. destruct Hx as (bb & Hbb & _). unfold o_close, o_len. rewrite Hbb. reflexivity. }
  destruct H as (H1 & H2). repeat split; auto.
  intros p bb. now apply dead_step.
Qed.

(* the way the channel drains an output buffer (channel._flush_some):
   chunk = get(n); m = send(chunk) <= len(chunk); skip(m, True).
   The peek changes nothing, the skip never raises, and what is removed is
   exactly the part of the chunk that was sent. *)
Theorem flush_pattern limit ovf ops n m ap chunk : Forall live ops ->
  let o := exec limit ovf o_new ops in
  snd (step limit ovf o (OGet n false)) = RBytes chunk ->
  (N.to_nat m <= length chunk)%nat ->
  fst (step limit ovf o (OGet n false)) = o /\
  snd (step limit ovf o (OSkip m ap)) = RUnit /\
  inv (fst (step limit ovf o (OSkip m ap))) /\
  abs o = firstn (N.to_nat m) chunk ++ abs (fst (step limit ovf o (OSkip m ap))).
Proof.
  intros Hl o Hg Hm. destruct (exec_refines limit ovf ops o_new inv_new Hl) as (Hi & _). fold o in Hi.
  destruct (get_noskip_spec ovf o n Hi) as (b & H1 & H2).
  unfold step, step_f in Hg |- *. rewrite H1 in *. cbn in Hg. injection Hg as ->. cbn [fst].
  assert (Hp : is_prefix chunk (abs o)) by (destruct H2 as [-> | ->]; [apply q_peek_prefix | apply is_prefix_refl]).
  destruct Hp as (rest & Hr).
  assert (Hlen : Z.of_N m <= q_len (abs o)) by (unfold q_len; rewrite Hr, app_length; lia).
  destruct (skip_ok_spec ovf o m ap Hi Hlen) as (o' & H3 & H4 & H5). rewrite H3. cbn [fst snd lift].
  repeat split; auto. rewrite H5.
  replace (firstn (N.to_nat m) chunk) with (firstn (N.to_nat m) (abs o)); [now rewrite firstn_skipn|].
  rewrite Hr, firstn_app. replace (N.to_nat m - length chunk)%nat with 0%nat by lia.
  cbn [firstn]. now rewrite app_nil_r.
Qed.
