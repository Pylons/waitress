(* start_response: what it refuses, what it accepts, what it changes (C08). *)
From Coq Require Import String.
From Coq Require Import List NArith ZArith Bool Lia Arith.
From WV Require Import Lib.PyBytes Gen.GenTables Model.Task Proof.TaskLines Proof.TaskHead.
Import ListNotations.
Local Open Scope N_scope.

Definition bad_obj (o : pyobj) : bool :=
  match o with PNonStr => true | PStr s => has_crlf s end.

Definition str_of (o : pyobj) : str := match o with PStr s => s | PNonStr => [] end.
Definition strs_of (hs : list (pyobj * pyobj)) : list (str * str) :=
  map (fun h => (str_of (fst h), str_of (snd h))) hs.

Section Oracle.
Variable lower : str -> str.

Definition is_hop (o : pyobj) : bool :=
  match o with PStr k => existsb (beqb (lower k)) hop_by_hop | PNonStr => false end.

Definition not_token (o : pyobj) : bool :=
  match o with PStr k => negb (is_token k) | PNonStr => false end.

(* a (name, value) pair that start_response must refuse *)
Definition bad_header (h : pyobj * pyobj) : bool :=
  bad_obj (fst h) || bad_obj (snd h) || not_token (fst h) || is_hop (fst h).

Definition offending (status : pyobj) (headers : list (pyobj * pyobj)) : bool :=
  bad_obj status || existsb bad_header headers.

Lemma cl_not_hop kl : beqb kl (lit "content-length") = true -> existsb (beqb kl) hop_by_hop = false.
Proof. intro H. apply beqb_eq in H. subst kl. vm_compute. reflexivity. Qed.

(* the header loop touches content_length only *)
Lemma sr_headers_frame hs : forall t acc,
  let t' := fst (sr_headers lower t hs acc) in
  t_rh t' = t_rh t /\ t_status t' = t_status t /\ t_complete t' = t_complete t
  /\ t_wrote_header t' = t_wrote_header t /\ t_cof t' = t_cof t /\ t_chunked t' = t_chunked t
  /\ t_cbw t' = t_cbw t /\ t_v11 t' = t_v11 t.
Proof.
  induction hs as [|[k v] hs IH]; intros t acc; cbn [sr_headers].
  - cbn. tauto.
  - destruct k as [k|]; [|cbn; tauto]. destruct v as [v|]; [|cbn; tauto].
    destruct (has_crlf v); [cbn; tauto|]. destruct (has_crlf k); [cbn; tauto|].
    destruct (negb (is_token k)); [cbn; tauto|].
    destruct (beqb (lower k) _).
    + destruct (py_int v); [|cbn; tauto].
      specialize (IH (set_clen (Some z) t) (acc ++ [(k, v)])). cbn zeta in IH. exact IH.
    + destruct (existsb (beqb (lower k)) hop_by_hop); [cbn; tauto|]. apply IH.
Qed.

Lemma sr_headers_refuses hs : forall t acc, existsb bad_header hs = true ->
  exists e, snd (sr_headers lower t hs acc) = Exn e /\ (e = AssertionError \/ e = ValueError).
Proof.
  induction hs as [|[k v] hs IH]; intros t acc H; [discriminate|].
  cbn [sr_headers]. cbn [existsb] in H.
  destruct k as [k|]; [|eexists; split; [reflexivity|auto]].
  destruct v as [v|]; [|eexists; split; [reflexivity|auto]].
  destruct (has_crlf v) eqn:Ev; [eexists; split; [reflexivity|auto]|].
  destruct (has_crlf k) eqn:Ek; [eexists; split; [reflexivity|auto]|].
  unfold bad_header in H at 1. cbn [fst snd bad_obj is_hop not_token] in H. rewrite Ev, Ek in H. cbn [orb] in H.
  destruct (negb (is_token k)) eqn:Et; [eexists; split; [reflexivity|auto]|]. cbn [orb] in H.
  destruct (beqb (lower k) _) eqn:Ecl.
  - rewrite (cl_not_hop _ Ecl) in H. cbn [orb] in H.
    destruct (py_int v); [|eexists; split; [reflexivity|auto]]. apply IH; auto.
  - destruct (existsb (beqb (lower k)) hop_by_hop); [eexists; split; [reflexivity|auto]|].
    cbn [orb] in H. apply IH; auto.
Qed.

Lemma sr_headers_ok hs : forall t acc t' l, sr_headers lower t hs acc = (t', Ok l) ->
  l = acc ++ strs_of hs /\ existsb bad_header hs = false.
Proof.
  induction hs as [|[k v] hs IH]; intros t acc t' l H; cbn [sr_headers] in H.
  - inversion H. cbn. rewrite app_nil_r. auto.
  - destruct k as [k|]; [|discriminate]. destruct v as [v|]; [|discriminate].
    destruct (has_crlf v) eqn:Ev; [discriminate|]. destruct (has_crlf k) eqn:Ek; [discriminate|].
    destruct (negb (is_token k)) eqn:Et; [discriminate|].
    cbn [existsb]. unfold bad_header at 1. cbn [fst snd bad_obj is_hop not_token]. rewrite Ev, Ek, Et. cbn [orb].
    destruct (beqb (lower k) _) eqn:Ecl.
    + rewrite (cl_not_hop _ Ecl). cbn [orb].
      destruct (py_int v); [|discriminate]. apply IH in H as [-> ->].
      rewrite <- app_assoc. split; reflexivity.
    + destruct (existsb (beqb (lower k)) hop_by_hop); [discriminate|]. cbn [orb].
      apply IH in H as [-> ->]. rewrite <- app_assoc. split; reflexivity.
Qed.

(* start_response behind its door: the two refusals that leave the task alone
   (a second call without exc_info; exc_info once output has begun), the task the
   call works on (exc_info clears headers and length), and the rest: complete =
   True, the status, the header loop *)
Definition sr_door (t : task) (exc : option exn) : option exn :=
  match exc with
  | None => if t_complete t then Some AssertionError else None
  | Some e => if t_wrote_header t then Some e else None
  end.

Definition sr_prep (t : task) (exc : option exn) : task :=
  match exc with Some _ => set_clen None (set_rh [] t) | None => t end.

Definition sr_core (t1 : task) (status : pyobj) (headers : list (pyobj * pyobj)) : task * outcome unit :=
  let t2 := set_complete true t1 in
  match status with
  | PNonStr => (t2, Exn AssertionError)
  | PStr s =>
      if has_crlf s then (t2, Exn ValueError)
      else
        let t3 := set_status s t2 in
        match sr_headers lower t3 headers [] with
        | (t4, Exn e) => (set_clen (t_clen t3) t4, Exn e)
        | (t4, Ok hs) => (set_rh (t_rh t4 ++ hs) t4, Ok tt)
        end
  end.

Lemma start_response_eq t status headers exc :
  start_response lower t status headers exc =
  match sr_door t exc with
  | Some e => (t, Exn e)
  | None => sr_core (sr_prep t exc) status headers
  end.
Proof.
  unfold start_response, sr_door, sr_prep, sr_core. destruct exc as [e|].
  - rewrite andb_false_r. destruct (t_wrote_header t); reflexivity.
  - rewrite andb_true_r. destruct (t_complete t); reflexivity.
Qed.

Lemma sr_core_frame t1 status headers :
  let t' := fst (sr_core t1 status headers) in
  t_wrote_header t' = t_wrote_header t1 /\ t_cof t' = t_cof t1 /\ t_chunked t' = t_chunked t1
  /\ t_cbw t' = t_cbw t1 /\ t_v11 t' = t_v11 t1.
Proof.
  cbn zeta. unfold sr_core. destruct status as [s|]; [|cbn; tauto]. destruct (has_crlf s); [cbn; tauto|].
  pose proof (sr_headers_frame headers (set_status s (set_complete true t1)) []) as F. cbn zeta in F.
  destruct (sr_headers lower _ headers []) as [t4 [hs|e]]; cbn [fst] in *;
    destruct F as (_ & _ & _ & F4 & F5 & F6 & F7 & F8); cbn in *; tauto.
Qed.

Lemma sr_core_refuses t1 status headers : offending status headers = true ->
  exists e, snd (sr_core t1 status headers) = Exn e /\ (e = AssertionError \/ e = ValueError).
Proof.
  intro H. unfold sr_core, offending in *. destruct status as [s|]; [|eexists; split; [reflexivity|auto]].
  cbn [bad_obj] in H. destruct (has_crlf s); [eexists; split; [reflexivity|auto]|]. cbn [orb] in H.
  destruct (sr_headers_refuses headers (set_status s (set_complete true t1)) [] H) as (e & He & Hc).
  cbn zeta. destruct (sr_headers lower _ headers []) as [t4 o]. cbn [snd] in He. subst o.
  exists e. split; auto.
Qed.

Lemma sr_core_ok t1 status headers t' : sr_core t1 status headers = (t', Ok tt) ->
  offending status headers = false
  /\ t_status t' = str_of status /\ t_rh t' = t_rh t1 ++ strs_of headers /\ t_complete t' = true
  /\ t_wrote_header t' = t_wrote_header t1 /\ t_cof t' = t_cof t1 /\ t_chunked t' = t_chunked t1
  /\ t_cbw t' = t_cbw t1 /\ t_v11 t' = t_v11 t1.
Proof.
  unfold sr_core. cbn zeta. intro H.
  destruct status as [s|]; [|discriminate]. destruct (has_crlf s) eqn:Es; [discriminate|].
  pose proof (sr_headers_frame headers (set_status s (set_complete true t1)) []) as F. cbn zeta in F.
  destruct (sr_headers lower _ headers []) as [t4 [hs|e]] eqn:Esr; [|discriminate].
  apply sr_headers_ok in Esr as [-> Hb]. cbn [fst] in F. destruct F as (F1 & F2 & F3 & F4 & F5 & F6 & F7 & F8).
  inversion H. subst t'. clear H. cbn [t_status t_rh t_complete t_wrote_header t_cof t_chunked t_cbw t_v11 set_rh].
  cbn [t_status t_rh t_complete t_wrote_header t_cof t_chunked t_cbw t_v11 set_status set_complete] in *.
  unfold offending. cbn [bad_obj]. rewrite Es, Hb. cbn [orb str_of List.app].
  rewrite F1, F2, F3, F4, F5, F6, F7, F8. repeat split.
Qed.

Lemma strs_of_clean hs : existsb bad_header hs = false -> Forall clean_field (strs_of hs).
Proof.
  induction hs as [|[k v] hs IH]; cbn [existsb strs_of map]; intro H; [constructor|].
  apply orb_false_iff in H as [H1 H2]. constructor; auto.
  unfold bad_header in H1. cbn [fst snd] in *. apply orb_false_iff in H1 as [H1 _].
  apply orb_false_iff in H1 as [H1 _].
  apply orb_false_iff in H1 as [Hk Hv].
  destruct k, v; try discriminate. split; assumption.
Qed.

Lemma sr_core_clean t1 status headers : task_clean t1 -> task_clean (fst (sr_core t1 status headers)).
Proof.
  intros [C1 C2]. unfold sr_core. cbn zeta. destruct status as [s|]; [|split; auto].
  destruct (has_crlf s) eqn:Es; [split; auto|].
  pose proof (sr_headers_frame headers (set_status s (set_complete true t1)) []) as F. cbn zeta in F.
  destruct (sr_headers lower _ headers []) as [t4 [hs|e]] eqn:Esr; cbn [fst] in *;
    destruct F as (F1 & F2 & _); cbn [t_rh t_status set_status set_complete] in *.
  - apply sr_headers_ok in Esr as [-> Hb]. split; cbn [t_status t_rh set_rh].
    + rewrite F2. exact Es.
    + rewrite F1. apply Forall_app. split; auto. apply strs_of_clean; auto.
  - split; cbn [t_status t_rh set_clen]. rewrite F2. exact Es. rewrite F1. auto.
Qed.

(* C08, refusal: an offending status / header list makes start_response raise,
   with AssertionError or ValueError unless output has begun (then the
   exception carried by exc_info is re-raised).  start_response has no access
   to the channel: nothing is written. *)
Theorem start_response_refuses t status headers exc :
  offending status headers = true ->
  exists e, snd (start_response lower t status headers exc) = Exn e
            /\ (t_wrote_header t = false -> e = AssertionError \/ e = ValueError).
Proof.
  intro H. rewrite start_response_eq.
  destruct (sr_core_refuses (sr_prep t exc) status headers H) as (e & He & Hc).
  unfold sr_door. destruct exc as [e0|].
  - destruct (t_wrote_header t); [exists e0; split; [reflexivity|discriminate]|exists e; auto].
  - destruct (t_complete t); [eexists; split; [reflexivity|auto]|exists e; auto].
Qed.

(* acceptance: the task now carries exactly the strings that were passed *)
Theorem start_response_ok t status headers exc t' :
  start_response lower t status headers exc = (t', Ok tt) ->
  offending status headers = false
  /\ t_status t' = str_of status
  /\ t_rh t' = (match exc with Some _ => [] | None => t_rh t end) ++ strs_of headers
  /\ t_complete t' = true
  /\ t_wrote_header t' = t_wrote_header t /\ t_cof t' = t_cof t /\ t_chunked t' = t_chunked t
  /\ t_cbw t' = t_cbw t /\ t_v11 t' = t_v11 t
  /\ (exc <> None -> t_wrote_header t = false).
Proof.
  rewrite start_response_eq. unfold sr_door. intro H.
  destruct exc as [e0|].
  - destruct (t_wrote_header t) eqn:Ew; [discriminate|].
    apply sr_core_ok in H as (A1 & A2 & A3 & A4 & A5 & A6 & A7 & A8 & A9).
    cbn [sr_prep t_rh t_wrote_header t_cof t_chunked t_cbw t_v11 set_clen set_rh] in *. repeat split; auto; congruence.
  - destruct (t_complete t); [discriminate|].
    apply sr_core_ok in H as (A1 & A2 & A3 & A4 & A5 & A6 & A7 & A8 & A9). repeat split; auto. congruence.
Qed.

(* whatever happens, the task stays clean, and only status / headers /
   complete / content_length change *)
Theorem start_response_clean t status headers exc :
  task_clean t -> task_clean (fst (start_response lower t status headers exc)).
Proof.
  intro C. rewrite start_response_eq. destruct (sr_door t exc); [exact C|].
  apply sr_core_clean. destruct C. destruct exc; split; auto. constructor.
Qed.

Lemma start_response_frame t status headers exc :
  let t' := fst (start_response lower t status headers exc) in
  t_wrote_header t' = t_wrote_header t /\ t_cof t' = t_cof t /\ t_chunked t' = t_chunked t
  /\ t_cbw t' = t_cbw t /\ t_v11 t' = t_v11 t.
Proof.
  cbn zeta. rewrite start_response_eq. destruct (sr_door t exc); [cbn; tauto|].
  pose proof (sr_core_frame (sr_prep t exc) status headers) as G. destruct exc; exact G.
Qed.

End Oracle.
