(* Header dicts (Parser.hdict, insertion-ordered association lists) and the reference's
   combine_add / remove / lookup on them.  [uniq d]: no key twice. *)
From Coq Require Import List NArith Bool.
From WV Require Import Lib.PyBytes Model.Parser Spec.Ref9112.
Import ListNotations.
Local Open Scope N_scope.

Lemma hget_hset h k v k' : hget (hset h k v) k' = if beqb k' k then Some v else hget h k'.
Proof.
  induction h as [|[k0 v0] h IH]; cbn [hset hget]; [reflexivity|].
  destruct (beqb k k0) eqn:E0; cbn [hget].
  - apply beqb_eq in E0. subst k0. destruct (beqb k' k); reflexivity.
  - destruct (beqb k' k0) eqn:E1; [|exact IH].
    apply beqb_eq in E1. subst k0. rewrite beqb_sym, E0. reflexivity.
Qed.

Lemma hget_hpop_other h k k' : beqb k k' = false -> hget (hpop h k') k = hget h k.
Proof.
  intro Hk. induction h as [|[k0 w] h IH]; cbn [hpop hget]; auto.
  destruct (beqb k' k0) eqn:E.
  - apply beqb_eq in E. subst k0. rewrite Hk. reflexivity.
  - cbn [hget]. rewrite IH. reflexivity.
Qed.

Lemma hget_app_other d k k' x : beqb k k' = false -> hget (d ++ [(k', x)]) k = hget d k.
Proof.
  intro Hk. induction d as [|[k0 v0] d IH]; cbn [app hget].
  - rewrite Hk. reflexivity.
  - destruct (beqb k k0); auto.
Qed.

Lemma hset_absent d k v : hget d k = None -> hset d k v = d ++ [(k, v)].
Proof.
  induction d as [|[k0 v0] d IH]; cbn [hget hset app]; auto.
  destruct (beqb k k0); [discriminate|]. intro H. rewrite IH; auto.
Qed.

Lemma hget_combine_add_other d k v k' : beqb k' k = false -> hget (combine_add d k v) k' = hget d k'.
Proof.
  intro Hk. induction d as [|[k0 v0] d IH]; cbn [combine_add hget].
  - rewrite Hk. reflexivity.
  - destruct (beqb k k0) eqn:E; cbn [hget].
    + apply beqb_eq in E. subst k0. rewrite Hk. reflexivity.
    + rewrite IH. reflexivity.
Qed.

Fixpoint uniq (d : hdict) : Prop :=
  match d with
  | [] => True
  | (k, _) :: r => hget r k = None /\ uniq r
  end.

Lemma uniq_hset d k v : uniq d -> uniq (hset d k v).
Proof.
  induction d as [|[k0 v0] d IH]; cbn [hset uniq]; [auto|].
  intros [H1 H2]. destruct (beqb k k0) eqn:E; cbn [uniq]; [auto|].
  split; [|auto]. rewrite hget_hset, beqb_sym, E. exact H1.
Qed.

Lemma uniq_combine_add d k v : uniq d -> uniq (combine_add d k v).
Proof.
  induction d as [|[k0 v0] d IH]; cbn [combine_add uniq]; [auto|].
  intros [H1 H2]. destruct (beqb k k0) eqn:E; cbn [uniq].
  - auto.
  - split; [|auto]. rewrite hget_combine_add_other; auto. rewrite beqb_sym. exact E.
Qed.

Lemma hget_hpop_same d k : uniq d -> hget (hpop d k) k = None.
Proof.
  induction d as [|[k0 v0] d IH]; cbn [hpop hget uniq]; auto.
  intros [H1 H2]. destruct (beqb k k0) eqn:E.
  - apply beqb_eq in E. subst. exact H1.
  - cbn [hget]. rewrite E. auto.
Qed.

Lemma uniq_hpop d k : uniq d -> uniq (hpop d k).
Proof.
  induction d as [|[k0 v0] d IH]; cbn [hpop uniq]; auto.
  intros [H1 H2]. destruct (beqb k k0) eqn:E; auto.
  cbn [uniq]. split; auto.
  destruct (beqb k0 k) eqn:E'.
  - apply beqb_eq in E'. subst. rewrite beqb_refl in E. discriminate.
  - rewrite hget_hpop_other; auto.
Qed.

Lemma hpop_remove d k : hpop d k = remove d k.
Proof. induction d as [|[k0 v0] d IH]; cbn [hpop remove]; [reflexivity|]. rewrite IH. reflexivity. Qed.

Lemma hset_combine_some h k old v : hget h k = Some old -> hset h k (old ++ [44; 32] ++ v) = combine_add h k v.
Proof.
  induction h as [|[k' w] h IH]; cbn [hget hset combine_add]; try discriminate.
  destruct (beqb k k'); intro H.
  - injection H as ->. reflexivity.
  - rewrite IH; auto.
Qed.

Lemma hset_combine_none h k v : hget h k = None -> hset h k v = combine_add h k v.
Proof.
  induction h as [|[k' w] h IH]; cbn [hget hset combine_add]; auto.
  destruct (beqb k k'); intro H; try discriminate. rewrite IH; auto.
Qed.

Lemma lookup_combine_add h k v k' :
  (match lookup (combine_add h k v) k' with Some _ => true | None => false end)
  = beqb k' k || (match lookup h k' with Some _ => true | None => false end).
Proof.
  induction h as [|[k0 w] h IH]; cbn [combine_add lookup].
  - destruct (beqb k' k); reflexivity.
  - destruct (beqb k k0) eqn:E.
    + apply beqb_eq in E. subst k0. cbn [lookup]. destruct (beqb k' k); reflexivity.
    + cbn [lookup]. destruct (beqb k' k0) eqn:E2.
      * rewrite orb_true_r. reflexivity.
      * exact IH.
Qed.
