(* Proof/ChanFaultIso2Cov.v -- the shape of the I/O thread's stack, per connection.

   ChanFaultOnce.v proves that every instruction of the I/O thread that can raise has SOME
   catch-all frame of wasyncore below it.  The trace-level isolation theorem
   (ChanFaultIso2.v) needs more: the frame that catches is a frame OF THE SAME
   CONNECTION, and everything between the raising instruction and that frame belongs to
   that connection too -- an exception raised on behalf of connection c never unwinds
   through an instruction or a frame of the other connection, nor through the listener's.
   (That is where the repair of F17 enters: with [init_guarded g = false] the channel
   constructor ran outside handle_accept's try and its OSError reached the LISTENER's
   catch-all.)

     ioable   (ChanFaultIso.v) the instructions that can stand on the I/O thread's stack (closed
              under execution); none of them reads the thread's locals
     prot     "l starts with instructions of c up to and including a frame of c that
              catches" (KAccTry only counts for instructions that raise OSError only)
     covc     every instruction of the stack either cannot raise (given the invariant of
              ChanFaultOnce.v) and pushes covered code, or is [prot]ected
     ioI      the invariant: ioable, covc, and while unwinding: [prot] *)
From Coq Require Import List Arith ZArith Bool Lia.
From WV Require Import Lib.Conc Model.ChanFault Proof.ChanFaultSpec Proof.ChanFaultBase Proof.ChanFaultStep
                       Proof.ChanFaultOnce Proof.ChanFaultIso.
Import ListNotations.

(* instructions that do not raise on the I/O thread (given SInv) and push covered code *)
Definition selfcov (i : instr) : bool :=
  exempt i || match i with IAccept | IAddChan _ | KAccTry _ => true | _ => false end.
(* instructions whose only exception is an OSError *)
Definition only_os (i : instr) : bool :=
  match i with ISetOpts _ | IInitGso _ | IInitSbl _ => true | _ => false end.
Definition catcher (os : bool) (k : instr) : bool :=
  match k with KWasyn _ | KReadwrite _ | KFlushExc _ => true | KAccTry _ => os | _ => false end.

Fixpoint prot (os : bool) (c : chan) (l : list instr) : bool :=
  match l with
  | [] => false
  | k :: r => about c k && (catcher os k || prot os c r)
  end.

Fixpoint covc (l : list instr) : bool :=
  match l with
  | [] => true
  | i :: r => (selfcov i || match chan_of i with Some c => prot (only_os i) c r | None => false end) && covc r
  end.

Record ioI (th : thread_st) : Prop := {
  i_able : forallb ioable (stk th) = true;
  i_cov : covc (stk th) = true;
  i_raise : forall x, raising th = Some x -> x <> XReraised /\ exists c, prot (is_oserror x) c (stk th) = true
}.

Lemma catcher_frame : forall os k, catcher os k = true -> is_frame k = true.
Proof. destruct k; simpl; intros; auto; discriminate. Qed.

Lemma catcher_mono : forall k, catcher false k = true -> forall os, catcher os k = true.
Proof. destruct k; simpl; intros; auto; discriminate. Qed.

Lemma prot_mono : forall c l, prot false c l = true -> forall os, prot os c l = true.
Proof.
  induction l as [|k r IH]; simpl; intros H os; auto.
  apply andb_true_iff in H. destruct H as [Hk H]. rewrite Hk. simpl.
  apply orb_true_iff in H. destruct H as [H|H].
  - rewrite (catcher_mono _ H). reflexivity.
  - rewrite IH by auto. apply orb_true_r.
Qed.

Lemma prot_app_l : forall os c p r, prot os c p = true -> prot os c (p ++ r) = true.
Proof.
  induction p as [|k p IH]; simpl; intros r H; [discriminate|].
  apply andb_true_iff in H. destruct H as [Hk H]. rewrite Hk. simpl.
  apply orb_true_iff in H. destruct H as [H|H]; [rewrite H; reflexivity|].
  rewrite IH by auto. apply orb_true_r.
Qed.

Lemma prot_app_about : forall os c p r, forallb (about c) p = true -> prot os c r = true -> prot os c (p ++ r) = true.
Proof.
  induction p as [|k p IH]; simpl; intros r Hp Hr; auto.
  apply andb_true_iff in Hp. destruct Hp as [Hk Hp]. rewrite Hk, IH by auto. simpl. apply orb_true_r.
Qed.

Lemma prot_head : forall os c l, prot os c l = true -> exists k r, l = k :: r /\ about c k = true.
Proof.
  intros os c [|k r] H; simpl in H; [discriminate|]. apply andb_true_iff in H. exists k, r. tauto.
Qed.

Lemma covc_app_self : forall p r, covc p = true -> covc r = true -> covc (p ++ r) = true.
Proof.
  induction p as [|i p IH]; simpl; intros r Hp Hr; auto.
  apply andb_true_iff in Hp. destruct Hp as [Hi Hp]. rewrite IH by auto. rewrite andb_true_r.
  destruct (selfcov i); simpl in *; auto.
  destruct (chan_of i) as [c|]; [|discriminate]. apply prot_app_l. auto.
Qed.

Lemma covc_app_prot : forall c p r,
  forallb (about c) p = true -> prot false c r = true -> covc r = true -> covc (p ++ r) = true.
Proof.
  induction p as [|i p IH]; simpl; intros r Hp Hr Hc; auto.
  apply andb_true_iff in Hp. destruct Hp as [Hi Hp]. rewrite IH by auto. rewrite andb_true_r.
  rewrite (about_chan_of _ _ Hi).
  rewrite (prot_app_about (only_os i) c p r Hp (prot_mono _ _ Hr _)). apply orb_true_r.
Qed.

Lemma covc_suffix : forall p r, covc (p ++ r) = true -> covc r = true.
Proof. induction p; simpl; intros; auto. apply andb_true_iff in H. destruct H. eauto. Qed.

Lemma covc_selfcov : forall l, forallb selfcov l = true -> covc l = true.
Proof.
  induction l as [|i l IH]; simpl; intro H; auto. apply andb_true_iff in H. destruct H as [Hi Hl].
  rewrite Hi, IH by auto. reflexivity.
Qed.

Lemma exempt_selfcov : forall i, exempt i = true -> selfcov i = true.
Proof. intros i H. unfold selfcov. rewrite H. reflexivity. Qed.

(* unwinding a protected stack: everything dropped and the frame reached belong to c *)
Lemma prot_drop : forall os c l, prot os c l = true ->
  exists pre k rest, l = pre ++ k :: rest /\ drop_to_frame l = k :: rest /\
    forallb (about c) pre = true /\ about c k = true /\ (catcher os k = true \/ prot os c rest = true).
Proof.
  induction l as [|i r IH]; simpl; intro H; [discriminate|].
  apply andb_true_iff in H. destruct H as [Hi H].
  destruct (is_frame i) eqn:F.
  - exists [], i, r. simpl. repeat split; auto. apply orb_true_iff in H. auto.
  - assert (Hc : catcher os i = false).
    { destruct (catcher os i) eqn:E; auto. apply catcher_frame in E. congruence. }
    rewrite Hc in H. simpl in H.
    destruct (IH H) as (pre & k & rest & E1 & E2 & E3 & E4 & E5).
    exists (i :: pre), k, rest. simpl. rewrite Hi, E3. repeat split; auto. congruence.
Qed.

Lemma exec_cov : forall g t i a s, init_guarded g = true -> ioable i = true ->
  match exec g t i a s with
  | Blocked => True
  | Norm s' push ls =>
      forallb ioable push = true /\ (selfcov i = true -> covc push = true) /\ (only_os i = true -> push = [])
  | Raise s' x ls =>
      x <> XReraised /\ (only_os i = true -> is_oserror x = true) /\
      (selfcov i = true ->
         (exists c, i = IDelMapDo c /\ in_map (getc s c) = false) \/
         (exists r w e, i = ISelect r w e /\ negb (use_poll2 g) && negb (forallb (fd_open s) e) = true))
  end.
Proof.
  intros g t i a s Hg Hi.
  destruct i; try discriminate Hi;
  try match goal with f : fdt |- _ => destruct f as [| |cc] end;
  try match goal with k : evk |- _ => destruct k end;
  cbn [exec event chan_event hclose_fd herror hclose hclose_body server_close flush_some send_continue send_continue_dc app];
  rewrite ?Hg; repeat split_innermost; auto;
  repeat split; auto; try (intro; discriminate); try discriminate;
  rewrite ?forallb_app, ?forallb_map by (try intros [[? [? ?]] [? ?]]; reflexivity); auto.
  all: try (intros _; apply covc_selfcov; rewrite ?forallb_app, ?forallb_map by (try intros [[? [? ?]] [? ?]]; reflexivity); reflexivity).
  all: try (intros _; left; eexists; split; [reflexivity|assumption]).
  all: try (intros _; right; do 3 eexists; split; [reflexivity|assumption]).
  all: intros _; unfold covc, prot, about; simpl; rewrite ?chan_eqb_refl; reflexivity.
Qed.

Lemma frame_cov : forall t k x s, ioable k = true -> x <> XReraised ->
  match frame t k x s with
  | FCatch s' push ls => forallb ioable push = true /\ covc push = true
  | FPass s' => catcher (is_oserror x) k = false
  end.
Proof.
  intros t k x s Hk Hx.
  destruct k; try discriminate Hk;
  try match goal with f : fdt |- _ => destruct f as [| |[|]] end;
  cbn [frame herror hclose_fd hclose server_close]; repeat split_innermost; auto;
  try (destruct x; simpl in *; congruence).
Qed.

(* an instruction that [selfcov] declares harmless does not raise at the head of the I/O thread's stack *)
Lemma selfcov_no_raise : forall g s i rest a s' x ls,
  init_guarded g = true -> SInv g s -> raising (getth s IO) = None -> stk (getth s IO) = i :: rest ->
  ioable i = true -> selfcov i = true -> exec g IO i a s = Raise s' x ls -> False.
Proof.
  intros g s i rest a s' x ls Hg (_ & _ & _ & [K1 _ _]) R S Hi Hs E.
  specialize (K1 R). rewrite S in K1.
  pose proof (exec_cov g IO i a s Hg Hi) as EC. rewrite E in EC.
  destruct EC as (_ & _ & EC). destruct (EC Hs) as [(c & -> & Hm)|(r & w & e & -> & Hc)].
  - inversion K1; subst; try discriminate; congruence.
  - apply andb_true_iff in Hc. destruct Hc as [H1 H2]. apply negb_true_iff in H1, H2.
    inversion K1; subst; try discriminate.
    match goal with H : use_poll2 g = false -> _ |- _ => rewrite H in H2 by auto end. discriminate.
Qed.

Lemma forallb_in : forall (A : Type) (p : A -> bool) l x, forallb p l = true -> In x l -> p x = true.
Proof. intros A p l x H Hin. rewrite forallb_forall in H. auto. Qed.

(* what unwinding meets on the I/O thread: instructions of one connection c, then a frame of c *)
Lemma ioI_unwind : forall th x, ioI th -> raising th = Some x ->
  x <> XReraised /\ exists c pre k rest,
    prot (is_oserror x) c (stk th) = true /\ stk th = pre ++ k :: rest /\ drop_to_frame (stk th) = k :: rest /\
    forallb (about c) pre = true /\ about c k = true /\ ioable k = true /\
    (catcher (is_oserror x) k = true \/ prot (is_oserror x) c rest = true).
Proof.
  intros th x [I1 _ I3] R. destruct (I3 x R) as (Hx & c & Hp). split; [exact Hx|].
  destruct (prot_drop _ _ _ Hp) as (pre & k & rest & E1 & E2 & E3 & E4 & E5).
  exists c, pre, k, rest. repeat split; auto.
  rewrite E1 in I1. eapply forallb_in; [exact I1|apply in_or_app; right; left; reflexivity].
Qed.

(* what the I/O thread does with the instruction (frame) it has reached keeps the shape of its stack; an
   exception still in flight afterwards is one of k's connection, protected in what is left *)
Lemma ioI_does : forall g s a k rest m,
  init_guarded g = true -> SInv g s -> ioI (getth s IO) ->
  reached (getth s IO) = k :: rest -> does g IO (raising (getth s IO)) k a s = Some m ->
  forallb ioable (m_push m ++ rest) = true /\ covc (m_push m ++ rest) = true /\
  forall y, m_rais m = Some y ->
    y <> XReraised /\ exists c, chan_of k = Some c /\ m_push m = [] /\ prot (is_oserror y) c rest = true.
Proof.
  intros g s a k rest m Hg HS HI E D. pose proof HI as [I1 I2 I3]. unfold reached, does in *.
  destruct (raising (getth s IO)) as [x|] eqn:R.
  - destruct (ioI_unwind _ x HI R) as (Hx & c & pre & k0 & rest0 & Hp & E1 & E2 & E3 & E4 & Hk & E5).
    rewrite E2 in E. injection E as -> ->. rewrite E1 in I1, I2.
    assert (Hra : forallb ioable rest = true).
    { rewrite forallb_app in I1. apply andb_true_iff in I1. destruct I1 as [_ I1]. simpl in I1. apply andb_true_iff in I1. tauto. }
    assert (Hrc : covc rest = true) by (apply covc_suffix in I2; simpl in I2; apply andb_true_iff in I2; tauto).
    pose proof (frame_cov IO k x s Hk Hx) as FC. injection D as <-.
    destruct (frame IO k x s) as [s1 push ls|s1]; simpl.
    + destruct FC as [F1 F2]. rewrite forallb_app, F1, Hra. split; [reflexivity|]. split; [apply covc_app_self; auto|].
      intros y Ey. discriminate.
    + split; [auto|split; [auto|]]. intros y Ey. injection Ey as <-. split; auto.
      exists c. rewrite (about_chan_of _ _ E4). destruct E5 as [E5|E5]; [congruence|auto].
  - rewrite E in I1, I2. simpl in I1, I2. apply andb_true_iff in I1. destruct I1 as [Hi Hra].
    apply andb_true_iff in I2. destruct I2 as [Hic Hrc].
    pose proof (exec_cov g IO k a s Hg Hi) as EC.
    pose proof (selfcov_no_raise g s k rest a) as NR.
    destruct (exec g IO k a s) as [|s1 push ls|s1 x ls] eqn:Ex; [discriminate| |]; injection D as <-; simpl.
    + destruct EC as (P1 & P2 & P3). rewrite forallb_app, P1, Hra. split; [reflexivity|]. split; [|intros y Ey; discriminate].
      destruct (selfcov k) eqn:Es; [apply covc_app_self; auto|].
      simpl in Hic. destruct (chan_of k) as [c|] eqn:Ec; [|discriminate].
      destruct (only_os k) eqn:Eo; [rewrite P3 by auto; exact Hrc|].
      pose proof (does_local g IO None k a s c Ec) as EL. unfold does in EL. rewrite Ex in EL.
      destruct EL as (_ & EL & _). eapply covc_app_prot; eauto.
    + destruct EC as (P1 & P2 & P3). split; [auto|split; [auto|]].
      intros y Ey. injection Ey as <-. split; auto.
      destruct (selfcov k) eqn:Es; [exfalso; eapply NR; eauto|].
      simpl in Hic. destruct (chan_of k) as [c|] eqn:Ec; [|discriminate]. exists c. split; [reflexivity|split; [reflexivity|]].
      destruct (only_os k) eqn:Eo; [rewrite P2 by auto; exact Hic|apply prot_mono; exact Hic].
Qed.

Lemma ioI_io_step : forall g s a s' l,
  init_guarded g = true -> SInv g s -> ioI (getth s IO) -> step g s (IO, a) = Some (s', l) -> ioI (getth s' IO).
Proof.
  intros g s a s' l Hg HS HI H.
  destruct (step_micro _ _ _ _ _ _ H) as [x R E|c Et|k rest m E D]; try discriminate Et.
  - destruct (ioI_unwind _ x HI R) as (_ & c & pre & k & rest & _ & _ & E2 & _). unfold reached in E. rewrite R, E2 in E. discriminate.
  - destruct (ioI_does g s a k rest m Hg HS HI E D) as (A & C & X).
    rewrite getth_setth_same. constructor; simpl; auto.
    intros y Ey. destruct (X y Ey) as (Hy & c & _ & -> & Hp). eauto.
Qed.

Lemma ioI_init : ioI (getth init IO).
Proof. constructor; simpl; auto. intros x E. discriminate. Qed.

Definition IInv (g : cfg) (s : state) (tr : list label) : Prop := OInv g s tr /\ ioI (getth s IO).

Theorem ioI_always : forall g sched,
  wc_close g = false -> init_guarded g = true ->
  SInv g (ChanFault.run g sched) /\ ioI (getth (ChanFault.run g sched) IO).
Proof.
  intros g sched Hw Hg.
  assert (X : IInv g (ChanFault.run g sched) (ChanFault.trace g sched)).
  { apply (inv_rule_tr g (IInv g)).
    - split; [apply OInv_init|exact ioI_init].
    - intros s tr [t a] s' l [HO HI] H. split; [eapply OInv_step; eauto|].
      destruct (HO (or_intror Hw)) as (HS & _).
      destruct t as [|c].
      + eapply ioI_io_step; eauto.
      + rewrite (step_other_thread g s (W c) a s' l IO H) by discriminate. exact HI. }
  destruct X as [HO HI]. destruct (HO (or_intror Hw)) as (HS & _). auto.
Qed.
