(* Proof/ChanFlowRefuted.v -- the release / abort statements of C12, as predicates of the parameters:
   Props/C12.v proves them for the code as it is and refutes them for each old shape of the three
   repaired statements of channel.py. *)
From Coq Require Import List ZArith Bool Arith.
From WV Require Import Lib.Conc Model.ChanFlow Proof.ChanFlowLive.
Import ListNotations.
Local Open Scope Z_scope.

(* whenever the I/O thread is idle (blocked in select, or spinning through poll turns that change
   nothing) and the client reads, no producer is parked un-notified *)
Definition C12_release_statement (p : params) : Prop :=
  forall sched, let s := run p sched in
  io_idle p s = true -> client_reads s = true -> w_parked s = true -> False.

(* a producer parked while connected is False is being notified by handle_close right now *)
Definition C12_abort_statement (p : params) : Prop :=
  forall sched, let s := run p sched in
  w_parked s = true -> connected s = false -> is_hcnotify (io s) = true.
