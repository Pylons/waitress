(* Proof/ChanFlowReq.v -- L1: the request queue.  An active producer (a worker
   inside service() before it removed its request) implies requests <> []; a
   queued task implies requests <> [] and no active producer; len(requests) <=
   lookahead + 1; requests_lock is held exactly by the thread inside its section.
   L1 stands by itself (L1_all): the model reads len(requests) in readable(), handle_write and
   service(), and this is what those reads can see; the output-side layers L2-L4 and the C12
   theorems do not need it. *)
From Coq Require Import List ZArith Bool Arith Lia.
From WV Require Import Lib.Conc Model.ChanFlow Proof.ChanFlow.
Import ListNotations.
Local Open Scope Z_scope.

Local Arguments Nat.ltb : simpl never.
Local Arguments Nat.eqb : simpl never.
Local Arguments Nat.add : simpl never.

Definition w_active (pc : wpc) : bool :=
  match pc with WIdle | WCloseRel => false | _ => true end.


(* program points reached only after readable() saw len(requests) <= lookahead *)
Definition io_rd (pc : iopc) : bool :=
  match pc with
  | IoRd4 | IoWr1 true | IoWr2 true | IoWr3 true | IoSel true _ | IoRecv _
  | IoRcvAcq _ | IoRcvWc _ | IoRcvCwf _ | IoRcvApp _ => true
  | _ => false
  end.

Definition r_io (pc : iopc) : bool :=
  match pc with IoRcvWc _ | IoRcvCwf _ | IoRcvApp _ | IoRcvRel _ => true | _ => false end.
Definition r_w (pc : wpc) : bool :=
  match pc with WCloseCwf | WCloseReq | WCloseRel => true | _ => false end.
Definition r_t (t : tlpc) (rel : bool) : bool :=
  match t with TPop | TConn => true | _ => false end || rel.


Definition t_early (t : tlpc) : bool := match t with TAcq | TPop => true | _ => false end.
Definition t_none (t : tlpc) : bool := match t with TNone => true | _ => false end.

Definition L1 (p : params) (s : state) : Prop :=
  (w_active (wk s) = true -> (1 <= nreq s)%nat /\ t_none (tlc s) = true)
  /\ (queued s = true -> (1 <= nreq s)%nat /\ w_active (wk s) = false /\ t_none (tlc s) = true)
  /\ (t_early (tlc s) = true -> (1 <= nreq s)%nat)
  /\ (io_rd (io s) = true -> (nreq s <= look p)%nat)
  /\ (nreq s <= S (look p))%nat
  /\ rlock s = (if r_io (io s) then Some TIo else if r_w (wk s) then Some TW
                else if r_t (tlc s) (trel s) then Some TT else None)
  /\ r_io (io s) && r_w (wk s) = false
  /\ r_io (io s) && r_t (tlc s) (trel s) = false
  /\ r_w (wk s) && r_t (tlc s) (trel s) = false
  /\ match tlc s with TPop | TConn => trel s = false | _ => True end.

Lemma L1_init p : L1 p init.
Proof. unfold L1, init; cbn; repeat split; intros; try discriminate; lia. Qed.

(* The step lemmas: a conjunct that reads nothing the step changed is the hypothesis again, up to
   computing the fields of the new state ([frame]).  What is left changes the queue (IoRd3
   establishes [io_rd]; IoRcvApp, WCloseReq, the pop), its users (a task starts, ends, is queued; an
   active worker excludes a queued task and a tail) or requests_lock (by the equation for [rlock],
   a free lock means nobody is inside, a held one that the others are not).  [cases1] settles it:
   arithmetic and propositional steps first, then cases on where the tail is and on which thread
   is inside the requests_lock section (the equation and the three exclusions contradict every
   combination but the right one). *)
Ltac cases1 s :=
  cbn in *; trivial; b2p; subst; try (intuition (try discriminate; lia));
  destruct (tlc s); cbn in *; try discriminate; try solve [intuition (try discriminate; try lia)];
  destruct (w_active (wk s)), (trel s), (r_io (io s)), (r_w (wk s)); cbn in *; try discriminate;
  intuition (try discriminate; try lia).

Lemma L1_step_io p s r res s' l : L1 p s -> step_io p s r res = Some (s', l) -> L1 p s'.
Proof.
  intros (Ha & Hq & Ht & Hr & Hl & Hk & Hx1 & Hx2 & Hx3 & Hx4) E. unfold step_io in E.
  destruct (io s) eqn:Eio; unf.
  all: split_ifs E; try discriminate E; injection E as <- <-.
  all: wake_cases s; try rewrite Ew in *.
  all: unfold L1; frame s.
  (* IoRd3 establishes [io_rd], IoRd4 and IoSel keep it; IoRcvApp appends; IoRcvAcq, IoRcvRel: the lock *)
  all: first [at_pc IoRd3 | at_pc IoRd4 | at_pc (IoSel _ _) | at_pc (IoRcvApp _) | at_pc (IoRcvAcq _) | at_pc (IoRcvRel _)];
    cases1 s.
Qed.

Lemma L1_step_w p s r s' l : L1 p s -> step_w p s r = Some (s', l) -> L1 p s'.
Proof.
  intros (Ha & Hq & Ht & Hr & Hl & Hk & Hx1 & Hx2 & Hx3 & Hx4) E. unfold step_w in E.
  destruct (wk s) eqn:Ewk; unf.
  all: split_ifs E; try discriminate E; injection E as <- <-.
  all: unfold L1; frame s.
  (* WIdle takes the queued task; WKeepLen, WFbTest, WFbRel hand over to the tail; WCloseReq empties the
     queue; WCloseAcq, WCloseRel: the lock *)
  all: first [at_pc WIdle | at_pc WKeepLen | at_pc WFbTest | at_pc WFbRel | at_pc WCloseReq | at_pc WCloseAcq | at_pc WCloseRel];
    cases1 s.
Qed.

Lemma L1_step_tail p s n s' l : L1 p s -> step_tail s n = Some (s', l) -> L1 p s'.
Proof.
  intros (Ha & Hq & Ht & Hr & Hl & Hk & Hx1 & Hx2 & Hx3 & Hx4) E. unfold step_tail in E.
  destruct n as [|[|[|[|[|[|n]]]]]]; try discriminate E; cbv iota in E.
  all: split_ifs E; try discriminate E; injection E as <- <-.
  all: unfold L1; frame s.
  (* the acquire (0), the pop (1), the test of connected with add_task (2), the release (3),
     the second test of connected (4), pull_trigger (5) *)
  all: cases1 s.
Qed.

Lemma L1_step p s c s' l : L1 p s -> step p s c = Some (s', l) -> L1 p s'.
Proof.
  destruct c as [r res|r|n|a]; cbn [step].
  - apply L1_step_io.
  - apply L1_step_w.
  - apply L1_step_tail.
  - intros H E. destruct a; cbn in E; split_ifs E; try discriminate E; injection E as <- <-; exact H.
Qed.

Theorem L1_all p sched : L1 p (run p sched).
Proof. unfold run. apply invariant_rule. apply L1_init. intros; eapply L1_step; eauto. Qed.
