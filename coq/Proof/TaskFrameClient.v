(* The client parses what the task wrote (C03_frame). *)
From Coq Require Import String.
From Coq Require Import List NArith ZArith Bool Lia Arith Permutation.
From WV Require Import Lib.PyBytes Gen.GenTables Model.Task Spec.ClientParse
  Proof.TaskSort Proof.PyBytesFacts Proof.TaskLines Proof.TaskHead Proof.TaskChunk Proof.TaskClient Proof.TaskFrame.
Import ListNotations.
Local Open Scope N_scope.

Lemma filter_perm {A} (P : A -> bool) l l' : Permutation l l' -> Permutation (filter P l) (filter P l').
Proof.
  induction 1; cbn [filter]; auto.
  - destruct (P x); auto.
  - destruct (P x), (P y); auto. apply perm_swap.
  - eapply perm_trans; eauto.
Qed.

Lemma filter_perm_singleton {A} (P : A -> bool) l l' x :
  Permutation l l' -> filter P l = [x] -> filter P l' = [x].
Proof.
  intros Hp Hf. pose proof (filter_perm P l l' Hp) as H. rewrite Hf in H.
  apply Permutation_length_1_inv in H. exact H.
Qed.

Lemma filter_perm_nil {A} (P : A -> bool) l l' :
  Permutation l l' -> filter P l = [] -> filter P l' = [].
Proof.
  intros Hp Hf. pose proof (filter_perm P l l' Hp) as H. rewrite Hf in H.
  apply Permutation_nil in H. exact H.
Qed.

Lemma terminated_length lines : (length lines <= length (terminated lines))%nat.
Proof.
  induction lines as [|l ls IH]; [simpl; lia|].
  change (terminated (l :: ls)) with ((l ++ CRLF) ++ terminated ls).
  rewrite !app_length. cbn [length CRLF]. lia.
Qed.

Lemma status_code_first_line t : status_code (first_line t) = firstn 3 (t_status t).
Proof.
  unfold status_code, first_line, version_str.
  destruct (t_v11 t).
  - change (lit "HTTP/" ++ lit "1.1" ++ [32] ++ t_status t) with (lit "HTTP/1.1" ++ 32 :: t_status t).
    rewrite find_char_app by reflexivity. cbn [length skipn List.app]. reflexivity.
  - change (lit "HTTP/" ++ lit "1.0" ++ [32] ++ t_status t) with (lit "HTTP/1.0" ++ 32 :: t_status t).
    rewrite find_char_app by reflexivity. cbn [length skipn List.app]. reflexivity.
Qed.

Lemma startswith_firstn s p : startswith s p = beqb (firstn (length p) s) p.
Proof.
  revert s; induction p as [|x p IH]; intro s; [destruct s; reflexivity|].
  destruct s as [|y s]; [reflexivity|]. cbn [startswith length firstn beqb].
  rewrite IH. rewrite N.eqb_sym. reflexivity.
Qed.

Lemma no_body_status_has_body t : no_body_status (firstn 3 (t_status t)) = negb (has_body t).
Proof.
  unfold has_body, no_body_status. rewrite negb_involutive.
  rewrite !startswith_firstn. cbn [length].
  assert (H : match firstn 3 (t_status t) with x :: _ => x =? 49 | [] => false end = beqb (firstn 1 (t_status t)) (lit "1")).
  { destruct (t_status t) as [|a rest]; [reflexivity|]. cbn [firstn beqb]. rewrite andb_true_r. reflexivity. }
  rewrite H. reflexivity.
Qed.

Lemma nonempty_encode_chunks cs :
  flat_map encode_chunk cs = flat_map encode_chunk (filter (fun d => match d with [] => false | _ => true end) cs)
  /\ concat cs = concat (filter (fun d => match d with [] => false | _ => true end) cs)
  /\ (length (filter (fun d => match d with [] => false | _ => true end) cs)
      <= length (flat_map encode_chunk cs))%nat.
Proof.
  induction cs as [|d cs (IH1 & IH2 & IH3)]; [simpl; auto|].
  destruct d as [|x d]; cbn [filter flat_map concat encode_chunk List.app].
  - auto.
  - rewrite IH1 at 1. rewrite IH2 at 1. repeat split; auto.
    rewrite !app_length. cbn [length CRLF]. rewrite app_length. cbn [length]. lia.
Qed.

Lemma client_head tp rest :
  task_clean tp -> Forall (fun h => no_colon (fst h)) (t_rh tp) ->
  read_lines (S (length (head_text tp ++ rest))) (head_text tp ++ rest)
    = Some (first_line tp :: map header_line (sort_hdrs (t_rh tp)), rest)
  /\ parse_fields (map header_line (sort_hdrs (t_rh tp))) = Some (map client_field (sort_hdrs (t_rh tp))).
Proof.
  intros Hcl Hnc. split.
  - rewrite head_text_terminated, <- app_assoc.
    fold (head_lines tp).
    apply read_lines_terminated.
    + pose proof (head_lines_clean tp Hcl) as Hc. unfold head_lines in *.
      rewrite Forall_forall in Hc. apply Forall_forall. intros l Hl. split; [apply Hc; auto|].
      destruct Hl as [<-|Hl].
      * unfold first_line. discriminate.
      * apply in_map_iff in Hl as (h & <- & _). unfold header_line. destruct (fst h); discriminate.
    + rewrite !app_length. pose proof (terminated_length (head_lines tp)). lia.
  - apply parse_header_lines. apply Forall_forall. intros h Hh.
    rewrite Forall_forall in Hnc. apply Hnc. eapply Permutation_in; [apply sort_perm|exact Hh].
Qed.

Definition te_fields (tp : task) := filter (field_is te_name) (map client_field (t_rh tp)).
Definition cl_fields (tp : task) := filter (field_is cl_name) (map client_field (t_rh tp)).

Lemma sorted_filter_singleton tp name x :
  filter (field_is name) (map client_field (t_rh tp)) = [x] ->
  filter (field_is name) (map client_field (sort_hdrs (t_rh tp))) = [x].
Proof.
  apply filter_perm_singleton. apply Permutation_map. apply Permutation_sym, sort_perm.
Qed.

Lemma sorted_filter_nil tp name :
  filter (field_is name) (map client_field (t_rh tp)) = [] ->
  filter (field_is name) (map client_field (sort_hdrs (t_rh tp))) = [].
Proof.
  apply filter_perm_nil. apply Permutation_map. apply Permutation_sym, sort_perm.
Qed.

Theorem parse_chunked tp chunks rest :
  task_clean tp -> Forall (fun h => no_colon (fst h)) (t_rh tp) ->
  has_body tp = true -> te_fields tp = [client_field f_chunked] ->
  parse_one false (head_text tp ++ encode_chunked chunks ++ rest)
  = Some (mkResponse (first_line tp) (map client_field (sort_hdrs (t_rh tp))) FChunked (concat chunks), rest).
Proof.
  intros Hcl Hnc Hb Hte. unfold parse_one.
  destruct (client_head tp (encode_chunked chunks ++ rest) Hcl Hnc) as [-> ->].
  unfold decide_framing. cbn [orb]. rewrite status_code_first_line, no_body_status_has_body, Hb. cbn [negb].
  rewrite (sorted_filter_singleton tp te_name _ Hte).
  cbn [snd client_field f_chunked].
  assert (Hv : beqb (lower_ascii (strip_by is_sp_htab (lit "chunked"))) chunked_tok = true) by reflexivity.
  rewrite Hv.
  destruct (nonempty_encode_chunks chunks) as (E1 & E2 & E3).
  assert (Ee : encode_chunked chunks = encode_chunked (filter (fun d => match d with [] => false | _ => true end) chunks))
    by (unfold encode_chunked; rewrite <- E1; reflexivity).
  rewrite Ee. rewrite E1 in E3.
  rewrite chunk_roundtrip.
  - rewrite <- E2. reflexivity.
  - unfold encode_chunked. rewrite !app_length. eapply Nat.le_lt_trans; [exact E3|]. lia.
Qed.

Theorem parse_eof tp body :
  task_clean tp -> Forall (fun h => no_colon (fst h)) (t_rh tp) ->
  has_body tp = true -> te_fields tp = [] -> cl_fields tp = [] ->
  parse_one false (head_text tp ++ body)
  = Some (mkResponse (first_line tp) (map client_field (sort_hdrs (t_rh tp))) FEof body, []).
Proof.
  intros Hcl Hnc Hb Hte Hcf. unfold parse_one.
  destruct (client_head tp body Hcl Hnc) as [-> ->].
  unfold decide_framing. cbn [orb]. rewrite status_code_first_line, no_body_status_has_body, Hb. cbn [negb].
  rewrite (sorted_filter_nil tp te_name Hte), (sorted_filter_nil tp cl_name Hcf). reflexivity.
Qed.

Theorem parse_nobody tp is_head rest :
  task_clean tp -> Forall (fun h => no_colon (fst h)) (t_rh tp) ->
  is_head = true \/ has_body tp = false ->
  parse_one is_head (head_text tp ++ rest)
  = Some (mkResponse (first_line tp) (map client_field (sort_hdrs (t_rh tp))) FNoBody [], rest).
Proof.
  intros Hcl Hnc Hb. unfold parse_one.
  destruct (client_head tp rest Hcl Hnc) as [-> ->].
  unfold decide_framing. rewrite status_code_first_line, no_body_status_has_body.
  assert (H : is_head || negb (has_body tp) = true) by (destruct Hb as [->| ->]; [reflexivity|apply orb_true_r]).
  rewrite H. reflexivity.
Qed.

(* a head that declares a length and no transfer coding, followed by any bytes: the client waits for
   the declared number of bytes and takes exactly those *)
Lemma parse_declared tp v s :
  task_clean tp -> Forall (fun h => no_colon (fst h)) (t_rh tp) ->
  has_body tp = true -> te_fields tp = [] ->
  cl_fields tp = [(lit "Content-Length", v)] -> all_digits v = true ->
  parse_one false (head_text tp ++ s) =
  if lenN s <? dec_value v then None
  else Some (mkResponse (first_line tp) (map client_field (sort_hdrs (t_rh tp))) (FLength (dec_value v))
               (firstn (N.to_nat (dec_value v)) s), skipn (N.to_nat (dec_value v)) s).
Proof.
  intros Hcl Hnc Hb Hte Hcf Hd. unfold parse_one.
  destruct (client_head tp s Hcl Hnc) as [-> ->].
  unfold decide_framing. cbn [orb]. rewrite status_code_first_line, no_body_status_has_body, Hb. cbn [negb].
  rewrite (sorted_filter_nil tp te_name Hte).
  rewrite (sorted_filter_singleton tp cl_name _ Hcf).
  cbn [snd forallb]. rewrite Hd. reflexivity.
Qed.

Theorem parse_length tp v body rest :
  task_clean tp -> Forall (fun h => no_colon (fst h)) (t_rh tp) ->
  has_body tp = true -> te_fields tp = [] ->
  cl_fields tp = [(lit "Content-Length", v)] -> all_digits v = true ->
  lenN body = dec_value v ->
  parse_one false (head_text tp ++ body ++ rest)
  = Some (mkResponse (first_line tp) (map client_field (sort_hdrs (t_rh tp))) (FLength (dec_value v)) body, rest).
Proof.
  intros Hcl Hnc Hb Hte Hcf Hd Hlen. rewrite (parse_declared tp v) by assumption.
  assert (Hlt : lenN (body ++ rest) <? dec_value v = false).
  { rewrite <- Hlen. unfold lenN. rewrite app_length. apply N.ltb_ge. lia. }
  rewrite Hlt. rewrite <- Hlen. unfold lenN. rewrite Nat2N.id.
  rewrite firstn_app, firstn_all, Nat.sub_diag. cbn [firstn]. rewrite app_nil_r.
  rewrite skipn_app, skipn_all, Nat.sub_diag. cbn [skipn List.app]. reflexivity.
Qed.

Lemma lstrip_digits v : all_digits v = true -> lstrip_by is_sp_htab v = v.
Proof.
  unfold all_digits. destruct v as [|x v]; [discriminate|]. cbn [forallb lstrip_by]. intro H.
  apply andb_true_iff in H as [Hx _]. unfold is_digit in Hx. unfold is_sp_htab.
  destruct (x =? 32) eqn:E1; [apply N.eqb_eq in E1; subst; discriminate|].
  destruct (x =? 9) eqn:E2; [apply N.eqb_eq in E2; subst; discriminate|]. reflexivity.
Qed.

Lemma strip_digits v : all_digits v = true -> strip_by is_sp_htab v = v.
Proof.
  intro H. unfold strip_by, rstrip_by. rewrite (lstrip_digits v H).
  assert (Hr : all_digits (rev v) = true).
  { unfold all_digits in *. destruct v as [|x v]; [discriminate|].
    assert (Hf : forallb is_digit (rev (x :: v)) = true).
    { rewrite forallb_forall in *. intros y Hy. apply H. apply in_rev. exact Hy. }
    destruct (rev (x :: v)) eqn:E; [|exact Hf].
    apply (f_equal (@length N)) in E. rewrite rev_length in E. discriminate. }
  rewrite (lstrip_digits _ Hr). apply rev_involutive.
Qed.
