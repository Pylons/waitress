(* Proof/ChanFaultListener.v -- C13_listener.

   The listening socket and its trigger leave the socket map only through
   BaseWSGIServer.close(), which in the loop is reached only from
   handle_error()/handle_close() OF THE LISTENER, i.e. when an exception escapes
   the listener's handle_read_event into wasyncore.read's (or readwrite's)
   catch-all.  Everything handle_accept does is covered by its own
   `except OSError` -- except the construction of the channel.  So: in every
   execution in which getsockopt(SO_SNDBUF) and setblocking do not fail
   ([no_setup_fault]), whatever else the environment answers and however the
   threads interleave, the listener and the trigger stay in the map
   (C13_listener_partial); with the channel constructed inside the try, in every execution
   (C13_listener_repaired).  With such a fault and the constructor outside they are gone
   (C13_listener_refuted_old, finding F17).
   The workers' half of the invariant is ChanFaultIso.wtagged (a worker holds only instructions of its own
   connection); the server's flags [srv4] and [catchall] are ChanFaultOnce's: hence the two imports. *)
From Coq Require Import List Arith Bool Lia.
From WV Require Import Lib.Conc Model.ChanFault Proof.ChanFaultSpec Proof.ChanFaultBase Proof.ChanFaultStep
                       Proof.ChanFaultOnce Proof.ChanFaultIso.
Import ListNotations.


Definition is_lst_fd (f : fdt) : bool := match f with FC _ => false | _ => true end.
Definition is_lst (d : option fdt) : bool := match d with Some f => is_lst_fd f | None => false end.
Definition ca_fd (i : instr) : option fdt := match i with KWasyn f | KReadwrite f => Some f | _ => None end.
Definition dl (i : instr) : bool :=
  match i with IPoll | ISelect _ _ _ | ISelWait _ _ _ | IDisp _ _ | IDisp2 _ _ _ _ _ => true | _ => false end.

(* instructions that must never be on the I/O thread's stack while the listener is to stay *)
Definition bad (i : instr) : bool :=
  match i with
  | ITrigClose | ILstClose => true
  | IRwClose f => is_lst_fd f
  | IDisp2 f _ _ pri hup => (pri || hup) && is_lst_fd f
  | _ => false
  end.

(* the instructions of the listener's own handler (handle_accept and the channel constructor) *)
Definition acc (i : instr) : bool :=
  match i with
  | IAccept | ISetOpts _ | KAccTry _ | IInitGso _ | IInitSbl _ | IAddChan _ => true
  | _ => false
  end.
Definition next_is_acctry (r : list instr) : bool :=
  match drop_to_frame r with KAccTry _ :: _ => true | _ => false end.
Definition acc_ok (g : cfg) (i : instr) (r : list instr) : bool :=
  match i with
  | ISetOpts _ => next_is_acctry r
  | IInitGso _ | IInitSbl _ => if init_guarded g then next_is_acctry r else true
  | _ => acc i
  end.
(* instructions whose OSError is caught by handle_accept's own try *)
Definition in_try (g : cfg) (i : instr) : bool :=
  match i with ISetOpts _ => true | IInitGso _ | IInitSbl _ => init_guarded g | _ => false end.

(* the first catch-all frame of a stack, [d] if there is none *)
Fixpoint fca (d : option fdt) (l : list instr) : option fdt :=
  match l with
  | [] => d
  | i :: r => match ca_fd i with Some f => Some f | None => fca d r end
  end.

(* under a listener catch-all there are only instructions of the listener's handler *)
Fixpoint uok (g : cfg) (d : option fdt) (l : list instr) : bool :=
  match l with
  | [] => true
  | i :: r => (if is_lst (fca d r) then acc_ok g i r else true) && uok g d r
  end.

(* below a dispatch-level instruction or a catch-all frame there are only dispatch-level instructions *)
Fixpoint dlb (l : list instr) : bool :=
  match l with
  | [] => true
  | i :: r => (if dl i || catchall i then forallb dl r else true) && dlb r
  end.

Record ioL (g : cfg) (th : thread_st) : Prop := {
  l_bad : forallb (fun i => negb (bad i)) (stk th) = true;
  l_uok : uok g None (stk th) = true;
  l_dlb : dlb (stk th) = true;
  l_raise : forall x, raising th = Some x ->
      is_lst (fca None (stk th)) = true ->
      match drop_to_frame (stk th) with KAccTry _ :: _ => is_oserror x = true | _ => False end
}.

Definition LInv (g : cfg) (s : state) (tr : list label) : Prop :=
  no_setup_fault tr \/ init_guarded g = true ->
  listener_ok s /\ ioL g (getth s IO).

Lemma fca_app : forall d p r, fca d (p ++ r) = fca (fca d r) p.
Proof. induction p as [|i p IH]; simpl; intros; auto. destruct (ca_fd i); auto. Qed.

Lemma fca_dl : forall d l, forallb dl l = true -> fca d l = d.
Proof.
  induction l as [|i l IH]; simpl; intro H; auto. apply andb_true_iff in H. destruct H as [Hi Hl].
  destruct i; simpl in *; try discriminate; auto.
Qed.

Lemma next_is_acctry_app : forall r rest, next_is_acctry r = true -> next_is_acctry (r ++ rest) = true.
Proof.
  unfold next_is_acctry. induction r as [|k r IH]; simpl; intros rest H; [discriminate|].
  destruct (is_frame k) eqn:F; simpl; auto.
Qed.
Lemma acc_ok_app : forall g i r rest, acc_ok g i r = true -> acc_ok g i (r ++ rest) = true.
Proof.
  intros g i r rest H. destruct i; simpl in *; auto; try (apply next_is_acctry_app; auto);
  destruct (init_guarded g); auto; apply next_is_acctry_app; auto.
Qed.

Lemma uok_app : forall g p rest, uok g (fca None rest) p = true -> uok g None rest = true -> uok g None (p ++ rest) = true.
Proof.
  intro g. induction p as [|i p IH]; simpl; intros rest Hp Hr; auto.
  apply andb_true_iff in Hp. destruct Hp as [Hi Hp].
  rewrite fca_app. rewrite IH by auto. rewrite andb_true_r.
  destruct (is_lst (fca (fca None rest) p)); auto. apply acc_ok_app. auto.
Qed.

Lemma uok_tail : forall g d i r, uok g d (i :: r) = true -> uok g d r = true.
Proof. simpl; intros g d i r H. apply andb_true_iff in H. tauto. Qed.

Lemma uok_suffix : forall g d p r, uok g d (p ++ r) = true -> uok g d r = true.
Proof. intros g d. induction p; simpl; intros; auto. apply andb_true_iff in H. destruct H. eauto. Qed.

Lemma uok_dl : forall g d l, is_lst d = false -> forallb dl l = true -> uok g d l = true.
Proof.
  intros g d. induction l as [|i l IH]; simpl; intros Hd H; auto. apply andb_true_iff in H. destruct H as [Hi Hl].
  rewrite (fca_dl d l Hl), Hd, IH by auto. reflexivity.
Qed.

Lemma dlb_app : forall p r, dlb p = true -> dlb r = true ->
  (existsb (fun i => dl i || catchall i) p = true -> forallb dl r = true) -> dlb (p ++ r) = true.
Proof.
  induction p as [|i p IH]; simpl; intros r Hp Hr Hx; auto.
  apply andb_true_iff in Hp. destruct Hp as [Hi Hp].
  rewrite IH; auto.
  - rewrite andb_true_r. destruct (dl i || catchall i) eqn:E; auto.
    rewrite forallb_app, Hi. simpl. apply Hx. reflexivity.
  - intro H. apply Hx. rewrite H. apply orb_true_r.
Qed.

Lemma dlb_suffix : forall p r, dlb (p ++ r) = true -> dlb r = true.
Proof. induction p; simpl; intros; auto. apply andb_true_iff in H. destruct H. eauto. Qed.

Lemma dlb_all_dl : forall l, forallb dl l = true -> dlb l = true.
Proof.
  induction l as [|i l IH]; simpl; intro H; auto. apply andb_true_iff in H. destruct H as [Hi Hl].
  rewrite IH, Hl by auto. destruct (dl i || catchall i); reflexivity.
Qed.

Lemma fca_drop : forall d l, fca d (drop_to_frame l) = fca d l.
Proof.
  induction l as [|i l IH]; simpl; auto. destruct (is_frame i) eqn:F; auto.
  destruct i; simpl in *; try discriminate; auto.
Qed.

Lemma p2_ok_not_bad : forall r w e l, p2_ok r w e l = true -> forallb (fun i => negb (bad i)) (map p2_instr l) = true.
Proof.
  unfold p2_ok. induction l as [|p l IH]; simpl; intro H; auto. apply andb_true_iff in H. destruct H as [Hp Hl].
  rewrite IH by auto. rewrite andb_true_r.
  destruct p as [[f [rd wr]] [pri hup]]. simpl. unfold p2_entry_ok in Hp.
  repeat (apply andb_true_iff in Hp; destruct Hp as [Hp ?]).
  destruct (pri || hup); simpl in *; auto. destruct f; simpl in *; auto; discriminate.
Qed.

Lemma exec_lsn : forall g t i a s d,
  bad i = false ->
  (is_lst d = true -> acc i = true) ->
  match exec g t i a s with
  | Blocked => True
  | Norm s' push ls =>
      srv4 s' = srv4 s /\ forallb (fun i => negb (bad i)) push = true /\ uok g d push = true /\
      dlb push = true /\ (dl i = false -> existsb (fun i => dl i || catchall i) push = false)
  | Raise s' x ls =>
      srv4 s' = srv4 s /\
      (is_lst d = true -> (no_setup_faultb ls = false /\ init_guarded g = false) \/ (is_oserror x = true /\ in_try g i = true))
  end.
Proof.
  intros g t i a s d Hb Hd.
  destruct i; try discriminate Hb;
  try match goal with f : fdt |- _ => destruct f as [| |cc] end;
  try match goal with k : evk |- _ => destruct k end;
  cbn [exec event chan_event hclose_fd herror hclose server_close]; repeat split_innermost;
  rewrite ?srv4_setth, ?srv4_setc; auto.
  all: try (simpl in Hb; discriminate Hb).
  all: destruct (is_lst d) eqn:Ed; [specialize (Hd eq_refl); try discriminate Hd|clear Hd].
  all: simpl; unfold next_is_acctry; simpl.
  (* only handle_accept's instructions look at the knob *)
  all: try match goal with |- context [init_guarded ?gg] => destruct (init_guarded gg) eqn:Eg end; try discriminate.
  all: repeat split; auto.
  all: try (intro; discriminate).
  all: try (rewrite ?Ed; simpl; auto; fail).
  all: try (left; split; reflexivity).
  all: try (right; split; reflexivity).
  all: try (apply uok_dl; [assumption|]).
  all: try (apply dlb_all_dl).
  all: rewrite ?forallb_app, ?forallb_map by (try intros [[? [? ?]] [? ?]]; reflexivity); simpl; auto.
  all: try (erewrite p2_ok_not_bad by eauto; reflexivity).
Qed.

Lemma frame_lsn : forall t k x s,
  match ca_fd k with Some f => is_lst_fd f = false | None => True end ->
  match frame t k x s with
  | FCatch s' push ls =>
      srv4 s' = srv4 s /\ forallb (fun i => negb (bad i)) push = true /\
      (forall g d, is_lst d = false -> uok g d push = true) /\ dlb push = true /\
      existsb (fun i => dl i || catchall i) push = false /\ no_setup_faultb ls = true
  | FPass s' => srv4 s' = srv4 s
  end.
Proof.
  intros t k x s Hk.
  destruct k; simpl in Hk;
  try match goal with f : fdt |- _ => destruct f as [| |cc]; try discriminate Hk end;
  cbn [frame herror hclose_fd hclose]; repeat split_innermost;
  rewrite ?srv4_setth, ?srv4_setc; auto.
  all: simpl; repeat split; auto.
  all: intros g d Hd; simpl; rewrite ?Hd; auto.
Qed.

Lemma listener_ok_srv : forall s s', srv4 s' = srv4 s -> listener_ok s -> listener_ok s'.
Proof. unfold srv4, listener_ok. intros s s' E H. injection E as -> -> -> ->. auto. Qed.

Lemma acc_ok_acc : forall g i r, acc_ok g i r = true -> acc i = true.
Proof. destruct i; simpl; auto. Qed.

Lemma ioL_empty : forall g lx ls lc, ioL g (mkTh [] None lx ls lc).
Proof. intros. constructor; simpl; auto. intros; discriminate. Qed.

(* unwinding reaches frame k: it is not the listener's catch-all, and if the listener's catch-all is the
   next one below, k is handle_accept's try and the exception is one it catches *)
Lemma ioL_unwind : forall g th x k rest,
  ioL g th -> raising th = Some x -> drop_to_frame (stk th) = k :: rest ->
  forallb (fun i => negb (bad i)) rest = true /\ uok g None rest = true /\ dlb rest = true /\
  match ca_fd k with Some f => is_lst_fd f = false | None => True end /\
  (is_lst (fca None rest) = true -> exists c, k = KAccTry c /\ is_oserror x = true).
Proof.
  intros g th x k rest [Lbad Luok Ldlb Lraise] R D.
  apply forallb_drop_to_frame in Lbad. specialize (Lraise x R). rewrite <- fca_drop in Lraise.
  destruct (drop_to_frame_suffix (stk th)) as [pre Epre]. rewrite Epre in Luok, Ldlb.
  apply uok_suffix in Luok. apply dlb_suffix in Ldlb. rewrite D in *. clear Epre.
  (* what is below a catch-all frame is dispatch level *)
  assert (Hrest : ca_fd k <> None -> fca None rest = None).
  { intros Ek. simpl in Ldlb. replace (dl k || catchall k) with true in Ldlb
      by (destruct k; simpl in Ek; try congruence; reflexivity).
    apply andb_true_iff in Ldlb. apply fca_dl. tauto. }
  split; [exact (forallb_tail _ _ _ Lbad)|]. split; [exact (uok_tail _ _ _ _ Luok)|].
  split; [exact (dlb_suffix [k] _ Ldlb)|]. simpl in Lraise. split.
  - destruct (ca_fd k) as [f|] eqn:Ek; auto. destruct (is_lst_fd f) eqn:Ef; auto.
    exfalso. specialize (Lraise Ef). destruct k; simpl in Ek; try discriminate; auto.
  - intro El. destruct (ca_fd k) eqn:Ek; [rewrite Hrest in El by discriminate; discriminate|].
    specialize (Lraise El). destruct k; try contradiction. eauto.
Qed.

Lemma ioL_step : forall g s a s' l,
  ioL g (getth s IO) -> step g s (IO, a) = Some (s', l) -> no_setup_faultb l = true \/ init_guarded g = true ->
  srv4 s' = srv4 s /\ ioL g (getth s' IO).
Proof.
  intros g s a s' l Hio H Hsf.
  destruct (step_micro _ _ _ _ _ _ H) as [x R D|c Et|k rest m D Dm]; try discriminate Et;
    cbv zeta; rewrite ?getth_set_dead, getth_setth_same, ?srv4_set_dead, srv4_setth.
  { split; [reflexivity|apply ioL_empty]. }
  unfold reached in D. unfold does in Dm. destruct (raising (getth s IO)) as [x|] eqn:R.
  - (* unwinding *)
    destruct (ioL_unwind _ _ _ _ _ Hio R D) as (Hbad & Huok & Hdlb & Hk & Hacc).
    pose proof (frame_lsn IO k x s Hk) as FL. injection Dm as <-.
    destruct (frame IO k x s) as [s1 push ls|s1] eqn:F; simpl.
    + destruct FL as (Esrv & Pbad & Puok & Pdlb & Pex & _). split; [exact Esrv|]. constructor; simpl.
      * rewrite forallb_app, Pbad. exact Hbad.
      * apply uok_app; auto. destruct (is_lst (fca None rest)) eqn:El; [|apply Puok; auto].
        (* a listener frame is next: then k is handle_accept's try, which pushes nothing *)
        destruct (Hacc eq_refl) as (c & -> & Hos). cbn [frame] in F. rewrite Hos in F.
        injection F as _ <- _. reflexivity.
      * apply dlb_app; auto. rewrite Pex. discriminate.
      * intros; discriminate.
    + split; [exact FL|]. constructor; simpl; auto.
      intros y Ey El. exfalso. destruct (Hacc El) as (c & -> & Hos). cbn [frame] in F. rewrite Hos in F. discriminate.
  - (* executing k *)
    destruct Hio as [Lbad Luok Ldlb _]. rewrite D in Lbad, Luok, Ldlb.
    simpl in Lbad. apply andb_true_iff in Lbad. destruct Lbad as [Hbi Hbr]. apply negb_true_iff in Hbi.
    assert (Hd : is_lst (fca None rest) = true -> acc k = true).
    { intro El. simpl in Luok. rewrite El in Luok. apply andb_true_iff in Luok. eapply acc_ok_acc, Luok. }
    pose proof (exec_lsn g IO k a s (fca None rest) Hbi Hd) as EL.
    destruct (exec g IO k a s) as [|s1 push ls|s1 x ls]; [discriminate| |]; injection Dm as <-; cbn [m_ls] in Hsf; simpl.
    + destruct EL as (Esrv & Pbad & Puok & Pdlb & Pex). split; [exact Esrv|]. constructor; simpl.
      * rewrite forallb_app, Pbad, Hbr. reflexivity.
      * apply uok_app; auto. eapply uok_tail; eauto.
      * apply dlb_app; auto; [eapply dlb_suffix with (p := [k]); eauto|].
        intro Hx. destruct (dl k) eqn:Edl.
        -- simpl in Ldlb. rewrite Edl in Ldlb. simpl in Ldlb. apply andb_true_iff in Ldlb. tauto.
        -- rewrite Pex in Hx by auto. discriminate.
      * intros y Ey. discriminate.
    + destruct EL as (Esrv & Praise). split; [exact Esrv|]. constructor; simpl; auto.
      * eapply uok_tail; eauto.
      * eapply dlb_suffix with (p := [k]); eauto.
      * (* raised under the listener's catch-all: by an instruction inside handle_accept's try *)
        intros y Ey El. injection Ey as <-.
        destruct (Praise El) as [[Hf Hg]|[Hos Hin]]; [destruct Hsf; congruence|].
        simpl in Luok. rewrite El in Luok. apply andb_true_iff in Luok. destruct Luok as [Ha _].
        assert (Hn : next_is_acctry rest = true).
        { destruct k; simpl in Hin; try discriminate; simpl in Ha; auto; rewrite Hin in Ha; auto. }
        unfold next_is_acctry in Hn. destruct (drop_to_frame rest) as [|k' r']; [discriminate|].
        destruct k'; try discriminate. auto.
Qed.

(* a worker holds only instructions of its connection (ChanFaultIso.wtagged), and those leave the server's
   flags alone *)
Lemma LInv_step : forall g s tr c s' l,
  (forall c, wtagged s c) -> LInv g s tr -> step g s c = Some (s', l) -> LInv g s' (tr ++ l).
Proof.
  intros g s tr [t a] s' l Hw Inv H Hns.
  assert (Hn1 : no_setup_fault tr \/ init_guarded g = true).
  { destruct Hns as [Hns|Hns]; auto. apply no_setup_fault_app in Hns. tauto. }
  assert (Hsf : no_setup_faultb l = true \/ init_guarded g = true).
  { destruct Hns as [Hns|Hns]; auto. apply no_setup_fault_app in Hns. left. apply no_setup_faultb_spec. tauto. }
  destruct (Inv Hn1) as (Hl & Hio). clear Inv.
  destruct t as [|c].
  - destruct (ioL_step g s a s' l Hio H Hsf) as [Esrv Hio']. split; [eapply listener_ok_srv; eauto|exact Hio'].
  - destruct (worker_local g s c a s' l (Hw c) H) as [(_ & T & S) _].
    rewrite T by discriminate. split; [|exact Hio].
    unfold srv5 in S. injection S as E1 E2 E3 E4 _. unfold listener_ok. rewrite E1, E2, E3, E4. exact Hl.
Qed.

Lemma LInv_all : forall g sched, LInv g (ChanFault.run g sched) (ChanFault.trace g sched).
Proof.
  intros g sched.
  refine (proj1 (inv_rule_tr g (fun s tr => LInv g s tr /\ forall c, wtagged s c) _ _ sched)).
  - split; [|intros [|]; reflexivity]. intros _. split; [repeat split; reflexivity|].
    constructor; simpl; auto. intros; discriminate.
  - intros s tr ch s' l [Inv Hw] H. split; [eapply LInv_step; eauto|eapply wtagged_step; eauto].
Qed.
