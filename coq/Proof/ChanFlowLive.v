(* Proof/ChanFlowLive.v -- L4: release and abort, for the code as it is ([fixed p]: notify at
   total <= high_watermark, handle_write drains above the mark, connected re-tested under the
   lock) and every 0 <= high_watermark, every send_bytes, lookahead and residue.
   A producer that waits on outbuf_lock is never left behind: either the trigger is pulled, or
   the I/O thread's next select sees the channel writable, or the I/O thread is already on its
   way to the notify. *)
From Coq Require Import List ZArith Bool Arith Lia.
From WV Require Import Lib.Conc Model.ChanFlow Proof.ChanFlow Proof.ChanFlowFlags Proof.ChanFlowAcct.
Import ListNotations.
Local Open Scope Z_scope.

(* inside _flush_outbufs_below_high_watermark, holding the lock *)
Definition w_infb (pc : wpc) : bool :=
  match pc with
  | WFlush FA _ | WSub FA _ | WFlushExn FA => false
  | WFlush _ _ | WSub _ _ | WFlushExn _ | WFbPullE _ | WFbWaitE _ | WFbPull _ | WFbWait _ => true
  | _ => false
  end.

Definition pull_or_wait (pc : wpc) : bool := match pc with WFbPull _ | WFbWait _ => true | _ => false end.
Definition parked_loop (pc : wpc) : bool := match pc with WFbParked _ false => true | _ => false end.
Definition loop_waiting (pc : wpc) : bool := match pc with WFbWait _ | WFbParked _ false => true | _ => false end.
Definition e_wait (pc : wpc) : bool := match pc with WFbPullE _ | WFbWaitE _ | WFbParkedE _ false => true | _ => false end.
Definition e_waiting (pc : wpc) : bool := match pc with WFbWaitE _ | WFbParkedE _ false => true | _ => false end.

Definition is_hcnotify (pc : iopc) : bool := match pc with IoHcNotify _ => true | _ => false end.
Definition k_set (pc : iopc) : bool :=
  match pc with
  | IoFlush | IoSubL _ | IoNotify | IoRelX | IoHwExn | IoHcAcq _ | IoHcTot _ => true
  | _ => false
  end.
Definition k_hw (pc : iopc) : bool :=
  match pc with IoHw3 | IoHw4 | IoHw5 | IoHw6 | IoHw7 => true | _ => false end.
Definition io_j1 (pc : iopc) : bool := match pc with IoWr2 _ | IoWr3 _ | IoSel _ false => true | _ => false end.
Definition io_j2 (pc : iopc) : bool := match pc with IoWr3 _ | IoSel _ false => true | _ => false end.

(* the conjuncts are called N, P, W, M, K, J1, J2 below, in this order *)
Definition L4 (p : params) (s : state) : Prop :=
  (w_infb (wk s) = true -> closed_bufs s = false)
  /\ (pull_or_wait (wk s) = true -> hw p < total s)
  /\ (e_wait (wk s) = true -> will_close s = true)
  /\ (w_parked s = true -> connected s = false -> is_hcnotify (io s) = true)
  /\ (parked_loop (wk s) = true -> closed_bufs s = false -> total s <= hw p ->
      k_set (io s) = true \/ (k_hw (io s) = true /\ will_close s = true))
  /\ (io_j1 (io s) = true -> loop_waiting (wk s) = true -> pulled s = true)
  /\ (io_j2 (io s) = true -> e_waiting (wk s) = true -> pulled s = true).

Lemma L4_init p : L4 p init.
Proof. unfold L4, init, w_parked; cbn. repeat split; intros; try discriminate; try reflexivity. Qed.

Lemma infb_holds pc : w_infb pc = true -> w_holds pc = true.
Proof. destruct pc; cbn; try congruence; destruct c; cbn; congruence. Qed.

Lemma e_waiting_wait pc : e_waiting pc = true -> e_wait pc = true.
Proof. destruct pc; trivial; discriminate. Qed.

Lemma pull_infb pc : pull_or_wait pc = true -> w_infb pc = true.
Proof. destruct pc; trivial; discriminate. Qed.

(* handle_close has cleared connected: the channel left the map, or the I/O thread is past IoHcConn *)
Lemma closing s : L2 s -> in_map s = false \/ hc_after (io s) = true /\ is_hcconn (io s) = false ->
  closed_bufs s = true /\ connected s = false.
Proof.
  intros (F1 & F2 & F3 & F4 & _) [I|[A B]].
  - destruct (F4 I) as [Co _]. split; trivial. destruct (closed_bufs s); trivial.
    destruct (F1 eq_refl) as (_ & X & _). congruence.
  - split; [exact (F2 A)|]. destruct (connected s); trivial. rewrite (F3 (F2 A) eq_refl) in B. discriminate B.
Qed.

Section Step.
  Variable p : params.
  Hypothesis Hhw : 0 <= hw p.
  Hypothesis Hf1 : fx_notify_le p = true.
  Hypothesis Hf2 : fx_drain p = true.
  Hypothesis Hf3 : fx_recheck p = true.

  (* a producer waiting in the loop while the I/O thread is neither flushing nor closing has
     total above the mark: at WFbWait by the loop test; parked, because otherwise K, M or L2 would
     put the I/O thread on its way to a notify *)
  Lemma not_low s : L2 s -> L4 p s -> loop_waiting (wk s) = true ->
    k_set (io s) || k_hw (io s) || is_hcnotify (io s) || is_hcconn (io s) = false -> hw p < total s.
  Proof.
    intros (F1 & _ & F3 & _) (_ & P & _ & M & K & _) Lw Hio. unfold w_parked in M.
    destruct (wk s); try discriminate Lw.
    - exact (P eq_refl).
    - destruct nt; [discriminate Lw|]. cbn in *.
      destruct (Z.ltb_spec (hw p) (total s)) as [|T]; trivial. exfalso.
      repeat (apply orb_false_iff in Hio; destruct Hio as [Hio ?]).
      destruct (closed_bufs s) eqn:C.
      + destruct (connected s) eqn:Co; [rewrite (F3 eq_refl eq_refl) in * | rewrite (M eq_refl eq_refl) in *]; discriminate.
      + destruct (K eq_refl eq_refl T) as [X|[X _]]; congruence.
  Qed.

  (* once handle_close has cleared connected and is past its notify, nobody waits: inside
     flush_below the outbufs are open (N), and a parked producer would have the I/O thread at the notify (M) *)
  Lemma nobody_waits s : L4 p s -> closed_bufs s = true -> connected s = false -> is_hcnotify (io s) = false ->
    loop_waiting (wk s) = false /\ e_waiting (wk s) = false.
  Proof.
    intros (N & _ & _ & M & _) C Co Hn. unfold w_parked in M. rewrite C in N.
    destruct (wk s); cbn in *; auto; try discriminate (N eq_refl).
    all: destruct nt; auto; rewrite (M eq_refl Co) in Hn; discriminate Hn.
  Qed.

  (* Of the lower layers the steps use the exclusion of L0 (a worker's step also its equation for the
     out-lock) and what L2 says of closed_bufs and
     connected; L1 and L3 play no part. *)
  Lemma L4_step_io s r res s' l :
    Lall p s -> L4 p s -> step_io p s r res = Some (s', l) -> L4 p s'.
  Proof.
    intros ((_ & _ & Hx & _) & HL2 & _) HL4 E.
    assert (F := HL2). destruct F as (_ & F2 & F3 & _). assert (H := HL4). destruct H as (N & P & W & M & K & J1 & J2).
    unfold w_parked in M. unfold step_io in E.
    destruct (io s) eqn:Eio; unf; rewrite ?Hf1, ?Hf2, ?Hf3 in E; cbn [negb andb orb] in E; dk.
    all: split_ifs E; try discriminate E; injection E as <- <-.
    all: wake_cases s.
    all: unfold L4, w_parked; frame s; auto.
    (* IoHw2b, IoTry (lock busy), IoRelL, IoHw7: the I/O thread leaves a point that K rules out for a
       producer parked at or below the mark *)
    all: try (first [at_pc IoHw2b | at_pc IoTry | at_pc IoRelL | at_pc IoHw7];
              intros a b c; destruct (K a b c) as [X|[X Y]]; discriminate).
    (* IoWr1 saw total <= 0 *)
    all: try (at_pc (IoWr1 _); intros _ Lw; assert (X := not_low s HL2 HL4 Lw); rewrite Eio in X;
              specialize (X eq_refl); b2p; lia).
    (* IoWr2 saw will_close = False *)
    all: try (at_pc (IoWr2 _); intros _ Q; discriminate (W (e_waiting_wait _ Q))).
    (* back to the top of the loop with the channel out of the map (IoSel, IoRcvRel, IoHw7), or at the
       end of handle_close (IoHcClose, IoEof) *)
    all: try (first [at_pc (IoSel _ _) | at_pc (IoRcvRel _) | at_pc IoHw7 | at_pc (IoHcClose _) | at_pc IoEof];
              destruct (closing s HL2) as [C Co]; [rewrite Eio; auto |];
              destruct (nobody_waits s HL4 C Co) as [Y Z]; [rewrite Eio; reflexivity | intros; congruence]).
    (* IoFlush, IoSubL: the notify test failed *)
    all: try (first [at_pc IoFlush | at_pc (IoSubL _)]; intros _ _ T; cbn in *; b2p; lia).
    (* IoSubL, IoHcTot: the I/O thread holds the lock, so the worker is not inside flush_below *)
    all: try (first [at_pc (IoSubL _) | at_pc (IoHcTot _)]; intros Q;
              first [rewrite (infb_holds _ Q) in Hx | rewrite (infb_holds _ (pull_infb _ Q)) in Hx]; discriminate Hx).
    (* IoNotify, IoHcNotify: a notify with nobody parked *)
    all: try (first [at_pc IoNotify | at_pc (IoHcNotify _)]; unfold w_parked in Ew; intros Q;
              first [congruence | destruct (wk s); try discriminate Q; destruct nt; discriminate]).
    (* IoHcClose, IoEof: connected is False before the last steps of handle_close, so a parked producer
       was at IoHcNotify *)
    all: first [at_pc (IoHcClose _) | at_pc IoEof]; intros Q _; destruct (connected s) eqn:Co;
      [discriminate (F3 (F2 eq_refl) eq_refl) | discriminate (M Q eq_refl)].
  Qed.

  Lemma L4_step_w s r s' l :
    Lall p s -> L4 p s -> step_w p s r = Some (s', l) -> L4 p s'.
  Proof.
    intros (HL0 & HL2 & _) (N & P & W & M & K & J1 & J2) E. assert (F1 := proj1 HL2).
    unfold w_parked in M. unfold step_w in E.
    destruct (wk s) eqn:Ewk; unf; rewrite ?Hf1, ?Hf2, ?Hf3 in E; cbn [negb andb orb] in E; dk.
    all: split_ifs E; try discriminate E; injection E as <- <-.
    all: unfold L4, w_parked; frame s; auto.
    all: intros _; cbn in *; rewrite ?negb_false_iff in *; b2p.
    (* P at WFbPull, reached from WWrAcq, WFbAcq, WFlush, WSub, WFbParked: the loop test, or the test
       that led into flush_below *)
    all: try lia.
    (* N on entering flush_below (WWrAcq, WFbAcq, WFbParked): the lock was free and connected is true,
       so the outbufs are open *)
    all: try (first [at_pc WWrAcq | at_pc WFbAcq | at_pc (WFbParked _ _)];
              apply (open_if_connected s HL2); [assumption | apply (L0_io_out s HL0); auto]).
    (* parking (WFbWait, WFbWaitE) establishes M and K: inside flush_below the outbufs are open (N), so
       connected is true; in the loop total is above the mark (P) *)
    all: first [at_pc (WFbWait _) | at_pc (WFbWaitE _)];
      first [intros Co; destruct (F1 (N eq_refl)) as (X & _); congruence | intros _ T; specialize (P eq_refl); lia].
  Qed.

  Lemma L4_step s c s' l : Lall p s -> L4 p s -> step p s c = Some (s', l) -> L4 p s'.
  Proof.
    destruct c as [r res|r|n|a]; cbn [step].
    - apply L4_step_io.
    - apply L4_step_w.
    - intros _ H E. unfold step_tail in E. destruct n as [|[|[|[|[|[|n]]]]]]; try discriminate E; cbv iota in E.
      all: split_ifs E; try discriminate E; injection E as <- <-; try exact H.
      (* pull_trigger *) destruct H as (N & P & W & M & K & _). repeat apply conj; auto.
    - intros _ H E. destruct a; cbn in E; split_ifs E; try discriminate E; injection E as <- <-; exact H.
  Qed.

  Theorem L4_run sched : Lall p (run p sched) /\ L4 p (run p sched).
  Proof.
    unfold run. apply (invariant_rule _ _ _ (step p) (fun s => Lall p s /\ L4 p s)).
    - split. 2: apply L4_init.
      split; [|split]. apply L0_init. apply L2_init. apply L3_init; assumption.
    - intros s c s' l [A B] E. split. eapply Lall_step; eauto. eapply L4_step; eauto.
  Qed.
End Step.

(* a parked producer waits in the loop or after an exception *)
Lemma parked_cases s : w_parked s = true ->
  (loop_waiting (wk s) = true /\ parked_loop (wk s) = true) \/ (e_waiting (wk s) = true /\ e_wait (wk s) = true).
Proof. unfold w_parked. destruct (wk s); cbn; try discriminate; destruct nt; cbn; auto; discriminate. Qed.

Theorem release_blocked p sched : 0 <= hw p -> fixed p ->
  let s := run p sched in
  io_blocked s = true -> client_reads s = true -> w_parked s = true -> False.
Proof.
  intros Hhw (Hf1 & Hf2 & Hf3) s B C Pk. pose proof (parked_cases s Pk) as PC.
  destruct (L4_run p Hhw Hf1 Hf2 Hf3 sched) as [_ L]. fold s in L.
  destruct L as (_ & _ & _ & _ & _ & J1 & J2).
  unfold io_blocked, client_reads, w_parked, rdy_w in *.
  destruct (io s) eqn:Eio; try discriminate.
  apply andb_true_iff in C. destruct C as [C1 C2]. apply negb_true_iff in C2.
  apply negb_true_iff in B. apply orb_false_iff in B. destruct B as [B1 B2].
  apply orb_false_iff in B1. destruct B1 as [Ep _].
  rewrite C1 in B2. cbn in B2. rewrite andb_true_r in B2. subst w.
  destruct PC as [[Q _]|[Q _]].
  - specialize (J1 eq_refl Q). congruence.
  - specialize (J2 eq_refl Q). congruence.
Qed.

Theorem release_idle p sched : 0 <= hw p -> fixed p ->
  let s := run p sched in
  io_idle p s = true -> client_reads s = true -> w_parked s = true -> False.
Proof.
  intros Hhw Hfx s B C Pk. pose proof (parked_cases s Pk) as PC.
  unfold io_idle in B. apply orb_true_iff in B. destruct B as [B|B].
  - eapply release_blocked; eauto.
  - destruct Hfx as (Hf1 & Hf2 & Hf3).
    destruct (L4_run p Hhw Hf1 Hf2 Hf3 sched) as [(_ & F & _) L]. fold s in L, F.
    destruct L as (_ & _ & W & _ & K & _ & _).
    destruct F as (_ & _ & _ & _ & _ & F6 & _).
    unfold io_spinning, w_parked in *. rewrite Hf2 in B. cbn in B.
    destruct (io s) eqn:Eio; try discriminate. destruct r; try discriminate. destruct w; try discriminate.
    repeat (apply andb_true_iff in B; destruct B as [B ?]).
    b2p.
    destruct PC as [[_ Q]|[_ Q]].
    + destruct (closed_bufs s) eqn:Ec.
      * destruct (F6 eq_refl) as [T _]. lia.
      * match goal with T : total s <= hw p |- _ => destruct (K Q eq_refl T) as [X|[X _]]; cbn in X; discriminate end.
    + specialize (W Q). congruence.
Qed.

Theorem abort_notified p sched : 0 <= hw p -> fixed p ->
  let s := run p sched in
  w_parked s = true -> connected s = false -> is_hcnotify (io s) = true.
Proof.
  intros H0 (Hf1 & Hf2 & Hf3) s Pk C. destruct (L4_run p H0 Hf1 Hf2 Hf3 sched) as [_ L]. fold s in L.
  destruct L as (_ & _ & _ & M & _). auto.
Qed.
