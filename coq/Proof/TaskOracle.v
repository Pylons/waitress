(* py_cap, the concrete capitalize, keeps clean strings clean (the hypothesis Hcap). *)
From Coq Require Import List NArith Bool Lia ZifyBool.
From WV Require Import Lib.PyBytes Model.Task Proof.TaskLines Proof.TaskHead.
Import ListNotations.
Local Open Scope N_scope.

Lemma lower_latin1_c_crlf x : x <> CR -> x <> LF -> lower_latin1_c x <> CR /\ lower_latin1_c x <> LF.
Proof.
  unfold lower_latin1_c, CR, LF. intros H1 H2.
  destruct ((65 <=? x) && (x <=? 90)) eqn:E1; [lia|].
  destruct ((192 <=? x) && (x <=? 222) && negb (x =? 215)) eqn:E2; lia.
Qed.

Lemma lower_latin1_clean s : clean s -> clean (lower_latin1 s).
Proof.
  induction s as [|x s IH]; intro H; [reflexivity|].
  apply has_crlf_cons in H as (H1 & H2 & H3). cbn [lower_latin1 map].
  apply has_crlf_cons. destruct (lower_latin1_c_crlf x H1 H2). repeat split; auto. apply IH; auto.
Qed.

Lemma upper_latin1_c_clean x : x <> CR -> x <> LF -> clean (upper_latin1_c x).
Proof.
  unfold upper_latin1_c, CR, LF. intros H1 H2.
  destruct ((97 <=? x) && (x <=? 122)) eqn:E1.
  { apply has_crlf_cons. unfold CR, LF. repeat split; try lia. }
  destruct (x =? 181); [reflexivity|].
  destruct (x =? 223); [reflexivity|].
  destruct ((224 <=? x) && (x <=? 254) && negb (x =? 247)) eqn:E2.
  { apply has_crlf_cons. unfold CR, LF. repeat split; try lia. }
  destruct (x =? 255); [reflexivity|].
  apply has_crlf_cons. unfold CR, LF. repeat split; auto.
Qed.

Theorem py_cap_clean s : clean s -> clean (py_cap s).
Proof.
  destruct s as [|x s]; intro H; [reflexivity|].
  apply has_crlf_cons in H as (H1 & H2 & H3). unfold py_cap.
  apply clean_app. split. apply upper_latin1_c_clean; auto. apply lower_latin1_clean; auto.
Qed.
