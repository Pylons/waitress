(* Facts about the primitives of Lib/PyBytes.v: startswith, find (first occurrence), the search for
   one byte and the split on it, lenN, and to_dec (decimal digits) with its inverse dec_value. *)
From Coq Require Import List NArith ZArith Bool Lia Arith.
From WV Require Import Lib.PyBytes.
Import ListNotations.

Lemma startswith_nil s : startswith s [] = true.
Proof. destruct s; reflexivity. Qed.

Lemma startswith_spec s p : startswith s p = true <-> exists t, s = p ++ t.
Proof.
  revert s; induction p as [|x p IH]; intros s.
  - rewrite startswith_nil. split; [intros _; exists s; reflexivity | auto].
  - destruct s as [|y s]; simpl.
    + split; [discriminate | intros [t H]; discriminate].
    + rewrite andb_true_iff, IH, N.eqb_eq. split.
      * intros [-> [t ->]]. eauto.
      * intros [t H]. injection H as -> ->. eauto.
Qed.

Lemma startswith_app s t p : startswith s p = true -> startswith (s ++ t) p = true.
Proof.
  rewrite !startswith_spec. intros [u ->]. exists (u ++ t). now rewrite app_assoc.
Qed.

Lemma startswith_length s p : startswith s p = true -> length p <= length s.
Proof. rewrite startswith_spec. intros [t ->]. rewrite app_length. lia. Qed.

(* when s is at least as long as p, appending does not matter *)
Lemma startswith_app_long s t p : length p <= length s ->
  startswith (s ++ t) p = startswith s p.
Proof.
  revert s; induction p as [|x p IH]; intros s H.
  - now rewrite !startswith_nil.
  - destruct s as [|y s]; simpl in *; [lia|]. rewrite IH by lia. reflexivity.
Qed.

Lemma startswith_short s p : length s < length p -> startswith s p = false.
Proof.
  intros H. destruct (startswith s p) eqn:E; auto. apply startswith_length in E. lia.
Qed.

Lemma startswith_self_app p t : startswith (p ++ t) p = true.
Proof. apply startswith_spec. eauto. Qed.

Lemma find_from_shift s p i :
  find_from s p i = match find_from s p 0 with Some k => Some (i + k) | None => None end.
Proof.
  revert i; induction s as [|x s IH]; intros i; cbn [find_from].
  - destruct (startswith [] p); simpl; [f_equal; lia | reflexivity].
  - destruct (startswith (x :: s) p); simpl; [f_equal; lia|].
    rewrite (IH (S i)), (IH 1). destruct (find_from s p 0); simpl; [f_equal; lia | reflexivity].
Qed.

Lemma find_cons x s p :
  find (x :: s) p = if startswith (x :: s) p then Some 0
                    else match find s p with Some k => Some (S k) | None => None end.
Proof.
  unfold find. cbn [find_from]. destruct (startswith (x :: s) p); auto.
  rewrite find_from_shift. reflexivity.
Qed.

Lemma find_nil p : find [] p = if startswith [] p then Some 0 else None.
Proof. reflexivity. Qed.

(* occurrence at position i *)
Definition occ (s p : bytes) (i : nat) : Prop := startswith (skipn i s) p = true.

Lemma find_Some s p i : find s p = Some i ->
  occ s p i /\ i + length p <= length s /\ forall j, j < i -> startswith (skipn j s) p = false.
Proof.
  revert i; induction s as [|x s IH]; intros i.
  - rewrite find_nil. destruct (startswith [] p) eqn:E; [|discriminate].
    intros H; injection H as <-. unfold occ. cbn [skipn]. split; auto. split.
    + apply startswith_length in E. simpl in *. lia.
    + intros j Hj; lia.
  - rewrite find_cons. destruct (startswith (x :: s) p) eqn:E.
    + intros H; injection H as <-. unfold occ; cbn [skipn]. split; auto. split.
      * apply startswith_length in E. simpl in *. lia.
      * intros j Hj; lia.
    + destruct (find s p) as [k|] eqn:F; [|discriminate].
      intros H; injection H as <-. destruct (IH k eq_refl) as (O & L & M).
      split; [exact O|]. split; [simpl; lia|].
      intros [|j] Hj; cbn [skipn]; auto. apply M. lia.
Qed.

Lemma find_None s p : find s p = None -> forall j, startswith (skipn j s) p = false.
Proof.
  induction s as [|x s IH].
  - rewrite find_nil. destruct (startswith [] p) eqn:E; [discriminate|].
    intros _ [|j]; cbn [skipn]; auto.
  - rewrite find_cons. destruct (startswith (x :: s) p) eqn:E; [discriminate|].
    destruct (find s p) eqn:F; [discriminate|]. intros _ [|j]; cbn [skipn]; auto.
Qed.

Lemma find_first s p i :
  occ s p i -> i <= length s -> (forall j, j < i -> startswith (skipn j s) p = false) ->
  find s p = Some i.
Proof.
  revert i; induction s as [|x s IH]; intros i O L M.
  - simpl in L. assert (i = 0) by lia. subst. unfold occ in O. cbn [skipn] in O.
    rewrite find_nil, O. reflexivity.
  - rewrite find_cons. destruct i as [|i].
    + unfold occ in O; cbn [skipn] in O. now rewrite O.
    + pose proof (M 0 ltac:(lia)) as M0. cbn [skipn] in M0. rewrite M0.
      rewrite (IH i); auto.
      * simpl in L; lia.
      * intros j Hj. apply (M (S j)). lia.
Qed.

Lemma find_none_intro s p :
  (forall j, j <= length s -> startswith (skipn j s) p = false) -> find s p = None.
Proof.
  induction s as [|x s IH]; intros M.
  - rewrite find_nil. pose proof (M 0 ltac:(simpl; lia)) as M0. cbn [skipn] in M0. now rewrite M0.
  - rewrite find_cons. pose proof (M 0 ltac:(simpl; lia)) as M0. cbn [skipn] in M0. rewrite M0.
    rewrite IH; auto. intros j Hj. apply (M (S j)). simpl; lia.
Qed.

Lemma find_bound s p i : find s p = Some i -> i + length p <= length s.
Proof. intros H. apply find_Some in H. tauto. Qed.

Lemma skipn_app_le {A} (n : nat) (s t : list A) : n <= length s -> skipn n (s ++ t) = skipn n s ++ t.
Proof.
  intros H. rewrite skipn_app. replace (n - length s) with 0 by lia. reflexivity.
Qed.

Lemma firstn_app_le {A} (n : nat) (s t : list A) : n <= length s -> firstn n (s ++ t) = firstn n s.
Proof.
  intros H. rewrite firstn_app. replace (n - length s) with 0 by lia. simpl. now rewrite app_nil_r.
Qed.

(* an occurrence found inside s is the first occurrence of s ++ t *)
Lemma find_app_l s t p i : find s p = Some i -> find (s ++ t) p = Some i.
Proof.
  intros H. apply find_Some in H as (O & L & M).
  apply find_first.
  - unfold occ in *. rewrite skipn_app_le by lia. now apply startswith_app.
  - rewrite app_length. lia.
  - intros j Hj. rewrite skipn_app_le by lia.
    rewrite startswith_app_long; [apply M; lia|].
    rewrite skipn_length. lia.
Qed.

(* conversely an occurrence of s ++ t that ends inside s is one of s *)
Lemma find_app_inv s t p i :
  find (s ++ t) p = Some i -> i + length p <= length s -> find s p = Some i.
Proof.
  intros H L. apply find_Some in H as (O & _ & M).
  apply find_first.
  - unfold occ in *. rewrite skipn_app_le in O by lia.
    rewrite startswith_app_long in O; auto. rewrite skipn_length. lia.
  - lia.
  - intros j Hj. specialize (M j Hj). rewrite skipn_app_le in M by lia.
    rewrite startswith_app_long in M; auto. rewrite skipn_length. lia.
Qed.

(* s has no occurrence: an occurrence of s ++ t ends beyond s *)
Lemma find_app_none_l s t p i :
  find s p = None -> find (s ++ t) p = Some i -> length s < i + length p.
Proof.
  intros N H. destruct (le_lt_dec (i + length p) (length s)) as [L|L]; auto.
  rewrite (find_app_inv _ _ _ _ H L) in N. discriminate.
Qed.

Lemma find_app_none_both s t p :
  find (s ++ t) p = None -> find s p = None.
Proof.
  intros H. destruct (find s p) eqn:E; auto.
  rewrite (find_app_l _ t _ _ E) in H. discriminate.
Qed.

(* find on (s ++ t) when the occurrence found lies in s: firstn/skipn facts *)
Lemma firstn_app_find s t p i : find s p = Some i -> firstn i (s ++ t) = firstn i s.
Proof. intros H. apply find_bound in H. apply firstn_app_le. lia. Qed.

Lemma skipn_app_find s t p i : find s p = Some i ->
  skipn (i + length p) (s ++ t) = skipn (i + length p) s ++ t.
Proof. intros H. apply find_bound in H. apply skipn_app_le. lia. Qed.

Lemma startswith2 s a b :
  startswith s [a; b] = match s with x :: y :: _ => N.eqb a x && N.eqb b y | _ => false end.
Proof.
  destruct s as [|x [|y s]]; simpl; auto.
  - now rewrite andb_false_r.
  - now rewrite startswith_nil, andb_true_r.
Qed.

(* appending one byte to a string without the pattern [a;b]: the pattern
   appears only if the string ends with a and the byte is b *)
Lemma find2_snoc s a b c i :
  find s [a; b] = None -> find (s ++ [c]) [a; b] = Some i ->
  S i = length s /\ c = b /\ exists s0, s = s0 ++ [a].
Proof.
  intros N H.
  pose proof (find_app_none_l _ _ _ _ N H) as L1. simpl in L1.
  pose proof (find_bound _ _ _ H) as L2. rewrite app_length in L2. simpl in L2.
  assert (S i = length s) by lia. split; auto.
  apply find_Some in H as (O & _ & _). unfold occ in O.
  assert (Hs : s = firstn i s ++ skipn i s) by (symmetry; apply firstn_skipn).
  remember (skipn i s) as u eqn:Eu.
  assert (Lu : length u = 1) by (subst u; rewrite skipn_length; lia).
  destruct u as [|x [|? ?]]; simpl in Lu; try lia.
  rewrite skipn_app_le in O by lia. rewrite <- Eu in O.
  change ([x] ++ [c]) with [x; c] in O. rewrite startswith2 in O.
  apply andb_true_iff in O as [O1 O2]. apply N.eqb_eq in O1, O2. subst.
  split; auto. eexists. exact Hs.
Qed.

Lemma find_short s p : length s < length p -> find s p = None.
Proof.
  intros H. apply find_none_intro. intros j _. apply startswith_short.
  rewrite skipn_length. lia.
Qed.

Lemma skipn_nonempty {A} n (l : list A) : n < length l -> skipn n l <> [].
Proof. intros H E. apply (f_equal (@length A)) in E. rewrite skipn_length in E. simpl in E. lia. Qed.

(* s.find(bytes([c])), s.split(bytes([c])): a string either does not contain c or is
   a ++ c :: b with c not in a; the split is [s] resp. a :: split of b *)

Lemma find_char_none c s : memb c s = false -> find s [c] = None.
Proof.
  induction s as [|x s IH]; [reflexivity|]. cbn [memb existsb]. intro H. apply orb_false_iff in H as [H1 H2].
  rewrite find_cons. cbn [startswith]. rewrite H1. cbn [andb]. rewrite (IH H2). reflexivity.
Qed.

Lemma find_char_app c a b : memb c a = false -> find (a ++ c :: b) [c] = Some (length a).
Proof.
  induction a as [|x a IH]; cbn [app length].
  - intros _. rewrite find_cons. cbn [startswith]. rewrite N.eqb_refl, startswith_nil. reflexivity.
  - cbn [memb existsb]. intro H. apply orb_false_iff in H as [H1 H2].
    rewrite find_cons. cbn [startswith]. rewrite H1. cbn [andb]. rewrite (IH H2). reflexivity.
Qed.

Lemma memb_split c s : memb c s = false \/ exists a b, s = a ++ c :: b /\ memb c a = false.
Proof.
  induction s as [|x s IH]; [left; reflexivity|]. cbn [memb existsb].
  destruct (c =? x)%N eqn:E.
  - right. apply N.eqb_eq in E. subst x. exists [], s. split; reflexivity.
  - destruct IH as [H|(a & b & -> & H)]; [left; exact H|].
    right. exists (x :: a), b. split; [reflexivity|]. cbn [memb existsb]. rewrite E. exact H.
Qed.

(* induction along the occurrences of c *)
Lemma char_split_ind c (P : bytes -> Prop) :
  (forall s, memb c s = false -> P s) ->
  (forall a b, memb c a = false -> P b -> P (a ++ c :: b)) -> forall s, P s.
Proof.
  intros H0 H1 s. remember (length s) as n eqn:E. revert s E.
  induction n as [n IH] using lt_wf_ind. intros s ->.
  destruct (memb_split c s) as [H|(a & b & -> & H)]; [apply H0; exact H|].
  apply H1; [exact H|]. apply (IH (length b)); [|reflexivity]. rewrite app_length. cbn [length]. lia.
Qed.

Lemma split_fuel_char_none c fuel s : memb c s = false -> split_fuel fuel s [c] = [s].
Proof. intro H. destruct fuel; [reflexivity|]. cbn [split_fuel]. rewrite (find_char_none c s H). reflexivity. Qed.

Lemma split_fuel_char_app c fuel a b : memb c a = false ->
  split_fuel (S fuel) (a ++ c :: b) [c] = a :: split_fuel fuel b [c].
Proof.
  intro H. cbn [split_fuel]. rewrite (find_char_app c a b H).
  rewrite firstn_app, Nat.sub_diag, firstn_all. cbn [firstn length]. rewrite app_nil_r.
  replace (length a + 1) with (length (a ++ [c])) by (rewrite app_length; reflexivity).
  replace (a ++ c :: b) with ((a ++ [c]) ++ b) by (rewrite <- app_assoc; reflexivity).
  rewrite skipn_app, Nat.sub_diag, skipn_all. reflexivity.
Qed.

(* any fuel above the length gives the same list *)
Lemma split_fuel_char c s : forall fuel, length s < fuel -> split_fuel fuel s [c] = split s [c].
Proof.
  unfold split. revert s.
  apply (char_split_ind c (fun s => forall fuel, length s < fuel -> split_fuel fuel s [c] = split_fuel (S (length s)) s [c])).
  - intros s H fuel L. rewrite !split_fuel_char_none by exact H. reflexivity.
  - intros a b H IH fuel L. destruct fuel as [|f]; [lia|]. rewrite app_length in *. cbn [length] in *.
    rewrite !split_fuel_char_app by exact H. f_equal. rewrite (IH f), (IH (length a + S (length b))) by lia. reflexivity.
Qed.

Lemma split_char_none c s : memb c s = false -> split s [c] = [s].
Proof. apply split_fuel_char_none. Qed.

Lemma split_char_app c a b : memb c a = false -> split (a ++ c :: b) [c] = a :: split b [c].
Proof.
  intro H. unfold split at 1. rewrite (split_fuel_char_app c _ a b H). f_equal.
  apply split_fuel_char. rewrite app_length. cbn [length]. lia.
Qed.

Lemma lenN_app (s t : bytes) : lenN (s ++ t) = (lenN s + lenN t)%N.
Proof. unfold lenN. rewrite app_length. lia. Qed.

Lemma lenN_cons x (s : bytes) : lenN (x :: s) = (1 + lenN s)%N.
Proof. unfold lenN. simpl length. lia. Qed.

Lemma lenN_nil : lenN [] = 0%N.
Proof. reflexivity. Qed.

Lemma lenN_length (s : bytes) : N.to_nat (lenN s) = length s.
Proof. unfold lenN. lia. Qed.

Lemma to_dec_fuel_acc f : forall n acc, to_dec_fuel f n acc = to_dec_fuel f n [] ++ acc.
Proof.
  induction f as [|f IH]; intros n acc; cbn [to_dec_fuel]; [reflexivity|].
  destruct (n <? 10)%N; [reflexivity|].
  rewrite IH, (IH _ [_]), <- app_assoc. reflexivity.
Qed.

(* any fuel that covers the bit size gives the same digits: division by ten removes at least one bit *)
Lemma to_dec_fuel_any f : forall g n acc, (n < 2 ^ N.of_nat (S f))%N -> (n < 2 ^ N.of_nat (S g))%N ->
  to_dec_fuel (S f) n acc = to_dec_fuel (S g) n acc.
Proof.
  induction f as [|f IH]; intros g n acc Hf Hg; cbn [to_dec_fuel]; destruct (N.ltb_spec n 10) as [|L]; try reflexivity.
  - cbn in Hf. lia.
  - assert (D : forall k, (n < 2 ^ N.of_nat (S (S k)) -> n / 10 < 2 ^ N.of_nat (S k))%N).
    { intros k H. apply N.div_lt_upper_bound; [lia|].
      rewrite (Nat2N.inj_succ (S k)), N.pow_succ_r' in H. lia. }
    destruct g as [|g]; [cbn in Hg; lia|]. apply IH; apply D; assumption.
Qed.

Lemma to_dec_small n : (n < 10)%N -> to_dec n = [(48 + n)%N].
Proof.
  intro H. unfold to_dec. cbn [to_dec_fuel]. rewrite (proj2 (N.ltb_lt _ _) H), N.mod_small by exact H. reflexivity.
Qed.

Lemma to_dec_step n : (10 <= n)%N -> to_dec n = to_dec (n / 10) ++ [(48 + n mod 10)%N].
Proof.
  intro H. unfold to_dec at 1. cbn [to_dec_fuel]. rewrite (proj2 (N.ltb_ge _ _) H), to_dec_fuel_acc. f_equal.
  assert (B : forall m, (m < 2 ^ N.of_nat (S (N.to_nat (N.size m))))%N).
  { intro m. rewrite Nat2N.inj_succ, N2Nat.id, N.pow_succ_r'. pose proof (N.size_gt m). lia. }
  assert (L : (n / 10 < n)%N) by (apply N.div_lt; lia).
  destruct (N.to_nat (N.size n)) as [|f] eqn:E.
  - destruct n; [lia | cbn in E; lia].
  - apply to_dec_fuel_any; [|apply B].
    pose proof (N.size_gt n) as G. rewrite <- E, N2Nat.id. lia.
Qed.

Section ToDecInd.
Local Open Scope N_scope.

(* str(n) is built digit by digit, most significant first *)
Lemma to_dec_ind (P : N -> bytes -> Prop) :
  (forall d, d < 10 -> P d [48 + d]) ->
  (forall m s d, 0 < m -> d < 10 -> P m s -> P (10 * m + d) (s ++ [48 + d])) ->
  forall n, P n (to_dec n).
Proof.
  intros H1 HS n. induction n as [n IH] using (well_founded_induction N.lt_wf_0).
  destruct (N.lt_ge_cases n 10) as [L|G].
  - rewrite to_dec_small by exact L. apply H1, L.
  - rewrite to_dec_step by exact G. rewrite (N.div_mod n 10) at 1 by discriminate.
    assert (0 < n / 10) by (apply N.div_str_pos; lia).
    apply HS; [assumption|apply N.mod_lt; discriminate|]. apply IH, N.div_lt; lia.
Qed.

Lemma to_dec_shape n : to_dec n <> [] /\ Forall (fun x => 48 <= x <= 57) (to_dec n).
Proof.
  apply (to_dec_ind (fun _ s => s <> [] /\ Forall (fun x => 48 <= x <= 57) s)).
  - intros d L. split; [discriminate|]. constructor; [lia|constructor].
  - intros m s d _ L [NE F]. split; [destruct s; discriminate|].
    apply Forall_app. split; [exact F|]. constructor; [lia|constructor].
Qed.

(* ... and read back digit by digit *)
Lemma dec_value_snoc s x : forall acc, dec_value_acc (s ++ [x]) acc = 10 * dec_value_acc s acc + (x - 48).
Proof. induction s as [|y s IH]; intro acc; cbn [app dec_value_acc]; [reflexivity|apply IH]. Qed.

Lemma dec_value_to_dec n : dec_value (to_dec n) = n.
Proof.
  apply (to_dec_ind (fun n s => dec_value s = n)); unfold dec_value.
  - intros d _. cbn [dec_value_acc]. lia.
  - intros m s d _ _ IH. rewrite dec_value_snoc, IH. lia.
Qed.

End ToDecInd.

Lemma pow10_succ k : (10 ^ N.of_nat (S k) = 10 * 10 ^ N.of_nat k)%N.
Proof. rewrite Nat2N.inj_succ. apply N.pow_succ_r'. Qed.

(* a number with k+1 decimal digits prints as k+1 characters *)
Lemma to_dec_length k : forall n, (10 ^ N.of_nat k <= n < 10 ^ N.of_nat (S k))%N -> length (to_dec n) = S k.
Proof.
  induction k as [|k IH]; intros n [Lo Hi].
  - rewrite to_dec_small; [reflexivity | exact Hi].
  - rewrite pow10_succ in Lo. rewrite 2 pow10_succ in Hi.
    assert (P : (0 < 10 ^ N.of_nat k)%N) by (apply N.neq_0_lt_0, N.pow_nonzero; discriminate).
    rewrite to_dec_step, app_length, IH; [cbn; lia | | lia].
    rewrite pow10_succ. split; [apply N.div_le_lower_bound | apply N.div_lt_upper_bound]; lia.
Qed.
