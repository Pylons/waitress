(* Proof/ChanFaultIso.v -- C13_isolation, at the level of single steps (the
   unwinding conditions of non-interference).

   Every instruction of the model that is about a connection carries that
   connection's name.  Two facts, both for ARBITRARY states (reachable or not) and
   ARBITRARY environment answers (normal, EOF, any errno):
     LOCAL   an instruction of connection c, whichever thread executes it and whatever
             the environment answers, leaves every other connection's record, every
             other thread, the listener and the trigger untouched, pushes only
             instructions of c and emits only labels of c;
     DET     what an instruction of connection c does -- blocked or not, what it pushes,
             which exception, which labels (the wire bytes among them), the record of c
             afterwards -- is a function of the record of c, the executing thread's
             locals, the configuration and the environment's answer FOR THAT CALL: it is
             the same in any two states that agree on c, however different the other
             connection (faulted, closed, half torn down, absent) is in them.
   From these, for the worker of a connection (whose stack holds only that connection's
   instructions, an invariant) the two-run statement is proved for whole steps:
   [worker_two_run].  For the I/O thread, which serves both connections in turn, the
   step-level facts are LOCAL and DET per instruction plus the facts about the three
   shared instructions of a poll turn ([poll_two_run]: the select lists agree on c). *)
From Coq Require Import List Arith ZArith Bool Lia.
From WV Require Import Lib.Conc Model.ChanFault Proof.ChanFaultSpec Proof.ChanFaultBase Proof.ChanFaultStep.
Import ListNotations.

Definition fd_chan (f : fdt) : option chan := match f with FC c => Some c | _ => None end.

(* the connection an instruction is about *)
Definition chan_of (i : instr) : option chan :=
  match i with
  | IPoll | ISelect _ _ _ | ISelWait _ _ _ | IAccept | ITrigClose | ILstClose => None
  | IDisp _ f | IDisp2 f _ _ _ _ | IRwClose f | KWasyn f | KReadwrite f => fd_chan f
  | ISetOpts c | IInitGso c | IInitSbl c | IAddChan c | IRecv c | IRecvCall c | IExptCall c | ISockCloseCall c | ISetConnF c | IRcvChk c _ | IRcvLoop c _
  | IRcvPost c _ _ | IHwChoose c | IHwNotify c | IHwTail c | IExpt c | IContPre c | IContAppend c
  | IFlushStart c _ | IFlush c _ _ | IFlushSend c _ _ _ | IHClose c | ICloseBufs c | INotifyO c | IDClose1 c
  | IDelMapTest c | IDelMapDo c | IFilenoNone c | IDelAct c _ | ISockClose c | ISockNone c
  | IAcqO c | ITryAcqO c | IRelO c | IWaitO c | IWake c _ | IAcqR c | IRelR c
  | ISvcStart c | ISvcChkWc c | IApp c | IErrTask c | IWsChk1 c | IFbh c | IFbhChk c | IFbhAfter c | IFbhLoop c | IWsChk2 c
  | IWsAppend c _ | IWsFlush c | IWsAfter c | ISvcEnd c | ISetCwf c | ISvcPop c | ISvcTail c | IPull c | IAddTask c
  | KAccTry c | KFlushExc c | KRelO c | KRelR c | KSvcTry c | KSvcTry2 c | KWorkerTop c => Some c
  end.

Definition about (c : chan) (i : instr) : bool :=
  match chan_of i with Some d => chan_eqb c d | None => false end.

(* the connection a label is about; labels about no connection: caught exceptions, the loop, the listener *)
Definition label_chan (l : label) : option chan :=
  match l with
  | LClose _ c | LActDel _ c | LHClose _ c | LBufsClosed _ c | LWCont c | LSetupFault c | LAccepted c
  | LChanAdded c | LWire c _ | LEnv c _ | LApp c _ | LWorkerDied c => Some c
  | LMapDel _ f => fd_chan f
  | LCaught _ _ | LLoopDied _ | LLoopExit | LListenerClosed | LTriggerClosed => None
  end.
Definition labels_of (c : chan) (ls : list label) : list label :=
  filter (fun l => match label_chan l with Some d => chan_eqb c d | None => false end) ls.
Definition not_about (d : chan) (ls : list label) : bool :=
  forallb (fun l => match label_chan l with Some e => negb (chan_eqb d e) | None => true end) ls.

Definition locals (th : thread_st) := (lexc th, lsent th, lcof th).
Definition srv5 (s : state) := (lst_in_map s, trg_in_map s, lst_open s, trg_open s, io_dead s).

Lemma srv5_setc : forall s c v, srv5 (setc s c v) = srv5 s.
Proof. intros. unfold srv5. destruct (srv_setc s c v) as (-> & -> & -> & -> & ->). reflexivity. Qed.
Lemma srv5_setth : forall s t v, srv5 (setth s t v) = srv5 s.
Proof. intros. unfold srv5. destruct (srv_setth s t v) as (-> & -> & -> & -> & ->). reflexivity. Qed.

Lemma neq_eqb : forall c d : chan, d <> c -> chan_eqb d c = false.
Proof. intros c d H. destruct (chan_eqb d c) eqn:E; auto. apply chan_eqb_eq in E. congruence. Qed.

(* s' differs from s at most in the record of connection c and in thread t *)
Definition only (c : chan) (t : tid) (s s' : state) : Prop :=
  (forall d, d <> c -> getc s' d = getc s d) /\ (forall u, t <> u -> getth s' u = getth s u) /\ srv5 s' = srv5 s.

Lemma only_refl : forall c t s, only c t s s.
Proof. repeat split. Qed.

Lemma only_setc : forall c t s v, only c t s (setc s c v).
Proof.
  intros c t s v. split; [|split].
  - intros d Hd. apply getc_setc_other. congruence.
  - intros u _. apply getth_setc.
  - apply srv5_setc.
Qed.

Lemma only_setth : forall c t s s' v, only c t s s' -> only c t s (setth s' t v).
Proof.
  intros c t s s' v (C & T & S). split; [|split].
  - intros d Hd. rewrite getc_setth. auto.
  - intros u Hu. rewrite getth_setth_other by auto. auto.
  - rewrite srv5_setth. exact S.
Qed.

(* what a thread does with an instruction (a frame) of connection c: it writes the record of c and its own
   locals, pushes instructions of c and emits labels of c *)
Lemma does_local : forall g t r k a s c,
  chan_of k = Some c ->
  match does g t r k a s with
  | None => True
  | Some m => only c t s (m_st m) /\ forallb (about c) (m_push m) = true /\
              forall d, d <> c -> not_about d (m_ls m) = true
  end.
Proof.
  intros g t r k a s c Hc.
  destruct r as [x|];
    [destruct (is_frame k) eqn:F; [|rewrite (does_nonframe g t x k a s F); simpl; repeat split; auto using only_refl]|];
  unfold does; destruct k; try discriminate F; try discriminate Hc; simpl in Hc;
  try match goal with f : fdt |- _ => destruct f as [| |cc]; try discriminate Hc end;
  injection Hc as ->;
  try match goal with k : evk |- _ => destruct k end;
  cbn [frame exec event chan_event hclose_fd herror hclose hclose_body flush_some write_soon send_continue send_continue_dc app];
  repeat split_innermost; auto; cbn [m_st m_push m_ls];
  (split; [auto using only_refl, only_setc, only_setth|]);
  (split; [unfold about; simpl; rewrite ?chan_eqb_refl; reflexivity|]);
  intros d Hd; unfold not_about; simpl; rewrite ?(neq_eqb c d Hd); reflexivity.
Qed.

Lemma locals_eq : forall a b, locals a = locals b -> lexc a = lexc b /\ lsent a = lsent b /\ lcof a = lcof b.
Proof. unfold locals. intros a b H. injection H as -> -> ->. auto. Qed.

(* instructions of service() / write_soon: never on the I/O thread *)
Definition wonly (i : instr) : bool :=
  match i with
  | ISvcStart _ | ISvcChkWc _ | IApp _ | IErrTask _ | IWsChk1 _ | IFbh _ | IFbhChk _ | IFbhAfter _ | IFbhLoop _ | IWsChk2 _
  | IWsAppend _ _ | IWsFlush _ | IWsAfter _ | ISvcEnd _ | ISetCwf _ | ISvcPop _ | ISvcTail _
  | KSvcTry _ | KSvcTry2 _ | KWorkerTop _ | IWaitO _ | IWake _ _ | IPull _ => true
  | _ => false
  end.
Definition ioable (i : instr) : bool := negb (wonly i).

(* [L]: the running thread's locals agreed before *)
Definition same_micro (c : chan) (t : tid) (L : Prop) (o1 o2 : option micro) : Prop :=
  match o1, o2 with
  | None, None => True
  | Some m1, Some m2 =>
      m_push m1 = m_push m2 /\ m_ls m1 = m_ls m2 /\ m_rais m1 = m_rais m2 /\
      getc (m_st m1) c = getc (m_st m2) c /\ (L -> locals (getth (m_st m1) t) = locals (getth (m_st m2) t))
  | _, _ => False
  end.

(* what a thread does with an instruction (a frame) of connection c is a function of the record of c, the
   answer, and -- for the instructions of service() / write_soon only -- the thread's locals *)
Lemma does_det : forall g t r k a s1 s2 c,
  chan_of k = Some c -> getc s1 c = getc s2 c ->
  (wonly k = true -> locals (getth s1 t) = locals (getth s2 t)) ->
  same_micro c t (locals (getth s1 t) = locals (getth s2 t)) (does g t r k a s1) (does g t r k a s2).
Proof.
  intros g t r k a s1 s2 c Hc H12 Hl.
  destruct r as [x|];
    [destruct (is_frame k) eqn:F; [|rewrite !(does_nonframe g t x k a _ F); simpl; auto]|];
  unfold does; destruct k; try discriminate F; try discriminate Hc; simpl in Hc;
  try match goal with f : fdt |- _ => destruct f as [| |cc]; try discriminate Hc end;
  injection Hc as ->;
  try (destruct (locals_eq _ _ (Hl eq_refl)) as (E1 & E2 & E3));
  unfold same_micro; cbn [frame exec fd_in_map]; rewrite ?H12; try rewrite ?E1, ?E2, ?E3;
  repeat split_innermost; auto; cbn [m_st m_push m_ls m_rais];
  repeat split; auto;
  rewrite ?getth_setth_same, ?getc_setth, ?getth_setc, ?getc_setc_same; auto;
  intro HL; destruct (locals_eq _ _ HL) as (F1 & F2 & F3); unfold locals; simpl; rewrite ?getth_setc; congruence.
Qed.

Definition wtagged (s : state) (c : chan) : Prop := forallb (about c) (stk (getth s (W c))) = true.

Lemma about_chan_of : forall c i, about c i = true -> chan_of i = Some c.
Proof. unfold about. intros c i H. destruct (chan_of i) as [d|]; [|discriminate]. apply chan_eqb_eq in H. congruence. Qed.

(* a worker's step writes only its connection, and its stack stays its connection's *)
Lemma worker_local : forall g s c a s' l,
  wtagged s c -> step g s (W c, a) = Some (s', l) -> only c (W c) s s' /\ wtagged s' c.
Proof.
  intros g s c a s' l Hw H.
  refine (worker_lift g c (about c) (fun _ => True) (fun s s1 _ => only c (W c) s s1) _ _ _ _ _ s a s' l Hw H I).
  - intros. apply only_setth. auto.
  - intro. apply only_refl.
  - intros. apply only_setc.
  - unfold about. simpl. rewrite chan_eqb_refl. reflexivity.
  - intros r k a0 s0 Hk. generalize (does_local g (W c) r k a0 s0 c (about_chan_of _ _ Hk)).
    destruct (does g (W c) r k a0 s0); tauto.
Qed.

Lemma wtagged_step : forall g s ch s' l, (forall c, wtagged s c) -> step g s ch = Some (s', l) -> forall c, wtagged s' c.
Proof.
  intros g s [t a] s' l Hw H c.
  destruct (tid_dec t (W c)) as [->|NE]; [exact (proj2 (worker_local _ _ _ _ _ _ (Hw c) H))|].
  unfold wtagged. rewrite (step_other_thread g s t a s' l (W c) H NE). apply Hw.
Qed.

Theorem wtagged_always : forall g sched c, wtagged (ChanFault.run g sched) c.
Proof.
  intros g sched. apply (inv_rule_tr g (fun s _ => forall c, wtagged s c)).
  - intros [|]; reflexivity.
  - intros s tr ch s' l Hw H. eapply wtagged_step; eauto.
Qed.

Lemma thread_eq : forall a b l r, locals a = locals b -> mkTh l r (lexc a) (lsent a) (lcof a) = mkTh l r (lexc b) (lsent b) (lcof b).
Proof. intros a b l r H. destruct (locals_eq _ _ H) as (-> & -> & ->). reflexivity. Qed.

Definition same_step (c : chan) (r1 r2 : option (state * list label)) : Prop :=
  match r1, r2 with
  | Some (s1, l1), Some (s2, l2) => getc s1 c = getc s2 c /\ getth s1 (W c) = getth s2 (W c) /\ l1 = l2
  | None, None => True
  | _, _ => False
  end.

(* Two states that agree on connection c and on c's worker -- and differ arbitrarily in the other
   connection, the I/O thread, the listener: the worker's step is the same (enabled or not, labels with the
   wire bytes, the record of c afterwards), for every answer of the environment *)
Theorem worker_two_run : forall g s1 s2 c a,
  wtagged s1 c -> getc s1 c = getc s2 c -> getth s1 (W c) = getth s2 (W c) ->
  same_step c (step g s1 (W c, a)) (step g s2 (W c, a)).
Proof.
  intros g s1 s2 c a Hw H12 Ht. unfold wtagged in Hw. unfold same_step. rewrite !step_does, <- Ht.
  assert (Hl : locals (getth s1 (W c)) = locals (getth s2 (W c))) by (rewrite Ht; reflexivity).
  assert (Hr : forallb (about c) (reached (getth s1 (W c))) = true).
  { unfold reached. destruct (raising _); [apply forallb_drop_to_frame|]; exact Hw. }
  destruct (reached (getth s1 (W c))) as [|k rest].
  - destruct (raising (getth s1 (W c))); [rewrite !getc_setth, !getth_setth_same; auto|].
    rewrite H12. destruct (queued (getc s2 c)); auto.
    rewrite !getc_setth, !getth_setth_same, !getc_setc_same. auto.
  - simpl in Hr. apply andb_true_iff in Hr.
    generalize (does_det g (W c) (raising (getth s1 (W c))) k a s1 s2 c (about_chan_of _ _ (proj1 Hr)) H12 (fun _ => Hl)).
    unfold same_micro. destruct (does g (W c) _ k a s1) as [m1|]; destruct (does g (W c) _ k a s2) as [m2|];
      try contradiction; auto.
    intros (-> & -> & -> & E & L). rewrite !getc_setth, !getth_setth_same. repeat split; auto.
    unfold set_raising. apply thread_eq. auto.
Qed.

Lemma not_about_labels : forall d ls, not_about d ls = true -> labels_of d ls = [].
Proof.
  unfold not_about, labels_of. induction ls as [|l ls IH]; simpl; intro H; auto.
  apply andb_true_iff in H. destruct H as [Hl Hr]. rewrite IH by auto.
  destruct (label_chan l); auto. apply negb_true_iff in Hl. rewrite Hl. reflexivity.
Qed.

(* the instruction (or, while unwinding, the frame) a thread executes next *)
Definition next_about (s : state) (t : tid) (c : chan) : Prop :=
  match next_instr s t with Some (i, _) => about c i = true | None => False end.

(* LOCAL for whole steps: a step that executes an instruction of connection c -- with any answer of the
   environment: a fault, EOF, anything -- changes nothing of the other connection d: not its record, not
   its worker, not the listener or the trigger; and it emits no label of d (no wire bytes of d among them) *)
Theorem step_local : forall g s t a s' l c d,
  next_about s t c -> d <> c -> t <> W d -> step g s (t, a) = Some (s', l) ->
  getc s' d = getc s d /\ getth s' (W d) = getth s (W d) /\ srv5 s' = srv5 s /\ labels_of d l = [].
Proof.
  intros g s t a s' l c d Hn Hd Ht H.
  assert (Hr : match reached (getth s t) with i :: _ => about c i = true | [] => False end).
  { unfold next_about, next_instr in Hn. unfold reached.
    destruct (raising (getth s t)); [destruct (drop_to_frame _)|destruct (stk _)]; auto. }
  destruct (step_micro _ _ _ _ _ _ H) as [x _ E|c' _ R S _|k rest m E D];
    try (unfold reached in Hr; rewrite R, S in Hr); try rewrite E in Hr; try (exact (match Hr with end)).
  generalize (does_local g t (raising (getth s t)) k a s c (about_chan_of _ _ Hr)). rewrite D. intros (O & _ & N).
  destruct (only_setth _ _ _ _ (set_raising (getth (m_st m) t) (m_push m ++ rest) (m_rais m)) O) as (C & T & S).
  repeat split; auto using not_about_labels.
Qed.

(* DET for whole steps of the I/O thread: two states whose I/O threads are about to execute the same
   instruction of connection c and that agree on c *)
Theorem io_two_run : forall g s1 s2 c a i r1 r2,
  raising (getth s1 IO) = None -> raising (getth s2 IO) = None ->
  stk (getth s1 IO) = i :: r1 -> stk (getth s2 IO) = i :: r2 -> about c i = true ->
  getc s1 c = getc s2 c -> locals (getth s1 IO) = locals (getth s2 IO) ->
  match step g s1 (IO, a), step g s2 (IO, a) with
  | Some (s1', l1), Some (s2', l2) =>
      getc s1' c = getc s2' c /\ l1 = l2 /\ raising (getth s1' IO) = raising (getth s2' IO) /\
      locals (getth s1' IO) = locals (getth s2' IO) /\
      exists push, stk (getth s1' IO) = push ++ r1 /\ stk (getth s2' IO) = push ++ r2
  | None, None => True
  | _, _ => False
  end.
Proof.
  intros g s1 s2 c a i r1 r2 R1 R2 S1 S2 Hi H12 Hl. rewrite !step_does. unfold reached. rewrite R1, R2, S1, S2.
  generalize (does_det g IO None i a s1 s2 c (about_chan_of _ _ Hi) H12 (fun _ => Hl)).
  unfold same_micro. destruct (does g IO None i a s1) as [m1|]; destruct (does g IO None i a s2) as [m2|];
    try contradiction; auto.
  intros (-> & -> & -> & E & L). rewrite !getc_setth, !getth_setth_same. simpl. repeat split; auto.
  exists (m_push m2). split; reflexivity.
Qed.

(* the shared instructions of a poll turn: whether connection c is asked about in select's lists depends on c only *)
Transparent asked_r asked_w getc.
Theorem poll_two_run : forall g s1 s2 c, getc s1 c = getc s2 c ->
  mem_fd (FC c) (asked_r g s1) = mem_fd (FC c) (asked_r g s2) /\
  mem_fd (FC c) (asked_w s1) = mem_fd (FC c) (asked_w s2).
Proof.
  intros g s1 s2 c H. unfold asked_r, asked_w, mem_fd. rewrite !existsb_app.
  destruct c; simpl in H; rewrite H; split;
  repeat match goal with |- context [if ?b then _ else _] => destruct b end; reflexivity.
Qed.
Opaque asked_r asked_w getc.
