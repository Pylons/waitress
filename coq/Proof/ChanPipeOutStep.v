(* Proof/ChanPipeOutStep.v -- layer L3 is preserved by every step. *)
From Coq Require Import List Arith Bool ZArith Lia.
From WV Require Import Model.ChanPipe Proof.ChanPipeBase Proof.ChanPipeOwn Proof.ChanPipeLog Proof.ChanPipeOut.
Import ListNotations.

Lemma in_task_serving : forall pc, in_task pc = true -> serving pc = true.
Proof. destruct pc; simpl; congruence. Qed.
Lemma wk_ol_task_or_sc : forall pc, wk_ol pc = true -> in_task pc = true \/ is_sc pc = true.
Proof. destruct pc; simpl; auto; discriminate. Qed.
Lemma appended_task : forall pc, appended pc = true -> in_task pc = true.
Proof. destruct pc; simpl; congruence. Qed.

Section Step.
Variable P : params.
(* the code as it is: handle_write never flushes without outbuf_lock *)
Hypothesis Hunl : p_unlocked P = false.

(* The frames allow what is harmless: connected may drop; the request list may change where no
   clause reads it; a worker that is not inside task.service() may change its locals; a thread
   may ENTER _flush_some (fl0) when nothing is in flight. *)
Lemma Bf_frame : forall st st',
  obs (sh st') = obs (sh st) -> infl (sh st') = infl (sh st) -> wire (sh st') = wire (sh st) ->
  produced (sh st') = produced (sh st) -> discarded (sh st') = discarded (sh st) -> cut (sh st') = cut (sh st) ->
  (forall f, io_fl (ipc (io st')) = Some f -> io_fl (ipc (io st)) = Some f \/ (f = fl0 /\ infl (sh st) = 0)) ->
  (io_fl (ipc (io st')) = None -> io_fl (ipc (io st)) = None) ->
  io_unl (ipc (io st')) = false ->
  (io_closed (ipc (io st)) = true -> io_closed (ipc (io st')) = true) ->
  (forall j, (forall f, wk_fl (wpc (wk st' j)) = Some f -> wk_fl (wpc (wk st j)) = Some f \/ (f = fl0 /\ infl (sh st) = 0)) /\
             (wk_fl (wpc (wk st' j)) = None -> wk_fl (wpc (wk st j)) = None)) ->
  Bf st -> Bf st'.
Proof.
  intros st st' H1 H2 H3 H4 H5 H7 I1 I1' I2 I4 Hw [A B E F G H C N].
  assert (FE : forall f, FlInv (sh st) f -> FlInv (sh st') f) by (intros f X; unfold FlInv in *; rewrite H1, H2; exact X).
  assert (F0 : infl (sh st) = 0 -> FlInv (sh st') fl0) by (intro X; apply FlInv_fl0; congruence).
  split; unfold transport, tr_l, kept in *; rewrite ?H3, ?H4, ?H5, ?H7; intros.
  - rewrite H1; assumption.
  - assumption.
  - destruct (I1 f H0) as [X|[X Y]]; [auto | subst f; auto].
  - destruct (Hw j) as (X & _). destruct (X f H0) as [Y|[Y Z]]; [eauto | subst f; auto].
  - rewrite H2. apply G; auto. intro j. destruct (Hw j) as (_ & X). auto.
  - rewrite H1, H2. assumption.
  - assumption.
  - auto.
Qed.

Lemma Un_frame : forall st st',
  produced (sh st') = produced (sh st) -> units (sh st') = units (sh st) -> execs (sh st') = execs (sh st) ->
  ((requests (sh st) = [] -> requests (sh st') = []) \/ is_iosc (ipc (io st')) = false) ->
  (is_iosc (ipc (io st')) = true -> is_iosc (ipc (io st)) = true \/ requests (sh st') = []) ->
  (connected (sh st') = true -> connected (sh st) = true) ->
  (forall j, (is_relx (wpc (wk st' j)) = true -> is_relx (wpc (wk st j)) = true \/ connected (sh st') = false) /\
             (in_task (wpc (wk st' j)) = in_task (wpc (wk st j)) \/
              (in_task (wpc (wk st' j)) = false /\ connected (sh st) = false)) /\
             (in_task (wpc (wk st' j)) = true ->
              off_now P (wk st' j) = off_now P (wk st j) /\ w_cur (wk st' j) = w_cur (wk st j) /\
              w_idx (wk st' j) = w_idx (wk st j) /\ w_off (wk st' j) = w_off (wk st j))) ->
  Un P st -> Un P st'.
Proof.
  intros st st' H4 H6 H7 H8 I3 H9 Hw [D I J K L M].
  split; rewrite ?H4, ?H6, ?H7; intros; auto.
  - destruct (I3 H) as [X|X]; auto. destruct H8 as [H8|H8]; [apply H8; auto | congruence].
  - destruct (Hw j) as (_ & T & U). destruct T as [T|[T _]]; [|congruence].
    rewrite T in H. destruct (U ltac:(congruence)) as (U1 & U2 & U3 & U4).
    destruct (K j H) as (K1 & K2 & us & K3 & K4).
    unfold writes in *. rewrite U1, U2, U3, U4. repeat split; auto. exists us. split; auto.
  - destruct (connected (sh st)) eqn:Ec; [|specialize (H9 H0); discriminate].
    apply L; auto. intro j. destruct (Hw j) as (_ & T & _). destruct T as [T|[_ T]]; [|congruence].
    rewrite <- T. auto.
  - destruct (Hw j) as (X & _). destruct (connected (sh st')) eqn:Ec; auto.
    destruct (X H) as [Y|Y]; [|congruence]. rewrite (M j Y) in H9. specialize (H9 eq_refl). discriminate.
Qed.

Lemma nofl_io_ol : forall st, L0 st -> io_ol (ipc (io st)) = true -> forall j, wk_fl (wpc (wk st j)) = None.
Proof.
  intros st HL0 Hio j. destruct (wk_fl (wpc (wk st j))) eqn:E; auto.
  apply wk_fl_ol in E. discriminate (lock_ok_excl _ _ _ _ TIo (TW j) (l0_o _ HL0) Hio E).
Qed.

Lemma nofl_olock_free : forall st, L0 st -> olock (sh st) = None -> forall j, wk_fl (wpc (wk st j)) = None.
Proof.
  intros st HL0 Hf j. destruct (wk_fl (wpc (wk st j))) eqn:E; auto.
  apply wk_fl_ol in E. apply (proj2 (proj2 (l0_o _ HL0) j)) in E. congruence.
Qed.

Lemma notask_req_empty : forall st, L1 st -> requests (sh st) = [] -> forall j, in_task (wpc (wk st j)) = false.
Proof.
  intros st HL1 Hr j. destruct (in_task (wpc (wk st j))) eqn:E; auto.
  apply in_task_serving in E. exfalso.
  apply (l1_ownreq _ HL1 j (serving_owner _ E) (serving_not_postpop _ E)). exact Hr.
Qed.

Lemma wk_ol_excl : forall st me, L0 st -> Bf st -> wk_ol (wpc (wk st me)) = true ->
  io_fl (ipc (io st)) = None /\ forall j, j <> me -> wk_fl (wpc (wk st j)) = None.
Proof.
  intros st me HL0 HL3 Hme. split.
  - destruct (io_fl (ipc (io st))) eqn:E; auto. apply io_fl_touch in E. destruct E as [E|E].
    + discriminate (lock_ok_excl _ _ _ _ TIo (TW me) (l0_o _ HL0) E Hme).
    + rewrite (o_unl _ HL3) in E. discriminate.
  - intros j Hj. destruct (wk_fl (wpc (wk st j))) eqn:E; auto. apply wk_fl_ol in E.
    exfalso. apply Hj. injection (lock_ok_excl _ _ _ _ (TW j) (TW me) (l0_o _ HL0) E Hme). auto.
Qed.

Lemma owner_others_notask : forall st me, L1 st -> wk_owner (wpc (wk st me)) = true ->
  forall j, j <> me -> in_task (wpc (wk st j)) = false.
Proof.
  intros st me HL1 Ho j Hj. destruct (in_task (wpc (wk st j))) eqn:E; auto.
  apply in_task_serving in E. rewrite (others_not_serving st me HL1 Ho j Hj) in E. discriminate.
Qed.

Lemma kept_app : forall c (d p x : list tok), c + length d <= length p ->
  firstn c (p ++ x) ++ skipn (c + length d) (p ++ x) = (firstn c p ++ skipn (c + length d) p) ++ x.
Proof.
  intros c d p x H. rewrite firstn_app. replace (c - length p) with 0 by lia. simpl. rewrite app_nil_r.
  rewrite skipn_app_le by lia. rewrite app_assoc. reflexivity.
Qed.

Lemma disc_app : forall c (d p x : list tok), c + length d <= length p ->
  firstn (length d) (skipn c (p ++ x)) = firstn (length d) (skipn c p).
Proof.
  intros c d p x H. rewrite skipn_app_le by lia. rewrite firstn_app.
  rewrite skipn_length. replace (length d - (length p - c)) with 0 by lia. simpl. rewrite app_nil_r. reflexivity.
Qed.

Lemma transport_append : forall s s' x,
  transport s -> cut s + length (discarded s) <= length (produced s) -> infl s = 0 ->
  obs s' = app_last (obs s) x -> produced s' = produced s ++ x ->
  infl s' = infl s -> wire s' = wire s -> discarded s' = discarded s -> cut s' = cut s ->
  transport s' /\ cut s' + length (discarded s') <= length (produced s').
Proof.
  intros s s' x [T1 T2] Hc Hi E1 E2 E3 E4 E5 E6.
  unfold transport, tr_l, kept in *. rewrite E1, E2, E3, E4, E5, E6. rewrite Hi in *. cbn [skipn] in *.
  repeat split.
  - rewrite concat_app_last. rewrite kept_app by auto. rewrite <- T1. rewrite app_assoc. reflexivity.
  - rewrite disc_app by auto. exact T2.
  - rewrite app_length. lia.
Qed.

Ltac side := cbn; first [ reflexivity | assumption | discriminate | auto; fail
                        | let X := fresh in intro X; first [ discriminate X | exact X ] ].

(* the fields L3 reads, of a state the model has updated *)
Ltac sh_proj :=
  cbn [sh io wk obs infl wire produced discarded units execs cut requests connected
       set_prod set_execs set_obs set_cnt set_olock set_cut set_discarded].

(* one step of _flush_some by the thread whose flush state is f; afterwards the only flush state
   around is the new one, if the flush goes on *)
Lemma Bf_fl : forall s i w f e s' r l i' w',
  Bf {| sh := s; io := i; wk := w |} -> FlInv s f -> fl_step s f e = Some (s', r, l) ->
  io_unl (ipc i') = false -> (io_closed (ipc i) = true -> io_closed (ipc i') = true) ->
  (forall f', io_fl (ipc i') = Some f' -> r = FCont f') ->
  (forall j f', wk_fl (wpc (w' j)) = Some f' -> r = FCont f') ->
  (forall f', r = FCont f' -> io_fl (ipc i') = Some f' \/ exists j, wk_fl (wpc (w' j)) = Some f') ->
  Bf {| sh := s'; io := i'; wk := w' |}.
Proof.
  intros s i w f e s' r l i' w' [A B E F G [T1 T2] C N] Hf Hs Hu Hcl Hio Hwk Hon. cbn [sh io wk] in *.
  destruct (fl_step_ok s f e s' r l Hs A Hf) as (Hne & HT & (S1 & S2 & S7) & HI).
  split; cbn [sh io wk]; unfold transport, kept in *; rewrite ?HT, ?S1, ?S2, ?S7; intros; eauto 3.
  - rewrite (Hio f0 H) in HI. exact HI.
  - rewrite (Hwk j f0 H) in HI. exact HI.
  - destruct r as [f'| |]; [|exact HI|contradiction].
    destruct (Hon f' eq_refl) as [X|[j X]]; [congruence | rewrite H0 in X; discriminate].
Qed.

(* x is appended to the last buffer and to produced; nothing is in flight *)
Lemma Bf_append : forall s i w i' w' x u c,
  Bf {| sh := s; io := i; wk := w |} -> infl s = 0 ->
  (forall j, wk_fl (wpc (w' j)) = None) -> io_fl (ipc i') = None -> io_unl (ipc i') = false ->
  (io_closed (ipc i) = true -> io_closed (ipc i') = true) ->
  Bf {| sh := set_cnt (set_prod (set_obs s (app_last (obs s) x)) (produced s ++ x) u) c; io := i'; wk := w' |}.
Proof.
  intros s i w i' w' x u c [A B E F G H C N] Hinfl Hnf Hfl' Hun' Hcl. cbn [sh io wk] in *.
  destruct (transport_append s (set_prod (set_obs s (app_last (obs s) x)) (produced s ++ x) u) x H C Hinfl)
    as [HT HC]; try reflexivity.
  split; sh_proj; auto; intros; try congruence.
  apply app_last_nonnil.
Qed.

(* handle_close empties the buffers *)
Lemma Bf_close : forall s i w i',
  L0 {| sh := s; io := i; wk := w |} -> Bf {| sh := s; io := i; wk := w |} ->
  io_ol (ipc i) = true -> io_fl (ipc i) = None -> io_closed (ipc i) = false ->
  io_fl (ipc i') = None -> io_unl (ipc i') = false -> io_closed (ipc i') = true ->
  Bf {| sh := set_cut (set_discarded (set_obs s (map (fun _ => []) (obs s)))
                                      (skipn (infl s) (concat (obs s)) ++ discarded s)) (length (wire s));
        io := i'; wk := w |}.
Proof.
  intros s i w i' HL0 HB Hol Hfl Hncl Hfl' Hun' Hcl'.
  pose proof (nofl_io_ol _ HL0 Hol) as Hnf. cbn [sh io wk] in *.
  assert (Hinfl : infl s = 0) by (apply (o_infl _ HB); auto).
  assert (Hdisc : discarded s = []).
  { destruct (discarded s) eqn:E; auto. assert (X : discarded s <> []) by (rewrite E; discriminate).
    apply (o_disc _ HB) in X. cbn [sh io wk] in X. congruence. }
  destruct HB as [A B E F G H C N]. cbn [sh io wk] in *.
  destruct H as [T1 T2]. unfold tr_l, kept in T1. rewrite Hinfl, Hdisc in *. cbn [skipn length] in *.
  rewrite Nat.add_0_r in T1. rewrite firstn_skipn in T1.
  split; unfold transport, tr_l, kept; sh_proj;
    rewrite ?Hinfl, ?Hdisc; cbn [skipn]; rewrite ?app_nil_r; intros; eauto 3.
  all: try congruence.
  all: try (rewrite Hnf in *; discriminate).
  - destruct (obs s); simpl; congruence.
  - rewrite concat_map_nil. cbn [skipn]. rewrite app_nil_r. rewrite <- T1.
    rewrite firstn_app, Nat.sub_diag, firstn_all. cbn [firstn]. rewrite app_nil_r.
    rewrite <- app_length, skipn_all, app_nil_r.
    split; [reflexivity|]. rewrite skipn_app, Nat.sub_diag, skipn_all. cbn [skipn app]. rewrite firstn_all. reflexivity.
  - rewrite <- T1. rewrite app_length. lia.
Qed.

(* write_soon rotates to a new buffer *)
Lemma Bf_rot : forall s i w me x,
  L0 {| sh := s; io := i; wk := w |} -> Bf {| sh := s; io := i; wk := w |} ->
  wk_ol (wpc (w me)) = true -> wk_fl (wpc (w me)) = None -> wk_fl (wpc x) = None ->
  Bf {| sh := set_cnt (set_obs s (obs s ++ [[]])) CZero; io := i; wk := upd w me x |}.
Proof.
  intros s i w me x HL0 HB Hol Hfme X4.
  destruct (wk_ol_excl _ me HL0 HB Hol) as [Hio Hoth]. cbn [sh io wk] in *.
  assert (Hnf : forall j, wk_fl (wpc (upd w me x j)) = None).
  { intro j. unfold upd. destruct (Nat.eqb_spec j me); auto. }
  destruct HB as [A B E F G H C N]. cbn [sh io wk] in *.
  split; unfold transport, tr_l, kept in *; sh_proj; intros; eauto 3; try (rewrite Hnf in *; discriminate).
  all: try congruence.
  - destruct (obs s); simpl; discriminate.
  - apply G; auto. intro j. destruct (Nat.eq_dec j me) as [->|X]; auto.
  - rewrite concat_snoc_nil. assumption.
Qed.

Lemma list_sum_firstn_S : forall (l : list nat) i, i < length l ->
  list_sum (firstn (S i) l) = list_sum (firstn i l) + nth i l 0.
Proof.
  induction l as [|a r IH]; intros i Hi; simpl in *; [lia|].
  destruct i; simpl.
  - lia.
  - rewrite (IH i) by lia. lia.
Qed.

(* send_continue appends an interim response: no request is queued, so nobody is inside a task *)
Lemma Un_cont : forall s i w i' w' id o c,
  L1 {| sh := s; io := i; wk := w |} -> Un P {| sh := s; io := i; wk := w |} -> requests s = [] ->
  (forall j, in_task (wpc (w' j)) = in_task (wpc (w j))) ->
  (forall j, is_relx (wpc (w' j)) = true -> is_relx (wpc (w j)) = true) ->
  Un P {| sh := set_cnt (set_prod (set_obs s o) (produced s ++ cont_toks P id) (units s ++ [UCont id])) c;
          io := i'; wk := w' |}.
Proof.
  intros s i w i' w' id o c HL1 [D I J K L M] Hreq Htk Hrx.
  pose proof (notask_req_empty _ HL1 Hreq) as Hnt. cbn [sh io wk] in *.
  split; sh_proj; intros; eauto 3.
  - rewrite flat_map_app. cbn. rewrite app_nil_r. congruence.
  - rewrite resp_ids_app. cbn. rewrite app_nil_r. assumption.
  - rewrite Htk, Hnt in H. discriminate.
  - apply Forall_app. split; auto. constructor; simpl; auto.
Qed.

(* the application is called: a new response unit *)
Lemma Un_exec : forall s i w me wr,
  L1 {| sh := s; io := i; wk := w |} -> Un P {| sh := s; io := i; wk := w |} ->
  w me = wr -> forall x, wpc wr = WSvWc ->
  w_cur x = w_cur wr -> w_idx x = 0 -> w_off x = 0 -> is_relx (wpc x) = false -> appended (wpc x) = false ->
  (in_task (wpc x) = true -> 0 < length (r_writes (desc P (w_cur wr)))) ->
  (in_task (wpc x) = false -> length (r_writes (desc P (w_cur wr))) = 0) ->
  Un P {| sh := set_prod (set_execs s (execs s ++ [w_cur wr])) (produced s) (units s ++ [UResp (w_cur wr) 0]);
          io := i; wk := upd w me x |}.
Proof.
  intros s i w me wr HL1 HU <- x Hpc X1 X2 X3 X6 X8 X9 X10.
  assert (Hown : wk_owner (wpc (w me)) = true) by (rewrite Hpc; reflexivity).
  pose proof (owner_others_notask _ me HL1 Hown) as Hoth. cbn [sh io wk] in *.
  assert (Hnt : forall j, in_task (wpc (w j)) = false).
  { intro j. destruct (Nat.eq_dec j me) as [->|N]; auto. rewrite Hpc. reflexivity. }
  destruct HU as [D I J K L M]. cbn [sh io wk] in *.
  pose proof (L Hnt) as Hall.
  split; sh_proj; intros; eauto 3.
  - rewrite flat_map_app. cbn. unfold resp_toks. cbn. rewrite app_nil_r. assumption.
  - rewrite resp_ids_app. cbn. congruence.
  - upd_cases j me.
    + unfold writes, off_now. rewrite X8, X1, X2, X3. cbn. repeat split; auto. exists (units s). split; auto.
    + rewrite Hnt in H. discriminate.
  - apply Forall_app. split; auto. constructor; auto. simpl.
    specialize (H me). rewrite upd_same in H. specialize (X10 H).
    unfold resp_len. destruct (r_writes (desc P (w_cur (w me)))); simpl in *; [reflexivity|discriminate].
  - upd_cases j me; [congruence | eauto].
Qed.

(* write_soon appends the data of the current call *)
Lemma Un_app : forall s i w me wr,
  L1 {| sh := s; io := i; wk := w |} -> Un P {| sh := s; io := i; wk := w |} ->
  w me = wr -> forall x o c, wpc wr = WWsApp ->
  w_cur x = w_cur wr -> w_idx x = w_idx wr -> w_off x = w_off wr -> is_relx (wpc x) = false ->
  appended (wpc x) = true -> in_task (wpc x) = true ->
  Un P {| sh := set_cnt (set_prod (set_obs s o) (produced s ++ resp_toks (w_cur wr) (w_off wr) (wsize P wr))
                                  (bump (w_cur wr) (wsize P wr) (units s))) c;
          io := i; wk := upd w me x |}.
Proof.
  intros s i w me wr HL1 HU <- x o c Hpc X1 X2 X3 X6 X8 X9.
  assert (Htme : in_task (wpc (w me)) = true) by (rewrite Hpc; reflexivity).
  assert (Hame : appended (wpc (w me)) = false) by (rewrite Hpc; reflexivity).
  assert (Hown : wk_owner (wpc (w me)) = true) by (rewrite Hpc; reflexivity).
  pose proof (owner_others_notask _ me HL1 Hown) as Hont. cbn [sh io wk] in *.
  destruct HU as [D I J K L M]. cbn [sh io wk] in *.
  destruct (K me Htme) as (K1 & K2 & us & K3 & K4).
  unfold off_now in K3. rewrite Hame in K3.
  assert (Hbump : bump (w_cur (w me)) (wsize P (w me)) (units s) = us ++ [UResp (w_cur (w me)) (w_off (w me) + wsize P (w me))]).
  { rewrite K3. apply bump_last. }
  assert (Hoffx : off_now P x = w_off (w me) + wsize P (w me)).
  { unfold off_now, wsize. rewrite X8, X1, X2, X3. reflexivity. }
  split; sh_proj; intros; eauto 3.
  - rewrite Hbump. rewrite I, K3. rewrite !flat_map_app. cbn. rewrite !app_nil_r.
    rewrite resp_toks_app. rewrite app_assoc. reflexivity.
  - rewrite Hbump. rewrite <- J, K3. rewrite !resp_ids_app. reflexivity.
  - rewrite Hbump. upd_cases j me.
    + unfold writes in *. rewrite Hoffx, X1, X2, X3. repeat split; auto. exists us. split; auto.
    + rewrite Hont in H by auto. discriminate.
  - specialize (H me). rewrite upd_same in H. congruence.
  - upd_cases j me; [congruence | eauto].
Qed.

(* write_soon returns: the next call, or the end of the task *)
Lemma Un_rel : forall s i w me wr,
  L1 {| sh := s; io := i; wk := w |} -> Un P {| sh := s; io := i; wk := w |} ->
  w me = wr -> forall x, wpc wr = WWsRel ->
  w_cur x = w_cur wr -> w_idx x = S (w_idx wr) -> w_off x = w_off wr + wsize P wr ->
  is_relx (wpc x) = false -> appended (wpc x) = false ->
  (in_task (wpc x) = true -> S (w_idx wr) < length (writes P wr)) ->
  (in_task (wpc x) = false -> length (writes P wr) <= S (w_idx wr)) ->
  Un P {| sh := set_olock s None; io := i; wk := upd w me x |}.
Proof.
  intros s i w me wr HL1 HU <- x Hpc X1 X2 X3 X6 X8 X9 X10.
  assert (Htme : in_task (wpc (w me)) = true) by (rewrite Hpc; reflexivity).
  assert (Hame : appended (wpc (w me)) = true) by (rewrite Hpc; reflexivity).
  assert (Hown : wk_owner (wpc (w me)) = true) by (rewrite Hpc; reflexivity).
  pose proof (owner_others_notask _ me HL1 Hown) as Hont. cbn [sh io wk] in *.
  destruct HU as [D I J K L M]. cbn [sh io wk] in *.
  destruct (K me Htme) as (K1 & K2 & us & K3 & K4).
  unfold off_now in K3. rewrite Hame in K3.
  assert (Hsum : w_off (w me) + wsize P (w me) = list_sum (firstn (S (w_idx (w me))) (writes P (w me)))).
  { rewrite list_sum_firstn_S by auto. unfold wsize, writes in *. rewrite K2. reflexivity. }
  split; sh_proj; intros; eauto 3.
  - upd_cases j me.
    + specialize (X9 H). unfold writes, off_now in *. rewrite X8, X1, X2, X3. repeat split; auto.
      exists us. split; auto.
    + rewrite Hont in H by auto. discriminate.
  - (* o_done: the response just finished is complete *)
    specialize (H me) as Hx. rewrite upd_same in Hx. specialize (X10 Hx).
    rewrite K3. apply Forall_app. split; auto. constructor; auto. simpl.
    rewrite Hsum. unfold resp_len, writes in *. rewrite firstn_all2 by lia. reflexivity.
  - upd_cases j me; [congruence | eauto].
Qed.

Ltac frame_side :=
  cbn; first [ reflexivity
             | assumption
             | left; let X := fresh in intro X; rewrite X; reflexivity
             | left; intro; reflexivity
             | right; reflexivity
             | let X := fresh in intro X; exact X
             | let X := fresh in intro X; discriminate X
             | let X := fresh in intro X; left; exact X
             | let X := fresh in intro X; right; assumption
             | let f := fresh in let X := fresh in intros f X; left; exact X
             | let f := fresh in let X := fresh in intros f X; right; split; [ congruence | assumption ] ].

Ltac wk_side :=
  cbn; repeat split; intros; repeat split;
  first [ reflexivity | assumption | congruence
        | left; reflexivity | left; assumption
        | right; split; [ congruence | assumption ]
        | right; assumption ].

(* the frames with their side conditions computed; [wk] deals with the clause about the workers *)
Ltac bf HB wk :=
  apply (Bf_frame _ _) with (12 := HB);
  [ frame_side | frame_side | frame_side | frame_side | frame_side | frame_side | frame_side | frame_side
  | frame_side | frame_side | cbn; wk ].
Ltac un HU wk :=
  apply (Un_frame _ _) with (8 := HU);
  [ frame_side | frame_side | frame_side | frame_side | frame_side | frame_side | cbn; wk ].
Ltac any_wk := intro; wk_side.
Ltac at_me me Hw :=
  let j := fresh "j" in intro j; unfold upd; destruct (Nat.eqb_spec j me); [ subst j; rewrite Hw; wk_side | wk_side ].

(* one of the lemmas about a step inside task.service(), its premises by computation *)
Ltac wk_case L HL1 HU Hw :=
  eapply (L _ _ _ _ _ HL1 HU Hw);
  unfold writes, wsize; cbn; intros;
  first [ reflexivity | assumption | discriminate | apply Nat.ltb_lt; assumption
        | match goal with E : (_ <? _) = false |- _ => apply Nat.ltb_ge in E; lia end ].

Ltac fl_io Fa HB :=
  match goal with
  | E : fl_step ?s ?f ?e = Some (?s', ?r, ?l) |- Bf {| sh := ?s'; io := ?i'; wk := ?w |} =>
      eapply (Bf_fl _ _ _ f e s' r l i' w HB (o_fio _ HB f eq_refl) E); cbn;
      [ reflexivity | side | intros; congruence | intros j f' X; rewrite Fa in X; [discriminate | reflexivity]
      | intros f' X; left; congruence ]
  end.
Ltac fl_wk me Hw Hexcl HB :=
  match goal with
  | E : fl_step ?s ?f ?e = Some (?s', ?r, ?l) |- Bf {| sh := ?s'; io := ?i; wk := upd ?w me ?x |} =>
      destruct (Hexcl eq_refl) as [X1 X2];
      eapply (Bf_fl _ _ _ f e s' r l i (upd w me x) HB (o_fwk _ HB me f ltac:(cbn; rewrite Hw; reflexivity)) E); cbn;
      [ exact (o_unl _ HB) | auto | intros f' X; cbn in X1; congruence
      | intros j f'; unfold upd; destruct (Nat.eqb_spec j me); [cbn; intros; congruence | rewrite X2 by assumption; discriminate]
      | intros f' X; right; exists me; rewrite upd_same; cbn; congruence ]
  end.

Theorem L3_step : forall st c st' l, L0 st -> L1 st -> L3' P st ->
  step P st c = Some (st', l) -> L3' P st'.
Proof.
  intros st c st' l HL0 HL1 [HB HU] Hs.
  destruct c as [e | me e].
  - pose proof (nofl_io_ol st HL0) as Fa.
    pose proof (nofl_olock_free st HL0) as Fc.
    pose proof (o_infl _ HB) as Hinf0.
    pose proof (o_unl _ HB) as Hnu.
    pose proof (o_iosc _ _ HU) as Hreq0.
    step_io Hs; cbn [sh io wk ipc] in *.
    all: try congruence.
    (* IoRcChk: `not self.requests` does not hold of a non-empty list *)
    all: try match goal with E : (false && _)%bool = true |- _ => discriminate E end.
    (* IoHwFlU: the unlocked flush does not exist in the code as it is *)
    all: cbn in Hnu; try discriminate Hnu.
    (* every other program point but the ten below touches nothing L3 reads *)
    all: try solve [split; [bf HB any_wk | un HU any_wk]].
    all: try solve [destruct icomp; split; [bf HB any_wk | un HU any_wk]].
    + (* IoRcSc ScApp: send_continue appends the interim response *)
      split; [eapply (Bf_append _ _ _ _ _ _ _ _ HB); side | eapply (Un_cont _ _ _ _ _ _ _ _ HL1 HU); auto].
    + (* IoRcSc ScTotW: enters _flush_some; it holds the lock, so nothing is in flight *)
      assert (Hinfl : infl s = 0) by (apply Hinf0; [reflexivity | apply Fa; reflexivity]).
      split; [bf HB any_wk | un HU any_wk].
    + (* IoRcSc (ScFl f): the flush goes on *) split; [fl_io Fa HB | fl_out; un HU any_wk].
    + (* ... is done *) split; [fl_io Fa HB | fl_out; un HU any_wk].
    + (* ... raised *) split; [fl_io Fa HB | fl_out; un HU any_wk].
    + (* IoHwTry: enters _flush_some; the lock was free, so nothing is in flight *)
      assert (Hinfl : infl s = 0) by (apply Hinf0; [reflexivity | apply Fc; apply free_none; assumption]).
      split; [bf HB any_wk | un HU any_wk].
    + (* IoHwFlL f: the flush goes on *) split; [fl_io Fa HB | fl_out; un HU any_wk].
    + (* ... is done *) split; [fl_io Fa HB | fl_out; un HU any_wk].
    + (* ... raised *) split; [fl_io Fa HB | fl_out; un HU any_wk].
    + (* IoHc HcBufs: handle_close empties the buffers *)
      split; [eapply (Bf_close _ _ _ _ HL0 HB); side | un HU any_wk].
  - pose proof (o_relx _ _ HU me) as Hrelx.
    pose proof (o_unl _ HB) as Hnu.
    pose proof (wk_ol_excl st me HL0 HB) as Hexcl.
    pose proof (o_infl _ HB) as Hinf0.
    pose proof (l1_sc _ HL1 me) as Hsc0.
    step_wk Hs; cbn [sh io wk ipc] in *.
    all: cbn in Hrelx, Hexcl, Hsc0, Hnu.
    (* every program point but the nineteen below touches nothing L3 reads *)
    all: try solve [split; [bf HB ltac:(at_me me Hw) | un HU ltac:(at_me me Hw)]].
    (* in the cases where the worker holds outbuf_lock outside _flush_some: nothing is in flight *)
    all: try (destruct (Hexcl eq_refl) as [X1 X2];
              match goal with |- L3' _ {| sh := ?s0; io := _; wk := _ |} =>
                assert (Hinfl : infl s0 = 0) by
                  (cbn; apply Hinf0; [exact X1|]; let j := fresh "j" in intro j;
                   destruct (Nat.eq_dec j me) as [->|N]; [rewrite Hw; reflexivity | apply X2; exact N]) end;
              cbn in Hinfl).
    + (* WSvWc: the application is called; the task has writes *)
      split; [bf HB ltac:(at_me me Hw) | wk_case Un_exec HL1 HU Hw].
    + (* ... none, and closes *) split; [bf HB ltac:(at_me me Hw) | wk_case Un_exec HL1 HU Hw].
    + (* ... none, and keeps *) split; [bf HB ltac:(at_me me Hw) | wk_case Un_exec HL1 HU Hw].
    + (* WWsRelX: the connection has gone *)
      assert (Hcf : connected s = false) by (apply Hrelx; reflexivity).
      split; [bf HB ltac:(at_me me Hw) | un HU ltac:(at_me me Hw)].
    + (* WWsRot *) split; [eapply (Bf_rot _ _ _ me _ HL0 HB); rewrite ?Hw; reflexivity | un HU ltac:(at_me me Hw)].
    + (* WWsApp *)
      split; [eapply (Bf_append _ _ _ _ _ _ _ _ HB); auto; intro j; unfold upd;
                destruct (Nat.eqb_spec j me); [reflexivity | apply X2; assumption]
             | wk_case Un_app HL1 HU Hw].
    + (* WWsChk: enters _flush_some *) split; [bf HB ltac:(at_me me Hw) | un HU ltac:(at_me me Hw)].
    + (* WWsFl f: the flush goes on *) split; [fl_wk me Hw Hexcl HB | fl_out; un HU ltac:(at_me me Hw)].
    + (* ... is done, something was sent *) split; [fl_wk me Hw Hexcl HB | fl_out; un HU ltac:(at_me me Hw)].
    + (* ... is done, nothing was sent *) split; [fl_wk me Hw Hexcl HB | fl_out; un HU ltac:(at_me me Hw)].
    + (* ... raised *) split; [fl_wk me Hw Hexcl HB | fl_out; un HU ltac:(at_me me Hw)].
    + (* WWsRel: write_soon returns; another write follows *)
      split; [bf HB ltac:(at_me me Hw) | wk_case Un_rel HL1 HU Hw].
    + (* ... the last one, close branch *) split; [bf HB ltac:(at_me me Hw) | wk_case Un_rel HL1 HU Hw].
    + (* ... the last one, keep branch *) split; [bf HB ltac:(at_me me Hw) | wk_case Un_rel HL1 HU Hw].
    + (* WKbSc ScApp: the finishing worker's send_continue appends the interim response *)
      split.
      * eapply (Bf_append _ _ _ _ _ _ _ _ HB); auto. intro j. unfold upd.
        destruct (Nat.eqb_spec j me); [reflexivity | apply X2; assumption].
      * eapply (Un_cont _ _ _ _ _ _ _ _ HL1 HU); [apply Hsc0; reflexivity | |]; intro j; unfold upd;
          (destruct (Nat.eqb_spec j me); [subst j; rewrite ?Hw; cbn; (reflexivity || discriminate) | auto]).
    + (* WKbSc ScTotW: enters _flush_some *) split; [bf HB ltac:(at_me me Hw) | un HU ltac:(at_me me Hw)].
    + (* WKbSc (ScFl f): the flush goes on *) split; [fl_wk me Hw Hexcl HB | fl_out; un HU ltac:(at_me me Hw)].
    + (* ... is done *) split; [fl_wk me Hw Hexcl HB | fl_out; un HU ltac:(at_me me Hw)].
    + (* ... raised *) split; [fl_wk me Hw Hexcl HB | fl_out; un HU ltac:(at_me me Hw)].
Qed.
End Step.
