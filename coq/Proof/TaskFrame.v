(* The persistence decision table of build_response_header, and: too few bytes
   for the declared length close the connection (C03). *)
From Coq Require Import String.
From Coq Require Import List NArith ZArith Bool Lia Arith.
From WV Require Import Lib.PyBytes Gen.GenTables Model.Task.
Import ListNotations.
Local Open Scope N_scope.

Section Table.
Variable cap : str -> str.
Variable lower : str -> str.
(* oracle facts: capitalize on three ASCII names (true of CPython, tested; proved for py_cap) *)
Hypothesis Hcap_conn : cap (lit "Connection") = lit "Connection".
Hypothesis Hcap_te : beqb (cap (lit "Transfer-Encoding")) (lit "Connection") = false.

Definition f_close : str * str := (lit "Connection", lit "close").
Definition f_keep : str * str := (lit "Connection", lit "Keep-Alive").
Definition f_chunked : str * str := (lit "Transfer-Encoding", lit "chunked").

(* no field whose capitalised name is "Connection" (what set_close_on_finish looks for) *)
Definition NoConn (l : list (str * str)) : Prop :=
  Forall (fun h => beqb (cap (fst h)) (lit "Connection") = false) l.

Lemma scan_noconn l : NoConn l -> forall acc,
  fold_left (fun acc (h : str * str) =>
               if beqb (cap (fst h)) (lit "Connection") then Some (lower (snd h)) else acc) l acc = acc.
Proof.
  induction 1 as [|h l Hh Hl IH]; intro acc; cbn [fold_left]; auto. rewrite Hh. apply IH.
Qed.

Lemma scof_noconn t : t_wrote_header t = false -> NoConn (t_rh t) ->
  set_close_on_finish cap lower t = set_cof true (set_rh (t_rh t ++ [f_close]) t).
Proof.
  intros W N. unfold set_close_on_finish. rewrite W. cbn [negb]. rewrite scan_noconn by auto. reflexivity.
Qed.

Lemma scan_some l : forall v, exists v',
  fold_left (fun acc (h : str * str) =>
               if beqb (cap (fst h)) (lit "Connection") then Some (lower (snd h)) else acc) l (Some v) = Some v'.
Proof.
  induction l as [|h l IH]; intro v; cbn [fold_left]; eauto.
  destruct (beqb (cap (fst h)) _); apply IH.
Qed.

Lemma scof_hasconn t : t_wrote_header t = false ->
  Exists (fun h => beqb (cap (fst h)) (lit "Connection") = true) (t_rh t) ->
  set_close_on_finish cap lower t = set_cof true t.
Proof.
  intros W E. unfold set_close_on_finish. rewrite W. cbn [negb].
  assert (H : forall acc, exists v', fold_left (fun acc (h : str * str) =>
               if beqb (cap (fst h)) (lit "Connection") then Some (lower (snd h)) else acc) (t_rh t) acc = Some v').
  { induction E as [h l Hh|h l Hl IH]; intro acc; cbn [fold_left].
    - rewrite Hh. apply scan_some.
    - apply IH. }
  destruct (H None) as [v' ->]. reflexivity.
Qed.

(* the table: fields added, close_on_finish, chunked_response *)
Definition conn_table (v11 : bool) (conn : str) (fc has_cl hb : bool) : list (str * str) * bool * bool :=
  if v11 then
    let close1 := beqb conn (lit "close") || fc in
    if has_cl then ((if close1 then [f_close] else []), close1, false)
    else ((if close1 then [f_close] else []) ++ (if hb then [f_chunked] else [])
          ++ (if close1 then [] else [f_close]), true, hb)
  else if beqb conn (lit "keep-alive") && negb fc && has_cl then ([f_keep], false, false)
       else ([f_close], true, false).

Lemma noconn_app l1 l2 : NoConn l1 -> NoConn l2 -> NoConn (l1 ++ l2).
Proof. intros. apply Forall_app; auto. Qed.

Theorem bh_conn_table conn fc clh t :
  t_cof t = false -> t_wrote_header t = false -> t_chunked t = false -> NoConn (t_rh t) ->
  let t' := bh_conn cap lower conn fc clh t in
  let '(add, cof, chk) := conn_table (t_v11 t) conn fc (truthy clh) (has_body t) in
  t_rh t' = t_rh t ++ add /\ t_cof t' = cof /\ t_chunked t' = chk
  /\ t_status t' = t_status t /\ t_clen t' = t_clen t /\ t_cbw t' = t_cbw t
  /\ t_wrote_header t' = false /\ t_v11 t' = t_v11 t /\ t_complete t' = t_complete t.
Proof.
  intros C W K N. cbn zeta. unfold bh_conn, conn_table.
  destruct (t_v11 t) eqn:V; cbn [negb].
  - destruct (beqb conn (lit "close") || fc) eqn:Ec.
    + rewrite scof_noconn by auto.
      destruct (truthy clh); cbn [negb].
      * cbn. rewrite app_nil_r || idtac. repeat split; auto.
      * cbn [has_body t_status set_cof set_rh].
        change (has_body (set_cof true (set_rh (t_rh t ++ [f_close]) t))) with (has_body t).
        destruct (has_body t); cbn; rewrite ?app_nil_r, <- ?app_assoc; repeat split; auto.
    + destruct (truthy clh); cbn [negb].
      * cbn. rewrite app_nil_r. repeat split; auto.
      * destruct (has_body t) eqn:HB.
        -- cbn [t_cof set_chunked set_rh]. rewrite C. cbn [negb].
           rewrite scof_noconn.
           ++ cbn. rewrite <- app_assoc. repeat split; auto.
           ++ cbn [t_wrote_header set_chunked set_rh]. exact W.
           ++ cbn [t_rh set_chunked set_rh]. apply noconn_app; auto. constructor; [|constructor].
              cbn [fst f_chunked]. exact Hcap_te.
        -- rewrite C. cbn [negb]. rewrite scof_noconn by auto. cbn. repeat split; auto.
  - rewrite C. cbn [negb]. rewrite andb_true_r.
    destruct (beqb conn (lit "keep-alive") && negb fc) eqn:Ek; cbn [andb].
    + destruct (truthy clh); cbn [negb].
      * cbn. repeat split; auto.
      * rewrite scof_noconn by auto. cbn. repeat split; auto.
    + rewrite scof_noconn by auto. cbn. repeat split; auto.
Qed.

End Table.

From WV Require Import Proof.TaskLines Proof.TaskHead Proof.TaskStart Proof.TaskRun Proof.TaskC08 Proof.TaskLadder Proof.TaskC09.

Section TooFew.
Variable cap : str -> str.
Variable lower : str -> str.
Variable c : cfg.
Variable r : req.
Variable disc : option nat.

Lemma execute_body_too_few s a t' ch' :
  execute_body cap lower c r disc s a = ((t', ch'), Ok tt, true) ->
  forall cl, t_clen t' = Some cl -> t_cbw t' <> cl -> r_head r = false -> t_cof t' = true.
Proof.
  unfold execute_body.
  set (ho := match a_kind a with KFile _ => _ | _ => None end).
  intro H.
  assert (Hho : match ho with Some (_, Ok _, true) => False | _ => True end).
  { subst ho. destruct (a_kind a); auto. destruct s as [t ch].
    destruct (_ =? 0)%Z; auto. destruct (t_wrote_header t); auto. destruct (negb (has_body t)); auto.
    match goal with |- context [task_write cap lower c r disc ?s0 ?d] =>
      destruct (task_write cap lower c r disc s0 d) as [[t1 ch1] [u|e]] end; auto.
    destruct (write_soon disc ch1 _) as [ch2 [u2|e2]]; auto. }
  destruct ho as [[[s1 o1] cc1]|].
  - destruct o1 as [u|e], cc1; try contradiction; inversion H.
  - destruct (iterate cap lower c r disc _ _ true s (a_steps a)) as [[t ch] [u|e]]; [|discriminate].
    inversion H; subst. clear H. intros cl Hcl Hne Hh.
    destruct (t_clen t) as [cl0|] eqn:Ecl.
    + destruct (negb (t_cbw t =? cl0)%Z && negb (r_head r)) eqn:Eb.
      * apply (keeps_scof cap lower).
      * rewrite Ecl in Hcl. inversion Hcl; subst. rewrite Hh in Eb. cbn [negb] in Eb. rewrite andb_true_r in Eb.
        apply negb_false_iff, Z.eqb_eq in Eb. contradiction.
    + rewrite Ecl in Hcl. discriminate.
Qed.

Lemma task_finish_keeps s s' o : task_finish cap lower c r disc s = (s', o) ->
  t_clen (fst s') = t_clen (fst s) /\ t_cbw (fst s') = t_cbw (fst s).
Proof.
  unfold task_finish.
  set (r1 := if negb (t_wrote_header (fst s)) then _ else _).
  assert (F : t_clen (fst (fst r1)) = t_clen (fst s) /\ t_cbw (fst (fst r1)) = t_cbw (fst s)).
  { subst r1. destruct (negb _); [|auto]. unfold task_write.
    destruct (negb (t_complete (fst s))); [auto|].
    destruct s as [t ch]. unfold write_header. cbn [fst].
    destruct (negb (t_wrote_header t)); [|cbn; auto].
    unfold build_response_header. destruct (keeps_bh_prepare cap lower c r t) as (_ & _ & K3 & K4 & _).
    destruct (encode_latin1 _); [|cbn; auto].
    destruct (write_soon disc ch _) as [ch1 [u|e]]; cbn; auto. }
  destruct r1 as [[t ch] [u|e]]; cbn [fst snd] in F.
  - destruct (t_chunked t && negb (r_head r)); [destruct (write_soon disc ch _)|]; intro H; inversion H; subst; exact F.
  - intro H; inversion H; subst; exact F.
Qed.

Theorem too_few_closes a cl :
  r_error r = None -> connected disc 0 = true ->
  let res := channel_service cap lower c r a disc in
  o_raw res = None -> o_handover res = false -> o_iter res = true ->
  t_clen (o_task1 res) = Some cl -> t_cbw (o_task1 res) <> cl -> r_head r = false ->
  o_close res = true /\ o_next res = false.
Proof.
  intros He Hconn. cbn zeta. intro Hraw.
  destruct (service_quiet cap lower c r disc a Hconn Hraw) as [Eraw ->]. clear Hraw.
  cbn [wound_up o_handover o_iter o_task1 o_close o_next].
  intros Hh Hi Hcl Hne Hhead.
  revert Eraw Hh Hi Hcl Hne. unfold job_of, start_state. rewrite He.
  set (s0 := (new_task (r_version r) false, mkChan [] 0)). unfold task_run, wsgi_execute.
  destruct (run_actions cap lower c r disc s0 (a_call a)) as [s1 [u1|e1]]; [|cbn; discriminate].
  destruct (execute_body cap lower c r disc s1 a) as [[[t2 ch2] o2] cc] eqn:Eb.
  assert (Hmain : forall s3 o3, task_finish cap lower c r disc (t2, ch2) = (s3, o3) ->
     o2 = Ok tt -> cc = true ->
     t_clen (fst s3) = Some cl -> t_cbw (fst s3) <> cl -> t_cof (fst s3) = true).
  { intros s3 o3 Ef Ho Hcc Hcl Hne. subst o2 cc.
    destruct (task_finish_keeps _ _ _ Ef) as [K1 K2].
    destruct (task_finish_facts cap lower c r disc _ _ _ Ef) as (_ & F2 & _).
    cbn [fst] in *. apply F2. apply (execute_body_too_few _ _ _ _ Eb cl); auto.
    - rewrite <- K1. exact Hcl.
    - rewrite <- K2. exact Hne. }
  destruct (cc && a_has_close a) eqn:Ecc.
  - apply andb_true_iff in Ecc as [Ecc _]. destruct (a_close_exn a); cbn [x_out]; [discriminate|].
    destruct o2 as [[]|e2]; [|cbn; discriminate]. cbn [x_out x_st x_closes x_handover x_iter].
    destruct (task_finish cap lower c r disc (t2, ch2)) as [s3 o3] eqn:Ef.
    cbn [x_out x_st x_closes x_handover x_iter].
    intros Eo Hh Hi Hcl Hne.
    rewrite (Hmain s3 o3 eq_refl eq_refl Ecc Hcl Hne). auto.
  - destruct o2 as [[]|e2]; [|cbn; discriminate]. cbn [x_out x_st x_closes x_handover x_iter].
    destruct (task_finish cap lower c r disc (t2, ch2)) as [s3 o3] eqn:Ef.
    cbn [x_out x_st x_closes x_handover x_iter].
    intros Eo Hh Hi Hcl Hne. apply negb_false_iff in Hh.
    rewrite (Hmain s3 o3 eq_refl eq_refl Hh Hcl Hne). auto.
Qed.

End TooFew.
