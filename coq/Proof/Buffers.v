(* C17: files and FileBasedBuffer.  Each method, on a buffer that satisfies the
   representation invariant [fb_inv], is characterised exactly in terms of the
   bytes it stands for ([fb_abs]); and two facts about the specification's q_peek. *)
From Coq Require Import List NArith ZArith Bool Lia ZifyBool Arith.
From WV Require Import Lib.PyBytes Model.Buffers Spec.Fifo Proof.PyBytesFacts.
Import ListNotations.
Local Open Scope Z_scope.

(* representation invariant of a file based buffer: the file is open, the read
   position is inside the content, and remain counts the bytes after it *)
Definition fb_inv (b : fbuf) : Prop :=
  f_closed (fb_file b) = false /\
  (f_pos (fb_file b) <= length (f_content (fb_file b)))%nat /\
  fb_remain b = Z.of_nat (length (f_content (fb_file b))) - Z.of_nat (f_pos (fb_file b)).

(* the bytes a file based buffer stands for *)
Definition fb_abs (b : fbuf) : list N := skipn (f_pos (fb_file b)) (f_content (fb_file b)).

Lemma fb_abs_len b : fb_inv b -> fb_remain b = q_len (fb_abs b).
Proof.
  intros (_ & Hp & Hr). unfold fb_abs, q_len. rewrite skipn_length. lia.
Qed.

Lemma f_write_at_end c cl s :
  f_write (mkfile c (length c) cl) s = mkfile (c ++ s) (length c + length s) cl.
Proof.
  unfold f_write; cbn [f_content f_pos f_closed].
  rewrite firstn_all, Nat.sub_diag. cbn [repeat app].
  rewrite skipn_all2 by lia. now rewrite app_nil_r.
Qed.

Lemma f_write_new data : f_write newfile data = mkfile data (length data) false.
Proof. exact (f_write_at_end [] false data). Qed.

Lemma skipn_skipn {A} x y (l : list A) : skipn x (skipn y l) = skipn (x + y) l.
Proof.
  revert l; induction y as [|y IH]; intro l.
  - now rewrite Nat.add_0_r.
  - rewrite Nat.add_succ_r. destruct l as [|a l]; [now rewrite !skipn_nil | cbn [skipn]; apply IH].
Qed.

Lemma q_peek_length_le n q : (length (q_peek n q) <= length q)%nat.
Proof. unfold q_peek. destruct (n <? 0); [|rewrite firstn_length]; lia. Qed.

Lemma q_peek_prefix n q : is_prefix (q_peek n q) q.
Proof.
  unfold q_peek, is_prefix. destruct (n <? 0).
  - exists []. now rewrite app_nil_r.
  - exists (skipn (Z.to_nat n) q). now rewrite firstn_skipn.
Qed.

Lemma fb_inv_fresh k : fb_inv (mkfbuf k newfile 0).
Proof. repeat split; cbn; lia. Qed.

Lemma fb_init_none k : fb_init FNone k None = InitOk (mkfbuf k newfile 0).
Proof. reflexivity. Qed.

(* migration: the whole content is copied and the read position restored, so
   the new buffer wraps a file equal to the old one *)
Lemma fb_init_copy k b : fb_inv b ->
  fb_init FNone k (Some b) = InitOk (mkfbuf k (fb_file b) (fb_remain b)).
Proof.
  intros (Hc & Hp & Hr). destruct b as [k0 [c p cl] r]. cbn in *. subst cl.
  unfold fb_init, f_read_all. cbn [fb_file f_closed f_tell f_pos f_seek_set f_content skipn].
  rewrite f_write_new. cbn [f_tell f_pos f_seek_set f_content f_closed].
  now rewrite Hr.
Qed.

Lemma fb_append_spec b s : fb_inv b ->
  exists b', fb_append false b s = Ok b' /\ fb_inv b' /\ fb_abs b' = fb_abs b ++ s /\
             fb_kind b' = fb_kind b /\ f_pos (fb_file b') = f_pos (fb_file b) /\
             f_content (fb_file b') = f_content (fb_file b) ++ s /\
             fb_remain b' = fb_remain b + lenZ s.
Proof.
  intros (Hc & Hp & Hr). destruct b as [k [c p cl] r]. cbn in *. subst cl.
  unfold fb_append, f_seek_end, f_tell, f_seek_set. cbn [fb_file f_closed f_tell f_pos f_seek_end f_seek_set f_content fb_kind fb_remain].
  rewrite f_write_at_end. cbn [f_seek_set f_content f_closed].
  eexists; split; [reflexivity|].
  unfold fb_inv, fb_abs, lenZ; cbn. rewrite app_length.
  repeat split; try lia. now apply skipn_app_le.
Qed.

Lemma fb_get_noskip b n : fb_inv b ->
  fb_get b n false = Ok (b, q_peek n (fb_abs b)).
Proof.
  intros (Hc & Hp & Hr). destruct b as [k [c p cl] r]. cbn in *. subst cl.
  unfold fb_get, fb_abs, q_peek, f_read_all, f_read_n, f_tell, f_seek_set.
  cbn [fb_file f_closed f_tell f_pos f_seek_set f_content fb_kind fb_remain].
  destruct (n <? 0); reflexivity.
Qed.

Lemma fb_get_skip b n : fb_inv b ->
  exists b', fb_get b n true = Ok (b', q_peek n (fb_abs b)) /\ fb_inv b' /\
             fb_abs b' = skipn (length (q_peek n (fb_abs b))) (fb_abs b) /\
             fb_kind b' = fb_kind b /\
             f_content (fb_file b') = f_content (fb_file b) /\
             f_pos (fb_file b') = (f_pos (fb_file b) + length (q_peek n (fb_abs b)))%nat /\
             fb_remain b' = fb_remain b - lenZ (q_peek n (fb_abs b)).
Proof.
  intros (Hc & Hp & Hr). destruct b as [k [c p cl] r]. cbn in *. subst cl.
  pose proof (q_peek_length_le n (skipn p c)) as Hle. rewrite skipn_length in Hle.
  unfold fb_get, fb_abs, f_read_all, f_read_n, f_tell, f_seek_set.
  cbn [fb_file f_closed f_tell f_pos f_seek_set f_content fb_kind fb_remain].
  unfold q_peek in *.
  (* read() or read(n): either way the new buffer is the old one with the position moved on
     by what was read *)
  destruct (n <? 0); (eexists; split; [reflexivity|]).
  all: unfold fb_inv, fb_abs, lenZ; cbn [fb_file f_closed f_tell f_pos f_seek_set f_content fb_kind fb_remain].
  all: rewrite skipn_skipn; repeat split; try lia.
  all: f_equal; lia.
Qed.

Lemma fb_skip_ok b n : fb_inv b -> Z.of_N n <= fb_remain b ->
  exists b', fb_skip b n = Ok b' /\ fb_inv b' /\
             fb_abs b' = skipn (N.to_nat n) (fb_abs b) /\ fb_kind b' = fb_kind b /\
             f_content (fb_file b') = f_content (fb_file b) /\
             f_pos (fb_file b') = (f_pos (fb_file b) + N.to_nat n)%nat /\
             fb_remain b' = fb_remain b - Z.of_N n.
Proof.
  intros (Hc & Hp & Hr) Hn. destruct b as [k [c p cl] r]. cbn in *. subst cl.
  unfold fb_skip, f_seek_cur, f_seek_set. cbn [fb_file f_closed f_pos f_seek_cur f_seek_set f_content fb_kind fb_remain].
  destruct (r <? Z.of_N n) eqn:E; [lia|].
  eexists; split; [reflexivity|].
  unfold fb_inv, fb_abs; cbn [fb_file f_closed f_pos f_seek_set f_content fb_kind fb_remain].
  rewrite skipn_skipn. repeat split; try lia. f_equal; lia.
Qed.

Lemma fb_skip_err b n : fb_remain b < Z.of_N n -> fb_skip b n = Exn ValueErrorSkip.
Proof.
  intro H. unfold fb_skip. destruct (fb_remain b <? Z.of_N n) eqn:E; [reflexivity | lia].
Qed.
