(* C20, command lines of any length: the model of getopt + Adjustments.parse_args
   + runner.run (Model/Adjust.v cli_construct) meets the specification
   Spec/AdjustCli.v cli_spec on EVERY argv.  Here: getopt's lookup of a long option is
   resolve, and getopt is scan (getopt_go_scan); Proof/AdjustCliKw.v goes on from there. *)
From Coq Require Import List NArith ZArith Bool Lia.
From WV Require Import Lib.PyBytes Gen.GenAdjust Model.Adjust Proof.AdjustSpec Proof.AdjustChecks
  Proof.AdjustLists Proof.AdjustCli Spec.AdjustCli.
Import ListNotations.
Local Open Scope N_scope.

Lemma cut_eq_no_eq : forall s, memb 61 (fst (cut_eq s)) = false.
Proof.
  induction s as [|x s IH]; [reflexivity|]. cbn [cut_eq].
  destruct (x =? 61) eqn:E; [reflexivity|]. cbn [fst memb existsb].
  rewrite N.eqb_sym, E. exact IH.
Qed.

Lemma firstn_length_app : forall {A} (a b : list A), firstn (length a) (a ++ b) = a.
Proof. induction a; intro b; cbn; [reflexivity|]. f_equal. apply IHa. Qed.
Lemma skipn_S_length_app : forall {A} (a : list A) x b, skipn (S (length a)) (a ++ x :: b) = b.
Proof. induction a; intros x b; cbn; [reflexivity|]. apply IHa. Qed.

Lemma cut_eq_find : forall s i,
  match snd (cut_eq s) with
  | Some r => find_from s [61] i = Some (i + length (fst (cut_eq s)))%nat /\ s = fst (cut_eq s) ++ 61 :: r
  | None => find_from s [61] i = None /\ fst (cut_eq s) = s
  end.
Proof.
  induction s as [|x s IH]; intro i; [split; reflexivity|].
  cbn [cut_eq find_from startswith]. rewrite (N.eqb_sym 61 x). destruct (x =? 61) eqn:E.
  - apply N.eqb_eq in E. subst x. replace (startswith s []) with true by (destruct s; reflexivity). cbn. split; [f_equal; lia|reflexivity].
  - cbn [andb fst snd]. specialize (IH (S i)).
    destruct (snd (cut_eq s)); destruct IH as [F P]; rewrite F; cbn [length app]; split; f_equal; auto; lia.
Qed.

Lemma do_longs_cut : forall body lo args,
  do_longs body lo args =
  match long_has_args (fst (cut_eq body)) lo with
  | Exn e => Exn e
  | Ok (true, o) =>
    match snd (cut_eq body) with
    | Some v => Ok ((dashdash ++ o, v), args)
    | None => match args with [] => Exn GetoptError | a :: r => Ok ((dashdash ++ o, a), r) end
    end
  | Ok (false, o) =>
    match snd (cut_eq body) with
    | Some _ => Exn GetoptError
    | None => Ok ((dashdash ++ o, []), args)
    end
  end.
Proof.
  intros body lo args. unfold do_longs, find. pose proof (cut_eq_find body 0) as C.
  destruct (cut_eq body) as [f [r|]]; cbn [fst snd] in *; destruct C as [F P]; rewrite F; subst.
  - cbn [plus]. rewrite firstn_length_app, skipn_S_length_app.
    destruct (long_has_args f lo) as [[[] o]|e]; reflexivity.
  - destruct (long_has_args body lo) as [[[] o]|e]; reflexivity.
Qed.

Lemma getopt_go_word : forall f a rest lo opts,
  getopt_go (S f) (a :: rest) lo opts =
  match classify_word a with
  | WTerminator => Ok (rev opts, rest)
  | WPositional => Ok (rev opts, a :: rest)
  | WShort => Exn GetoptError
  | WLong _ _ =>
    match do_longs (skipn 2 a) lo rest with
    | Exn e => Exn e
    | Ok (o, args') => getopt_go f args' lo (o :: opts)
    end
  end.
Proof.
  intros f a rest lo opts. unfold classify_word. cbn [getopt_go].
  destruct a as [|x [|y a]].
  - reflexivity.
  - unfold dashdash. cbn [startswith beqb andb]. rewrite (N.eqb_sym 45 x).
    destruct (x =? 45); cbn [andb negb]; reflexivity.
  - unfold dashdash. cbn [startswith beqb andb]. rewrite (N.eqb_sym 45 x), (N.eqb_sym 45 y).
    destruct (x =? 45); cbn [andb negb]; [|reflexivity].
    destruct (y =? 45); cbn [andb negb]; [|reflexivity].
    destruct a; reflexivity.
Qed.

Definition lo_of (o : str * okind) : str := if takes_value (snd o) then fst o ++ [61] else fst o.

Lemma table_long_opts : map lo_of option_table = cli_long_opts.
Proof. vm_compute. reflexivity. Qed.

Definition entry_ok (o : str * okind) : bool :=
  negb (memb 61 (fst o))
  && lha_is (long_has_args (fst o) cli_long_opts) (takes_value (snd o)) (fst o)
  && Bool.eqb (endswith (lo_of o) [61]) (takes_value (snd o))
  && beqb (if takes_value (snd o) then removelast (lo_of o) else lo_of o) (fst o).

Lemma table_entries_ok : forallb entry_ok option_table = true.
Proof. vm_compute. reflexivity. Qed.

Lemma entry_facts : forall o, In o option_table ->
  memb 61 (fst o) = false
  /\ long_has_args (fst o) cli_long_opts = Ok (takes_value (snd o), fst o)
  /\ endswith (lo_of o) [61] = takes_value (snd o)
  /\ (if takes_value (snd o) then removelast (lo_of o) else lo_of o) = fst o.
Proof.
  intros o H. pose proof (forallb_In _ _ table_entries_ok o H) as K.
  unfold entry_ok in K.
  apply andb_true_iff in K as [K K4]. apply andb_true_iff in K as [K K3].
  apply andb_true_iff in K as [K1 K2].
  apply negb_true_iff in K1. apply lha_is_eq in K2. apply Bool.eqb_prop in K3. apply beqb_eq in K4.
  auto.
Qed.

(* the specification writes an option name as dashed p, the generated code as cli_mangle p *)
Lemma cli_mangle_dashed : forall p, cli_mangle p = dashed p.
Proof. reflexivity. Qed.

Lemma options_in_table : forall pc o, In pc params -> In o (options_of pc) -> In o option_table.
Proof.
  intros pc o Hp Ho. unfold option_table. apply in_or_app; right. apply in_or_app; left.
  apply in_flat_map. exists pc. auto.
Qed.

(* from here on the two tables are only used through entry_facts, table_long_opts and
   options_in_table; opaque, so that cbn and reflexivity do not unfold them *)
Global Opaque option_table cli_long_opts.

Lemma startswith_app_eq : forall t n, memb 61 t = false ->
  startswith (n ++ [61]) t = startswith n t.
Proof.
  induction t as [|x t IH]; intros n H.
  - destruct n; reflexivity.
  - cbn [memb existsb] in H. apply orb_false_iff in H as [Hx H].
    destruct n as [|y n]; cbn [app startswith].
    + rewrite N.eqb_sym, Hx. reflexivity.
    + rewrite IH by exact H. reflexivity.
Qed.

Lemma filter_map_comm : forall {A B} (g : A -> B) (f : B -> bool) l,
  filter f (map g l) = map g (filter (fun a => f (g a)) l).
Proof.
  induction l as [|a l IH]; [reflexivity|]. cbn [map filter].
  destruct (f (g a)); cbn [map]; rewrite IH; reflexivity.
Qed.

Lemma memb_app_last : forall t, memb 61 (t ++ [61]) = true.
Proof. intro t. rewrite memb_app. cbn. apply orb_true_r. Qed.

(* the candidates getopt computes are the table entries whose name starts with typed *)
Lemma possibilities : forall t, memb 61 t = false ->
  filter (fun o => startswith o t) cli_long_opts
  = map lo_of (filter (fun o => startswith (fst o) t) option_table).
Proof.
  intros t H. rewrite <- table_long_opts, filter_map_comm.
  rewrite (filter_ext_in (fun a => startswith (lo_of a) t) (fun o => startswith (fst o) t) option_table);
    [reflexivity|].
  intros o Ho. unfold lo_of.
  destruct (takes_value (snd o)); [|reflexivity]. apply startswith_app_eq. exact H.
Qed.

Theorem long_has_args_resolve : forall t, memb 61 t = false ->
  long_has_args t cli_long_opts =
  match resolve t with
  | Found n k => Ok (takes_value k, n)
  | _ => Exn GetoptError
  end.
Proof.
  intros t Ht. unfold resolve.
  destruct (List.find (fun o => beqb (fst o) t) option_table) as [[n k]|] eqn:F.
  - apply List.find_some in F as [Hin Hn]. cbn [fst] in Hn. apply beqb_eq in Hn. subst n.
    destruct (entry_facts _ Hin) as [_ [L _]]. exact L.
  - pose proof (List.find_none _ _ F) as NF. unfold long_has_args. cbv zeta.
    rewrite (possibilities t Ht).
    set (P := filter (fun o => startswith (fst o) t) option_table).
    assert (PT : forall o, In o P -> In o option_table) by (intros o H; apply filter_In in H; tauto).
    assert (M1 : memstr t (map lo_of P) = false).
    { destruct (memstr t (map lo_of P)) eqn:E; [|reflexivity]. exfalso.
      apply memstr_In in E. apply in_map_iff in E as [o [E Ho]].
      specialize (NF o (PT o Ho)). cbn beta in NF. unfold lo_of in E.
      destruct (takes_value (snd o)).
      - subst t. rewrite memb_app_last in Ht. discriminate.
      - subst t. rewrite (proj2 (beqb_eq _ _) eq_refl) in NF. discriminate. }
    assert (M2 : memstr (t ++ [61]) (map lo_of P) = false).
    { destruct (memstr (t ++ [61]) (map lo_of P)) eqn:E; [|reflexivity]. exfalso.
      apply memstr_In in E. apply in_map_iff in E as [o [E Ho]].
      pose proof (NF o (PT o Ho)) as NFo. cbn beta in NFo. unfold lo_of in E.
      destruct (takes_value (snd o)).
      - apply app_inj_tail in E as [E _]. rewrite <- E in NFo.
        rewrite (proj2 (beqb_eq _ _) eq_refl) in NFo. discriminate.
      - destruct (entry_facts _ (PT o Ho)) as [K _]. rewrite E, memb_app_last in K. discriminate. }
    destruct P as [|o1 [|o2 P']] eqn:EP.
    + reflexivity.
    + cbn [map]. cbn [map] in M1, M2. rewrite M1, M2.
      destruct (entry_facts o1 (PT o1 (or_introl eq_refl))) as [_ [_ [E1 E2]]].
      rewrite E1. destruct o1 as [n k]. cbn [fst snd] in *.
      destruct (takes_value k); rewrite E2; reflexivity.
    + cbn [map] in *. rewrite M1, M2. destruct o1 as [n1 k1]. reflexivity.
Qed.

Lemma resolve_in_table : forall t n k, resolve t = Found n k -> In (n, k) option_table.
Proof.
  intros t n k. unfold resolve.
  destruct (List.find (fun o => beqb (fst o) t) option_table) as [[n' k']|] eqn:F.
  - intro H. injection H as <- <-. apply List.find_some in F. tauto.
  - destruct (filter (fun o => startswith (fst o) t) option_table) as [|[n1 k1] [|o2 P']] eqn:EP;
      intro H; try discriminate.
    injection H as <- <-.
    assert (In (n1, k1) (filter (fun o => startswith (fst o) t) option_table)) by (rewrite EP; left; reflexivity).
    apply filter_In in H. tauto.
Qed.

Definition opt_of (o : occ) : str * str := (dashdash ++ fst (fst o), snd o).

Definition getopt_spec (acc : list (str * str)) (r : scanned) : outcome (list (str * str) * list str) :=
  match r with
  | Refused _ => Exn GetoptError
  | Scanned occs pos => Ok (rev acc ++ map opt_of occs, pos)
  end.

Lemma getopt_spec_push : forall acc o r,
  getopt_spec (opt_of o :: acc) r = getopt_spec acc (push o r).
Proof.
  intros acc o [w|occs pos]; [reflexivity|]. cbn [getopt_spec push rev map].
  rewrite <- app_assoc. reflexivity.
Qed.

(* every recognised occurrence is an entry of the table *)
Definition scan_ok (r : scanned) : Prop :=
  match r with Refused _ => True | Scanned occs _ => Forall (fun o => In (fst o) option_table) occs end.

Lemma push_ok : forall o r, In (fst o) option_table -> scan_ok r -> scan_ok (push o r).
Proof. intros o [w|occs pos] Ho Hr; [exact I|]. constructor; assumption. Qed.

Lemma getopt_go_scan : forall fuel argv acc, (length argv < fuel)%nat ->
  getopt_go fuel argv cli_long_opts acc = getopt_spec acc (scan argv) /\ scan_ok (scan argv).
Proof.
  induction fuel as [|f IH]; intros argv acc Hf; [lia|].
  destruct argv as [|a rest].
  - cbn. rewrite app_nil_r. split; [reflexivity|constructor].
  - rewrite getopt_go_word. cbn [scan].
    destruct (classify_word a) as [| | |typed inline] eqn:CW.
    1, 2: cbn; rewrite app_nil_r; split; [reflexivity|constructor].
    1: split; [reflexivity|exact I].
    assert (CE : typed = fst (cut_eq (skipn 2 a)) /\ inline = snd (cut_eq (skipn 2 a))).
    { unfold classify_word in CW. destruct (beqb a [45;45]); [discriminate|].
      destruct (startswith a [45;45]).
      - injection CW as <- <-. auto.
      - destruct (beqb a [45]); [discriminate|]. destruct (startswith a [45]); discriminate. }
    destruct CE as [-> ->].
    rewrite do_longs_cut. rewrite long_has_args_resolve by apply cut_eq_no_eq.
    cbn [length] in Hf.
    destruct (resolve (fst (cut_eq (skipn 2 a)))) as [| |n k] eqn:R; try (split; [reflexivity|exact I]).
    apply resolve_in_table in R.
    (* the rest of the line, after the words this option has taken *)
    assert (Next : forall v rest', (length rest' < f)%nat ->
              getopt_go f rest' cli_long_opts ((dashdash ++ n, v) :: acc) = getopt_spec acc (push (n, k, v) (scan rest'))
              /\ scan_ok (push (n, k, v) (scan rest'))).
    { intros v rest' Hl. destruct (IH rest' (opt_of (n, k, v) :: acc) Hl) as [G T].
      split; [rewrite <- getopt_spec_push; exact G | apply push_ok; assumption]. }
    destruct (takes_value k), (snd (cut_eq (skipn 2 a))) as [v|]; try (split; [reflexivity|exact I]).
    + apply Next. lia.
    + destruct rest as [|v rest']; [split; [reflexivity|exact I]|]. apply Next. cbn [length] in Hf. lia.
    + apply Next. lia.
Qed.

Theorem getopt_scan : forall argv,
  getopt argv cli_long_opts =
  match scan argv with
  | Refused _ => Exn GetoptError
  | Scanned occs pos => Ok (map opt_of occs, pos)
  end.
Proof. intro argv. unfold getopt. rewrite (proj1 (getopt_go_scan _ argv [] (Nat.lt_succ_diag_r _))). reflexivity. Qed.

Lemma scan_in_table : forall argv occs pos, scan argv = Scanned occs pos ->
  Forall (fun o => In (fst o) option_table) occs.
Proof.
  intros argv occs pos H. pose proof (proj2 (getopt_go_scan _ argv [] (Nat.lt_succ_diag_r _))) as T.
  rewrite H in T. exact T.
Qed.
