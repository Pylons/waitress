(* C03: the hand-over path of wsgi.file_wrapper, end to end. *)
From Coq Require Import String.
From Coq Require Import List NArith ZArith Bool Lia Arith Permutation.
From WV Require Import Lib.PyBytes Gen.GenTables Model.Task Spec.ClientParse
  Proof.PyBytesFacts Proof.TaskSort Proof.TaskLines Proof.TaskHead Proof.TaskStart Proof.TaskRun Proof.TaskChunk Proof.TaskClient
  Proof.TaskC08 Proof.TaskC09 Proof.TaskFrame Proof.TaskBody Proof.TaskSimple Proof.TaskFrameClient
  Proof.TaskFrameEnd Proof.TaskFrame2Sem Proof.TaskFrame2Run Proof.TaskFrame2Head Proof.TaskFrame2Dec
  Proof.TaskFrame2End Proof.TaskFrame2File.
Import ListNotations.
Local Open Scope N_scope.

Section FileEnd.
Variable cap : str -> str.
Variable lower : str -> str.
Hypothesis Hcap : forall s, clean s -> clean (cap s).
Hypothesis Hcap_conn : cap (lit "Connection") = lit "Connection".
Hypothesis Hcap_te : beqb (cap (lit "Transfer-Encoding")) (lit "Connection") = false.
Hypothesis Hcap_cl : beqb (cap (lit "Content-Length")) (lit "Connection") = false.
Variable c : cfg.
Hypothesis Hc : cfg_clean c.
Variable r : req.

Theorem frame_file_nolen status hs chunks hc :
  r_error r = None -> Forall (not_cl lower) hs -> plain_fields cap (strs_of hs) ->
  r_head r = false -> no_body_st status = false ->
  file_content (plain_steps chunks) <> [] ->
  let content := file_content (plain_steps chunks) in
  let res := channel_service cap lower c r (fapp status hs chunks hc) None in
  o_raw res = None ->
  exists fields,
    parse_one false (wire (o_writes res))
    = Some (mkResponse (sl_of r status) fields (FLength (lenN content)) content, [])
    /\ (forall h, In h (strs_of hs) -> In (client_field (norm_field cap h)) fields)
    /\ o_next res = keep_of r /\ o_close res = negb (keep_of r)
    /\ (keep_of r = false -> In (client_field f_close) fields)
    /\ (keep_of r = true -> ~ In (client_field f_close) fields)
    /\ o_handover res = true /\ o_closes res = 0%nat.
Proof.
  intros He Hcl Hpl Hhead Hst Hne. cbn zeta. intro Hraw.
  set (content := file_content (plain_steps chunks)) in *.
  assert (Hlen : (0 < Z.of_nat (length content))%Z) by (destruct content; [congruence|cbn [length]; lia]).
  destruct (fapp_wire cap lower c r status hs chunks hc He Hst) with (2 := Hraw)
    as (t1 & tp & head & Esr & Eb & Ew & Ec & En & Eh & Ecl).
  { intros t1 Esr. destruct (nolen_start_facts lower r status hs t1 Esr Hcl) as (_ & _ & _ & _ & _ & _ & _ & _ & _ & L).
    unfold file_size. rewrite L. exact Hlen. }
  destruct (nolen_start_facts lower r status hs t1 Esr Hcl) as (Hclean1 & S2 & S3 & S4 & S5 & S6 & S7 & S8 & S9 & Hclen).
  fold content in Eb, Ew.
  assert (Esz : file_size t1 content = Z.of_nat (length content)) by (unfold file_size; rewrite Hclen; reflexivity).
  assert (Erec : reconciled lower t1 content = set_clen (Some (Z.of_nat (length content))) t1).
  { unfold reconciled. rewrite Esz, Hclen. reflexivity. }
  rewrite Erec in Eb. rewrite Esz, Nat2Z.id, firstn_all in Ew.
  set (t' := set_clen (Some (Z.of_nat (length content))) t1) in *.
  destruct (brh_ok cap lower c r _ _ _ Eb) as [Etp Ehead].
  assert (Hb1 : has_body t' = true).
  { change (has_body t') with (has_body t1). rewrite (has_body_status t1 status S2), Hst. reflexivity. }
  rewrite <- S3 in Hpl.
  pose proof (srvlen_head_facts cap lower Hcap Hcap_conn Hcap_te Hcap_cl c Hc r t' (Z.of_nat (length content))
                Hclean1 S6 S5 S7 S9 Hpl eq_refl (Nat2Z.is_nonneg _) Hb1) as F.
  cbn zeta in F. rewrite <- Etp in F.
  destruct F as (Hcleanp & Hnc & Pst & Pv & Pcof & Pchk & Pte & Pcl & Pin & Pc1 & Pc2).
  assert (Hbp : has_body tp = true) by (unfold has_body in *; rewrite Pst; exact Hb1).
  rewrite Ew, Ec, En, Eh, Ecl, Ehead, Pchk, Pcof. cbn [andb]. rewrite app_nil_r, negb_involutive.
  exists (cfields tp).
  rewrite <- nat_N_Z, N2Z.id in Pcl. fold (lenN content) in Pcl.
  pose proof (parse_length tp (to_dec (lenN content)) content [] Hcleanp Hnc Hbp Pte Pcl (to_dec_all_digits _)) as PL.
  rewrite dec_value_to_dec, app_nil_r in PL. rewrite (PL eq_refl).
  rewrite (first_line_sl r tp t' status Pst Pv S2 S9).
  split; [reflexivity|]. split; [intros h Hh; apply in_cfields; apply Pin; change (t_rh t') with (t_rh t1); rewrite S3; exact Hh|].
  split; [reflexivity|]. split; [reflexivity|]. split; [intro Hk; apply in_cfields; apply Pc1; exact Hk|].
  split; [exact Pc2|]. auto.
Qed.

Theorem frame_file_declared status pre clname v post cl chunks hc :
  r_error r = None ->
  Forall (not_cl lower) post ->
  beqb (lower clname) (lit "content-length") = true -> py_int v = Some cl ->
  all_digits v = true -> Z.of_N (dec_value v) = cl ->
  plain_fields cap (strs_of pre) -> plain_fields cap (strs_of post) ->
  norm_name cap clname = lit "Content-Length" ->
  r_head r = false -> no_body_st status = false ->
  let content := file_content (plain_steps chunks) in
  (0 < cl)%Z -> (cl <= Z.of_nat (length content))%Z ->
  let hs := pre ++ (PStr clname, PStr v) :: post in
  let res := channel_service cap lower c r (fapp status hs chunks hc) None in
  o_raw res = None ->
  exists fields,
    parse_one false (wire (o_writes res))
    = Some (mkResponse (sl_of r status) fields (FLength (dec_value v)) (firstn (N.to_nat (dec_value v)) content), [])
    /\ (forall h, In h (strs_of hs) -> In (client_field (norm_field cap h)) fields)
    /\ o_next res = keep_of r /\ o_close res = negb (keep_of r)
    /\ (keep_of r = false -> In (client_field f_close) fields)
    /\ (keep_of r = true -> ~ In (client_field f_close) fields)
    /\ o_handover res = true /\ o_closes res = 0%nat.
Proof.
  intros He Hpost Hn Hv Hdig Hdv Ppre Ppost Hnorm Hhead Hst. cbn zeta. intros Hpos Hle Hraw.
  set (content := file_content (plain_steps chunks)) in *.
  set (hs := pre ++ (PStr clname, PStr v) :: post) in *.
  assert (Hsz : forall t1, t_clen t1 = Some cl -> file_size t1 content = cl).
  { intros t1 L. unfold file_size. rewrite L. clear - Hle. lia. }
  destruct (fapp_wire cap lower c r status hs chunks hc He Hst) with (2 := Hraw)
    as (t1 & tp & head & Esr & Eb & Ew & Ec & En & Eh & Ecl).
  { intros t1 Esr. fold content. rewrite (Hsz t1); [exact Hpos|].
    apply (start_response_cl lower _ clname v cl pre post status t1 Hpost Hn Hv Esr). }
  destruct (len_start_facts lower r status pre clname v post cl t1 Esr Hpost Hn Hv)
    as (Hclean1 & S2 & S3 & S4 & S5 & S6 & S7 & S8 & S9 & Hclen).
  fold content in Eb, Ew. rewrite (Hsz t1 Hclen) in Ew.
  assert (Erec : reconciled lower t1 content = t1).
  { unfold reconciled. rewrite (Hsz t1 Hclen), Hclen, Z.eqb_refl. reflexivity. }
  rewrite Erec in Eb.
  destruct (brh_ok cap lower c r _ _ _ Eb) as [Etp Ehead].
  assert (Hb1 : has_body t1 = true) by (rewrite (has_body_status t1 status S2), Hst; reflexivity).
  pose proof (len_head_facts cap lower Hcap Hcap_conn Hcap_te Hcap_cl c Hc r t1 (strs_of pre) clname v (strs_of post)
                             Hclean1 S6 S5 S7 S9 S3 Ppre Ppost Hnorm Hb1 Hdig) as F.
  cbn zeta in F. rewrite <- Etp in F.
  destruct F as (Hcleanp & Hnc & Pst & Pv & Pcof & Pchk & Pte & Pcl & Pin & Pc1 & Pc2).
  assert (Hbp : has_body tp = true) by (unfold has_body in *; rewrite Pst; exact Hb1).
  assert (Hn2 : Z.to_nat cl = N.to_nat (dec_value v)) by (rewrite <- Hdv; rewrite <- Z_N_nat, N2Z.id; reflexivity).
  rewrite Ew, Ec, En, Eh, Ecl, Ehead, Pchk, Pcof, Hn2. cbn [andb]. rewrite app_nil_r, negb_involutive.
  exists (cfields tp).
  assert (Hbl : lenN (firstn (N.to_nat (dec_value v)) content) = dec_value v).
  { unfold lenN. rewrite firstn_length, <- Hn2. rewrite Nat.min_l by (clear - Hle Hpos; lia).
    rewrite Z_nat_N, <- Hdv. apply N2Z.id. }
  pose proof (parse_length tp v _ [] Hcleanp Hnc Hbp Pte Pcl Hdig Hbl) as PL. rewrite app_nil_r in PL.
  rewrite PL, (first_line_sl r tp t1 status Pst Pv S2 S9).
  split; [reflexivity|].
  split; [intros h Hh; apply in_cfields; apply Pin; rewrite S3; unfold hs in Hh; rewrite strs_of_app in Hh; exact Hh|].
  split; [reflexivity|]. split; [reflexivity|]. split; [intro Hk; apply in_cfields; apply Pc1; exact Hk|].
  split; [exact Pc2|]. auto.
Qed.

End FileEnd.
