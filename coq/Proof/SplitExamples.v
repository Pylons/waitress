(* C02: the exact-tag statement (refuted in Findings/C02_KF1.v: finding F12, class
   kf_c02_1) and examples showing that the hypotheses of the C02 theorems are
   satisfiable by non-trivial states. *)
From Coq Require Import List NArith ZArith Bool Lia Arith.
From RecordUpdate Require Import RecordUpdate.
From WV Require Import Lib.PyBytes Lib.Regex Gen.GenRegex Model.Receiver Model.UrlSplit Model.Parser Model.ChanSeq
  Proof.PyBytesFacts Proof.ReceiverTotal Proof.ParserTotal Proof.ParserTotalChan Proof.SplitParser Proof.SplitChan.
Import ListNotations.
Local Open Scope N_scope.

Definition adj10 : adj :=
  {| max_request_header_size := 262144; max_request_body_size := 10; adj_url_scheme := [104;116;116;112] |}.

(* b"POST / HTTP/1.1\r\nTransfer-Encoding: chunked\r\n\r\nZZ\r\n" + b"x"*20 *)
Definition f12_stream : bytes :=
  [80;79;83;84;32;47;32;72;84;84;80;47;49;46;49;13;10;
   84;114;97;110;115;102;101;114;45;69;110;99;111;100;105;110;103;58;32;99;104;117;110;107;101;100;13;10;13;10;
   90;90;13;10;
   120;120;120;120;120;120;120;120;120;120;120;120;120;120;120;120;120;120;120;120].

Definition ev_err (e : event) : option (option perr) :=
  match e with EvDone o => Some (error o) | EvContinue => None end.

Definition bytewise (s : bytes) : list bytes := map (fun b => [b]) s.

Lemma bytewise_concat s : concat (bytewise s) = s.
Proof. unfold bytewise. induction s as [|b s IH]; [reflexivity|]. cbn [map concat app]. now rewrite IH. Qed.

(* the statement with exact error tags (false of the code: see Findings/C02_KF1.v) *)
Definition split_independent_exact : Prop :=
  forall a reads1 reads2, concat reads1 = concat reads2 ->
    cut (snd (feed_tr false a chan_init reads1)) = cut (snd (feed_tr false a chan_init reads2)).

(* a chunked receiver in the middle of a chunk terminator, having seen CR *)
Example ex_wf_c :
  wf_c {| chunk_remainder := 0; validate_chunk_end := true; control_line := []; chunk_end := [13];
          all_chunks_received := false; trailer := []; c_completed := false; c_error := None;
          c_buf := [97;98;99] |}.
Proof. split; cbn; auto; try lia; intros; discriminate. Qed.

(* a chunked receiver holding an unfinished trailer *)
Example ex_wf_c_trailer :
  wf_c {| chunk_remainder := 0; validate_chunk_end := false; control_line := []; chunk_end := [];
          all_chunks_received := true; trailer := [88;58;32;121;13;10;13]; c_completed := false; c_error := None;
          c_buf := [97;98;99] |}.
Proof. split; cbn; auto; try lia; intros; try discriminate; reflexivity. Qed.

(* a parser that has read "GET / HT" *)
Example ex_wf_p : wf_p adj10 (P0 [71;69;84;32;47;32;72;84]).
Proof. apply wf_p_P0; [reflexivity | right; reflexivity]. Qed.

(* a pipeline: POST with Expect and a 3-byte body, then GET; byte-wise: the events
   are 100-continue, request, request -- no error *)
Definition pipeline : bytes :=
  (* POST /a HTTP/1.1\r\nExpect: 100-continue\r\nContent-Length: 3\r\n\r\nabcGET /b HTTP/1.1\r\n\r\n *)
  [80;79;83;84;32;47;97;32;72;84;84;80;47;49;46;49;13;10;
   69;120;112;101;99;116;58;32;49;48;48;45;99;111;110;116;105;110;117;101;13;10;
   67;111;110;116;101;110;116;45;76;101;110;103;116;104;58;32;51;13;10;13;10;
   97;98;99;
   71;69;84;32;47;98;32;72;84;84;80;47;49;46;49;13;10;13;10].

Example ex_pipeline :
  map ev_err (cut (snd (feed_tr true adj10 chan_init (bytewise pipeline)))) =
  [None; Some None; Some None].
Proof. vm_compute. reflexivity. Qed.

(* a channel with a request under construction and one queued request *)
Example ex_inv :
  inv adj10 (chan_init <| request := Some (P0 [71;69;84;32;47;32;72;84]) |> <| requests := [parser_init] |>).
Proof.
  split; [exact ex_wf_p|]. split; [|split; reflexivity].
  unfold ichan. cbn. split; [reflexivity | discriminate].
Qed.
