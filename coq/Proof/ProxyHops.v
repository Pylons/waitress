(* What a successful run selects and writes, in the model's words: the records xf_selection,
   fwd_selection (header parsing) and applied (parse_apply) spell out, field by field, what the closed
   forms select_exact / apply_closed give; they are what C16 (b) states.  Also: the selection categories
   give a 400 for every count. *)
From Coq Require Import List NArith ZArith Bool Lia.
From WV Require Import Lib.PyBytes Lib.PyStrProxy Lib.Regex Gen.GenRegex Model.Proxy Spec.ProxySpec
  Proof.ProxyDict Proof.ProxyStr Proof.ProxyStages Proof.ProxyTotal Proof.ProxyCats Proof.ProxyUnq Proof.ProxyConverse1
  Proof.ProxyConverse2.
Import ListNotations.
Local Open Scope N_scope.

(* select_xf and select_fwd read the closed form of header parsing (select_exact): a run that succeeds found no
   syntax category and ends in sel_state. *)
Lemma select_ok_state e p tph s : parse_select e (Zpos p) tph = Ok s ->
  syntax_reason tph e = None /\ s = sel_state p tph e.
Proof.
  rewrite select_exact. destruct (syntax_reason tph e); cbn [answer]; [discriminate|].
  intro H. injection H as <-. auto.
Qed.

Lemma pick_picked raw p : pick (elements raw) (Pos.to_nat p) = Some (picked raw (Pos.to_nat p)).
Proof. destruct (suffix_elements raw p) as (x & r & Hs & Hp). rewrite Hp, <- suffix_hd, Hs. reflexivity. Qed.

Lemma picked_well_quoted raw p : cat_list_quoting raw = false -> bad_quoting (strip (picked raw (Pos.to_nat p))) = false.
Proof.
  intro H. destruct (bad_quoting _) eqn:E; [|reflexivity]. rewrite <- H. symmetry.
  apply existsb_exists. exists (picked raw (Pos.to_nat p)). split; [|exact E].
  apply (nth_error_In _ _ (pick_picked raw p)).
Qed.

Definition fwd_inactive (tph : list str) (e : environ) : Prop :=
  has tph n_fwd = false \/ match lookup k_fwd e with Some (_ :: _) => False | _ => True end.

Record xf_selection (e : environ) (p : positive) (tph : list str) (s : pst) : Prop := {
  xs_for_sel : forall raw, has tph n_xff = true -> lookup k_xff e = Some raw ->
     exists h cl, pick (split raw [c_comma]) (Pos.to_nat p) = Some h /\ xff_hop h = Ok cl /\
                  client s = Some cl /\
                  lookup k_xff (env s) = Some (strip (join [c_comma] (suffix (split raw [c_comma]) (Pos.to_nat p))));
  xs_for_none : has tph n_xff = false \/ lookup k_xff e = None ->
     client s = None /\ lookup k_xff (env s) = lookup k_xff e;
  xs_host_sel : forall raw, has tph n_xfh = true -> lookup k_xfh e = Some raw ->
     exists h v, pick (split raw [c_comma]) (Pos.to_nat p) = Some h /\ undquote (strip h) = Ok v /\
                 fhost s = v /\
                 lookup k_xfh (env s) = Some (strip (join [c_comma] (suffix (split raw [c_comma]) (Pos.to_nat p))));
  xs_host_none : has tph n_xfh = false \/ lookup k_xfh e = None ->
     fhost s = [] /\ lookup k_xfh (env s) = lookup k_xfh e;
  xs_proto : fproto s = if has tph n_xfproto
                        then match single_value k_xfproto e with Ok v => v | _ => [] end else [];
  xs_port : fport s = if has tph n_xfport
                      then match single_value k_xfport e with Ok v => v | _ => [] end else [];
  xs_other : forall key, beqb key k_xff = false -> beqb key k_xfh = false -> lookup key (env s) = lookup key e
}.

Lemma select_xf e p tph s : fwd_inactive tph e ->
  parse_select e (Zpos p) tph = Ok s -> xf_selection e p tph s.
Proof.
  intros Hi H. apply select_ok_state in H as [Hs ->]. apply syntax_none in Hs as (S1 & S2 & S3 & S4 & _).
  assert (Ha : fwd_active tph e = false).
  { unfold fwd_active, hdr. model_names. destruct Hi as [->|Hi]; [reflexivity|].
    destruct (lookup k_fwd e) as [[|c r]|]; [apply andb_false_r|destruct Hi|apply andb_false_r]. }
  destruct (sel_state_selection p tph e) as [Hsel _]. unfold select in Hsel. rewrite Ha in Hsel.
  injection Hsel as _ Hh Hp Ho.
  pose proof (sel_state_inactive p tph e Ha) as Hc. rewrite pre_fwd_client_opt in Hc.
  pose proof (sel_env_xff p tph e) as X1. pose proof (sel_env_xfh p tph e) as X2.
  unfold list_reason in S1, S2. unfold single_reason in S3, S4. unfold xf_host in Hh. unfold xf_single in Hp, Ho.
  model_names.
  constructor.
  - intros raw Ht Hl. rewrite Ht, Hl in *. destruct (cat_list_quoting raw) eqn:Eq; [discriminate|].
    exists (picked raw (Pos.to_nat p)), (xff_address (picked raw (Pos.to_nat p))).
    split; [apply pick_picked|]. split; [|split; [exact Hc|exact X1]].
    rewrite xff_hop_value, (picked_well_quoted raw p Eq). reflexivity.
  - intros Hn. rewrite Hc, X1. destruct Hn as [-> | ->]; [auto|]. destruct (has tph n_xff); auto.
  - intros raw Ht Hl. rewrite Ht, Hl in *. destruct (cat_list_quoting raw) eqn:Eq; [discriminate|].
    exists (picked raw (Pos.to_nat p)), (field_value (strip (picked raw (Pos.to_nat p)))).
    split; [apply pick_picked|]. split; [|split; [exact Hh|exact X2]].
    rewrite undquote_value, (picked_well_quoted raw p Eq). reflexivity.
  - intros Hn. rewrite Hh, X2. destruct Hn as [-> | ->]; [auto|]. destruct (has tph n_xfh); auto.
  - rewrite Hp, single_value_exact. destruct (has tph n_xfproto); [|reflexivity].
    destruct (cat_single_quoting (hdr k_xfproto e)); [discriminate|].
    destruct (cat_several_values (hdr k_xfproto e)); [discriminate|reflexivity].
  - rewrite Ho, single_value_exact. destruct (has tph n_xfport); [|reflexivity].
    destruct (cat_single_quoting (hdr k_xfport e)); [discriminate|].
    destruct (cat_several_values (hdr k_xfport e)); [discriminate|reflexivity].
  - intros key H1 H2. destruct (beqb key k_fwd) eqn:E3; [|apply sel_env_other; assumption].
    apply beqb_eq in E3. subst key. rewrite sel_env_fwd, Ha. reflexivity.
Qed.

Record fwd_selection (e : environ) (p : positive) (raw : str) (s : pst) : Prop := {
  fs_parsed : exists ps, mapM fwd_element (split raw [c_comma]) = Ok ps /\
     let suf := suffix ps (Pos.to_nat p) in
     fhost s = first_nonempty (map f_host suf) /\
     fproto s = first_nonempty (map f_proto suf) /\
     (first_nonempty (map f_for suf) <> [] -> client s = Some (first_nonempty (map f_for suf)));
  fs_port : fport s = [];
  fs_header : lookup k_fwd (env s) = Some (strip (join [c_comma] (suffix (split raw [c_comma]) (Pos.to_nat p))));
  fs_truthy : opt_truthy (fwd s) = true
}.

Lemma select_fwd e p tph raw s :
  has tph n_fwd = true -> lookup k_fwd e = Some raw -> truthy raw = true ->
  parse_select e (Zpos p) tph = Ok s -> fwd_selection e p raw s.
Proof.
  intros Ht Hl Hr H. apply select_ok_state in H as [Hs ->]. apply syntax_none in Hs as (_ & _ & _ & _ & S5).
  unfold fwd_active, hdr in S5. model_names. rewrite Ht, Hl, Hr in S5. cbn [andb] in S5.
  pose proof (forwarded_reason_bad raw) as Hb. rewrite S5 in Hb.
  unfold sel_state. fold (pre_fwd p tph e). unfold blk_fwd_get, pure_fwd. rewrite Ht. cbn [fwd].
  rewrite (pre_fwd_env p tph e k_fwd eq_refl eq_refl), Hl. destruct raw as [|c r]; [discriminate|].
  set (raw := c :: r) in *. cbv zeta.
  constructor; cbn [client fhost fproto fport env fwd opt_truthy truthy]; try reflexivity.
  - exists (map element_fields (elements raw)). split.
    + unfold elements. rewrite (mapM_decide fwd_element _ _ _ fwd_element_exact).
      change (existsb element_bad (split raw [c_comma])) with (cat_forwarded raw). rewrite <- Hb. reflexivity.
    + cbv zeta. rewrite <- !py_lastk_pos, (oldest_fields f_host t_host raw p element_host),
        (oldest_fields f_proto t_proto raw p element_proto), (oldest_fields f_for t_for raw p element_for).
      repeat split. intro Hne. destruct (fwd_oldest t_for raw (Pos.to_nat p)); [congruence|reflexivity].
  - apply lookup_set_same.
Qed.

Record applied (s s' : pst) : Prop := {
  ap_client : forall c, client s = Some c -> c <> [] ->
     lookup k_remote_addr (env s') = Some (unbracket (addr_text c)) /\
     lookup k_remote_host (env s') = Some (unbracket (addr_text c)) /\
     lookup k_remote_port (env s') = match port_text c with Some pt => Some pt | None => lookup k_remote_port (env s) end;
  ap_noclient : client s = None \/ client s = Some [] ->
     lookup k_remote_addr (env s') = lookup k_remote_addr (env s) /\
     lookup k_remote_host (env s') = lookup k_remote_host (env s) /\
     lookup k_remote_port (env s') = lookup k_remote_port (env s);
  ap_host : fhost s <> [] ->
     lookup k_server_name (env s') = Some (strip (host_text (fhost s))) \/
     lookup k_server_name (env s') = Some (fhost s) /\ has_port (fhost s) = false;
  ap_nohost : fhost s = [] ->
     lookup k_server_name (env s') = lookup k_server_name (env s) /\
     lookup k_http_host (env s') = lookup k_http_host (env s);
  ap_scheme : lookup k_url_scheme (env s') =
              match fproto s with [] => lookup k_url_scheme (env s) | _ => Some (lower_latin1 (fproto s)) end;
  ap_other : forall key, In key metadata_keys \/ lookup key (env s') = lookup key (env s);
  ap_unt : unt s' = unt s
}.

(* the seven metadata keys are what Spec.meta_out says (apply_closed); the record spells that out *)
Lemma apply_ok s s' : parse_apply s = Ok s' -> applied s s'.
Proof.
  intro H. pose proof (apply_closed s) as C. cbv zeta in C.
  destruct (cat_scheme _); [congruence|]. destruct (empty_host _); [congruence|].
  destruct (scheme_missing _ _); [congruence|]. destruct (bad_client _); [congruence|].
  destruct C as (s'' & H1 & Hu & He). rewrite H in H1. injection H1 as <-.
  assert (L : forall key, lookup key (env s') = meta_out (sel_of s) (env s) key)
    by (intro; rewrite He; apply applied_env_lookup).
  constructor; try exact Hu.
  - intros c Hc Hne. rewrite !L. unfold sel_of. rewrite Hc. destruct c; [congruence|]. repeat split; reflexivity.
  - intros Hc. rewrite !L. unfold sel_of. destruct Hc as [-> | ->]; repeat split; reflexivity.
  - intros Hne. rewrite L.
    change (meta_out (sel_of s) (env s) k_server_name)
      with (if truthy (fhost s) then Some (server_name_value (fhost s)) else lookup k_server_name (env s)).
    unfold server_name_value. destruct (fhost s); [congruence|]. destruct (has_port _); auto.
  - intros Hn. rewrite !L. unfold sel_of. rewrite Hn. split; reflexivity.
  - rewrite L. unfold sel_of. destruct (fproto s); reflexivity.
  - intro key. rewrite L. unfold meta_out, metadata_keys. cbn [In].
    destruct (meta_key_cases key) as [K|(N1 & N2 & N3 & N4 & N5 & N6 & N7)]; [left; intuition auto|right].
    model_names. rewrite N1, N2, N3, N4, N5, N6, N7. reflexivity.
Qed.

(* the selection categories give a 400, whatever the count *)
Lemma apply_malformed s : has_key k_url_scheme (env s) -> malformed_selection s ->
  exists h, parse_apply s = Malformed h.
Proof.
  intros Hk Hm. pose proof (apply_closed s) as C. cbv zeta in C. rewrite (scheme_present s Hk) in C.
  cbn [sel_of sel_proto sel_host sel_client] in C. unfold malformed_selection in Hm.
  destruct (cat_scheme (fproto s)); [eauto|]. destruct (empty_host (fhost s)); [eauto|].
  destruct (bad_client (cstr (client s))) eqn:Eb; [eauto|].
  destruct Hm as [Hm|[Hm|(cl & Hc & Hb)]]; try discriminate. rewrite Hc in Eb. cbn [cstr] in Eb. congruence.
Qed.

Lemma trusted_malformed c e :
  on_trusted_path c e = true ->
  (malformed_syntax (tph_of c) e \/
   has_key k_url_scheme e /\
   exists s, parse_select e (trusted_proxy_count c) (tph_of c) = Ok s /\ malformed_selection s) ->
  exists h, middleware c e = Malformed h.
Proof.
  intros Hp Hm. unfold middleware, on_trusted_path in *.
  destruct (lookup k_remote_addr e) as [peer|]; [|discriminate]. rewrite Hp.
  unfold parse_proxy_headers. fold (tph_of c).
  destruct (parse_select e (trusted_proxy_count c) (tph_of c)) as [s| |] eqn:Es; cbn [bind].
  - destruct Hm as [Hm|(Hk & s' & Hs' & Hc)].
    + exfalso. eapply select_ok_wellformed; eauto.
    + injection Hs' as <-.
      destruct (apply_malformed s (select_keys _ _ _ _ _ Es Hk) Hc) as [h ->]. cbn. eauto.
  - eauto.
  - exfalso. eapply select_no_exn; eauto.
Qed.
