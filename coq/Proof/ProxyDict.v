(* Dictionary lemmas for the environ of Model/Proxy.v: lookup after set / pop / conditional
   assignment, and the "agree outside a set of keys" relation of the C16 two-run theorems. *)
From Coq Require Import List NArith Bool.
From WV Require Import Lib.PyBytes Lib.PyStrProxy Spec.ProxySpec.
Import ListNotations.
Local Open Scope N_scope.

Section D.
  Context {V : Type}.
  Implicit Types d : dict V.

  Lemma lookup_set k k2 (v : V) d :
    lookup k (set k2 v d) = if beqb k k2 then Some v else lookup k d.
  Proof.
    induction d as [|[k' v'] d IH]; simpl.
    - reflexivity.
    - destruct (beqb k2 k') eqn:E2; simpl.
      + apply beqb_eq in E2. subst k'. destruct (beqb k k2); reflexivity.
      + destruct (beqb k k') eqn:E1.
        * apply beqb_eq in E1. subst k'. rewrite beqb_sym, E2. reflexivity.
        * exact IH.
  Qed.

  Lemma lookup_set_same k (v : V) d : lookup k (set k v d) = Some v.
  Proof. rewrite lookup_set, beqb_refl. reflexivity. Qed.

  Lemma lookup_set_other k k2 (v : V) d : beqb k k2 = false -> lookup k (set k2 v d) = lookup k d.
  Proof. intro H. rewrite lookup_set, H. reflexivity. Qed.

  (* d[k] = v; d[k] = v' : the first assignment fixes the position, the second the value *)
  Lemma set_set k (v v' : V) d : set k v' (set k v d) = set k v' d.
  Proof.
    induction d as [|[k' w] d IH]; simpl.
    - rewrite beqb_refl. reflexivity.
    - destruct (beqb k k') eqn:E; simpl; rewrite E; [reflexivity|]. f_equal. exact IH.
  Qed.

  Lemma lookup_pop k k2 d :
    lookup k (pop k2 d) = if beqb k k2 then None else lookup k d.
  Proof.
    induction d as [|[k' v'] d IH]; simpl.
    - destruct (beqb k k2); reflexivity.
    - destruct (beqb k2 k') eqn:E2; simpl.
      + apply beqb_eq in E2. subst k'. rewrite IH. destruct (beqb k k2); reflexivity.
      + destruct (beqb k k') eqn:E1.
        * apply beqb_eq in E1. subst k'. rewrite beqb_sym, E2. reflexivity.
        * exact IH.
  Qed.

  (* if b: d[k] = v    and    if o is not None: d[k] = o *)
  Definition cset (b : bool) (k : str) (v : V) d : dict V := if b then set k v d else d.
  Definition oset (k : str) (o : option V) d : dict V := match o with Some v => set k v d | None => d end.

  Lemma lookup_cset b k k2 (v : V) d :
    lookup k (cset b k2 v d) = if b && beqb k k2 then Some v else lookup k d.
  Proof. destruct b; [apply lookup_set|reflexivity]. Qed.

  Lemma lookup_oset k k2 (o : option V) d :
    lookup k (oset k2 o d) = match o with Some v => if beqb k k2 then Some v else lookup k d | None => lookup k d end.
  Proof. destruct o; [apply lookup_set|reflexivity]. Qed.

  Definition agree (D : str -> bool) (e1 e2 : dict V) : Prop :=
    forall k, D k = false -> lookup k e1 = lookup k e2.

  Lemma agree_sym D d1 d2 : agree D d1 d2 -> agree D d2 d1.
  Proof. intros H k Hk. symmetry. auto. Qed.

  Lemma agree_trans D d1 d2 d3 : agree D d1 d2 -> agree D d2 d3 -> agree D d1 d3.
  Proof. intros H1 H2 k Hk. rewrite H1, H2; auto. Qed.

  Lemma agree_set D k (v : V) d1 d2 : agree D d1 d2 -> agree D (set k v d1) (set k v d2).
  Proof. intros H k' Hk'. rewrite !lookup_set. destruct (beqb k' k); auto. Qed.

  Lemma agree_pop D k d1 d2 : agree D d1 d2 -> agree D (pop k d1) (pop k d2).
  Proof. intros H k' Hk'. rewrite !lookup_pop. destruct (beqb k' k); auto. Qed.

  Lemma agree_set_in_l D k (v : V) d1 d2 : D k = true -> agree D d1 d2 -> agree D (set k v d1) d2.
  Proof.
    intros HD H k' Hk'. rewrite lookup_set. destruct (beqb k' k) eqn:E; auto.
    apply beqb_eq in E. subst. congruence.
  Qed.

  Lemma agree_pop_in_l D k d1 d2 : D k = true -> agree D d1 d2 -> agree D (pop k d1) d2.
  Proof.
    intros HD H k' Hk'. rewrite lookup_pop. destruct (beqb k' k) eqn:E; auto.
    apply beqb_eq in E. subst. congruence.
  Qed.

  Lemma agree_lookup D k d1 d2 : agree D d1 d2 -> D k = false -> lookup k d1 = lookup k d2.
  Proof. auto. Qed.
End D.

Lemma agree_off_agree D (e1 e2 : dict str) : agree_off D e1 e2 <-> agree D e1 e2.
Proof. reflexivity. Qed.
