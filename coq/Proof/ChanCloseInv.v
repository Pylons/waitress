(* Proof/ChanCloseInv.v -- the invariant of Model/ChanClose.v holds initially and is preserved
   by every step, hence in every reachable state, for every schedule and every lookahead;
   what acceptance by the monitor (the executable form of C11) means by positions in a trace; the
   monitor accepts every trace of the model, counting close decisions of EVERY kind ([covered],
   like [all_kinds], is constantly true: no kind is left out). *)
From Coq Require Import List Arith Bool Lia.
From WV Require Import Lib.Conc Model.ChanClose Proof.ChanCloseBase Proof.ChanCloseTok
  Proof.ChanCloseSafe.
Import ListNotations.

Lemma Inv_init : forall L, Inv (init L).
Proof.
  intro L. constructor; simpl; unfold tokio; simpl; try tauto; try congruence; try lia;
  try (intros; split; intros; discriminate); try (intros; intuition discriminate).
Qed.

Lemma Inv_io {s e s' l} : Inv s -> step_io s e = Some (s', l) -> Inv s'.
Proof.
  intros I H. pose proof (i_mret s I) as MR.
  destruct (io_step I H) as (LM & T & R & Q).
  destruct (flags_mono (c := CIo e) H) as (WC & CN & _).
  (* the parts that read the new program point *)
  assert (P : (io s' = IoRCadd -> reqs s' <> []) /\
              (io s' = IoM2 \/ io s' = IoRCappX -> reqs s' = []) /\
              (mret s' = IoTop \/ mret s' = IoSel) /\
              (cwf s' = true \/ io s' = IoHW1b \/ io s' = IoHW2 \/ io s' = IoHW3 -> gdec s' = true) /\
              (gdec s = false -> gdec s' = true -> conn s' = false \/ wc s' = true)).
  { assert (M : io s = IoM2 \/ io s = IoRCappX -> reqs s = [])
      by (intros [E|E]; [exact (i_m2 s I E) | exact (i_appx s I E)]).
    pose proof (i_cwf s I) as C. clear - H MR M C.
    io_inv H; mret_cases MR; (split; [|split; [|split; [|split]]];
    [ intro E; try discriminate E; intro R; rewrite R in *; discriminate
    | intros [E|E]; try discriminate E; reflexivity
    | auto
    | intros [X|[X|[X|X]]]; try discriminate X; try apply orb_true_r; apply C; auto
    | intros G X; rewrite G in X; try discriminate X; auto ]). }
  destruct P as (Hreqs_io & Hnil & Hmret & Hcwf & Hdec). destruct (io_frame H) as (W & S).
  constructor; rewrite ?W, ?S.
  - (* i_lock_io *) exact (lock_move_self LM (i_lock_io s I)).
  - (* i_lock_wk *) intro w'. refine (lock_move_other _ LM (i_lock_io s I) (i_lock_wk s I w')). discriminate.
  - (* i_lock_sd *) refine (lock_move_not _ LM (i_lock_io s I) (i_lock_sd s I)). discriminate.
  - (* i_q1 *) destruct Q as [-> | (T0 & _ & ->)]; [apply (i_q1 s I) | rewrite (no_entry s I); auto].
  - (* i_q_excl *) destruct Q as [-> | (T0 & T' & _)].
    + intro Q. destruct (i_q_excl s I Q) as (A & T0 & S0). repeat split; auto.
      intro T'. destruct (T T') as [X|(_ & X)]; [auto | exact (i_reqs_q s I Q X)].
    + intros _. repeat split; auto using no_active_of_tokio, (i_tok_sd s I).
  - (* i_act_uniq *) exact (i_act_uniq s I).
  - (* i_act_excl *) intros w' A. destruct (i_act_excl s I w' A) as (T0 & S0). split; [|exact S0]. intro T'.
    destruct (T T') as [X|(E & X)]; [auto | exact (active_not_first s w' I A E X)].
  - (* i_tok_sd *) intro T'. destruct (T T') as [X|(_ & X)]; [exact (i_tok_sd s I X)|].
    pose proof (i_reqs_sd s I) as RS. destruct (sd s); auto; elim RS; auto; discriminate.
  - (* i_reqs_q *) destruct Q as [-> | (T0 & _)]; [intro X; apply R, (i_reqs_q s I X) | intros _; apply R, tokio_reqs; auto].
  - (* i_reqs_io *) exact Hreqs_io.
  - (* i_reqs_wk *) intros w' X. apply R, (i_reqs_wk s I w' X).
  - (* i_reqs_sd *) intro X. apply R, (i_reqs_sd s I X).
  - (* i_m2 *) auto.
  - (* i_appx *) auto.
  - (* i_mret *) exact Hmret.
  - (* i_cwf *) exact Hcwf.
  - (* i_safe *) apply (safe_step (c := CIo e) I H). intros G G'. destruct (Hdec G G'); auto.
  - (* i_late *) intros w' X. destruct (i_late s I w' X); auto.
  - (* i_late_b *) intros w' X. apply WC, (i_late_b s I w' X).
Qed.

Lemma Inv_wk {s w e s' l} : Inv s -> step_wk s w e = Some (s', l) -> Inv s'.
Proof.
  intros I H. destruct (wk_step H) as (LM & Q & R & RN). pose proof (wk_tokio I H) as T.
  destruct (flags_mono (c := CWk w e) H) as (WC & CN & _).
  pose proof (i_q1 s I) as Q1. pose proof (i_act_uniq s I) as U.
  (* the parts about worker w itself, by its program point *)
  assert (P : (queue s' = 1 -> reqs s' <> []) /\
              (prepop (wk s' w) = true -> reqs s' <> []) /\
              (cwf s' = true \/ io s' = IoHW1b \/ io s' = IoHW2 \/ io s' = IoHW3 -> gdec s' = true) /\
              (gdec s = false -> gdec s' = true -> conn s' = false \/ Closed s' \/ wc s' = true) /\
              (late_early (wk s' w) = true -> conn s' = false \/ wc s' = true) /\
              (late_b (wk s' w) = true -> wc s' = true)).
  { pose proof (i_reqs_q s I) as RQ. pose proof (i_reqs_wk s I w) as RW.
    assert (Aw : queue s = 1 -> active (wk s w) = false) by (intro X; apply (i_q_excl s I X)).
    pose proof (i_cwf s I) as C. pose proof (i_late s I w) as LE. pose proof (i_late_b s I w) as LB.
    pose proof (i_safe s I) as SF.
    assert (ST : Closed s -> starter (wk s w) = false) by (intros (_ & _ & _ & X & _); apply X).
    clear - I H RQ RW Aw C LE LB SF ST Q1.
    wk_inv H; rewrite ?Nat.eqb_refl; (split; [|split; [|split; [|split; [|split]]]];
    [ try exact RQ; intro X; try (exfalso; lia); try discriminate (Aw X); apply RW; reflexivity
    | try exact RW; try discriminate; intros _; apply RQ; lia
    | intro X; try apply orb_true_r; exact (C X)
    | intros G X; rewrite G in X; try discriminate X; auto;
      right; left; apply worker_close_closes; assumption
    | try discriminate; try exact LE; intro G; destruct (gdec s); try discriminate G;
      destruct (SF eq_refl) as [X|[X|X]]; auto; discriminate (ST X)
    | try discriminate; try exact LB; intro G; destruct (LE G) as [X|X]; (discriminate X || exact X) ]). }
  destruct P as (Hreqs_q & Hreqs_w & Hcwf & Hdec & Hlate & Hlate_b).
  destruct (wk_frame H) as (EI & ES & EM & W).
  (* if w is active afterwards it was, or it has just taken the entry: nobody else holds a token *)
  assert (NH : active (wk s' w) = true ->
               (forall w', w' <> w -> active (wk s w') = false) /\ ~ tokio s /\ sd s = SdIdle).
  { intro A'. destruct Q as [(_ & A) | [E | (_ & _ & A)]]; [| |congruence].
    - destruct (i_act_excl s I w (A A')). split; [apply (no_other_active s w I (A A')) | auto].
    - destruct (q1_excl s I _ E) as (A0 & X). auto. }
  constructor; rewrite ?EI, ?ES, ?EM.
  - (* i_lock_io *) refine (lock_move_other _ LM (i_lock_wk s I w) (i_lock_io s I)). discriminate.
  - (* i_lock_wk *) intro w'. destruct (Nat.eq_dec w' w) as [->|N].
    + exact (lock_move_self LM (i_lock_wk s I w)).
    + rewrite (W w' N).
      refine (lock_move_other _ LM (i_lock_wk s I w) (i_lock_wk s I w')). congruence.
  - (* i_lock_sd *) refine (lock_move_not _ LM (i_lock_wk s I w) (i_lock_sd s I)). discriminate.
  - (* i_q1 *) destruct Q as [(-> & _) | [E | (-> & A & _)]]; [exact Q1 | lia | rewrite (no_entry s I); eauto].
  - (* i_q_excl *) destruct Q as [(-> & A') | [E | (E & A & A')]]; intro X.
    + destruct (i_q_excl s I X) as (A & T0 & S). repeat split; auto.
      intro w'. destruct (Nat.eq_dec w' w) as [->|N]; [|rewrite (W w' N); apply A].
      destruct (active (wk s' w)); auto. rewrite <- (A w). symmetry. auto.
    + lia.
    + destruct (i_act_excl s I w A) as (T0 & S). repeat split; auto.
      intro w'. destruct (Nat.eq_dec w' w) as [->|N]; [exact A'|].
      rewrite (W w' N). apply (no_other_active s w); auto.
  - (* i_act_uniq *) intros w1 w2 A1 A2. destruct (Nat.eq_dec w1 w) as [->|N1], (Nat.eq_dec w2 w) as [->|N2]; auto.
    + rewrite (W _ N2) in A2. destruct (NH A1) as (O & _). rewrite (O w2 N2) in A2. discriminate A2.
    + rewrite (W _ N1) in A1. destruct (NH A2) as (O & _). rewrite (O w1 N1) in A1. discriminate A1.
    + rewrite (W _ N1) in A1. rewrite (W _ N2) in A2. auto.
  - (* i_act_excl *) intros w' A'. assert (X : ~ tokio s /\ sd s = SdIdle).
    { destruct (Nat.eq_dec w' w) as [->|N]; [apply (NH A') | rewrite (W w' N) in A'; exact (i_act_excl s I w' A')]. }
    destruct X. auto.
  - (* i_tok_sd *) intro X. apply (i_tok_sd s I), T, X.
  - (* i_reqs_q *) exact Hreqs_q.
  - (* i_reqs_io *) intro E. rewrite (wk_reqs_locked I H); [exact (i_reqs_io s I E) | rewrite E; reflexivity].
  - (* i_reqs_wk *) intro w'. destruct (Nat.eq_dec w' w) as [->|N]; [exact Hreqs_w|]. rewrite (W w' N). intro X.
    destruct R as [-> | (A & _)]; [exact (i_reqs_wk s I w' X)|].
    elim N. apply U; auto using prepop_active.
  - (* i_reqs_sd *) intro X. destruct R as [-> | (A & _)]; [exact (i_reqs_sd s I X)|].
    elim X. apply (i_act_excl s I w A).
  - (* i_m2 *) intro E. apply RN, (i_m2 s I E).
  - (* i_appx *) intro E. apply RN, (i_appx s I E).
  - (* i_mret *) exact (i_mret s I).
  - (* i_cwf *) rewrite EI in Hcwf. exact Hcwf.
  - (* i_safe *) exact (safe_step (c := CWk w e) I H Hdec).
  - (* i_late *) intro w'. destruct (Nat.eq_dec w' w) as [->|N]; [exact Hlate|]. rewrite (W w' N). intro X.
    destruct (i_late s I w' X); auto.
  - (* i_late_b *) intro w'. destruct (Nat.eq_dec w' w) as [->|N]; [exact Hlate_b|]. rewrite (W w' N). intro X.
    apply WC, (i_late_b s I w' X).
Qed.

Lemma Inv_sd {s s' l} : Inv s -> step_sd s = Some (s', l) -> Inv s'.
Proof.
  intros I H. destruct (sd_step H) as (PC & ID & Q & T & RN).
  destruct (flags_mono (c := CSd) H) as (WC & CN & GD).
  pose proof (i_q1 s I) as Q1.
  assert (P : (sd s' <> SdIdle -> reqs s' <> []) /\
              (gdec s = false -> gdec s' = true -> conn s' = false \/ wc s' = true)).
  { pose proof (i_reqs_sd s I) as RS. pose proof (i_reqs_q s I) as RQ. clear - H RS RQ Q1.
    sd_inv H; (split;
    [ intro S; try (now elim S); try (apply RS; discriminate); apply RQ; lia
    | intros G X; rewrite G in X; try discriminate X; auto ]). }
  destruct P as (Hreqs_sd & Hdec). destruct (sd_frame H) as (W & RL & CW & EM).
  constructor; rewrite ?W, ?RL, ?CW, ?EM.
  - (* i_lock_io *) pose proof (i_lock_io s I) as L. destruct PC as [-> | (E & -> & _)]; [|rewrite E in L]; exact L.
  - (* i_lock_wk *) exact (i_lock_wk s I).
  - (* i_lock_sd *) exact (i_lock_sd s I).
  - (* i_q1 *) destruct Q as [(-> & _) | E]; [exact Q1 | lia].
  - (* i_q_excl *) destruct Q as [(-> & S') | E]; intro X; [|lia].
    destruct (i_q_excl s I X) as (A & T0 & S). repeat split; auto.
  - (* i_act_uniq *) exact (i_act_uniq s I).
  - (* i_act_excl *) intros w' A. destruct (i_act_excl s I w' A) as (T0 & S).
    destruct Q as [(_ & S') | E]; [split; auto|]. destruct (q1_excl s I _ E) as (A0 & _). congruence.
  - (* i_tok_sd *) intro T'. pose proof (T T') as T0.
    destruct Q as [(_ & S') | E]; [exact (S' (i_tok_sd s I T0))|].
    destruct (q1_excl s I _ E) as (_ & X & _). contradiction.
  - (* i_reqs_q *) destruct Q as [(-> & _) | E]; intro X; [|lia].
    destruct (ID (proj2 (proj2 (i_q_excl s I X)))) as (-> & _). exact (i_reqs_q s I X).
  - (* i_reqs_io *) intro E. destruct PC as [E' | (_ & E' & _)]; rewrite E' in E; [|discriminate E].
    destruct ID as (-> & _); [apply (i_tok_sd s I); left; exact E | exact (i_reqs_io s I E)].
  - (* i_reqs_wk *) intros w' X.
    destruct ID as (-> & _); [apply (i_act_excl s I w'); auto using prepop_active | exact (i_reqs_wk s I w' X)].
  - (* i_reqs_sd *) exact Hreqs_sd.
  - (* i_m2 *) intro E. destruct PC as [E' | (_ & E' & _)]; rewrite E' in E; [|discriminate E]. apply RN, (i_m2 s I E).
  - (* i_appx *) intro E. destruct PC as [E' | (_ & _ & X)]; [|exact X]. rewrite E' in E. apply RN, (i_appx s I E).
  - (* i_mret *) exact (i_mret s I).
  - (* i_cwf *) intro X. apply GD, (i_cwf s I). destruct PC as [E | (_ & E & _)]; rewrite E in X; [exact X|].
    destruct X as [X|[X|[X|X]]]; [auto | discriminate X..].
  - (* i_safe *) apply (safe_step (c := CSd) I H). intros G G'. destruct (Hdec G G'); auto.
  - (* i_late *) intros w' X. destruct (i_late s I w' X); auto.
  - (* i_late_b *) intros w' X. apply WC, (i_late_b s I w' X).
Qed.

Lemma Inv_step : forall s c s' l, Inv s -> step s c = Some (s', l) -> Inv s'.
Proof.
  intros s c s' l I H. destruct c as [e|w e|]; simpl in H.
  - exact (Inv_io I H).
  - exact (Inv_wk I H).
  - exact (Inv_sd I H).
Qed.

Theorem Inv_run : forall L sched, Inv (run step (init L) sched).
Proof.
  intros L sched. apply (invariant_rule _ _ _ step Inv).
  - apply Inv_init.
  - intros; eapply Inv_step; eauto.
Qed.

Theorem requests_lock_exclusive : forall L sched,
  let s := run step (init L) sched in
  (rlock s = Some ByIO <-> io_holds (io s) = true) /\
  (forall w, rlock s = Some (ByW w) <-> wk_holds (wk s w) = true).
Proof.
  intros L sched s. pose proof (Inv_run L sched) as I. fold s in I. split.
  - apply (i_lock_io s I).
  - apply (i_lock_wk s I).
Qed.

(* The monitor by itself: what an accepted trace means, by positions. *)
Definition mrun (good : dkind -> bool) (tr : list label) (m : mon) : mon := fold_left (mon_step good) tr m.

Lemma mem_cons : forall k x l, mem k (x :: l) = (k =? x) || mem k l.
Proof. reflexivity. Qed.
Local Arguments mem : simpl never.

Lemma mrun_app : forall good a b m, mrun good (a ++ b) m = mrun good b (mrun good a m).
Proof. intros. unfold mrun. apply fold_left_app. Qed.

Section MonitorSound.
  Variable good : dkind -> bool.

  Lemma mem_refl : forall k l, mem k (k :: l) = true.
  Proof. intros. rewrite mem_cons, Nat.eqb_refl. reflexivity. Qed.

  Lemma mrun_cons : forall x t m, mrun good (x :: t) m = mrun good t (mon_step good m x).
  Proof. reflexivity. Qed.

  (* what every monitor step keeps, the run keeps *)
  Lemma mrun_keeps (P : mon -> Prop) : (forall m x, P m -> P (mon_step good m x)) ->
    forall tr m, P m -> P (mrun good tr m).
  Proof. exact (fold_left_keeps (mon_step good) P). Qed.

  Lemma ok_step_false : forall m x, m_ok m = false -> m_ok (mon_step good m x) = false.
  Proof. intros m x H. destruct x; simpl; auto; rewrite H; reflexivity. Qed.

  Lemma ok_sticky : forall tr m, m_ok m = false -> m_ok (mrun good tr m) = false.
  Proof. exact (mrun_keeps _ ok_step_false). Qed.

  Lemma dec_mono : forall tr m, m_dec m = true -> m_dec (mrun good tr m) = true.
  Proof. apply mrun_keeps. intros m x H. destruct x; simpl; auto; rewrite H; reflexivity. Qed.

  Lemma started_mono : forall tr m k, mem k (m_started m) = true -> mem k (m_started (mrun good tr m)) = true.
  Proof.
    intros tr m k. revert tr m. apply mrun_keeps. intros m x H.
    destruct x; simpl; auto. rewrite mem_cons, H. apply orb_true_r.
  Qed.

  Lemma late_mono : forall tr m k, mem k (m_late m) = true -> mem k (m_late (mrun good tr m)) = true.
  Proof.
    intros tr m k. revert tr m. apply mrun_keeps. intros m x H.
    destruct x; simpl; auto. destruct (m_dec m); auto. rewrite mem_cons, H. apply orb_true_r.
  Qed.

  Lemma app_late_fails : forall tr m k r,
    In (LAppCall k r) tr -> mem k (m_late m) = true -> m_ok (mrun good tr m) = false.
  Proof.
    intros tr m k r HI HL. apply in_split in HI. destruct HI as (t1 & t2 & ->).
    rewrite mrun_app. simpl. apply ok_sticky. simpl.
    rewrite (late_mono t1 m k HL). simpl. apply andb_false_r.
  Qed.

  Lemma app_before_start_fails : forall t1 t2 m k r,
    In (LAppCall k r) t1 -> m_ok (mrun good (t1 ++ LServiceStart k :: t2) m) = false.
  Proof.
    intros t1 t2 m k r HI. apply in_split in HI. destruct HI as (a & b & ->).
    rewrite <- app_assoc, mrun_app. rewrite <- app_comm_cons, mrun_cons, mrun_app, mrun_cons.
    set (m0 := mrun good a m).
    destruct (mem k (m_started m0)) eqn:E.
    - (* k was started before: the second start is refused *)
      set (m1 := mon_step good m0 (LAppCall k r)).
      assert (E1 : mem k (m_started m1) = true) by (unfold m1; simpl; exact E).
      pose proof (started_mono b m1 k E1) as E2.
      apply ok_sticky. simpl. rewrite E2. simpl. apply andb_false_r.
    - apply ok_sticky.
      assert (F : m_ok (mrun good b (mon_step good m0 (LAppCall k r))) = false).
      { apply ok_sticky. simpl. rewrite E. rewrite andb_false_r. reflexivity. }
      apply ok_step_false. exact F.
  Qed.

  Theorem monitor_sound : forall tr, monitor good tr = true ->
    forall i j kd k, nth_error tr i = Some (LDecide kd) -> good kd = true ->
      nth_error tr j = Some (LServiceStart k) -> i < j ->
      forall r, ~ In (LAppCall k r) tr.
  Proof.
    intros tr M i j kd k Hi G Hj Lt r HA.
    unfold monitor in M. fold (mrun good tr mon0) in M.
    destruct (nth_error_split2 Hi Hj Lt) as (a & b1 & b2 & ->).
    assert (HA' : In (LAppCall k r) (a ++ LDecide kd :: b1) \/ In (LAppCall k r) b2).
    { apply in_app_or in HA. destruct HA as [HA|[HA|HA]]; [left; apply in_or_app; auto | discriminate |].
      apply in_app_or in HA. destruct HA as [HA|[HA|HA]]; [| discriminate | right; exact HA].
      left. apply in_or_app. right. right. exact HA. }
    replace (a ++ LDecide kd :: b1 ++ LServiceStart k :: b2)
      with ((a ++ LDecide kd :: b1) ++ LServiceStart k :: b2) in M
      by (rewrite <- app_assoc; reflexivity).
    destruct HA' as [HA'|HA'].
    - rewrite (app_before_start_fails _ _ _ _ _ HA') in M. discriminate.
    - rewrite mrun_app, mrun_cons in M.
      assert (D : m_dec (mrun good (a ++ LDecide kd :: b1) mon0) = true).
      { rewrite mrun_app, mrun_cons. apply dec_mono. simpl. rewrite G. apply orb_true_r. }
      erewrite app_late_fails in M; [discriminate | exact HA' |].
      simpl. rewrite D. apply mem_refl.
  Qed.
End MonitorSound.

(* The monitor follows the model: TInv ties the monitor's state to the model's along every run. *)
Definition early_sid (p : wpc) : option (nat * bool) :=
  match p with
  | WSvc0 k lt => Some (k, lt)
  | WSvc1 k lt _ => Some (k, lt)
  | WSvc1b k lt _ => Some (k, lt)
  | _ => None
  end.

Record TInv (s : state) (m : mon) : Prop := mkTInv {
  t_dec : m_dec m = gdec s;
  t_ok : m_ok m = true;
  t_notlate : forall w k, early_sid (wk s w) = Some (k, false) -> mem k (m_late m) = false;
  t_started : forall w k lt, early_sid (wk s w) = Some (k, lt) -> mem k (m_started m) = true;
  t_fresh : forall k, mem k (m_started m) = true -> k < nsvc s;
  t_late_fresh : forall k, mem k (m_late m) = true -> k < nsvc s
}.

Lemma TInv_init : forall L, TInv (init L) mon0.
Proof. intro L. constructor; simpl; intros; try reflexivity; try discriminate. Qed.

Lemma mem_fresh_false : forall n l, (forall k, mem k l = true -> k < n) -> mem n l = false.
Proof.
  intros n l F. destruct (mem n l) eqn:E; auto. apply F in E. lia.
Qed.

(* a step of worker w that leaves the monitor's lists alone, starts no invocation, and leaves w
   outside the early phase or in it with the same invocation *)
Lemma TInv_keep s s' m m' w : TInv s m ->
  m_dec m' = gdec s' -> m_ok m' = true -> m_late m' = m_late m -> m_started m' = m_started m ->
  nsvc s' = nsvc s -> (forall w', w' <> w -> wk s' w' = wk s w') ->
  (forall k lt, early_sid (wk s' w) = Some (k, lt) -> early_sid (wk s w) = Some (k, lt)) ->
  TInv s' m'.
Proof.
  intros [TD TO TN TS TF TL] D O L St N W E.
  assert (E' : forall w' k lt, early_sid (wk s' w') = Some (k, lt) -> early_sid (wk s w') = Some (k, lt)).
  { intro w'. destruct (Nat.eq_dec w' w) as [->|X]; [exact E | rewrite (W w' X); auto]. }
  constructor; rewrite ?L, ?St, ?N; eauto.
Qed.

Lemma TInv_step : forall s m c s' l, Inv s -> TInv s m -> step s c = Some (s', l) ->
  TInv s' (mrun covered l m).
Proof.
  intros s m c s' l I T H. destruct T as [TD TO TN TS TF TL].
  destruct c as [e|w e|]; simpl in H.
  - io_inv H; constructor; simpl; auto; rewrite TD; reflexivity.
  - pose proof (i_late_b s I w) as LT.
    pose proof (mem_fresh_false _ _ TF) as FR. pose proof (mem_fresh_false _ _ TL) as FRL.
    pose proof (TN w) as TNw. pose proof (TS w) as TSw.
    pose proof (TInv_keep s s' m (mrun covered l m) w (mkTInv s m TD TO TN TS TF TL)) as K.
    destruct (wk_frame H) as (_ & _ & _ & W).
    wk_inv H; unfold mrun in *; simpl in *; rewrite ?Nat.eqb_refl in K.
    all: try solve [apply K; auto; try (rewrite TD; reflexivity); intros k0 lt0 X; (discriminate X || exact X)].
    all: try solve [constructor; simpl; auto; rewrite TD; reflexivity].
    + (* WPopped: service() is entered *)
      constructor; simpl.
      * exact TD.
      * rewrite TO, FR. reflexivity.
      * intros w1 k1. destruct (Nat.eqb_spec w1 w); simpl.
        -- intro E. injection E as <- G. rewrite TD, G. exact FRL.
        -- intro E. pose proof (TN w1 k1 E) as A. pose proof (TF k1 (TS w1 k1 false E)) as B.
           destruct (m_dec m); auto. rewrite mem_cons, A.
           destruct (Nat.eqb_spec k1 (nsvc s)); [lia|reflexivity].
      * intros w1 k1 lt1. rewrite mem_cons. destruct (Nat.eqb_spec w1 w); simpl.
        -- intro E. injection E as <- _. rewrite Nat.eqb_refl. reflexivity.
        -- intro E. rewrite (TS w1 k1 lt1 E). apply orb_true_r.
      * intros k Hk. rewrite mem_cons in Hk. destruct (Nat.eqb_spec k (nsvc s)); [lia|].
        simpl in Hk. apply TF in Hk. lia.
      * intros k Hk. destruct (m_dec m); [|apply TL in Hk; lia].
        rewrite mem_cons in Hk. destruct (Nat.eqb_spec k (nsvc s)); [lia|].
        simpl in Hk. apply TL in Hk. lia.
    + (* WSvc1b, will_close not set, a valid request: the application is called *)
      assert (late = false) by (destruct late; auto; simpl in LT; specialize (LT eq_refl); congruence).
      subst late. apply K; auto; [|discriminate].
      rewrite TO, (TSw sid false eq_refl), (TNw sid eq_refl). reflexivity.
  - sd_inv H; constructor; simpl; auto; rewrite TD; reflexivity.
Qed.

Theorem monitor_accepts : forall L sched,
  monitor covered (trace step (init L) sched) = true.
Proof.
  intros L sched.
  pose proof (invariant_rule_tr _ _ _ step
    (fun s tr => Inv s /\ TInv s (mrun covered tr mon0)) (init L)) as R.
  destruct (R (conj (Inv_init L) (TInv_init L))) with (sched := sched) as [_ T].
  - intros s tr c s' l [I T] H. split.
    + eapply Inv_step; eauto.
    + rewrite mrun_app. eapply TInv_step; eauto.
  - apply (t_ok _ _ T).
Qed.
