(* The request-line part of the environ against Spec/Pep3333: percent-decoding
   (unquote_pct), the two cuts at "#" and "?" in terms of the specification's
   until / from (cut_match), what split_uri leaves of a target (model_hier,
   split_uri_ok, split_uri_spec), the leading-slash rule and the url_prefix
   split (environ_path_spec), and the request line: crack_first_line inverted
   once (crack_first_line_ok), the method an upper-case visible-ASCII token
   (crack_first_line_method), the pieces as they sit in the line
   (crack_first_line_shape, through join_split). *)
From Coq Require Import List NArith ZArith Bool Lia.
From RecordUpdate Require Import RecordUpdate.
From WV Require Import Lib.PyBytes Lib.Regex Gen.GenRegex Model.Receiver Model.UrlSplit Model.Parser
  Model.Environ Spec.Grammar Spec.Pep3333 Proof.PyBytesFacts Proof.RegexFacts Proof.UrlSplitFacts Proof.C10RequestLine Proof.EnvironDict
  Proof.EnvironFields.
Import ListNotations.
Local Open Scope N_scope.

Lemma hexval_hexdig x : hexval x = hexdig x.
Proof.
  unfold hexval, hexdig, digit.
  destruct ((48 <=? x) && (x <=? 57)) eqn:D; auto.
  destruct ((97 <=? x) && (x <=? 102)) eqn:L; destruct ((65 <=? x) && (x <=? 70)) eqn:U; auto.
  apply andb_true_iff in L as [L1 L2]. apply andb_true_iff in U as [U1 U2].
  apply N.leb_le in L1. apply N.leb_le in U2. lia.
Qed.

(* unquote_fuel matches on the numeral 37, which Coq compiles to a match on the
   bits of x: the second half of the proof walks those bits to see that a byte
   other than 37 takes the default branch *)
Lemma unquote_fuel_step f x s :
  unquote_fuel (S f) (x :: s) =
  if x =? 37 then
    match s with
    | a :: b :: s' =>
      match hexval a, hexval b with
      | Some ha, Some hb => (16 * ha + hb) :: unquote_fuel f s'
      | _, _ => x :: unquote_fuel f s
      end
    | _ => x :: unquote_fuel f s
    end
  else x :: unquote_fuel f s.
Proof.
  destruct (x =? 37) eqn:E.
  - apply N.eqb_eq in E. subst x. destruct s as [|a [|b s']]; reflexivity.
  - destruct s as [|a [|b s']];
      (destruct x as [|p]; [reflexivity|];
       do 6 (try (destruct p as [p|p|]; try reflexivity)); try reflexivity; try discriminate E).
Qed.

Lemma unquote_fuel_pct : forall f s, (length s < f)%nat -> unquote_fuel f s = pct_decode s.
Proof.
  induction f as [|f IH]; intros s H; [lia|].
  destruct s as [|x s]; [reflexivity|].
  rewrite unquote_fuel_step. cbn [pct_decode]. cbn [length] in H.
  destruct (x =? 37).
  - destruct s as [|a [|b s']].
    + rewrite IH by (cbn [length] in *; lia). reflexivity.
    + rewrite IH by (cbn [length] in *; lia). reflexivity.
    + rewrite <- !hexval_hexdig. cbn [length] in H.
      destruct (hexval a), (hexval b); rewrite IH by (cbn [length] in *; lia); reflexivity.
  - rewrite IH by lia. reflexivity.
Qed.

Lemma unquote_pct s : unquote_to_bytes s = pct_decode s.
Proof. unfold unquote_to_bytes. apply unquote_fuel_pct. lia. Qed.

Definition cut1 (s : bytes) (c : N) : bytes * bytes :=
  match find s [c] with
  | Some i => (firstn i s, skipn (S i) s)
  | None => (s, [])
  end.

Definition tail_of (s : bytes) : bytes := match s with _ :: r => r | [] => [] end.

(* s.find(c) and the two slices around it, as Model/UrlSplit.v spells it and as
   [cut1] names it: the text before the first c and the text after it *)
Lemma cut_match s c :
  match find s [c] with Some i => (firstn i s, skipn (S i) s) | None => (s, []) end
  = (until (N.eqb c) s, tail_of (from (N.eqb c) s)).
Proof.
  induction s as [|x s IH]; [reflexivity|].
  rewrite find1_cons. cbn [until from]. destruct (c =? x); [reflexivity|].
  destruct (find s [c]) as [i|]; cbn [option_map firstn skipn] in *; injection IH as IH1 IH2.
  - rewrite IH1, <- IH2. reflexivity.
  - rewrite <- IH1 at 1. rewrite <- IH2. reflexivity.
Qed.

(* the query component of what is left of a target: after the first "?" if
   that comes before any "#", up to the next "#" *)
Definition qpart (u : bytes) : bytes :=
  match from path_end u with
  | x :: q => if x =? 63 then until (N.eqb 35) q else []
  | [] => []
  end.

Lemma path_query_cut s :
  until (N.eqb 63) (until (N.eqb 35) s) = until path_end s /\
  tail_of (from (N.eqb 63) (until (N.eqb 35) s)) = qpart s.
Proof.
  unfold qpart. induction s as [|x s [IH1 IH2]]; [split; reflexivity|].
  unfold path_end in *. cbn [until from].
  rewrite (N.eqb_sym 35 x).
  destruct (x =? 35) eqn:E35.
  - apply N.eqb_eq in E35. subst x. split; reflexivity.
  - cbn [until from]. rewrite (N.eqb_sym 63 x). destruct (x =? 63) eqn:E63; cbn [orb].
    + rewrite E63. split; reflexivity.
    + split; [f_equal; exact IH1 | exact IH2].
Qed.

(* the model's "#" then "?" split of what is left of the target *)
Lemma tail_cut u :
  let '(u5, fragment) := cut1 u 35 in
  let '(path, query) := cut1 u5 63 in
  path = until path_end u /\
  query = match from path_end u with
          | x :: q => if x =? 63 then until (N.eqb 35) q else []
          | [] => []
          end.
Proof.
  unfold cut1. rewrite !cut_match. apply path_query_cut.
Qed.

Lemma firstn2_two_slashes u : beqb (firstn 2 u) [47; 47] = two_slashes u.
Proof.
  destruct u as [|x [|y r]]; try reflexivity.
  - cbn. rewrite andb_false_r. reflexivity.
  - cbn [firstn beqb two_slashes]. rewrite andb_true_r. reflexivity.
Qed.

Lemma startswith_two_slashes u : startswith u [47; 47] = two_slashes u.
Proof.
  destruct u as [|x [|y r]]; try reflexivity.
  - cbn. rewrite andb_false_r. reflexivity.
  - cbn [startswith two_slashes]. rewrite (N.eqb_sym 47 x), (N.eqb_sym 47 y).
    destruct r; rewrite andb_true_r; reflexivity.
Qed.

Lemma until_from_app f s : until f s ++ from f s = s.
Proof. induction s as [|x s IH]; cbn [until from app]; [reflexivity|]. destruct (f x); [reflexivity|]. cbn [app]. f_equal. exact IH. Qed.

Lemma from_lstrip f s : from f s = lstrip_by (fun x => negb (f x)) s.
Proof. induction s as [|x s IH]; cbn [from lstrip_by]; [reflexivity|]. destruct (f x); cbn [negb]; auto. Qed.

Lemma cut_at_until f s : cut_at f s = (until f s, from f s).
Proof.
  pose proof (cut_at_spec f s) as H. destruct (cut_at f s) as [a b]. destruct H as (Hs & _ & ->).
  rewrite <- from_lstrip in *. f_equal. apply (app_inv_tail (from f s)).
  rewrite Hs. symmetry. apply until_from_app.
Qed.

Lemma scheme_rest_find s :
  match find s [58] with
  | Some j => scheme_rest s = if forallb is_scheme_char (firstn j s) then Some (skipn (S j) s) else None
  | None => scheme_rest s = None
  end.
Proof.
  induction s as [|x s IH]; [reflexivity|].
  rewrite find1_cons. cbn [scheme_rest]. rewrite (N.eqb_sym 58 x). destruct (x =? 58); [reflexivity|].
  change (scheme_char x) with (is_scheme_char x).
  destruct (find s [58]) as [j|]; cbn [option_map firstn forallb skipn]; rewrite IH;
    destruct (is_scheme_char x); reflexivity.
Qed.

Lemma us_scheme_spec t :
  snd (us_scheme t) = match after_scheme t with Some r => r | None => t end.
Proof.
  unfold us_scheme, after_scheme. destruct t as [|c0 t']; [reflexivity|].
  rewrite find1_cons. destruct (58 =? c0) eqn:E.
  - apply N.eqb_eq in E. subst c0. reflexivity.
  - pose proof (scheme_rest_find t') as SR. change (alpha c0) with (is_alpha c0).
    destruct (find t' [58]) as [j|]; cbn [option_map]; rewrite SR.
    + cbv zeta. cbn [firstn forallb skipn]. destruct (is_alpha c0) eqn:A; [|reflexivity].
      unfold is_scheme_char at 1. rewrite A. cbn [orb andb].
      destruct (forallb is_scheme_char (firstn j t')); reflexivity.
    + destruct (is_alpha c0); reflexivity.
Qed.

(* well-formed targets: visible ASCII only (DESIGN.md section 8: control
   bytes, SP and non-ASCII bytes in a target are outside the quantifier) *)

Definition vis (x : N) : bool := (33 <=? x) && (x <=? 126).
Definition wf_target (t : bytes) : Prop := forallb vis t = true.

Lemma wf_lstrip t : wf_target t -> lstrip_by is_c0_or_space t = t.
Proof.
  unfold wf_target. destruct t as [|x t]; cbn [forallb lstrip_by]; auto.
  intro H. apply andb_true_iff in H as [V _]. unfold vis in V. apply andb_true_iff in V as [V _].
  apply N.leb_le in V. unfold is_c0_or_space. destruct (x <=? 32) eqn:E; auto. apply N.leb_le in E. lia.
Qed.

Lemma wf_filter t : wf_target t -> filter (fun x => negb ((x =? 9) || (x =? 13) || (x =? 10))) t = t.
Proof.
  unfold wf_target. induction t as [|x t IH]; cbn [forallb filter]; auto.
  intro H. apply andb_true_iff in H as [V H]. unfold vis in V. apply andb_true_iff in V as [V _].
  apply N.leb_le in V.
  assert (E : (x =? 9) || (x =? 13) || (x =? 10) = false).
  { destruct (x =? 9) eqn:A; [apply N.eqb_eq in A; lia|].
    destruct (x =? 13) eqn:B; [apply N.eqb_eq in B; lia|].
    destruct (x =? 10) eqn:C; [apply N.eqb_eq in C; lia|]. reflexivity. }
  rewrite E. cbn [negb]. rewrite IH by exact H. reflexivity.
Qed.

Lemma us_tail_spec sc nl u :
  us_tail sc nl u = UOk sc nl (until path_end u) (qpart u) (tail_of (from (N.eqb 35) u)).
Proof.
  unfold us_tail. rewrite !cut_match. destruct (path_query_cut u) as [-> ->]. reflexivity.
Qed.

(* what is left of the target once split_uri has removed scheme and authority *)
Definition model_hier (t : bytes) : bytes :=
  if two_slashes t then t
  else
    let u2 := filter (fun x => negb ((x =? 9) || (x =? 13) || (x =? 10))) (lstrip_by is_c0_or_space t) in
    let u3 := snd (us_scheme u2) in
    if two_slashes u3 then from auth_end (skipn 2 u3) else u3.

(* the one place where split_uri and urlsplit are opened *)
Lemma split_uri_ok t sc nl pa qu fr :
  split_uri t = SOk sc nl pa qu fr ->
  pa = unquote_to_bytes (until path_end (model_hier t)) /\ qu = qpart (model_hier t).
Proof.
  unfold split_uri, model_hier. rewrite firstn2_two_slashes. destruct (two_slashes t).
  - destruct (existsb _ t); [discriminate|].
    rewrite !cut_match.
    destruct (path_query_cut t) as [-> ->]. intro H. injection H as _ _ <- <- _. auto.
  - rewrite urlsplit_stages. destruct (existsb _ t); [discriminate|]. cbv zeta.
    destruct (us_scheme _) as [scheme u3]. cbn [snd].
    unfold us_netloc. rewrite startswith_two_slashes. destruct (two_slashes u3).
    + rewrite cut_at_until. cbv zeta.
      destruct (memb 91 _ && memb 93 _); [discriminate|]. destruct (memb 91 _ || memb 93 _); [discriminate|].
      cbn [N.eqb]. rewrite us_tail_spec. intro H. injection H as _ _ <- <- _. auto.
    + cbn [N.eqb]. rewrite us_tail_spec. intro H. injection H as _ _ <- <- _. auto.
Qed.

Lemma wf_model_hier t : wf_target t -> model_hier t = hier t.
Proof.
  intro W. unfold model_hier, hier. rewrite wf_lstrip, wf_filter, us_scheme_spec by exact W.
  destruct (two_slashes t) eqn:T2; [reflexivity|].
  destruct (after_scheme t); [reflexivity|]. rewrite T2. reflexivity.
Qed.

Theorem split_uri_spec t sc nl pa qu fr :
  wf_target t -> split_uri t = SOk sc nl pa qu fr ->
  pa = pct_decode (raw_path t) /\ qu = raw_query t.
Proof.
  intros W H. apply split_uri_ok in H. rewrite wf_model_hier, unquote_pct in H by exact W. exact H.
Qed.

Lemma lstrip_drop_slashes s : lstrip_by (N.eqb 47) s = drop_slashes s.
Proof.
  induction s as [|x s IH]; cbn [lstrip_by drop_slashes]; auto.
  rewrite (N.eqb_sym 47 x). destruct (x =? 47); auto.
Qed.

Lemma prefix_cases pre : forall s,
  match strip_prefix pre s with
  | Some r =>
    beqb s pre = (match r with [] => true | _ => false end) /\
    startswith s (pre ++ [47]) = (match r with x :: _ => x =? 47 | [] => false end) /\
    skipn (length pre) s = r
  | None => beqb s pre = false /\ startswith s (pre ++ [47]) = false
  end.
Proof.
  induction pre as [|a pre IH]; intro s.
  - cbn [strip_prefix app length skipn]. destruct s as [|x s'].
    + auto.
    + rewrite startswith_single, (N.eqb_sym 47 x). auto.
  - destruct s as [|y s']; cbn [strip_prefix].
    + auto.
    + cbn [beqb app startswith length skipn]. rewrite (N.eqb_sym y a).
      destruct (a =? y); cbn [andb].
      * apply IH.
      * auto.
Qed.

Theorem environ_path_spec prefix path0 :
  environ_path prefix path0 = path_info prefix (collapse path0).
Proof.
  unfold environ_path.
  assert (C : (if startswith path0 [47] then 47 :: lstrip_by (N.eqb 47) path0 else path0) = collapse path0).
  { destruct path0 as [|x r]; [reflexivity|]. rewrite startswith_single, lstrip_drop_slashes.
    cbn [collapse]. rewrite (N.eqb_sym 47 x). reflexivity. }
  rewrite C. unfold path_info. destruct prefix as [|a pre]; [reflexivity|].
  pose proof (prefix_cases (a :: pre) (collapse path0)) as PC.
  destruct (strip_prefix (a :: pre) (collapse path0)) as [[|x r]|].
  - destruct PC as (-> & _). reflexivity.
  - destruct PC as (-> & -> & ->). destruct (x =? 47); reflexivity.
  - destruct PC as (-> & ->). reflexivity.
Qed.

Lemma until_app_stop f m x rest :
  Forall (fun y => f y = false) m -> f x = true -> until f (m ++ x :: rest) = m.
Proof.
  intros Hm Hx. induction Hm as [|y m Hy Hm IH]; cbn [app until].
  - rewrite Hx. reflexivity.
  - rewrite Hy, IH. reflexivity.
Qed.

Lemma tchar_visible z : Lang tchar [z] -> 33 <= z <= 126.
Proof.
  intro H. apply Lang_Cls in H as (x & E & H). injection E as <-. cbn [in_ranges] in H.
  repeat (apply orb_true_iff in H as [H|H]); try discriminate;
    apply andb_true_iff in H as [A B]; apply N.leb_le in A, B; lia.
Qed.

(* a line the request-line pattern accepts starts with token characters and
   SP (C10RequestLine.gate_tchar_prefix): the text before its first SP is not
   empty and visible ASCII *)
Lemma tchar_prefix_until s :
  Lang tchar_prefix s ->
  until (N.eqb 32) s <> [] /\ Forall (fun z => 33 <= z <= 126) (until (N.eqb 32) s).
Proof.
  unfold tchar_prefix. intro M.
  apply Lang_Cat in M as (u & v & -> & Mu & Mv). apply Lang_Plus_cls in Mu as (NE & Fu).
  apply Lang_Cat in Mv as (v1 & v2 & -> & Mv1 & _). apply Lang_Sym in Mv1 as ->.
  assert (V : Forall (fun z => 33 <= z <= 126) u).
  { eapply Forall_impl; [|exact Fu]. intros z Hz. apply tchar_visible. constructor. exact Hz. }
  cbn [app]. rewrite until_app_stop; [auto| |reflexivity].
  eapply Forall_impl; [|exact V]. intros z Hz. cbn beta in Hz. apply N.eqb_neq. lia.
Qed.

Lemma split_head s c : exists tl, split s [c] = until (N.eqb c) s :: tl.
Proof.
  unfold split. cbn [split_fuel]. pose proof (cut_match s c) as C.
  destruct (find s [c]) as [i|]; injection C as C1 _; [rewrite C1 | rewrite <- C1]; eexists; reflexivity.
Qed.

Lemma crack_first_line_ok fl cmd uri ver :
  crack_first_line fl = Some (cmd, uri, ver) ->
  beqb cmd [] && beqb uri [] && beqb ver [] = false ->
  matches gate_request_line fl = true /\ beqb cmd (upper_ascii cmd) = true /\
  ((split fl [32] = [cmd; uri] /\ ver = []) \/
   (exists v, split fl [32] = [cmd; uri; v] /\ ver = skipn 5 v)).
Proof.
  unfold crack_first_line. intros H Hne.
  destruct (matches gate_request_line fl); cbn [negb] in H; [|injection H as <- <- <-; discriminate].
  split; [reflexivity|].
  destruct (split fl [32]) as [|m [|u [|v [|w tl]]]]; try (injection H as <- <- <-; discriminate Hne).
  - destruct (beqb m (upper_ascii m)) eqn:U; [|discriminate]. injection H as <- <- <-. auto.
  - destruct (beqb m (upper_ascii m)) eqn:U; [|discriminate]. injection H as <- <- <-. eauto 6.
Qed.

Lemma upper_fixed_no_lower m :
  beqb m (upper_ascii m) = true -> Forall (fun z => 33 <= z <= 126) m ->
  Forall (fun z => 33 <= z <= 126 /\ ~ (97 <= z <= 122)) m.
Proof.
  induction m as [|z m IH]; intros Hu Hf; [constructor|].
  cbn [upper_ascii map beqb] in Hu. apply andb_true_iff in Hu as [Hz Hu].
  inversion Hf; subst. constructor; [|apply IH; assumption].
  split; [assumption|]. intro L. unfold upper_ascii_b in Hz.
  replace ((97 <=? z) && (z <=? 122)) with true in Hz by (symmetry; apply andb_true_iff; split; apply N.leb_le; lia).
  apply N.eqb_eq in Hz. lia.
Qed.

Lemma crack_first_line_method fl cmd uri ver :
  bytes_ok fl -> crack_first_line fl = Some (cmd, uri, ver) ->
  beqb cmd [] && beqb uri [] && beqb ver [] = false ->
  cmd = until (N.eqb 32) fl /\ cmd <> [] /\
  Forall (fun x => 33 <= x <= 126 /\ ~ (97 <= x <= 122)) cmd.
Proof.
  intros Hb H Hne. destruct (crack_first_line_ok _ _ _ _ H Hne) as (M & U & S).
  assert (C : cmd = until (N.eqb 32) fl).
  { destruct (split_head fl 32) as (tl & SP).
    destruct S as [[S _]|(v & S & _)]; rewrite S in SP; injection SP as -> _; reflexivity. }
  apply matches_correct, gate_tchar_prefix, tchar_prefix_until in M; [|exact Hb].
  rewrite <- C in M. destruct M as (NE & V). auto using upper_fixed_no_lower.
Qed.

Lemma upper_str_identity m :
  Forall (fun x => 33 <= x <= 126 /\ ~ (97 <= x <= 122)) m -> upper_str m = m.
Proof.
  unfold upper_str. induction 1 as [|x m [Hr Hl] _ IH]; cbn [flat_map]; auto.
  rewrite IH. unfold upper_str_c.
  destruct ((97 <=? x) && (x <=? 122)) eqn:E1.
  { apply andb_true_iff in E1 as [A B]. apply N.leb_le in A. apply N.leb_le in B. lia. }
  destruct (x =? 181) eqn:E2; [apply N.eqb_eq in E2; lia|].
  destruct (x =? 223) eqn:E3; [apply N.eqb_eq in E3; lia|].
  destruct ((224 <=? x) && (x <=? 254) && negb (x =? 247)) eqn:E4.
  { apply andb_true_iff in E4 as [E4 _]. apply andb_true_iff in E4 as [A _]. apply N.leb_le in A. lia. }
  destruct (x =? 255) eqn:E5; [apply N.eqb_eq in E5; lia|].
  reflexivity.
Qed.

Lemma split_nonempty s sep : split s sep <> [].
Proof. unfold split. cbn [split_fuel]. destruct (find s sep); discriminate. Qed.

Lemma join_split c s : join [c] (split s [c]) = s.
Proof.
  revert s. apply (char_split_ind c).
  - intros s H. rewrite split_char_none by exact H. reflexivity.
  - intros a b H IH. rewrite split_char_app by exact H.
    pose proof (split_nonempty b [c]) as NE. destruct (split b [c]); [contradiction|].
    cbn [join] in *. rewrite IH. reflexivity.
Qed.

Lemma crack_first_line_shape fl cmd uri ver :
  crack_first_line fl = Some (cmd, uri, ver) ->
  beqb cmd [] && beqb uri [] && beqb ver [] = false ->
  (fl = cmd ++ [32] ++ uri /\ ver = []) \/
  (exists v, fl = cmd ++ [32] ++ uri ++ [32] ++ v /\ ver = skipn 5 v).
Proof.
  intros H Hne. destruct (crack_first_line_ok _ _ _ _ H Hne) as (_ & _ & S).
  pose proof (join_split 32 fl) as J.
  destruct S as [[S ->]|(v & S & ->)]; rewrite S in J; [left|right; exists v]; auto.
Qed.
