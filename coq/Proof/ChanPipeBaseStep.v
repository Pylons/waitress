(* Proof/ChanPipeBaseStep.v -- layer L0 (lock well-formedness) is preserved by every step:
   each step leaves each lock alone, acquires it on entering its region or releases it on leaving. *)
From Coq Require Import List Arith Bool ZArith Lia.
From WV Require Import Model.ChanPipe Proof.ChanPipeBase.
Import ListNotations.

Section Step.
Variable P : params.

(* the three shapes of lock_eff, by computation; an acquire needs the test that the lock was free *)
Ltac eff :=
  cbn; first [ left; split; reflexivity
             | right; left; repeat split; first [ reflexivity | apply free_none; assumption | eapply free_none_r; eassumption ]
             | right; right; repeat split; reflexivity ].

Theorem L0_step : forall st c st' l, L0 st -> step P st c = Some (st', l) -> L0 st'.
Proof.
  intros st c st' l [R O D] Hs. destruct c as [e | me e].
  - step_io Hs; fl_out; (split; [apply (lock_ok_io _ _ _ _ _ _ _ _ R) | apply (lock_ok_io _ _ _ _ _ _ _ _ O) | apply (lock_ok_io _ _ _ _ _ _ _ _ D)]; eff).
  - step_wk Hs; fl_out; (split; [apply (lock_ok_wk _ _ _ _ _ _ _ _ _ R) | apply (lock_ok_wk _ _ _ _ _ _ _ _ _ O) | apply (lock_ok_wk _ _ _ _ _ _ _ _ _ D)]; rewrite Hw; eff).
Qed.
End Step.
