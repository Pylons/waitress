(* C01, the whole-stream composition (T4).  For every configuration with a positive
   body limit and every byte stream delivered in one read whose request-targets the
   urlsplit model covers (targets_ok), what the channel model queues -- the
   delivered and refused messages in order, cut after the first refusal and
   after the first message that closes the connection, each with method,
   target, version, field dict, body bytes and close-after verdict, and the
   unfinished message at the end -- is the list the RFC 9112 reference
   extracts from the same stream (with the one remaining deviation switch,
   dv_trailer = F10).  Proof: induction over the messages of the stream with
   the invariant "the requests queued so far, uncut, are the reference's
   outcomes on the consumed prefix"; per message the head step
   (C01ComposeHead: T1 T3 T4a), the body step (C01ComposeBody: T2) and the
   close decision (T5); the loop's offset accounting is the consumed counts of
   those steps. *)
From Coq Require Import List NArith ZArith Bool Lia Arith.
From RecordUpdate Require Import RecordUpdate.
From WV Require Import Lib.PyBytes Lib.Regex Gen.GenRegex Model.Receiver Model.UrlSplit Model.Parser Model.ChanSeq Spec.Ref9112.
From WV Require Import Proof.PyBytesFacts Proof.ReceiverTotal Proof.ParserTotal Proof.ParserTotalChan
  Proof.SplitParser Proof.SplitChan.
From WV Require Import Proof.C01Lib Proof.C01Dict Proof.C01Body Proof.C01Block Proof.C01Boundary Proof.C01Head Proof.C01Framing
  Proof.C01Close Proof.C01ParseHeader Proof.C01Observe Proof.C01ComposeLib Proof.C01ComposeHead Proof.C01ComposeBody.
Import ListNotations.
Local Open Scope N_scope.

Definition eqx (r2 r1 : parser) : Prop := r2 = r1 \/ r2 = r1 <| expect_continue := false |>.

Lemma eqx_fields r2 r1 : eqx r2 r1 ->
  obs_of_parser r2 = obs_of_parser r1 /\ completed r2 = completed r1 /\ body r2 = body r1 /\
  body_bytes_received r2 = body_bytes_received r1 /\ chunked r2 = chunked r1 /\ error r2 = error r1 /\
  headers r2 = headers r1 /\ header_plus r2 = header_plus r1 /\ headers_finished r2 = headers_finished r1 /\
  same_head r1 r2.
Proof. intros [->| ->]; repeat split. Qed.

Lemma post_facts c r1 : exists r2, eqx r2 r1 /\
  requests (post c r1) = requests c ++ (if completed r1 && negb (empty r1) then [r2] else []) /\
  request (post c r1) = if completed r1 then None else Some r2.
Proof.
  rewrite post_fields. cbv zeta. csimpl.
  exists (if send_cond c r1 then r1 <| expect_continue := false |> else r1).
  split; [destruct (send_cond c r1); [right|left]; reflexivity|].
  split; [destruct (completed r1 && negb (empty r1)); rewrite ?app_nil_r|]; reflexivity.
Qed.

Definition cont (f : nat) (a : adj) (c1 : chan) (data : bytes) (n : Z) : chan_res :=
  if (Z.of_nat (length data) <=? n)%Z then COk c1 else received_loop f a c1 (skipn (Z.to_nat n) data).

(* ParserTotalChan.received_loop_eq with the tail of the iteration folded into [cont] *)
Lemma loop_unfold f a c data : received_loop (S f) a c data =
  match received a (cur c) data with
  | ROk r1 n => cont f a (post c r1) data n
  | REscapes => CEscapes
  | ROutOfFuel => COutOfFuel
  | RUnmodelled => CUnmodelled
  end.
Proof. rewrite received_loop_eq. reflexivity. Qed.

Lemma loop_mono a : forall f c d c', received_loop f a c d = COk c' -> exists ext, requests c' = requests c ++ ext.
Proof.
  induction f as [|f IH]; intros c d c' H; [discriminate|].
  rewrite loop_unfold in H. destruct (received a (cur c) d) as [r1 n| | |]; try discriminate.
  destruct (post_facts c r1) as (r2 & _ & Hq & _). unfold cont in H.
  destruct (Z.of_nat (length d) <=? n)%Z.
  - injection H as <-. eauto.
  - apply IH in H as [ext E]. rewrite E, Hq, <- app_assoc. eauto.
Qed.

Lemma cont_mono f a c1 data n c' : cont f a c1 data n = COk c' -> exists ext, requests c' = requests c1 ++ ext.
Proof.
  unfold cont. destruct (_ <=? _)%Z.
  - intro H. injection H as <-. exists []. rewrite app_nil_r. reflexivity.
  - apply loop_mono.
Qed.

Lemma cont_cases f a c1 s k c' : (k <= length s)%nat -> cont f a c1 s (Z.of_nat k) = COk c' ->
  (skipn k s = [] /\ c' = c1) \/ (skipn k s <> [] /\ received_loop f a c1 (skipn k s) = COk c').
Proof.
  intros Hk. unfold cont. rewrite Nat2Z.id. destruct (Z.leb_spec (Z.of_nat (length s)) (Z.of_nat k)).
  - intro H0. injection H0 as <-. left. split; auto. apply skipn_all2. lia.
  - intro H0. right. split; auto. intro E. apply (f_equal (@length N)) in E. rewrite skipn_length in E. cbn in E. lia.
Qed.

Lemma obs_refuse q e : error q = Some e -> obs_of_parser q = ORefuse (perr_code e).
Proof. intro H. unfold obs_of_parser. rewrite H. reflexivity. Qed.

Lemma cut_all_open l : Forall (fun o => closes o = false) l -> cut l = (l, false).
Proof.
  induction 1 as [|o l Ho _ IH]; [reflexivity|]. cbn [cut]. rewrite Ho, IH. reflexivity.
Qed.

Lemma finish_closed c' Q L r ext : cut (map obs_of_parser Q) = (L, false) ->
  closes (obs_of_parser r) = true -> requests c' = (Q ++ [r]) ++ ext ->
  observe (COk c') = Some (L ++ [obs_of_parser r]).
Proof.
  intros Hc Hr E. unfold observe. rewrite E, <- app_assoc, map_app, (cut_app_open _ _ L Hc).
  cbn [app map cut]. rewrite Hr. reflexivity.
Qed.

Lemma finish_open c' L : cut (map obs_of_parser (requests c')) = (L, false) ->
  observe (COk c') = Some (L ++ pending c').
Proof. intros Hc. unfold observe. rewrite Hc. reflexivity. Qed.

Section Steps.
Variable a : adj.

Lemma step_closed f c0 q data n c' L :
  cut (map obs_of_parser (requests c0)) = (L, false) -> completed q = true -> empty q = false ->
  closes (obs_of_parser q) = true -> cont f a (post c0 q) data n = COk c' ->
  observe (COk c') = Some (L ++ [obs_of_parser q]).
Proof.
  intros Hc Hcomp Hemp Hcl Hrun.
  destruct (post_facts c0 q) as (r2 & Hx & Hq & _). destruct (eqx_fields r2 q Hx) as (Xo & _).
  rewrite Hcomp, Hemp in Hq. cbn [negb andb] in Hq.
  apply cont_mono in Hrun as [ext E]. rewrite Hq in E. rewrite <- Xo.
  apply (finish_closed c' (requests c0) L r2 ext Hc); [rewrite Xo; exact Hcl | exact E].
Qed.

Lemma step_pending c0 q L :
  cut (map obs_of_parser (requests c0)) = (L, false) -> completed q = false ->
  nonempty (header_plus q) || headers_finished q = true ->
  observe (COk (post c0 q)) = Some (L ++ [OIncomplete]).
Proof.
  intros Hc Hcomp Hp.
  destruct (post_facts c0 q) as (r2 & Hx & Hq & Hrq).
  destruct (eqx_fields r2 q Hx) as (_ & Xc & _ & _ & _ & _ & _ & Xhp & Xhf & _).
  rewrite Hcomp in Hq, Hrq. cbn [andb] in Hq. rewrite app_nil_r in Hq.
  rewrite finish_open with (L := L) by (rewrite Hq; exact Hc).
  unfold pending. rewrite Hrq, Xc, Hcomp, Xhp, Xhf, Hp. reflexivity.
Qed.

Lemma step_open c0 q L :
  cut (map obs_of_parser (requests c0)) = (L, false) -> completed q = true -> empty q = false ->
  closes (obs_of_parser q) = false ->
  request (post c0 q) = None /\
  cut (map obs_of_parser (requests (post c0 q))) = (L ++ [obs_of_parser q], false).
Proof.
  intros Hc Hcomp Hemp Hcl.
  destruct (post_facts c0 q) as (r2 & Hx & Hq & Hrq). destruct (eqx_fields r2 q Hx) as (Xo & _).
  rewrite Hcomp in Hrq. rewrite Hcomp, Hemp in Hq. cbn [negb andb] in Hq.
  split; [exact Hrq|]. rewrite Hq, map_app, (cut_app_open _ _ L Hc). cbn [map cut].
  rewrite Xo, Hcl. reflexivity.
Qed.

Lemma step_empty c0 q :
  completed q = true -> empty q = true ->
  request (post c0 q) = None /\ requests (post c0 q) = requests c0.
Proof.
  intros Hcomp Hemp. destruct (post_facts c0 q) as (r2 & _ & Hq & Hrq).
  rewrite Hcomp in Hrq. rewrite Hcomp, Hemp in Hq. cbn [negb andb] in Hq. rewrite app_nil_r in Hq. auto.
Qed.

Lemma step_more c0 q : completed q = false ->
  exists r2, eqx r2 q /\ request (post c0 q) = Some r2 /\ requests (post c0 q) = requests c0.
Proof.
  intros Hcomp. destruct (post_facts c0 q) as (r2 & Hx & Hq & Hrq).
  rewrite Hcomp in Hq, Hrq. cbn [andb] in Hq. rewrite app_nil_r in Hq. eauto.
Qed.

End Steps.

Lemma hget_delivered_conn v dict fr bd :
  hget (delivered_dict v dict fr bd) s_CONNECTION = hget dict s_CONNECTION.
Proof.
  unfold delivered_dict.
  assert (H1 : hget (if beqb v v11 then remove dict K_TE else dict) s_CONNECTION = hget dict s_CONNECTION).
  { destruct (beqb v v11); auto. rewrite <- hpop_remove. apply hget_hpop_other. reflexivity. }
  destruct fr; auto.
  rewrite hget_app_other by reflexivity. rewrite <- hpop_remove, hget_hpop_other by reflexivity. exact H1.
Qed.

Lemma obs_deliver q m t v fs bd :
  values_clean (combined fs) -> error q = None -> command q = m -> request_uri q = t -> version q = v ->
  connection_close q = model_cc (combined fs) v ->
  headers q = delivered_dict v (combined fs) (framing_of v (combined fs)) bd ->
  (match body q with Some b => body_bytes b | None => [] end) = bd ->
  obs_of_parser q = ref_view (Deliver (mk_msg m t v fs bd) (close_after_of v (combined fs))).
Proof.
  intros Hcl He Hm Ht Hv Hcc Hh Hb. unfold obs_of_parser, ref_view, delivered_view, mk_msg.
  cbn [m_method m_target m_version m_fields m_body]. rewrite He, Hm, Ht, Hv, Hcc, Hh, Hb. f_equal.
  unfold hget_default. rewrite hget_delivered_conn.
  apply (close_decision (combined fs) v). intros c0 Hc0. eapply hget_clean; eauto.
Qed.

Lemma hd1_delivered v dict fr bd : fr <> FrChunked -> hd1 dict v = delivered_dict v dict fr bd.
Proof.
  intro Hfr. unfold hd1, delivered_dict. change s_1_1 with v11.
  rewrite hpop_remove. destruct fr; try reflexivity. congruence.
Qed.

Lemma framing_chunked_v11 v d : framing_of v d = FrChunked -> beqb v v11 = true.
Proof.
  unfold framing_of. destruct (beqb v v11); auto.
  destruct (lookup d K_CL) as [v0|]; [|discriminate].
  destruct (content_length_of v0) as [[|q]|]; discriminate.
Qed.

Lemma chunked_delivered v dict bd : uniq dict -> framing_of v dict = FrChunked ->
  hset (hpop (hpop dict s_TRANSFER_ENCODING) s_CONTENT_LENGTH) s_CONTENT_LENGTH (to_dec (lenN bd))
  = delivered_dict v dict FrChunked bd.
Proof.
  intros Hu Hfr. unfold delivered_dict. rewrite (framing_chunked_v11 v dict Hfr).
  rewrite hset_absent by (apply hget_hpop_same, uniq_hpop; exact Hu).
  rewrite !hpop_remove. reflexivity.
Qed.

Lemma ref_loop_nil f c d : ref_loop f c d [] = [].
Proof. destruct f; reflexivity. Qed.

(* what the reference makes of the rest of the stream after the head of a message *)
Definition ref_msg (f : nat) (c : cfg) (d : devs) (m t v : bytes) (fs : list (bytes * bytes)) (rest : bytes)
  : list ref_outcome :=
  let dict := combined fs in
  let close := close_after_of v dict in
  let continue (o : ref_outcome) (rest' : bytes) :=
    o :: (if close then [] else ref_loop f c d rest') in
  match framing_of v dict with
  | FrRefuse code => [Refuse code]
  | FrNone => continue (Deliver (mk_msg m t v fs []) close) rest
  | FrLength k =>
    if max_body c <=? k then [Refuse 413]
    else if lenN rest <? k then [Incomplete]
    else continue (Deliver (mk_msg m t v fs (firstn (N.to_nat k) rest)) close)
                  (skipn (N.to_nat k) rest)
  | FrChunked =>
    match ref_chunked d rest with
    | ChIncomplete => if max_body c <=? lenN rest then [Refuse 413] else [Incomplete]
    | ChBad examined =>
      if tol_limit_first c && (max_body c <=? examined) then [Refuse 413] else [Refuse 400]
    | ChDone body rest' =>
      if max_body c <=? lenN rest - lenN rest' then [Refuse 413]
      else continue (Deliver (mk_msg m t v fs body) close) rest'
    end
  end.

Lemma ref_loop_step f c d s : s <> [] ->
  ref_loop (S f) c d s =
  match read_head s [] [] 0 with
  | None => if max_header c <=? lenN s then [Refuse 431] else [Incomplete]
  | Some (lines, rest, n) =>
    if max_header c <=? n then [Refuse 431]
    else
      match ref_head_out c lines with
      | HOEmpty => ref_loop f c d rest
      | HORefuse code => [Refuse code]
      | HOMsg m t v fs =>
        ref_msg f c d m t v fs rest
      end
  end.
Proof.
  intro Hne. destruct s as [|x s']; [congruence|]. cbn [ref_loop].
  destruct (read_head (x :: s') [] [] 0) as [[[lines rest] n]|]; [|reflexivity].
  destruct (max_header c <=? n); [reflexivity|].
  unfold ref_head_out, ref_msg_out.
  destruct (drop_leading lines) as [|rl flines]; [reflexivity|].
  destruct (head_fields flines) as [fs|]; [|reflexivity].
  destruct (parse_request_line (prepare_request_line c rl)) as [[[m t] v]|]; [|reflexivity].
  unfold ref_msg. destruct (framing_of v (combined fs)) eqn:E; cbv zeta; rewrite ?E; reflexivity.
Qed.

Section Main.
Variable a : adj.
Hypothesis Hmb : 0 < max_request_body_size a.

(* the channel loop from a state between two messages, on streams of length <= n *)
Definition channel_loop_spec (n : nat) : Prop :=
  forall s, (length s <= n)%nat -> forall fuel rf c L c',
  s <> [] -> bytes_ok s -> targets_ok s -> (length s < fuel)%nat -> (length s < rf)%nat ->
  request c = None -> cut (map obs_of_parser (requests c)) = (L, false) ->
  received_loop fuel a c s = COk c' ->
  observe (COk c') = Some (L ++ map ref_view (ref_loop rf (cfg_of a) all_devs s)).

Lemma loop_refused c0 q data nq f1 code L c' :
  cut (map obs_of_parser (requests c0)) = (L, false) ->
  completed q = true -> empty q = false -> (exists e, error q = Some e /\ perr_code e = code) ->
  cont f1 a (post c0 q) data nq = COk c' ->
  observe (COk c') = Some (L ++ map ref_view [Refuse code]).
Proof.
  intros Hc0 Qc Qe (e & Qerr & Hcode) Hrun1.
  rewrite (step_closed a f1 c0 q data nq c' L Hc0 Qc Qe); [|rewrite (obs_refuse q e Qerr); reflexivity | exact Hrun1].
  rewrite (obs_refuse q e Qerr), Hcode. reflexivity.
Qed.

(* after a head that installs a body receiver: the read is used up, or the next iteration
   offers the rest to the parser in its body phase *)
Lemma enter_body c p s i f L c' :
  cut (map obs_of_parser (requests c)) = (L, false) -> completed p = false -> headers_finished p = true ->
  (i <= length s)%nat -> cont f a (post c p) s (Z.of_nat i) = COk c' ->
  cut (map obs_of_parser (requests (post c p))) = (L, false) /\
  ((skipn i s = [] /\ observe (COk c') = Some (L ++ [OIncomplete])) \/
   exists r2 f2, f = S f2 /\ eqx r2 p /\ skipn i s <> [] /\
     match received a r2 (skipn i s) with
     | ROk q nq => cont f2 a (post (post c p) q) (skipn i s) nq = COk c'
     | _ => False
     end).
Proof.
  intros Hcut Pc Phf Hi Hrun. destruct (step_more c p Pc) as (r2 & Hx & Rq & Rqs).
  split; [rewrite Rqs; exact Hcut|].
  destruct (cont_cases f a (post c p) s i c' Hi Hrun) as [[E ->]|[E Hrun2]].
  - left. split; [exact E|]. apply step_pending; auto. rewrite Phf. apply orb_true_r.
  - right. destruct f as [|f2]; [discriminate|]. exists r2, f2. split; [reflexivity|]. split; [exact Hx|]. split; [exact E|].
    rewrite loop_unfold in Hrun2. unfold cur in Hrun2. rewrite Rq in Hrun2.
    destruct (received a r2 (skipn i s)); try discriminate. exact Hrun2.
Qed.

Section Step.
Variable n : nat.
Hypothesis IH : channel_loop_spec n.

Lemma loop_after data k f1 rf1 c1 L1 c' :
  bytes_ok data -> targets_ok data -> (k <= length data)%nat ->
  (length (skipn k data) <= n)%nat -> (length (skipn k data) < f1)%nat -> (length (skipn k data) < rf1)%nat ->
  request c1 = None -> cut (map obs_of_parser (requests c1)) = (L1, false) ->
  cont f1 a c1 data (Z.of_nat k) = COk c' ->
  observe (COk c') = Some (L1 ++ map ref_view (ref_loop rf1 (cfg_of a) all_devs (skipn k data))).
Proof.
  intros Hokd Htgd Hk Hln Hlf Hlr Hreq1 Hcut1 Hrun1.
  destruct (cont_cases f1 a c1 data k c' Hk Hrun1) as [[E ->]|[E Hrun2]].
  - rewrite E, ref_loop_nil. cbn [map]. rewrite (finish_open c1 L1 Hcut1).
    unfold pending. rewrite Hreq1. reflexivity.
  - apply (IH (skipn k data) Hln f1 rf1 c1 L1 c'); auto.
    + apply bytes_ok_skipn; auto.
    + eapply targets_ok_infix; [apply infix_skipn | exact Htgd].
Qed.

Lemma loop_delivered c0 q data k f1 rf1 msg cl L c' :
  bytes_ok data -> targets_ok data -> (k <= length data)%nat ->
  (length (skipn k data) <= n)%nat -> (length (skipn k data) < f1)%nat -> (length (skipn k data) < rf1)%nat ->
  cut (map obs_of_parser (requests c0)) = (L, false) ->
  completed q = true -> empty q = false -> obs_of_parser q = ref_view (Deliver msg cl) ->
  cont f1 a (post c0 q) data (Z.of_nat k) = COk c' ->
  observe (COk c') = Some (L ++ map ref_view (Deliver msg cl ::
     (if cl then [] else ref_loop rf1 (cfg_of a) all_devs (skipn k data)))).
Proof.
  intros Hokd Htgd Hk Hln Hlf Hlr Hc0 Qc Qe Qo Hrun1.
  destruct cl.
  - rewrite (step_closed a f1 c0 q data (Z.of_nat k) c' L Hc0 Qc Qe); [|rewrite Qo; reflexivity | exact Hrun1].
    rewrite Qo. reflexivity.
  - destruct (step_open c0 q L Hc0 Qc Qe) as (R1 & R2); [rewrite Qo; reflexivity|].
    rewrite (loop_after data k f1 rf1 (post c0 q) (L ++ [obs_of_parser q])); auto.
    rewrite Qo, <- app_assoc. reflexivity.
Qed.

(* a message whose head the parser has accepted: c is the channel before it, p the parser after
   the head, i the length of the head in the read s *)
Section Msg.
Variables (c : chan) (p : parser) (s : bytes) (i f rf' : nat) (L : list obs) (c' : chan).
Variables (m t v : bytes) (fs : list (bytes * bytes)).
Hypothesis Hok : bytes_ok s.
Hypothesis Htg : targets_ok s.
Hypothesis Hi : (4 <= i <= length s)%nat.
Hypothesis Hn : (length s <= S n)%nat.
Hypothesis Hfuel : (length s < S f)%nat.
Hypothesis Hrf : (length s < S rf')%nat.
Hypothesis Hcut : cut (map obs_of_parser (requests c)) = (L, false).
Hypothesis Hrun : cont f a (post c p) s (Z.of_nat i) = COk c'.
Hypothesis Hclean : values_clean (combined fs).
Hypothesis Hbb : body_bytes_received p = 0%Z.
Hypothesis Pe : empty p = false.
Hypothesis Phf : headers_finished p = true.
Hypothesis Pm : command p = m.
Hypothesis Pt : request_uri p = t.
Hypothesis Pv : version p = v.
Hypothesis Pcc : connection_close p = model_cc (combined fs) v.
Let dict := combined fs.
Let close := close_after_of v dict.

Let Hokr : bytes_ok (skipn i s).
Proof. apply bytes_ok_skipn; exact Hok. Qed.
Let Htgr : targets_ok (skipn i s).
Proof. eapply targets_ok_infix; [apply infix_skipn | exact Htg]. Qed.
Let Hlr : length (skipn i s) = (length s - i)%nat.
Proof. apply skipn_length. Qed.

Lemma msg_none : framing_of v dict = FrNone ->
  completed p = true /\ error p = None /\ body p = None /\ headers p = hd1 dict v ->
  observe (COk c') = Some (L ++ map ref_view (ref_msg rf' (cfg_of a) all_devs m t v fs (skipn i s))).
Proof.
  intros Efr (Pc & Perr & Pb & Ph).
  unfold ref_msg. cbv zeta. fold dict close. rewrite Efr. cbn [max_body tol_limit_first cfg_of andb].
  apply (loop_delivered c p s i f rf'); auto; try lia; try (rewrite skipn_length; lia).
  apply obs_deliver; auto.
  - rewrite Ph. apply hd1_delivered. fold dict. rewrite Efr. discriminate.
  - rewrite Pb. reflexivity.
Qed.

(* the parser q has delivered a body that ends k bytes after the head *)
Lemma msg_body q k f2 bd r2 :
  eqx r2 p -> same_head r2 q -> (k <= length (skipn i s))%nat -> (i + k <= length s)%nat -> f = S f2 ->
  cut (map obs_of_parser (requests (post c p))) = (L, false) ->
  completed q = true -> error q = None ->
  headers q = delivered_dict v dict (framing_of v dict) bd ->
  match body q with Some b => body_bytes b | None => [] end = bd ->
  cont f2 a (post (post c p) q) (skipn i s) (Z.of_nat k) = COk c' ->
  observe (COk c') = Some (L ++ map ref_view (Deliver (mk_msg m t v fs bd) close ::
    (if close then [] else ref_loop rf' (cfg_of a) all_devs (skipn k (skipn i s))))).
Proof.
  intros Hx (T1 & T2 & T3 & T4 & T5 & T6) Hk Hik -> Hcut1 Qc Qe Qh Qb Hrun2.
  destruct (eqx_fields r2 p Hx) as (_ & _ & _ & _ & _ & _ & _ & _ & _ & (S1 & S2 & S3 & S4 & S5 & S6)).
  apply (loop_delivered (post c p) q (skipn i s) k f2 rf'); auto; try (rewrite skipn_length; lia); try congruence.
  apply obs_deliver; auto; congruence.
Qed.

Lemma msg_fixed k : framing_of v dict = FrLength k ->
  body p = Some (BFixed (fixed_init k)) /\ chunked p = false /\ headers p = hd1 dict v /\ 0 < k /\
  (if max_request_body_size a <=? k then completed p = true /\ error p = Some EBodyTooLarge
   else completed p = false /\ error p = None) ->
  observe (COk c') = Some (L ++ map ref_view (ref_msg rf' (cfg_of a) all_devs m t v fs (skipn i s))).
Proof.
  intros Efr (Pb & Pch & Ph & Hk & Hlim).
  unfold ref_msg. cbv zeta. fold dict close. rewrite Efr. cbn [max_body tol_limit_first cfg_of andb].
  destruct (max_request_body_size a <=? k) eqn:Emb.
  { destruct Hlim as (Pc & Perr). eapply loop_refused; eauto; try (exists EBodyTooLarge; auto). }
  destruct Hlim as (Pc & Perr).
  destruct (enter_body c p s i f L c' Hcut Pc Phf ltac:(lia) Hrun)
    as (Hcut1 & [[E Hobs]|(r2 & f2 & Ef & Hx & E & Hrun2)]).
  { rewrite E. replace (lenN [] <? k) with true by (symmetry; apply N.ltb_lt; exact Hk). exact Hobs. }
  destruct (eqx_fields r2 p Hx) as (_ & Xc & Xb & Xbb & Xch & Xe & Xh & _ & Xhf & _).
  destruct (lenN (skipn i s) <? k) eqn:Elt.
  - apply N.ltb_lt in Elt.
    destruct (body_fixed_short a r2 k (skipn i s)) as (q & Eq & (T1 & T2 & T3 & T4 & T5 & T6) & Qc); try congruence.
    rewrite Eq in Hrun2. unfold cont in Hrun2. rewrite Z.leb_refl in Hrun2. injection Hrun2 as <-.
    apply step_pending; auto. replace (headers_finished q) with true by congruence. apply orb_true_r.
  - apply N.ltb_ge in Elt.
    destruct (body_fixed_complete a r2 k (skipn i s)) as (q & Eq & SH & Qc & Qe & Qb & Qh); try congruence.
    unfold lenN in Elt.
    rewrite Eq in Hrun2. replace (Z.of_N k) with (Z.of_nat (N.to_nat k)) in Hrun2 by lia.
    apply (msg_body q (N.to_nat k) f2 _ r2); auto; try lia; try congruence.
    + rewrite Qh, Xh, Ph. apply hd1_delivered. rewrite Efr. discriminate.
    + rewrite Qb. reflexivity.
Qed.

Lemma msg_chunked : framing_of v dict = FrChunked ->
  body p = Some (BChunked chunked_init) /\ chunked p = true
  /\ headers p = hpop (hpop dict s_TRANSFER_ENCODING) s_CONTENT_LENGTH /\ completed p = false /\ error p = None ->
  observe (COk c') = Some (L ++ map ref_view (ref_msg rf' (cfg_of a) all_devs m t v fs (skipn i s))).
Proof.
  intros Efr (Pb & Pch & Ph & Pc & Perr).
  unfold ref_msg. cbv zeta. fold dict close. rewrite Efr. cbn [max_body tol_limit_first cfg_of andb].
  destruct (enter_body c p s i f L c' Hcut Pc Phf ltac:(lia) Hrun)
    as (Hcut1 & [[E Hobs]|(r2 & f2 & Ef & Hx & E & Hrun2)]).
  { rewrite E. change (ref_chunked all_devs []) with ChIncomplete.
    replace (max_request_body_size a <=? lenN []) with false by (symmetry; apply N.leb_gt; exact Hmb).
    exact Hobs. }
  destruct (eqx_fields r2 p Hx) as (_ & Xc & Xb & Xbb & Xch & Xe & Xh & _ & Xhf & (S1 & S2 & S3 & S4 & S5 & S6)).
  change all_devs with d_recv.
  pose proof (body_chunked a r2 (skipn i s)) as BC.
  destruct (ref_chunked d_recv (skipn i s)) as [bd rest'|ex|].
  - destruct BC as (Er' & Hle & q & Eq & SH & Qc & Hq); try congruence.
    rewrite Eq in Hrun2.
    destruct (max_request_body_size a <=? lenN (skipn i s) - lenN rest').
    + destruct SH as (_ & _ & _ & _ & T5 & _). eapply loop_refused; eauto; try congruence; try (exists EBodyTooLarge; auto).
    + destruct Hq as (Qe & (st & Qb & Qbuf) & Qh). rewrite Er' at 1.
      apply (msg_body q (length (skipn i s) - length rest')%nat f2 _ r2); auto; try lia; try congruence.
      * rewrite Qh, Xh, Ph, Efr. apply chunked_delivered; [apply uniq_combined | exact Efr].
      * rewrite Qb. exact Qbuf.
  - destruct BC as (q & nq & Eq & (T1 & T2 & T3 & T4 & T5 & T6) & Qc & e & Qe & Hcode); try congruence.
    rewrite Eq in Hrun2. cbn [andb].
    destruct (max_request_body_size a <=? ex); eapply loop_refused; eauto; try congruence.
  - destruct BC as (q & Eq & (T1 & T2 & T3 & T4 & T5 & T6) & Hq); try congruence.
    rewrite Eq in Hrun2.
    destruct (max_request_body_size a <=? lenN (skipn i s)).
    + destruct Hq as (Qc & Qe). eapply loop_refused; eauto; try congruence; try (exists EBodyTooLarge; auto).
    + unfold cont in Hrun2. rewrite Z.leb_refl in Hrun2. injection Hrun2 as <-.
      apply step_pending; auto. replace (headers_finished q) with true by congruence. apply orb_true_r.
Qed.

End Msg.

Lemma loop_step_ok : channel_loop_spec (S n).
Proof.
  intros s Hn fuel rf c L c' Hne Hok Htg Hfuel Hrf Hreq Hcut Hrun.
  destruct fuel as [|f]; [lia|]. destruct rf as [|rf']; [lia|].
  rewrite loop_unfold in Hrun. unfold cur in Hrun. rewrite Hreq in Hrun.
  rewrite (ref_loop_step rf' (cfg_of a) all_devs s Hne).
  change (max_header (cfg_of a)) with (max_request_header_size a).
  destruct (read_head s [] [] 0) as [[[lines rest] hn]|] eqn:Hrh.
  2:{ (* no complete head in the stream *)
      destruct (head_step_none a s Hrh) as (p & Ep & Hp). rewrite Ep in Hrun.
      destruct (max_request_header_size a <=? lenN s).
      - destruct Hp as (Pc & Pe & Perr). eapply loop_refused; eauto.
      - destruct Hp as (Pc & Php & Phf). unfold cont in Hrun. rewrite Z.leb_refl in Hrun. injection Hrun as <-.
        apply step_pending; auto. rewrite Php. destruct s; [congruence|reflexivity]. }
  destruct (head_rest s lines rest hn Hrh) as (i & -> & -> & Hi).
  destruct (max_request_header_size a <=? N.of_nat i) eqn:Hmh.
  { destruct (head_step_431 a s lines _ _ Hrh Hmh) as (p & Ep & Pc & Pe & Perr). rewrite Ep in Hrun.
    eapply loop_refused; eauto. }
  destruct (head_step a s lines _ _ Hok Htg Hrh Hmh) as (p & Ep & Hbb & Hrel). rewrite Ep, nat_N_Z in Hrun.
  pose proof (ref_head_out_clean (cfg_of a) lines) as Hclean.
  destruct (ref_head_out (cfg_of a) lines) as [|code|m t v fs].
  - (* only empty lines *)
    destruct Hrel as (Pc & Pe). destruct (step_empty c p Pc Pe) as (R1 & R2).
    apply (loop_after s i f rf' (post c p) L); auto; try (rewrite skipn_length; lia).
    + lia.
    + rewrite R2. exact Hcut.
  - (* the head is refused *)
    destruct Hrel as (Pc & Pe & Perr). eapply loop_refused; eauto.
  - (* the head of a message *)
    destruct Hrel as (Pe & Phf & Pm & Pt & Pv & Pcc & Hfr). specialize (Hclean m t v fs eq_refl).
    destruct (framing_of v (combined fs)) as [|k| |code] eqn:Efr; [| | |contradiction].
    + eapply (msg_none c p s i f); eauto.
    + eapply (msg_fixed c p s i f); eauto.
    + eapply (msg_chunked c p s i f); eauto.
Qed.

End Step.

Lemma compose_loop : forall n, channel_loop_spec n.
Proof.
  induction n as [|n IH]; [|exact (loop_step_ok n IH)].
  intros s Hn fuel rf c L c' Hne. destruct s; [congruence | cbn in Hn; lia].
Qed.

End Main.

Theorem compose_one_read a s c' :
  0 < max_request_body_size a -> bytes_ok s -> targets_ok s ->
  feed a chan_init [s] = COk c' ->
  observe (COk c') = Some (map ref_view (ref_run_dev (cfg_of a) all_devs s)).
Proof.
  intros Hmb Hok Htg. cbn [feed]. unfold chan_received.
  destruct (list_eq_dec N.eq_dec s []) as [->|Hne].
  - intro H. injection H as <-. reflexivity.
  - replace (match s with [] => COk chan_init | _ :: _ =>
               if will_close chan_init || close_when_flushed chan_init then COk chan_init
               else received_loop (S (length s)) a chan_init s end)
      with (received_loop (S (length s)) a chan_init s) by (destruct s; [congruence|reflexivity]).
    destruct (received_loop (S (length s)) a chan_init s) as [c1| | |] eqn:E; try discriminate.
    intro H. injection H as <-. unfold ref_run_dev.
    apply (compose_loop a Hmb (length s) s (le_n _) (S (length s)) (S (length s)) chan_init [] c1); auto.
Qed.
