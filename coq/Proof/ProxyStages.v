(* Block-by-block facts about parse_proxy_headers (Model/Proxy.v): what each
   block can return, which local variables and environ keys it leaves alone. *)
From Coq Require Import List NArith ZArith Bool Lia.
From WV Require Import Lib.PyBytes Lib.PyStrProxy Lib.Regex Gen.GenRegex Model.Proxy Spec.ProxySpec
  Proof.ProxyDict Proof.ProxyStr.
Import ListNotations.
Local Open Scope N_scope.

(* The key literals are pairwise different; where a proof needs `beqb k1 k2 = false` for two of them it
   says `by reflexivity`: the comparison is a computation. *)


Definition is_exn {A} (r : result A) : Prop := exists e, r = Exn e.
Definition no_exn {A} (r : result A) : Prop := forall e, r <> Exn e.

Lemma catch_all_no_exn {A} h (r : result A) : no_exn (catch_all h r).
Proof. intros e. destruct r; simpl; discriminate. Qed.

Lemma bind_ok {A B} (r : result A) (f : A -> result B) b :
  bind r f = Ok b -> exists a, r = Ok a /\ f a = Ok b.
Proof. destruct r; simpl; try discriminate. eauto. Qed.

Lemma catch_all_ok {A} h (r : result A) a : catch_all h r = Ok a -> r = Ok a.
Proof. destruct r; simpl; congruence. Qed.

Lemma undquote_cases v : (exists u, undquote v = Ok u) \/ undquote v = Exn ValueError.
Proof.
  unfold undquote.
  destruct (startswith v [c_dquote] && endswith v [c_dquote]).
  - destruct (matches gate_quoted_string v); eauto.
  - destruct (negb (startswith v [c_dquote]) && negb (endswith v [c_dquote])); eauto.
Qed.

Lemma undquote_no_malformed v h : undquote v <> Malformed h.
Proof. destruct (undquote_cases v) as [[u H]|H]; rewrite H; discriminate. Qed.

Lemma undquote_nil : undquote [] = Ok [].
Proof. reflexivity. Qed.

Lemma xff_hop_no_malformed a h : xff_hop a <> Malformed h.
Proof.
  unfold xff_hop. destruct (undquote_cases (strip a)) as [[u H]|H]; rewrite H; simpl; try discriminate.
  destruct (negb (has_char c_dot u) && has_char c_colon u); try discriminate.
  destruct (last_opt u); try discriminate. destruct (negb (n =? c_rbr)); discriminate.
Qed.

Lemma xfh_hop_no_malformed a h : xfh_hop a <> Malformed h.
Proof. apply undquote_no_malformed. Qed.

(* The X-Forwarded-For and X-Forwarded-Host blocks are the same code with another trusted name, key,
   header in the 400, element parser, member of untrusted_headers and local variable; likewise the
   X-Forwarded-Proto and X-Forwarded-Port blocks.  What is proved of both is stated once, over the kind. *)
Inductive lkind := LFor | LHost.
Inductive skind := SProto | SPort.

Definition lblk (x : lkind) := match x with LFor => blk_xff | LHost => blk_xfh end.
Definition lname x := match x with LFor => n_xff | LHost => n_xfh end.
Definition lkey x := match x with LFor => k_xff | LHost => k_xfh end.
Definition lhop x := match x with LFor => xff_hop | LHost => xfh_hop end.
Definition lrm x := match x with LFor => rm_for | LHost => rm_host end.
Definition lput x (s : pst) (e : environ) (c : str) (u : uset) : pst :=
  match x with
  | LFor => {| env := e; client := Some c; fhost := fhost s; fproto := fproto s; fport := fport s; fwd := fwd s; unt := u |}
  | LHost => {| env := e; client := client s; fhost := c; fproto := fproto s; fport := fport s; fwd := fwd s; unt := u |}
  end.

Definition sblk (x : skind) := match x with SProto => blk_proto | SPort => blk_port end.
Definition sname x := match x with SProto => n_xfproto | SPort => n_xfport end.
Definition skey x := match x with SProto => k_xfproto | SPort => k_xfport end.
Definition srm x := match x with SProto => rm_proto | SPort => rm_port end.
Definition sflag x (u : uset) := match x with SProto => u_proto u | SPort => u_port u end.
Definition sput x (s : pst) (v : str) (u : uset) : pst :=
  match x with
  | SProto => {| env := env s; client := client s; fhost := fhost s; fproto := v; fport := fport s; fwd := fwd s; unt := u |}
  | SPort => {| env := env s; client := client s; fhost := fhost s; fproto := fproto s; fport := v; fwd := fwd s; unt := u |}
  end.

Lemma lblk_no_exn x k tph s : no_exn (lblk x k tph s).
Proof.
  destruct x; cbn [lblk]; [unfold blk_xff|unfold blk_xfh].
  all: destruct (has tph _); [|discriminate].
  all: destruct (lookup _ (env s)); [|discriminate].
  all: apply catch_all_no_exn.
Qed.

Lemma blk_xff_malformed k tph s h : blk_xff k tph s = Malformed h -> h = h_xff.
Proof.
  unfold blk_xff. destruct (has tph n_xff); [|discriminate].
  destruct (lookup k_xff (env s)); [|discriminate].
  match goal with |- catch_all _ ?r = _ -> _ => destruct r eqn:E end; simpl; try congruence.
  exfalso.
  destruct (mapM xff_hop (split s0 [c_comma])) as [cs| |] eqn:Em; simpl in E.
  - destruct (index0 (py_lastk cs k)) eqn:Ei; simpl in E; try discriminate.
    + destruct (rm_for (unt s)) eqn:Er; simpl in E; try discriminate. unfold rm_for in Er. destruct (u_for (unt s)); discriminate.
    + unfold index0 in Ei. destruct (py_lastk cs k); discriminate.
  - eapply mapM_no_malformed; eauto using xff_hop_no_malformed.
  - discriminate.
Qed.

Lemma list_hops_ok {A} hdr (hop : str -> result str) (rm : uset -> result uset) (mk : str -> uset -> A) k value u a :
  catch_all hdr (bind (mapM hop (split value [c_comma])) (fun cs =>
    bind (index0 (py_lastk cs k)) (fun c => bind (rm u) (fun u' => Ok (mk c u'))))) = Ok a ->
  exists cs c u', mapM hop (split value [c_comma]) = Ok cs /\ hd_error (py_lastk cs k) = Some c /\
                  rm u = Ok u' /\ a = mk c u'.
Proof.
  intro H. apply catch_all_ok in H. apply bind_ok in H as (cs & Hm & H). apply bind_ok in H as (c & Hi & H).
  apply bind_ok in H as (u' & Hu & H). injection H as <-. exists cs, c, u'. repeat split; auto.
  unfold index0 in Hi. destruct (py_lastk cs k); [discriminate|]. injection Hi as ->. reflexivity.
Qed.

Lemma lblk_ok x k tph s s' : lblk x k tph s = Ok s' ->
  (s' = s /\ (has tph (lname x) = false \/ lookup (lkey x) (env s) = None)) \/
  (exists raw cs c u,
     has tph (lname x) = true /\ lookup (lkey x) (env s) = Some raw /\
     mapM (lhop x) (split raw [c_comma]) = Ok cs /\ hd_error (py_lastk cs k) = Some c /\
     lrm x (unt s) = Ok u /\
     s' = lput x s (set (lkey x) (strip (join [c_comma] (py_lastk (split raw [c_comma]) k))) (env s)) c u).
Proof.
  destruct x; cbn [lblk lname lkey lhop lrm lput]; [unfold blk_xff|unfold blk_xfh].
  all: destruct (has tph _); [|intro H; injection H as <-; auto].
  all: destruct (lookup _ (env s)) as [raw|]; [|intro H; injection H as <-; auto].
  all: intro H; right; apply list_hops_ok in H as (cs & c & u & Hm & Hh & Hu & ->); exists raw, cs, c, u; auto 10.
Qed.

Lemma single_value_no_malformed key e h : single_value key e <> Malformed h.
Proof.
  unfold single_value.
  destruct (undquote_cases (match lookup key e with Some v => v | None => [] end)) as [[u H]|H]; rewrite H; simpl.
  - destruct (has_char c_comma u); discriminate.
  - discriminate.
Qed.

Lemma single_value_absent key e : lookup key e = None -> single_value key e = Ok [].
Proof. intro H. unfold single_value. rewrite H. reflexivity. Qed.

Lemma single_value_env key e1 e2 : lookup key e1 = lookup key e2 -> single_value key e1 = single_value key e2.
Proof. unfold single_value. intros ->. reflexivity. Qed.

Lemma sblk_no_exn x tph s : sflag x (unt s) = true -> no_exn (sblk x tph s).
Proof.
  intros Hu e. destruct x; cbn [sblk sflag] in *; [unfold blk_proto, rm_proto|unfold blk_port, rm_port].
  all: destruct (has tph _); [|discriminate].
  all: unfold handler_single; destruct (lookup _ (env s)) eqn:El.
  (* the header is there: the handler turns any exception into a 400; it is not: "" is well formed *)
  1, 3: match goal with |- match ?r with _ => _ end <> _ => destruct r end; discriminate.
  all: rewrite single_value_absent by auto; cbn [bind]; rewrite Hu; discriminate.
Qed.

Lemma single_body_ok {A} key hdr e u (rm : uset -> result uset) (mk : str -> uset -> A) a :
  handler_single key hdr e (bind (single_value key e) (fun v => bind (rm u) (fun u' => Ok (mk v u')))) = Ok a ->
  exists v u', single_value key e = Ok v /\ rm u = Ok u' /\ a = mk v u'.
Proof.
  unfold handler_single. intro H. destruct (single_value key e) as [v| |]; simpl in H.
  - destruct (rm u) as [u'| |]; simpl in H; [injection H as <-; eauto|discriminate|destruct (lookup key e); discriminate].
  - discriminate.
  - destruct (lookup key e); discriminate.
Qed.

Lemma sblk_ok x tph s s' : sblk x tph s = Ok s' ->
  (s' = s /\ has tph (sname x) = false) \/
  (exists v u, has tph (sname x) = true /\ single_value (skey x) (env s) = Ok v /\ srm x (unt s) = Ok u /\
               s' = sput x s v u).
Proof.
  destruct x; cbn [sblk sname skey srm sput]; [unfold blk_proto|unfold blk_port].
  all: destruct (has tph _); [|intro H; injection H as <-; auto].
  all: intro H; right; apply single_body_ok in H as (v & u & Hv & Hu & ->); eauto 8.
Qed.

Lemma blk_by_no_exn tph s : u_by (unt s) = true -> no_exn (blk_by tph s).
Proof.
  intros Hu e. unfold blk_by. destruct (has tph n_xfby); [|discriminate].
  unfold rm_by. rewrite Hu. discriminate.
Qed.

Lemma blk_by_ok tph s s' : blk_by tph s = Ok s' ->
  env s' = env s /\ client s' = client s /\ fhost s' = fhost s /\ fproto s' = fproto s /\
  fport s' = fport s /\ fwd s' = fwd s.
Proof.
  unfold blk_by. destruct (has tph n_xfby); [|intro H; injection H as <-; auto 10].
  unfold rm_by. destruct (u_by (unt s)); simpl; [|discriminate]. intro H. injection H as <-. auto 10.
Qed.

Lemma fwd_pair_no_malformed acc p h : fwd_pair acc p <> Malformed h.
Proof.
  unfold fwd_pair. destruct (negb (truthy (lower_latin1 p))); [discriminate|].
  destruct (partition (lower_latin1 p) [c_eq]) as [[token equals] value].
  destruct (negb (beqb equals [c_eq])); [discriminate|].
  destruct (negb (beqb (strip token) token)); [discriminate|].
  destruct (negb (beqb (strip value) value)); [discriminate|].
  destruct (undquote_cases value) as [[u H]|H];
    destruct (beqb token s_by); [rewrite H; discriminate| |rewrite H; discriminate|];
    (destruct (beqb token s_for); [rewrite H; discriminate|]);
    (destruct (beqb token s_host); [rewrite H; discriminate|]);
    (destruct (beqb token s_proto); [rewrite H; discriminate|]); discriminate.
Qed.

Lemma foldM_no_malformed {A B} (f : A -> B -> result A) l a :
  (forall a b h, f a b <> Malformed h) -> forall h, foldM f a l <> Malformed h.
Proof.
  intro Hf. revert a. induction l as [|x l IH]; intros a h; simpl; [discriminate|].
  destruct (f a x) eqn:E; simpl; try discriminate; auto.
  intro H. injection H as ->. eapply Hf; eauto.
Qed.

Lemma fwd_element_no_malformed el h : fwd_element el <> Malformed h.
Proof. apply foldM_no_malformed. apply fwd_pair_no_malformed. Qed.

(* for proxy in proxies[::-1]: the oldest entry that has the field wins *)
Lemma fwd_fill_fold l c0 h0 p0 :
  fold_left fwd_fill (rev l) (c0, h0, p0) =
  (match first_nonempty (map f_for l) with [] => c0 | x => Some x end,
   match first_nonempty (map f_host l) with [] => h0 | x => x end,
   match first_nonempty (map f_proto l) with [] => p0 | x => x end).
Proof.
  induction l as [|x l IH]; [reflexivity|].
  cbn [rev]. rewrite fold_left_app, IH. cbn [fold_left fwd_fill map first_nonempty].
  unfold str_or. destruct (f_for x), (f_host x), (f_proto x); reflexivity.
Qed.

Definition fwd_precond (s : pst) : Prop :=
  opt_truthy (fwd s) = true -> lookup k_fwd (env s) <> None.

Lemma blk_forwarded_no_exn k s : fwd_precond s -> no_exn (blk_forwarded k s).
Proof.
  intros Hp e. unfold blk_forwarded. destruct (fwd s) as [[|c f]|] eqn:Ef; try discriminate.
  assert (Hl : lookup k_fwd (env s) <> None) by (apply Hp; rewrite Ef; reflexivity).
  destruct (mapM fwd_element (split (c :: f) [c_comma])) as [ps| |] eqn:Em; simpl.
  - destruct (fold_left fwd_fill _ _) as [[a b] d]. discriminate.
  - discriminate.
  - destruct (lookup k_fwd (env s)); [discriminate|congruence].
Qed.

Lemma blk_forwarded_malformed k s h : blk_forwarded k s = Malformed h -> h = h_fwd.
Proof.
  unfold blk_forwarded. destruct (fwd s) as [[|c f]|]; try discriminate.
  destruct (mapM fwd_element (split (c :: f) [c_comma])) as [ps| |] eqn:Em; simpl.
  - destruct (fold_left fwd_fill _ _) as [[a b] d]. discriminate.
  - intros _. exfalso. eapply mapM_no_malformed; eauto using fwd_element_no_malformed.
  - destruct (lookup k_fwd (env s)); [|discriminate]. intro H. injection H as <-. reflexivity.
Qed.

Lemma blk_forwarded_ok k s s' : blk_forwarded k s = Ok s' ->
  (s' = s /\ opt_truthy (fwd s) = false) \/
  (exists raw ps, fwd s = Some raw /\ truthy raw = true /\
     mapM fwd_element (split raw [c_comma]) = Ok ps /\
     s' = {| env := set k_fwd (strip (join [c_comma] (py_lastk (split raw [c_comma]) k))) (env s);
             client := match first_nonempty (map f_for (py_lastk ps k)) with [] => client s | x => Some x end;
             fhost := match first_nonempty (map f_host (py_lastk ps k)) with [] => f_host (last ps fwd_empty) | x => x end;
             fproto := match first_nonempty (map f_proto (py_lastk ps k)) with [] => f_proto (last ps fwd_empty) | x => x end;
             fport := []; fwd := fwd s; unt := unt s |}).
Proof.
  unfold blk_forwarded. destruct (fwd s) as [[|c f]|] eqn:Ef;
    try (intro H; injection H as <-; left; split; reflexivity).
  intro H. right. exists (c :: f).
  destruct (mapM fwd_element (split (c :: f) [c_comma])) as [ps| |] eqn:Em; simpl in H.
  - exists ps. rewrite fwd_fill_fold in H. injection H as <-. repeat split; reflexivity.
  - discriminate.
  - destruct (lookup k_fwd (env s)); discriminate.
Qed.

Definition has_key (k : str) (e : environ) : Prop := lookup k e <> None.

Lemma has_key_set k k2 v e : has_key k e -> has_key k (set k2 v e).
Proof. unfold has_key. rewrite lookup_set. destruct (beqb k k2); [discriminate|auto]. Qed.

(* the state after "if forwarded_proto:" when the scheme is http or https *)
Definition after_proto (s : pst) : pst :=
  if truthy (fproto s) then
    {| env := set k_url_scheme (lower_latin1 (fproto s)) (env s); client := client s; fhost := fhost s;
       fproto := lower_latin1 (fproto s);
       fport := if truthy (fport s) then fport s else default_port (lower_latin1 (fproto s));
       fwd := fwd s; unt := unt s |}
  else s.

Lemma stage_proto_exact s :
  stage_proto s = if cat_scheme (fproto s) then Malformed (if opt_truthy (fwd s) then h_fwd_proto else h_xfproto)
                  else Ok (after_proto s).
Proof.
  unfold stage_proto, cat_scheme, after_proto, default_port. cbv zeta.
  change t_http with s_http. change t_https with s_https. change p80 with s_80. change p443 with s_443.
  destruct (truthy (fproto s)); [|reflexivity]. cbn [andb].
  destruct (beqb (lower_latin1 (fproto s)) s_http) eqn:E1.
  - (* "http" is not "https" *)
    apply beqb_eq in E1. rewrite E1. cbn [orb negb]. destruct (truthy (fport s)); reflexivity.
  - cbn [orb]. destruct (beqb (lower_latin1 (fproto s)) s_https); cbn [negb]; [|reflexivity].
    destruct (truthy (fport s)); reflexivity.
Qed.

Lemma stage_proto_no_exn s : no_exn (stage_proto s).
Proof. intro e. rewrite stage_proto_exact. destruct (cat_scheme (fproto s)); discriminate. Qed.

Lemma stage_proto_malformed s h : stage_proto s = Malformed h ->
  cat_scheme (fproto s) = true /\ h = if opt_truthy (fwd s) then h_fwd_proto else h_xfproto.
Proof.
  rewrite stage_proto_exact. destruct (cat_scheme (fproto s)); [|discriminate]. intro H. injection H as <-. auto.
Qed.

Lemma stage_proto_scheme s : cat_scheme (fproto s) = true -> exists h, stage_proto s = Malformed h.
Proof. intro H. rewrite stage_proto_exact, H. eauto. Qed.

Lemma stage_proto_has_key k s s' : stage_proto s = Ok s' -> has_key k (env s) -> has_key k (env s').
Proof.
  intros H Hk. rewrite stage_proto_exact in H. destruct (cat_scheme (fproto s)); [discriminate|].
  injection H as <-. unfold after_proto. destruct (truthy (fproto s)); [apply has_key_set|]; exact Hk.
Qed.

(* "addr:port" in the model's words: s[-1] is the last character *)
Lemma has_port_last h l : last_opt h = Some l -> has_port h = has_char c_colon h && negb (l =? c_rbr).
Proof. intro El. unfold has_port, ends_with_char. rewrite El. reflexivity. Qed.

(* the state after "if forwarded_host:": SERVER_NAME, HTTP_HOST and the port are written *)
Definition host_written (s : pst) (hh port : str) : pst :=
  {| env := set k_http_host hh (set k_server_name (server_name_value (fhost s)) (env s)); client := client s;
     fhost := fhost s; fproto := fproto s; fport := port; fwd := fwd s; unt := unt s |}.

(* A host with a port is handed on as it is and its port wins.  Otherwise HTTP_HOST is host:port, the
   port left out when it is the default port of the scheme; environ["wsgi.url_scheme"] is read for the
   ports 80 and 443 only. *)
Lemma stage_host_exact s :
  stage_host s =
  let h := fhost s in let pt := fport s in
  if truthy h then
    if empty_host h then Malformed (if opt_truthy (fwd s) then h_fwd_host else h_xfh)
    else if has_port h then Ok (host_written s h (after_last colon h))
    else match lookup k_url_scheme (env s) with
         | Some sch => Ok (host_written s (if truthy pt && negb (port_is_default pt (Some sch)) then h ++ colon :: pt else h) pt)
         | None => if beqb pt s_80 || beqb pt s_443 then Exn KeyError
                   else Ok (host_written s (if truthy pt then h ++ colon :: pt else h) pt)
         end
  else Ok s.
Proof.
  unfold stage_host, host_written, server_name_value. cbv zeta. destruct (truthy (fhost s)) eqn:Et; [|reflexivity].
  destruct (last_opt_truthy _ Et) as [l El]. rewrite El, (has_port_last _ _ El).
  unfold empty_host, host_text. rewrite Et, (has_port_last _ _ El). cbn [andb].
  destruct (has_char c_colon (fhost s) && negb (l =? c_rbr)) eqn:Ec.
  - apply andb_true_iff in Ec as [Ec _]. rewrite (rsplit1_has _ _ Ec). change c_colon with colon.
    destruct (negb (truthy (strip (before_last colon (fhost s))))); [reflexivity|]. do 2 f_equal.
    destruct (beqb (fport s) (after_last colon (fhost s))) eqn:Eb; [apply beqb_eq in Eb; exact Eb|reflexivity].
  - destruct (negb (truthy (strip (fhost s)))); [reflexivity|].
    rewrite !lookup_set_other by reflexivity. unfold host_colon_port, port_is_default. rewrite set_set. cbn [app].
    change p80 with s_80. change p443 with s_443. change t_http with s_http. change t_https with s_https.
    change c_colon with colon.
    destruct (beqb (fport s) s_80) eqn:E80; [|destruct (beqb (fport s) s_443) eqn:E443].
    + (* "80", which is not "443" *)
      apply beqb_eq in E80. rewrite E80. destruct (lookup k_url_scheme (env s)) as [sch|]; [|reflexivity].
      cbn. rewrite orb_false_r. destruct (beqb sch s_http); reflexivity.
    + apply beqb_eq in E443. rewrite E443. destruct (lookup k_url_scheme (env s)) as [sch|]; [|reflexivity].
      cbn. destruct (beqb sch s_https); reflexivity.
    + cbn [orb andb negb]. rewrite andb_true_r.
      destruct (lookup k_url_scheme (env s)), (truthy (fport s)); reflexivity.
Qed.

Lemma stage_host_no_exn s : has_key k_url_scheme (env s) -> no_exn (stage_host s).
Proof.
  intros Hk e. rewrite stage_host_exact. cbv zeta.
  destruct (truthy (fhost s)); [|discriminate]. destruct (empty_host (fhost s)); [discriminate|].
  destruct (has_port (fhost s)); [discriminate|].
  destruct (lookup k_url_scheme (env s)) eqn:E; [discriminate|contradiction].
Qed.

Lemma stage_host_malformed s h : stage_host s = Malformed h ->
  empty_host (fhost s) = true /\ h = if opt_truthy (fwd s) then h_fwd_host else h_xfh.
Proof.
  rewrite stage_host_exact. cbv zeta. destruct (truthy (fhost s)); [|discriminate].
  destruct (empty_host (fhost s)); [intro H; injection H as <-; auto|].
  destruct (has_port (fhost s)); [discriminate|].
  destruct (lookup k_url_scheme (env s)); [discriminate|]. destruct (_ || _); discriminate.
Qed.

Lemma stage_host_empty s : empty_host (fhost s) = true -> exists h, stage_host s = Malformed h.
Proof.
  intro He. rewrite stage_host_exact. cbv zeta. rewrite He.
  destruct (truthy (fhost s)) eqn:Et; [eauto|]. unfold empty_host in He. rewrite Et in He. discriminate.
Qed.

Lemma stage_port_facts s :
  client (stage_port s) = client s /\ fwd (stage_port s) = fwd s /\ unt (stage_port s) = unt s /\
  (forall key, beqb key k_server_port = false -> lookup key (env (stage_port s)) = lookup key (env s)).
Proof.
  unfold stage_port. destruct (truthy (fport s)); cbn; repeat split; auto.
  intros key H. rewrite lookup_set, H. reflexivity.
Qed.

Lemma stage_port_env s : env (stage_port s) = cset (truthy (fport s)) k_server_port (fport s) (env s).
Proof. unfold stage_port. destruct (truthy (fport s)); reflexivity. Qed.

(* strip_brackets("") raised IndexError: finding F19, before 12a41a9 *)
Lemma strip_brackets_spec a :
  strip_brackets a = match a with [] => Exn IndexError | _ => Ok (unbracket a) end.
Proof.
  unfold strip_brackets, unbracket, ends_with_char. destruct a as [|x a]; [reflexivity|].
  cbn [first_opt]. change c_lbr with lbr. change c_rbr with rbr.
  destruct (x =? lbr); [|reflexivity].
  destruct (last_opt_truthy (x :: a) eq_refl) as [l ->]. simpl.
  destruct (l =? rbr); reflexivity.
Qed.

Lemma stage_client_spec s :
  stage_client s =
  match client s with
  | Some (c0 :: c') =>
    let c := c0 :: c' in
    if bad_client c then Malformed (if opt_truthy (fwd s) then h_fwd else h_xff)
    else
      let e1 := set k_remote_addr (unbracket (addr_text c)) (env s) in
      let e2 := match port_text c with Some p => set k_remote_port p e1 | None => e1 end in
      Ok {| env := set k_remote_host (unbracket (addr_text c)) e2; client := client s; fhost := fhost s;
            fproto := fproto s; fport := fport s; fwd := fwd s; unt := unt s |}
  | _ => Ok s
  end.
Proof.
  unfold stage_client. destruct (client s) as [[|c0 c']|]; try reflexivity.
  set (c := c0 :: c'). cbv zeta.
  destruct (last_opt_truthy c eq_refl) as [l Hl]. rewrite Hl.
  unfold bad_client, addr_text, port_text. rewrite (has_port_last _ _ Hl). change (truthy c) with true. cbn [andb].
  destruct (has_char c_colon c && negb (l =? c_rbr)) eqn:Ec.
  - pose proof Ec as Ec'. apply andb_true_iff in Ec' as [Ec' _]. unfold has_char in Ec'.
    rewrite (rsplit1_has _ _ Ec'). change c_colon with colon.
    rewrite strip_brackets_spec. destruct (strip (before_last colon c)) eqn:Ea; [reflexivity|].
    cbn [bind truthy negb]. rewrite lookup_set_other by reflexivity. rewrite lookup_set_same. reflexivity.
  - rewrite strip_brackets_spec. destruct (strip c) eqn:Ea; [reflexivity|].
    cbn [bind truthy negb]. rewrite lookup_set_same. reflexivity.
Qed.

Lemma select_ok_inv e k tph s : parse_select e k tph = Ok s ->
  exists s1 s2 s3 s4 s5,
    blk_xff k tph (init_pst e) = Ok s1 /\ blk_xfh k tph s1 = Ok s2 /\ blk_proto tph s2 = Ok s3 /\
    blk_port tph s3 = Ok s4 /\ blk_by tph s4 = Ok s5 /\ blk_forwarded k (blk_fwd_get tph s5) = Ok s.
Proof.
  unfold parse_select. intro H.
  apply bind_ok in H as (s1 & E1 & H). apply bind_ok in H as (s2 & E2 & H).
  apply bind_ok in H as (s3 & E3 & H). apply bind_ok in H as (s4 & E4 & H).
  apply bind_ok in H as (s5 & E5 & H). eauto 12.
Qed.
