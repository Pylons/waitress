(* Proof/ChanExpectCount.v -- third invariant of Model/ChanExpect.v: the life of a
   parser object (header mode, expecting, answered), the count of interim
   responses per object, who asked, and "nobody is left waiting". *)
From Coq Require Import List Arith Bool Lia.
From RecordUpdate Require Import RecordUpdate.
From WV Require Import Model.ChanExpect Proof.ChanExpectBase Proof.ChanExpectLog.
Import ListNotations.

Definition good_pre (q : areq) : Prop :=
  a_completed q = false /\ (a_hf q = true -> a_body q = true) /\
  (a_hf q = false -> a_expect q = false /\ g_asked q = false /\ a_body q = false) /\
  g_heads q = (if a_hf q then 1 else 0).

Lemma set_expect_spec : forall se q, exists e g,
  set_expect se q = q <| a_expect := e |> <| g_asked := g |> /\
  (g_asked q = true -> g = true) /\ ((a_expect q = true -> g_asked q = true) -> e = true -> g = true) /\
  (a_expect q = false -> g_asked q = false -> g && negb e = false).
Proof.
  intros [[]|] q; simpl.
  - exists true, (g_asked q || true). rewrite orb_true_r. auto.
  - exists false, (g_asked q || false). rewrite orb_false_r.
    repeat split; auto; [discriminate|intros _ ->; reflexivity].
  - exists (a_expect q), (g_asked q). destruct q. repeat split; auto. simpl. intros -> ->. reflexivity.
Qed.

Lemma astep_summary : forall q0 ev q1, astep q0 ev = Some q1 ->
  rid q1 = rid q0 /\ (g_asked q0 = true -> g_asked q1 = true) /\
  ((a_expect q0 = true -> g_asked q0 = true) -> (a_expect q1 = true -> g_asked q1 = true)) /\
  (good_pre q0 ->
     (a_completed q1 = false -> good_pre q1) /\ g_heads q1 <= 1 /\
     (a_hf q1 = true -> a_expect q1 = true -> g_heads q1 = 1) /\
     (a_hf q1 = true -> a_completed q1 = false -> a_body q1 = true) /\
     g_asked q1 && negb (a_expect q1) = g_asked q0 && negb (a_expect q0)).
Proof.
  intros q0 ev q1 H. split; [exact (astep_rid _ _ _ H)|]. unfold good_pre.
  destruct (astep_cases _ _ _ H) as
    [->|[(Ec & Eb & c & ->)|(Ec & Eb & [(se & b & _ & ->)|[->|(se & b & c & _ & Hbc & ->)]])]].
  1-2, 4: simpl; destruct (a_hf q0); intuition (try congruence; try lia).
  (* a header block: before it the object has no flag (good_pre with a_body = false) *)
  2: apply orb_true_iff in Hbc.
  all: destruct (set_expect_spec se q0) as (e & g & -> & G1 & G2 & G3); simpl;
    split; [exact G1|split; [exact G2|]]; intros (_ & Hb & Hpre & Hh);
    (destruct (a_hf q0); [rewrite Hb in Eb by reflexivity; discriminate|]);
    destruct (Hpre eq_refl) as (He & Hg & _); rewrite G3, He, Hg, Hh by assumption; simpl;
    intuition (try congruence; try lia).
Qed.

Definition is_wsend (w : wpc) : bool := match w with WSend => true | _ => false end.
Definition is_sending (s : state) : bool :=
  (match io s with IOSend _ => true | _ => false end) || existsb is_wsend (active s).

Definition sent_for (q : areq) : bool := g_asked q && negb (a_expect q).

Definition good_cur (s : state) (q : areq) : Prop :=
  if is_sending s then
    a_expect q = false /\ a_hf q = true /\ g_asked q = true /\ sent_continue s = false /\
    cnt (rid q) (outlog s) = 0 /\ g_heads q = 1 /\ (a_completed q = false -> a_body q = true)
  else
    good_pre q /\
    cnt (rid q) (outlog s) = (if sent_for q then 1 else 0) /\
    sent_continue s = sent_for q.

Record InvC (s : state) : Prop := {
  C_none : request s = None -> sent_continue s = false;
  C_ask : forall q, request s = Some q ->
          (a_expect q = true -> g_asked q = true) /\ (g_asked q = true -> In (rid q) (askers s));
  C_good : forall q, request s = Some q -> good_cur s q;
  C_queued : forall r, In r (requests s) ->
          a_completed r = true /\ a_empty r = false /\ g_heads r <= 1;
  C_cnt : forall i, cnt i (outlog s) <= 1;
  C_asked : forall i w, In (TInterim i w) (outlog s) -> In i (askers s);
  C_sending : is_sending s = true -> forall q, request s = Some q -> g_asked q = true /\ a_hf q = true;
  C_nc : (forall m, io s <> IOSend m) -> forall q, request s = Some q -> a_completed q = false;
  C_wait : is_sending s = false -> connected s = true -> close_when_flushed s = false ->
           requests s = [] -> forall q, request s = Some q ->
           a_hf q = true -> a_expect q = true -> False
}.

Lemma InvC_init : InvC init.
Proof. constructor; simpl; intros; try discriminate; try tauto; auto. Qed.

(* a step that leaves the object under construction and the interim responses alone,
   may drop queued requests, and keeps what [is_sending] reads *)
Lemma InvC_frame : forall s s', InvC s ->
  request s' = request s -> (forall x, In x (requests s') -> In x (requests s)) ->
  sent_continue s' = sent_continue s ->
  (forall i, cnt i (outlog s') = cnt i (outlog s)) ->
  (forall i w, In (TInterim i w) (outlog s') -> In (TInterim i w) (outlog s)) ->
  askers s' = askers s -> is_sending s' = is_sending s ->
  ((forall m, io s' <> IOSend m) -> (forall m, io s <> IOSend m)) ->
  (connected s' = true -> close_when_flushed s' = false -> requests s' = [] ->
     (requests s = [] /\ connected s = true /\ close_when_flushed s = false) \/
     (forall q, request s = Some q -> a_hf q = true -> a_expect q = true -> False)) ->
  InvC s'.
Proof.
  intros s s' HC E1 E2 E3 E4 E5 E6 E8 Eio E9.
  destruct HC as [Cnone Cask Cgood Cqueued Ccnt Casked Csending Cnc Cwait].
  constructor; rewrite ?E1, ?E3, ?E6, ?E8; auto.
  - intros q Hq. specialize (Cgood q Hq). unfold good_cur in *. rewrite E8, E3, E4. assumption.
  - intros i. rewrite E4. auto.
  - eauto.
  - intros Hs Hc Hf Hr q Hq Hh He.
    destruct (E9 Hc Hf Hr) as [(R1 & R2 & R3)|R]; [eapply Cwait; eauto|eapply R; eauto].
Qed.

Lemma cnt_interim_snoc : forall i j w l,
  cnt i (l ++ [TInterim j w]) = cnt i l + (if j =? i then 1 else 0).
Proof. intros. rewrite cnt_snoc. reflexivity. Qed.

(* Between the parser call (or the append of send_continue) and the end of the loop
   turn the object [q] may be complete while still under construction; this is what
   holds of it and of the rest of the state then. *)
Record mid_turn (s1 : state) (q : areq) : Prop := {
  M_req : request s1 = Some q;
  M_ask : a_expect q = true -> g_asked q = true;
  M_askers : g_asked q = true -> In (rid q) (askers s1);
  M_pre : a_completed q = false -> good_pre q;
  M_heads : g_heads q <= 1;
  M_head1 : a_hf q = true -> a_expect q = true -> g_heads q = 1;
  M_body : a_hf q = true -> a_completed q = false -> a_body q = true;
  M_cnt : cnt (rid q) (outlog s1) = (if sent_for q then 1 else 0);
  M_sc : sent_continue s1 = sent_for q;
  M_queued : forall r, In r (requests s1) -> a_completed r = true /\ a_empty r = false /\ g_heads r <= 1;
  M_once : forall i, cnt i (outlog s1) <= 1;
  M_asked : forall i w, In (TInterim i w) (outlog s1) -> In i (askers s1)
}.

(* the object stays under construction, and is not left waiting for its interim response *)
Lemma mid_settled : forall s1 s' q, mid_turn s1 q -> a_completed q = false ->
  (requests s1 = [] -> a_hf q = true -> a_expect q = true -> False) ->
  request s' = request s1 -> requests s' = requests s1 -> sent_continue s' = sent_continue s1 ->
  outlog s' = outlog s1 -> askers s' = askers s1 -> is_sending s' = false -> InvC s'.
Proof.
  intros s1 s' q [Mreq Mask Maskers Mpre _ _ _ Mcnt Msc Mqueued Monce Masked] Ec Hw E1 E2 E3 E4 E5 Es.
  constructor; rewrite ?E1, ?E2, ?E3, ?E4, ?E5, ?Mreq; auto; try discriminate.
  - intros q' Hq'. inv_some. auto.
  - intros q' Hq'. inv_some. unfold good_cur. rewrite Es, E3, E4. auto.
  - rewrite Es. discriminate.
  - intros _ q' Hq'. inv_some. assumption.
  - intros _ _ _ Hrs q' Hq'. inv_some. auto.
Qed.

(* the end of the loop turn: the object is queued, dropped as empty, or stays *)
Lemma InvC_io_complete : forall s1 q more s' l, mid_turn s1 q ->
  (requests s1 = [] -> a_hf q = true -> a_expect q = true -> False) ->
  existsb is_wsend (active s1) = false -> io_complete s1 more = (s', l) -> InvC s'.
Proof.
  intros s1 q more s' l M Hw Hns Hc.
  pose proof M as [Mreq Mask Maskers Mpre Mheads _ _ Mcnt Msc Mqueued Monce Masked].
  pose proof (io_complete_spec _ _ _ _ Hc) as S.
  destruct S as (S1 & S2 & S3 & S4 & S5 & S6 & S8 & S9 & S10 & S11).
  assert (Es : is_sending s' = false).
  { unfold is_sending. rewrite S9, S4, Hns. destruct more; reflexivity. }
  destruct S11 as [(q' & Sq & Sc & Se & Sr & Ssc & Srs & _)|[(q' & Sq & Sc & Se & Sr & Ssc & Srs & _)|(Sc & Sr & Ssc & Srs & _)]].
  - rewrite Mreq in Sq. inv_some.
    constructor; rewrite ?Sr, ?Ssc, ?Srs, ?S5, ?S8; auto; try discriminate.
    intros r Hr. apply in_app_or in Hr. destruct Hr as [Hr|[<-|[]]]; auto.
  - rewrite Mreq in Sq. inv_some.
    constructor; rewrite ?Sr, ?Ssc, ?Srs, ?S5, ?S8; auto; try discriminate.
  - apply (mid_settled s1 s' q M); auto.
Qed.

(* the state after the append of send_continue *)
Lemma mid_sent : forall s s1 q w, InvC s ->
  is_sending s = true -> request s = Some q -> requests s = [] ->
  request s1 = Some q -> requests s1 = [] -> outlog s1 = outlog s ++ [TInterim (rid q) w] ->
  sent_continue s1 = true -> askers s1 = askers s -> mid_turn s1 q.
Proof.
  intros s s1 q w HC Hs Hq Hrs Er Ers Eo Esc Eas.
  pose proof (C_good s HC q Hq) as G. unfold good_cur in G. rewrite Hs in G.
  destruct G as (G1 & G2 & G3 & G4 & G5 & G6 & G7). destruct (C_ask s HC q Hq) as [K1 K2].
  constructor; unfold sent_for, good_pre;
    rewrite ?Er, ?Ers, ?Eo, ?Esc, ?Eas, ?G1, ?G2, ?G3, ?G6, ?cnt_interim_snoc, ?Nat.eqb_refl, ?G5;
    simpl; auto; try discriminate.
  - intros Ec. repeat split; auto; discriminate.
  - intros r [].
  - intros i. rewrite cnt_interim_snoc. destruct (rid q =? i) eqn:E.
    + apply Nat.eqb_eq in E. subst i. rewrite G5. lia.
    + pose proof (C_cnt s HC i). lia.
  - intros i w' Hin. apply in_app_or in Hin.
    destruct Hin as [Hin|[Hin|[]]]; [exact (C_asked s HC _ _ Hin)|]. inversion Hin; subst. auto.
Qed.

Lemma fresh_cnt_zero : forall s, InvA s -> InvB s -> request s = None -> cnt (next_id s) (outlog s) = 0.
Proof.
  intros s HA HB Hr. apply cnt_zero_above. eapply Forall_impl; [|apply (B_ub s HB)].
  simpl. intros t Ht. assert (ub s <= 2 * next_id s); [|lia].
  unfold ub. pose proof (A_ids s HA) as I. rewrite Hr in *.
  destruct (requests s) as [|r rest]; [lia|]. apply asc_tail in I. lia.
Qed.

Lemma no_wsend : forall l, ~ In WSend l -> existsb is_wsend l = false.
Proof.
  intros l H. destruct (existsb is_wsend l) eqn:E; [|reflexivity]. exfalso. apply H.
  apply existsb_exists in E. destruct E as ([] & Hin & Hw); try discriminate. exact Hin.
Qed.

Lemma unlocked_idle : forall s, InvA s -> rlock s = false -> is_sending s = false /\ io s = IOIdle.
Proof.
  intros s HA Hrl. destruct (A_lock s HA) as [_ L].
  assert (Hio : io s = IOIdle).
  { destruct (io s) eqn:E; auto; rewrite L in Hrl; try discriminate; left; discriminate. }
  split; [|assumption]. unfold is_sending. rewrite Hio. apply no_wsend.
  intros Hin. rewrite L in Hrl; [discriminate|right; assumption].
Qed.

(* after the parser call of a loop turn *)
Lemma mid_parsed : forall s q0 fresh ev q1, InvA s -> InvB s -> InvC s -> io s = IOLoop ->
  parse_obj s q0 fresh -> astep q0 ev = Some q1 -> mid_turn (after_parse s q1 fresh) q1.
Proof.
  intros s q0 fresh ev q1 HA HB HC Hio Hq0 Ha.
  pose proof (astep_summary _ _ _ Ha) as (Hrid & _ & Hask & Hgood).
  destruct (after_parse_fields s q1 fresh) as (F1 & F2 & F3 & _ & _ & _ & _ & _ & _ & _ & F11 & _ & F14).
  assert (Hs : is_sending s = false).
  { unfold is_sending. rewrite Hio. apply no_wsend, io_busy_no_wsend; [assumption|congruence]. }
  (* the object parsed into: the one under construction, or a fresh one that nothing mentions yet *)
  assert (K0 : (a_expect q0 = true -> g_asked q0 = true) /\
               good_pre q0 /\ cnt (rid q0) (outlog s) = (if sent_for q0 then 1 else 0) /\
               sent_continue s = sent_for q0).
  { unfold parse_obj in Hq0. destruct (request s) as [q|] eqn:Er; destruct Hq0 as [-> _].
    - split; [apply (C_ask s HC q Er)|].
      pose proof (C_good s HC q Er) as G. unfold good_cur in G. rewrite Hs in G. exact G.
    - simpl. split; [discriminate|].
      split; [unfold good_pre; simpl; repeat split; auto; discriminate|].
      split; [apply fresh_cnt_zero; auto|apply (C_none s HC Er)]. }
  destruct K0 as (K1 & P1 & P2 & P3).
  destruct (Hgood P1) as (Q1 & Q2 & Q3 & Q4 & Q5).
  unfold sent_for in P2, P3. rewrite <- Q5 in P2, P3. rewrite <- Hrid in P2.
  constructor; unfold sent_for; rewrite ?F2, ?F3, ?F11, ?F14; auto.
  - intros Hq. rewrite Hq. left. reflexivity.
  - apply (C_queued s HC).
  - apply (C_cnt s HC).
  - intros i w Hi. pose proof (C_asked s HC i w Hi). destruct (g_asked q1); [right|]; assumption.
Qed.

Lemma InvC_step : forall s c s' l, InvA s -> InvB s -> InvC s -> step s c = Some (s', l) -> InvC s'.
Proof.
  intros s c s' l HA HB HC H.
  trans_cases (step_trans _ _ _ _ HA H); clear H.
  - assumption.
  - apply InvC_frame with s; auto; try (intros _ m; rewrite Hio; discriminate).
    unfold is_sending. simpl. rewrite Hio. reflexivity.
  - (* a loop turn *)
    pose proof (mid_parsed s q0 fresh ev q1 HA HB HC Hio Hq0 Ha) as M. fold s1 in M.
    destruct (after_parse_fields s q1 fresh) as (_ & _ & _ & _ & _ & _ & _ & _ & F9 & _). fold s1 in F9.
    clearbody s1. pose proof M as [Mreq Mask Maskers Mpre Mheads Mhead1 Mbody Mcnt Msc Mqueued Monce Masked].
    destruct Hcase as [(Hw & _ & ->)|[Hw Hc]].
    + (* send_continue *)
      apply andb_true_iff in Hw. destruct Hw as [Hw Hnil].
      destruct (wants_continue_true _ Hw) as (q & Eq & Hw1 & Hw2 & Hw3). rewrite Mreq in Eq. inv_some.
      unfold sent_for in Mcnt. rewrite Hw1, andb_false_r in Mcnt.
      constructor; unfold good_cur, is_sending; simpl; auto; try discriminate.
      * intros q' Hq'. inv_some. simpl. split; [discriminate|exact Maskers].
      * intros q' Hq'. inv_some. simpl. auto 10.
      * intros _ q' Hq'. inv_some. simpl. auto.
      * intros Hn. destruct (Hn more eq_refl).
    + apply (InvC_io_complete s1 q1 more s2 l' M); [| |exact Hc].
      * intros Hrs Hhf Hex. unfold wants_continue in Hw. unfold sent_for in Msc.
        rewrite Mreq, Hrs, Hex, Hhf, Msc, Hex in Hw. simpl in Hw. rewrite andb_false_r in Hw. discriminate.
      * rewrite F9. apply no_wsend, io_busy_no_wsend; [assumption|congruence].
  - (* the I/O thread sends *)
    destruct (io_send_alone s more HA Hio) as [Hact Hqd].
    assert (M : mid_turn (s <| outlog := outlog s ++ [TInterim (rid q) false] |> <| sent_continue := true |>) q)
      by (apply (mid_sent s _ q false); auto; unfold is_sending; rewrite Hio; reflexivity).
    apply (InvC_io_complete _ q more s2 l' M); [|simpl; rewrite Hact; reflexivity|exact Hc].
    intros _ _ He. pose proof (M_sc _ _ M) as E. pose proof (M_ask _ _ M He) as Eg. unfold sent_for in E. simpl in E.
    rewrite Eg, He in E. discriminate.
  - apply InvC_frame with s; auto. unfold is_sending. simpl. rewrite Hact. reflexivity.
  - apply InvC_frame with s; auto. unfold is_sending. simpl. rewrite Hact. reflexivity.
  - apply InvC_frame with s; auto. unfold is_sending. simpl. rewrite Hact. reflexivity.
  - (* a chunk of a final response: no interim count moves *)
    apply InvC_frame with s; auto; simpl.
    + intros j. rewrite cnt_snoc. simpl. lia.
    + intros j w Hin. apply in_app_or in Hin. destruct Hin as [Hin|[Hin|[]]]; [assumption|discriminate].
  - apply InvC_frame with s; auto. unfold is_sending. simpl. rewrite Hact. destruct cl; reflexivity.
  - (* the close branch empties the queue *)
    apply InvC_frame with s; auto; simpl; try tauto; try discriminate.
    unfold is_sending. simpl. rewrite Hact. reflexivity.
  - apply InvC_frame with s; auto. unfold is_sending. simpl. rewrite Hact. reflexivity.
  - (* the keep branch: the next request is handed to the pool *)
    apply InvC_frame with s; auto.
    + simpl. intros x Hx. rewrite Hrs. right. assumption.
    + unfold is_sending. simpl. rewrite Hact. reflexivity.
  - (* the keep branch: the worker starts send_continue for the object under construction *)
    destruct (unlocked_idle s HA Hrl) as [Hs Hio].
    destruct (wants_continue_true _ Hw) as (q' & Eq & Ew1 & Ew2 & Ew3). rewrite Hq in Eq. inv_some.
    pose proof (C_good s HC q' Hq) as G. unfold good_cur in G. rewrite Hs in G.
    destruct G as ((G1 & G2 & G3 & G4) & G5 & G6). unfold sent_for in G5.
    rewrite Ew1, andb_false_r in G5. rewrite Ew2 in G4.
    destruct HC as [Cnone Cask Cgood Cqueued Ccnt Casked Csending Cnc Cwait]. destruct (Cask q' Hq) as [K1 K2].
    constructor; unfold good_cur, is_sending; simpl; rewrite ?orb_true_r; auto; try discriminate.
    + intros q Hq'. inv_some. simpl. split; [discriminate|assumption].
    + intros q Hq'. inv_some. simpl. auto 10.
    + intros r0 [].
    + intros _ q Hq'. inv_some. simpl. auto.
    + intros Hn q Hq'. inv_some. simpl. apply Cnc; assumption.
  - (* the keep branch: nothing to start *)
    destruct (unlocked_idle s HA Hrl) as [Hs Hio].
    apply InvC_frame with s; auto.
    + simpl. intros x Hx. rewrite Hrs. right. assumption.
    + unfold is_sending. simpl. rewrite Hact. reflexivity.
    + simpl. intros Hcon Hcwf Hrest. right. intros q Hq' Hhf Hex. subst rest.
      rewrite Hcon in Hw. simpl in Hw. unfold wants_continue in Hw. rewrite Hq', Hex, Hhf in Hw.
      simpl in Hw. apply negb_false_iff in Hw.
      pose proof (C_good s HC q Hq') as G. unfold good_cur in G. rewrite Hs in G.
      destruct G as (_ & _ & G6). unfold sent_for in G6. rewrite Hex, andb_false_r in G6. congruence.
  - (* the worker sends *)
    assert (Hs : is_sending s = true) by (unfold is_sending; rewrite Hact; simpl; apply orb_true_r).
    assert (Hc : a_completed q = false).
    { apply (C_nc s HC); [intros m; rewrite Hio; discriminate|assumption]. }
    match goal with |- InvC ?x =>
      pose proof (mid_sent s x q true HC Hs Hq Hrs Hq Hrs eq_refl eq_refl eq_refl) as M;
      apply (mid_settled x x q M); auto end.
    intros _ _ He. pose proof (M_sc _ _ M) as E. pose proof (M_ask _ _ M He) as Eg. unfold sent_for in E. simpl in E.
    rewrite Eg, He in E. discriminate.
    unfold is_sending. simpl. rewrite Hio. reflexivity.
  - apply InvC_frame with s; auto. simpl. discriminate.
  - apply InvC_frame with s; auto.
Qed.
