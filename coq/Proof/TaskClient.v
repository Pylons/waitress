(* The client's view of a serialised head (C03): reading the lines back,
   splitting the fields. *)
From Coq Require Import List NArith Bool Lia Arith ZifyBool.
From WV Require Import Lib.PyBytes Gen.GenTables Model.Task Spec.ClientParse
  Proof.PyBytesFacts Proof.TaskLines Proof.TaskHead Proof.TaskChunk.
Import ListNotations.
Local Open Scope N_scope.

Lemma clean_no_cr l : clean l -> no_cr l.
Proof.
  unfold no_cr. induction l as [|x l IH]; intro H; auto.
  apply has_crlf_cons in H as (H1 & H2 & H3). cbn [forallb]. rewrite IH by auto.
  unfold CR in H1. destruct (x =? 13) eqn:E; [lia|reflexivity].
Qed.

Lemma read_lines_terminated lines rest :
  Forall (fun l => clean l /\ l <> []) lines ->
  forall fuel, (length lines < fuel)%nat ->
  read_lines fuel (terminated lines ++ CRLF ++ rest) = Some (lines, rest).
Proof.
  induction 1 as [|l ls [Hc Hne] Hls IH]; intros fuel Hf.
  - destruct fuel; [simpl in Hf; lia|]. cbn [terminated flat_map List.app read_lines].
    change (CRLF ++ rest) with ([] ++ [13; 10] ++ rest). rewrite read_line_exact by reflexivity. reflexivity.
  - destruct fuel as [|f]; [simpl in Hf; lia|].
    change (terminated (l :: ls)) with ((l ++ CRLF) ++ terminated ls).
    rewrite <- !app_assoc. cbn [read_lines].
    change (l ++ CRLF ++ terminated ls ++ CRLF ++ rest) with (l ++ [13; 10] ++ (terminated ls ++ CRLF ++ rest)).
    rewrite read_line_exact by (apply clean_no_cr; auto).
    destruct l as [|x l]; [congruence|].
    rewrite IH by (simpl in Hf; lia). reflexivity.
Qed.

Lemma head_text_terminated t : head_text t = terminated (head_lines t) ++ CRLF.
Proof. unfold head_text, head_lines. rewrite app_assoc, join_terminated. reflexivity. Qed.

(* name ": " value, as the client splits it: name up to the first colon, value OWS-stripped *)
Definition client_field (h : str * str) : bytes * bytes := (fst h, strip_by is_sp_htab (snd h)).

Definition no_colon (s : str) : Prop := forallb (fun x => negb (x =? 58)) s = true.

Lemma no_colon_memb s : no_colon s -> memb 58 s = false.
Proof.
  unfold no_colon, memb. induction s as [|x s IH]; cbn [forallb existsb]; [reflexivity|].
  intro H. apply andb_true_iff in H as [H1 H2]. rewrite N.eqb_sym, (IH H2). destruct (x =? 58); [discriminate|reflexivity].
Qed.

Lemma lstrip_sp v : lstrip_by is_sp_htab (32 :: v) = lstrip_by is_sp_htab v.
Proof. reflexivity. Qed.

Lemma parse_header_line h : no_colon (fst h) -> parse_field (header_line h) = Some (client_field h).
Proof.
  intro Hn. unfold parse_field, header_line, client_field.
  change (fst h ++ [58; 32] ++ snd h) with (fst h ++ 58 :: (32 :: snd h)).
  rewrite (find_char_app 58 _ _ (no_colon_memb _ Hn)).
  rewrite firstn_app, firstn_all, Nat.sub_diag. cbn [firstn]. rewrite app_nil_r.
  replace (S (length (fst h))) with (length (fst h) + 1)%nat by lia.
  rewrite skipn_app.
  rewrite skipn_all2 by lia. cbn [List.app].
  replace (length (fst h) + 1 - length (fst h))%nat with 1%nat by lia. cbn [skipn].
  unfold strip_by. rewrite lstrip_sp. reflexivity.
Qed.

Lemma parse_header_lines l : Forall (fun h => no_colon (fst h)) l ->
  parse_fields (map header_line l) = Some (map client_field l).
Proof.
  induction 1 as [|h l Hh Hl IH]; [reflexivity|].
  cbn [map parse_fields]. rewrite parse_header_line by auto. rewrite IH. reflexivity.
Qed.
