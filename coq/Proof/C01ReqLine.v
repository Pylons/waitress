(* T1, request line.  crack_first_line (the first_line_re gate, the split on
   SP, the upper-case test) returns exactly what the reference's
   character-level request-line grammar returns: same verdict, same method,
   target and version.  The gate is consumed through C10Gates.request_line_exact
   and one inclusion check (a line accepted by the gate starts with a token
   and a space). *)
From Coq Require Import List NArith ZArith Bool Lia Arith.
From WV Require Import Lib.PyBytes Lib.Regex Gen.GenRegex Spec.Grammar Proof.C10Gates.
From WV Require Import Model.Receiver Model.UrlSplit Model.Parser Spec.Ref9112.
From WV Require Import Proof.PyBytesFacts Proof.RegexFacts Proof.C10RequestLine Proof.C01Lib Proof.C01Head.
Import ListNotations.
Local Open Scope N_scope.

Lemma split_on_nonnil c s cur : split_on c s cur <> [].
Proof. revert cur; induction s as [|x s IH]; intro cur; cbn; [discriminate|]. destruct (x =? c); [discriminate|apply IH]. Qed.

Lemma split_on_inv c l : l = join [c] (split_on c l []).
Proof.
  revert l. apply (char_split_ind c).
  - intros s H. rewrite split_on_none by exact H. reflexivity.
  - intros a b H IH. rewrite split_on_some by exact H.
    pose proof (split_on_nonnil c b []) as NN.
    destruct (split_on c b []) as [|p ps] eqn:Es; [congruence|].
    change (join [c] (a :: p :: ps)) with (a ++ [c] ++ join [c] (p :: ps)). rewrite <- IH. reflexivity.
Qed.

Definition method_ranges : list (N * N) :=
  [(33,33); (35,39); (42,43); (45,46); (48,57); (65,90); (94,96); (124,124); (126,126)].
Definition target_ranges : list (N * N) := [(33,126); (128,255)].

Lemma method_ranges_ok x : x < 256 -> in_ranges x method_ranges = is_tchar x && negb (is_lower x).
Proof.
  apply (byte_table (fun x => in_ranges x method_ranges) (fun x => is_tchar x && negb (is_lower x))).
  vm_compute. reflexivity.
Qed.

Lemma target_ranges_ok x : x < 256 ->
  in_ranges x target_ranges = target_byte x.
Proof.
  apply (byte_table (fun x => in_ranges x target_ranges) target_byte).
  vm_compute. reflexivity.
Qed.

Lemma version_of_spec v ver : version_of v = Some ver ->
  exists a b, v = [72;84;84;80;47; a; 46; b] /\ ver = [a; 46; b] /\ is_dig a = true /\ is_dig b = true.
Proof.
  unfold version_of.
  destruct v as [|h [|t1 [|t2 [|p [|sl [|a [|dot [|b [|? ?]]]]]]]]]; try discriminate.
  destruct ((h =? 72) && (t1 =? 84) && (t2 =? 84) && (p =? 80) && (sl =? 47) && is_dig a && (dot =? 46) && is_dig b) eqn:E;
    [|discriminate].
  intro H. injection H as <-.
  repeat (apply andb_true_iff in E as [E ?]).
  repeat match goal with H : (_ =? _) = true |- _ => apply N.eqb_eq in H end. subst.
  exists a, b. auto.
Qed.

Lemma version_of_make a b : is_dig a = true -> is_dig b = true ->
  version_of [72;84;84;80;47; a; 46; b] = Some [a; 46; b].
Proof. intros Ha Hb. unfold version_of. cbn [N.eqb Pos.eqb andb]. rewrite Ha, Hb. reflexivity. Qed.

Lemma Lang_http_version hv :
  Lang http_version hv <-> exists a b, hv = [72;84;84;80;47; a; 46; b] /\ is_dig a = true /\ is_dig b = true.
Proof.
  unfold http_version, DIGIT. split.
  - intro H. apply Lang_Cat in H as (u & r & -> & Hu & Hr). apply Lang_Lit in Hu. subst u.
    apply Lang_Cat in Hr as (da & r2 & -> & Ha & Hr2). apply Lang_Cls in Ha as (a & -> & Ha).
    apply Lang_Cat in Hr2 as (dot & db & -> & Hd & Hb). apply Lang_Sym in Hd. subst dot.
    apply Lang_Cls in Hb as (b & -> & Hb). rewrite is_dig_ranges in Ha, Hb.
    exists a, b. auto.
  - intros (a & b & -> & Ha & Hb).
    change [72;84;84;80;47; a; 46; b] with ([72;84;84;80;47] ++ ([a] ++ ([46] ++ [b]))).
    apply LCat; [apply Lang_Lit; reflexivity|].
    apply LCat; [constructor; rewrite is_dig_ranges; exact Ha|].
    apply LCat; [apply Lang_Sym; reflexivity|]. constructor. rewrite is_dig_ranges. exact Hb.
Qed.

Lemma Lang_method m : bytes_ok m -> (Lang (Plus (Cls method_ranges)) m <-> method_ok m = true).
Proof.
  intro Hok. rewrite Lang_plus_forallb, (forallb_ranges _ _ m Hok method_ranges_ok), <- nonempty_ne.
  unfold method_ok. rewrite andb_true_iff. tauto.
Qed.

Lemma Lang_target t : bytes_ok t -> (Lang (Plus (Cls target_ranges)) t <-> target_shape t = true).
Proof.
  intro Hok. rewrite Lang_plus_forallb, (forallb_ranges _ _ t Hok target_ranges_ok), <- nonempty_ne.
  unfold target_shape. rewrite andb_true_iff. tauto.
Qed.

Lemma method_no_sp m : method_ok m = true -> memb 32 m = false.
Proof. intro H. apply andb_true_iff in H as [_ H]. exact (forallb_avoid _ 32 m eq_refl H). Qed.

Lemma target_no_sp t : target_shape t = true -> memb 32 t = false.
Proof. intro H. apply andb_true_iff in H as [_ H]. exact (forallb_avoid _ 32 t eq_refl H). Qed.

Lemma shape_of_spec l : bytes_ok l -> Lang spec_request_line l ->
  exists m t v, request_line_shape l = Some (m, t, v).
Proof.
  intros Hok H. unfold spec_request_line, method_char, target_char, SP in H.
  fold method_ranges target_ranges in H.
  apply Lang_Cat in H as (m & r1 & -> & Hm & H). apply Lang_Cat in H as (sp & r2 & -> & Hsp & H).
  apply Lang_Sym in Hsp. subst sp. apply Lang_Cat in H as (t & o & -> & Ht & Ho).
  apply bytes_ok_app in Hok as [Hokm Hok]. apply bytes_ok_app in Hok as [_ Hok].
  apply bytes_ok_app in Hok as [Hokt Hoko].
  apply (Lang_method m Hokm) in Hm. apply (Lang_target t Hokt) in Ht.
  unfold request_line_shape. cbn [app]. rewrite (split_on_some 32 m _ (method_no_sp m Hm)).
  unfold Opt in Ho. apply Lang_Alt in Ho as [Ho|Ho].
  - apply Lang_Eps in Ho. subst o. rewrite app_nil_r.
    rewrite (split_on_none 32 t (target_no_sp t Ht)), Hm, Ht. cbn [andb]. eauto.
  - apply Lang_Cat in Ho as (sp & hv & -> & Hsp & Hhv). apply Lang_Sym in Hsp. subst sp.
    apply Lang_http_version in Hhv as (a & b & -> & Ha & Hb).
    cbn [app]. rewrite (split_on_some 32 t _ (target_no_sp t Ht)).
    assert (Hv : memb 32 [72;84;84;80;47; a; 46; b] = false).
    { apply negb_true_iff. rewrite <- memb_forallb.
      assert (D : forall d, is_dig d = true -> (d =? 32) = false).
      { intros d Hd. apply andb_true_iff in Hd as [D1 _]. apply N.leb_le in D1. apply N.eqb_neq. lia. }
      cbn [forallb N.eqb Pos.eqb negb andb]. rewrite (D a Ha), (D b Hb). reflexivity. }
    rewrite (split_on_none 32 _ Hv), Hm, Ht, (version_of_make a b Ha Hb). cbn [andb]. eauto.
Qed.

Lemma spec_of_shape l m t v : bytes_ok l -> request_line_shape l = Some (m, t, v) ->
  Lang spec_request_line l.
Proof.
  intros Hok H. unfold request_line_shape in H.
  pose proof (split_on_inv 32 l) as E.
  destruct (split_on 32 l []) as [|p1 [|p2 [|p3 [|p4 ps]]]] eqn:Es; try discriminate;
    (destruct (method_ok p1 && target_shape p2) eqn:C; [|discriminate]); apply andb_true_iff in C as [Cm Ct];
    cbn [join] in E; rewrite E in Hok |- *;
    apply bytes_ok_app in Hok as [Hok1 Hok]; apply bytes_ok_app in Hok as [_ Hok];
    unfold spec_request_line, method_char, target_char, SP; fold method_ranges target_ranges;
    (apply LCat; [apply Lang_method; assumption|]); (apply LCat; [apply Lang_Sym; reflexivity|]).
  - (* method SP target *)
    rewrite <- (app_nil_r p2). apply LCat; [apply Lang_target; assumption | apply LAltL; constructor].
  - (* method SP target SP version *)
    destruct (version_of p3) as [ver|] eqn:V; [|discriminate].
    apply version_of_spec in V as (a & b & -> & _ & Ha & Hb). apply bytes_ok_app in Hok as [Hok2 _].
    apply LCat; [apply Lang_target; assumption|].
    apply LAltR. apply LCat; [apply Lang_Sym; reflexivity|]. apply Lang_http_version. eauto.
Qed.

Lemma method_ok_upper m : method_ok m = true -> beqb m (upper_ascii m) = true.
Proof.
  unfold method_ok. intro H. apply andb_true_iff in H as [_ H]. apply beqb_eq. unfold upper_ascii.
  induction m as [|x m IH]; cbn [map forallb] in *; auto.
  apply andb_true_iff in H as [Hx Hm]. rewrite <- IH by exact Hm. f_equal.
  apply andb_true_iff in Hx as [_ Hl]. unfold upper_ascii_b. unfold is_lower in Hl.
  destruct ((97 <=? x) && (x <=? 122)); [discriminate|reflexivity].
Qed.

Lemma tchar_upper_is_method m : bytes_ok m ->
  forallb (fun x => in_ranges x tchar_ranges) m = true -> beqb m (upper_ascii m) = true ->
  forallb (fun x => in_ranges x method_ranges) m = true.
Proof.
  intros Hok Ht Hu. apply beqb_eq in Hu. unfold upper_ascii in Hu.
  induction m as [|x m IH]; cbn [forallb map] in *; auto.
  apply andb_true_iff in Ht as [Hx Hm]. injection Hu as Hxu Hmu.
  inversion Hok; subst.
  rewrite IH; auto. rewrite andb_true_r.
  rewrite method_ranges_ok by assumption.
  rewrite tchar_ranges_ok in Hx by assumption. rewrite Hx. cbn [andb]. unfold is_lower. unfold upper_ascii_b in Hxu.
  destruct ((97 <=? x) && (x <=? 122)) eqn:E; auto.
  apply andb_true_iff in E as [E1 E2]. apply N.leb_le in E1, E2. lia.
Qed.

Lemma gate_upper_spec l m rest : bytes_ok l -> has_crlf_byte l = false ->
  matches gate_request_line l = true ->
  split_on 32 l [] = m :: rest -> beqb m (upper_ascii m) = true ->
  Lang spec_request_line l.
Proof.
  intros Hok Hc G Es Hu. apply matches_correct in G.
  pose proof (has_crlf_clean l Hok Hc) as Hcl.
  apply (request_line_exact l Hok (clean_no_crlf l Hcl)). split; auto.
  pose proof (gate_tchar_prefix l Hok G) as T. unfold tchar_prefix, tchar, SP in T. fold tchar_ranges in T.
  apply Lang_Cat in T as (a & r & -> & Ha & Hr). apply Lang_Cat in Hr as (sp & b & -> & Hsp & _).
  apply Lang_Sym in Hsp. subst sp. apply Lang_plus_forallb in Ha as [Hne Ha].
  apply bytes_ok_app in Hok as [Hoka Hokb].
  cbn [app] in Es. rewrite (split_on_some 32 a _ (forallb_avoid _ 32 a eq_refl Ha)) in Es. injection Es as <- _.
  unfold upper_method_prefix, method_char. fold method_ranges.
  apply LCat.
  - apply Lang_plus_forallb. split; auto. apply tchar_upper_is_method; auto.
  - apply LCat; [apply Lang_Sym; reflexivity|]. apply Lang_any_bytes.
    simpl in Hokb. inversion Hokb; auto.
Qed.

Lemma version_skipn v ver : version_of v = Some ver -> skipn 5 v = ver.
Proof. intro H. apply version_of_spec in H as (a & b & -> & -> & _). reflexivity. Qed.

Theorem request_line_equiv : forall l, bytes_ok l -> has_crlf_byte l = false ->
  match crack_first_line l with
  | None => request_line_shape l = None
  | Some (m, u, v) =>
    if beqb m [] && beqb u [] && beqb v [] then request_line_shape l = None
    else request_line_shape l = Some (m, u, v)
  end.
Proof.
  intros l Hok Hc. unfold crack_first_line. rewrite split_one.
  destruct (matches gate_request_line l) eqn:G; cbn [negb].
  - (* the gate accepts: with an upper-case method the grammar accepts too, and the reference's
       test on the same split can only give the same three parts *)
    destruct (split_on 32 l []) as [|m rest] eqn:Es; [unfold request_line_shape; rewrite Es; reflexivity|].
    assert (A : beqb m (upper_ascii m) = true -> request_line_shape l <> None).
    { intros U E. destruct (shape_of_spec l Hok (gate_upper_spec l m rest Hok Hc G Es U)) as (m' & t' & v' & Sh).
      congruence. }
    assert (B : beqb m (upper_ascii m) = false -> method_ok m = false).
    { intro U. destruct (method_ok m) eqn:Mo; auto. rewrite (method_ok_upper m Mo) in U. discriminate. }
    unfold request_line_shape in *. rewrite Es in *.
    destruct rest as [|u [|v [|w ps]]]; try reflexivity;
      (destruct (beqb m (upper_ascii m)); [specialize (A eq_refl)|rewrite (B eq_refl); reflexivity]);
      (destruct (method_ok m && target_shape u) eqn:C; [|congruence]);
      (destruct m; [discriminate C|]); cbn [beqb andb].
    + reflexivity.
    + destruct (version_of v) as [ver|] eqn:V; [|congruence]. rewrite (version_skipn v ver V). reflexivity.
  - (* the gate refuses: so does the grammar *)
    cbn. destruct (request_line_shape l) as [[[m t] v]|] eqn:Sh; auto.
    pose proof (spec_of_shape l m t v Hok Sh) as S.
    pose proof (has_crlf_clean l Hok Hc) as Hcl.
    apply (request_line_exact l Hok (clean_no_crlf l Hcl)) in S as [S _].
    apply matches_correct in S. congruence.
Qed.

(* "GET /a HTTP/1.1" *)
Example request_line_example :
  request_line_shape [71;69;84;32;47;97;32;72;84;84;80;47;49;46;49] = Some ([71;69;84], [47;97], [49;46;49])
  /\ request_line_shape [103;101;116;32;47] = None
  /\ request_line_shape [71;69;84;32;32;47] = None.
Proof. repeat split; reflexivity. Qed.
