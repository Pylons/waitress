(* Proof/ChanWakeBase.v -- shared by the layers of the C05 invariant: list lemmas, the case analysis of
   a step, and what one step of the I/O thread or of a worker changes. *)
From Coq Require Import List ZArith Bool Arith Lia.
From WV Require Import Model.ChanWake Proof.ChanWakeInv.
Import ListNotations.
Open Scope Z_scope.

Lemma nth_error_upd_same : forall A (l : list A) i v x,
  nth_error l i = Some x -> nth_error (upd i v l) i = Some v.
Proof.
  induction l; destruct i; simpl; intros; try discriminate; auto. eapply IHl; eauto.
Qed.

Lemma nth_error_upd_other : forall A (l : list A) i j v,
  i <> j -> nth_error (upd i v l) j = nth_error l j.
Proof.
  induction l; destruct i; destruct j; simpl; intros; auto; try congruence.
Qed.

Lemma nth_error_upd : forall A (l : list A) i j v x,
  nth_error l i = Some x ->
  nth_error (upd i v l) j = if Nat.eqb j i then Some v else nth_error l j.
Proof.
  intros. destruct (Nat.eqb_spec j i).
  - subst. eapply nth_error_upd_same; eauto.
  - apply nth_error_upd_other; auto.
Qed.

Lemma nth_error_upd_inv : forall A (l : list A) i j v p,
  nth_error (upd i v l) j = Some p -> (j = i /\ p = v) \/ (j <> i /\ nth_error l j = Some p).
Proof.
  induction l; destruct i; destruct j; simpl; intros; try discriminate; auto.
  - inversion H; auto.
  - destruct (IHl _ _ _ _ H) as [[-> ->]|[Hn Hp]]; auto.
Qed.

Lemma upd_forall : forall A (P : nat -> A -> Prop) l i v,
  (forall j p, j <> i -> nth_error l j = Some p -> P j p) -> P i v ->
  forall j p, nth_error (upd i v l) j = Some p -> P j p.
Proof.
  intros A P l i v Hl Hv j p Hj. apply nth_error_upd_inv in Hj. destruct Hj as [[-> ->]|[Hn Hj]]; auto.
Qed.

Lemma nth_error_upd_len : forall A (l : list A) i v, (i < length l)%nat -> nth_error (upd i v l) i = Some v.
Proof.
  intros A l i v H. destruct (nth_error l i) eqn:E; [eapply nth_error_upd_same; eauto|].
  apply nth_error_None in E. lia.
Qed.

Lemma upd_same : forall A (l : list A) i p, nth_error l i = Some p -> upd i p l = l.
Proof.
  induction l; destruct i; simpl; intros; try discriminate; auto.
  - inversion H; auto.
  - rewrite (IHl _ _ H). reflexivity.
Qed.

Lemma length_upd : forall A (l : list A) i v, length (upd i v l) = length l.
Proof. induction l; destruct i; simpl; auto. Qed.

Definition b2n (b : bool) : nat := if b then 1%nat else 0%nat.

Lemma count_busy_cons : forall p l, count_busy (p :: l) = (b2n (w_busy p) + count_busy l)%nat.
Proof. intros. unfold count_busy. simpl. destruct (w_busy p); reflexivity. Qed.

Lemma count_busy_upd : forall l i p q,
  nth_error l i = Some p ->
  (count_busy (upd i q l) + b2n (w_busy p) = count_busy l + b2n (w_busy q))%nat.
Proof.
  induction l; destruct i; simpl; intros; try discriminate.
  - inversion H; subst. rewrite !count_busy_cons. lia.
  - rewrite !count_busy_cons. specialize (IHl _ _ q H). lia.
Qed.

Lemma count_busy_ge : forall l i p, nth_error l i = Some p -> (b2n (w_busy p) <= count_busy l)%nat.
Proof. intros l i p H. pose proof (count_busy_upd l i p WIdle H). simpl in *. lia. Qed.

Lemma count_busy_two : forall l i j p q,
  i <> j -> nth_error l i = Some p -> nth_error l j = Some q ->
  (b2n (w_busy p) + b2n (w_busy q) <= count_busy l)%nat.
Proof.
  intros l i j p q Hne Hi Hj. pose proof (count_busy_upd l i p WIdle Hi) as H1.
  pose proof (count_busy_ge (upd i WIdle l) j q) as H2. rewrite nth_error_upd_other in H2 by auto.
  specialize (H2 Hj). simpl in H1. lia.
Qed.

Lemma count_busy_zero : forall l, count_busy l = 0%nat -> forall i p, nth_error l i = Some p -> w_busy p = false.
Proof.
  intros. pose proof (count_busy_ge _ _ _ H0). destruct (w_busy p); simpl in *; auto; lia.
Qed.

Lemma count_busy_ex : forall l, (0 < count_busy l)%nat -> existsb w_busy l = true.
Proof.
  induction l; simpl; intros. { inversion H. }
  rewrite count_busy_cons in H. destruct (w_busy a); simpl in *; auto.
Qed.

Lemma existsb_nth : forall A (f : A -> bool) l i p, nth_error l i = Some p -> f p = true -> existsb f l = true.
Proof. intros A f l i p H Hp. apply existsb_exists. exists p. split; auto. eapply nth_error_In; eauto. Qed.

Lemma existsb_ex : forall A (f : A -> bool) l, existsb f l = true -> exists i p, nth_error l i = Some p /\ f p = true.
Proof.
  intros A f l H. apply existsb_exists in H. destruct H as (p & Hin & Hp).
  destruct (In_nth_error _ _ Hin) as [i Hi]. eauto.
Qed.

Lemma existsb_upd_keep : forall A (f : A -> bool) l i p q,
  nth_error l i = Some p -> existsb f l = true -> (f p = false \/ f q = true) -> existsb f (upd i q l) = true.
Proof.
  intros. destruct (existsb_ex _ _ _ H0) as (j & r & Hj & Hr).
  destruct (Nat.eq_dec j i).
  - subst. rewrite H in Hj. inversion Hj; subst. destruct H1 as [H1|H1]; [congruence|].
    apply existsb_nth with (i := i) (p := q); [eapply nth_error_upd_same; exact H | exact H1].
  - apply existsb_nth with (i := j) (p := r); [rewrite nth_error_upd_other by congruence; exact Hj | exact Hr].
Qed.

Lemma existsb_upd_new : forall A (f : A -> bool) l i p q,
  nth_error l i = Some p -> f q = true -> existsb f (upd i q l) = true.
Proof. intros. apply existsb_nth with (i := i) (p := q); [eapply nth_error_upd_same; exact H | exact H0]. Qed.

Lemma existsb_upd_in : forall A (f : A -> bool) l i q,
  (i < length l)%nat -> f q = true -> existsb f (upd i q l) = true.
Proof. intros. eapply existsb_nth; [apply nth_error_upd_len|]; eassumption. Qed.

Lemma forallb_nth : forall A (f : A -> bool) l j p,
  forallb f l = true -> nth_error l j = Some p -> f p = true.
Proof. intros. rewrite forallb_forall in H. apply H. eapply nth_error_In; eauto. Qed.

Lemma forallb_intro : forall A (f : A -> bool) l,
  (forall j p, nth_error l j = Some p -> f p = true) -> forallb f l = true.
Proof.
  intros. apply forallb_forall. intros x Hx. apply In_nth_error in Hx. destruct Hx as [j Hj]. eauto.
Qed.

Lemma existsb_intro_false : forall A (f : A -> bool) l,
  (forall j p, nth_error l j = Some p -> f p = false) -> existsb f l = false.
Proof.
  intros. destruct (existsb f l) eqn:E; auto. apply existsb_ex in E. destruct E as (j & p & Hj & Hp).
  rewrite (H _ _ Hj) in Hp. discriminate.
Qed.

Lemma forallb_i_spec : forall A (f : nat -> A -> bool) l k,
  forallb_i f k l = true <-> (forall i p, nth_error l i = Some p -> f (k + i)%nat p = true).
Proof.
  induction l; simpl; intros.
  - split; auto. intros _ i p H. destruct i; discriminate.
  - rewrite andb_true_iff, IHl. split.
    + intros [H0 H1] i p Hi. destruct i; simpl in Hi.
      * inversion Hi; subst. rewrite Nat.add_0_r. auto.
      * replace (k + S i)%nat with (S k + i)%nat by lia. auto.
    + intros H. split.
      * specialize (H 0%nat a eq_refl). rewrite Nat.add_0_r in H. auto.
      * intros i p Hi. replace (S k + i)%nat with (k + S i)%nat by lia. apply H. auto.
Qed.

Definition notified (p : wpc) : wpc :=
  match p with WHwEPk st _ => WHwEN st | WHwLPk st => WHwLN st | _ => p end.

(* notify() wakes the first parked worker and nobody else *)
Lemma notify_o_cons : forall a l,
  notify_o (a :: l) = if parked_o a then notified a :: l else a :: notify_o l.
Proof. destruct a; reflexivity. Qed.

Lemma parked_notified : forall p, parked_o (notified p) = false.
Proof. destruct p; reflexivity. Qed.

Lemma notify_o_nth : forall l j q,
  nth_error (notify_o l) j = Some q ->
  exists p, nth_error l j = Some p /\ (q = p \/ (parked_o p = true /\ q = notified p)).
Proof.
  induction l; intros j q H; [destruct j; discriminate|].
  rewrite notify_o_cons in H. destruct (parked_o a) eqn:Pa; destruct j; simpl in *; eauto.
  inversion H; subst. eauto.
Qed.

Lemma length_notify_o : forall l, length (notify_o l) = length l.
Proof. induction l; auto. rewrite notify_o_cons. destruct (parked_o a); simpl; auto. Qed.

Lemma notify_o_none_parked : forall l,
  (forall i j p q, nth_error l i = Some p -> nth_error l j = Some q ->
                   parked_o p = true -> parked_o q = true -> i = j) ->
  forall j q, nth_error (notify_o l) j = Some q -> parked_o q = false.
Proof.
  induction l; intros Huniq j q H; [destruct j; discriminate|].
  rewrite notify_o_cons in H. destruct (parked_o a) eqn:Pa; destruct j; simpl in H.
  - inversion H. apply parked_notified.
  - (* a is the parked one: the tail has none *)
    destruct (parked_o q) eqn:Pq; auto. discriminate (Huniq 0%nat (S j) a q eq_refl H Pa Pq).
  - inversion H; subst. exact Pa.
  - apply (IHl (fun i0 j0 p0 q0 Hi Hj Pp Pq => eq_add_S _ _ (Huniq (S i0) (S j0) p0 q0 Hi Hj Pp Pq)) _ _ H).
Qed.

Lemma notify_o_fwd : forall l j p,
  nth_error l j = Some p ->
  nth_error (notify_o l) j = Some p \/ (parked_o p = true /\ nth_error (notify_o l) j = Some (notified p)).
Proof.
  induction l; intros j p H; [destruct j; discriminate|].
  rewrite notify_o_cons. destruct (parked_o a) eqn:Pa; destruct j; simpl in *; auto.
  inversion H; subst. auto.
Qed.

(* add_task wakes the longest waiter of queue_cv, if any, then appends to the queue *)
Definition wake (s : state) : state :=
  match qwait s with [] => s | w :: r => set_qwait (set_ws s (upd w WNotif (ws s))) r end.

Lemma add_task_wake : forall s, add_task s = set_queue (wake s) (S (queue s)).
Proof. intros. unfold add_task, wake. simpl. destruct (qwait s); reflexivity. Qed.

Lemma wake_fields : forall s,
  queue (wake s) = queue s /\ nreq (wake s) = nreq s /\ conn (wake s) = conn s /\ io (wake s) = io s.
Proof. intros. unfold wake. destruct (qwait s); auto. Qed.

(* after rewriting with this equation every field of [add_task s] but queue, qwait and ws computes to that of [s] *)
Lemma add_task_eta : forall s,
  add_task s = set_qwait (set_ws (set_queue s (S (queue s))) (ws (add_task s))) (qwait (add_task s)).
Proof. intros. unfold add_task. destruct s as [? ? ? ? ? ? ? ? ? ? ? ? ? qw ? ? ? ?]. simpl. destruct qw; reflexivity. Qed.

Lemma add_task_cases : forall s,
  (qwait s = [] /\ ws (add_task s) = ws s /\ qwait (add_task s) = []) \/
  (exists w r, qwait s = w :: r /\ ws (add_task s) = upd w WNotif (ws s) /\ qwait (add_task s) = r).
Proof.
  intros. unfold add_task. simpl. destruct (qwait s) eqn:E; simpl; auto.
  right. exists n, l. auto.
Qed.

Lemma length_ws_add_task : forall s, length (ws (add_task s)) = length (ws s).
Proof.
  intros. destruct (add_task_cases s) as [(_ & -> & _)|(w & r & _ & -> & _)]; auto. apply length_upd.
Qed.

Lemma ws_add_task_inv : forall s j p,
  nth_error (ws (add_task s)) j = Some p -> p = WNotif \/ nth_error (ws s) j = Some p.
Proof.
  intros s j p H. destruct (add_task_cases s) as [(_ & E & _)|(w & r & _ & E & _)]; rewrite E in H; auto.
  apply nth_error_upd_inv in H. tauto.
Qed.

Lemma add_task_forall : forall (P : nat -> wpc -> Prop) s,
  (forall j p, nth_error (ws s) j = Some p -> P j p) -> (forall j, P j WNotif) ->
  forall j p, nth_error (ws (add_task s)) j = Some p -> P j p.
Proof. intros P s Hs Hn j p Hj. apply ws_add_task_inv in Hj. destruct Hj as [->|Hj]; auto. Qed.

Lemma free_none : forall l, free l = true -> l = None.
Proof. destruct l; simpl; intros; congruence. Qed.

Ltac free_hyps :=
  repeat match goal with
         | H : free ?l = true |- _ => apply free_none in H
         end.

Ltac step_cases H :=
  repeat match type of H with
         | context [match ?x with _ => _ end] => destruct x eqn:?; try discriminate H
         end;
  inversion H; subst; clear H.
Ltac split_ifs :=
  repeat match goal with |- context [if ?b then _ else _] => destruct b eqn:? end.

(* One goal per branch of [step_io] (H : step_io c s ch = Some (s', l)), resp. of [step_w].  The goal is kept
   folded as a predicate of s' while the matches are broken: each destruct then has only H to rewrite. *)
Ltac fold_goal H G :=
  match type of H with _ = Some (?s', _) => pattern s' end;
  match goal with |- ?Q _ => set (G := Q) end.
Ltac step_io_cases H :=
  let G := fresh "goal_of" in
  fold_goal H G; unfold step_io in H; step_cases H; free_hyps; subst G; cbv beta;
  try match goal with E : io _ = _ |- _ => rewrite ?E end;
  unfold after_read, turn_start, hc_return, goio in *; split_ifs.
Ltac step_w_cases H :=
  let G := fresh "goal_of" in
  fold_goal H G; step_cases H; free_hyps; subst G; cbv beta;
  unfold setw, hw_exit in *; split_ifs;
  repeat match goal with |- context [match ?b with SWr _ => _ | SEnd => _ end] => destruct b eqn:? end.

Ltac z_hyps :=
  repeat match goal with
         | H : (_ <=? _) = true |- _ => apply Z.leb_le in H
         | H : (_ <=? _) = false |- _ => apply Z.leb_gt in H
         | H : (_ <? _) = true |- _ => apply Z.ltb_lt in H
         | H : (_ <? _) = false |- _ => apply Z.ltb_ge in H
         | H : (_ =? _) = true |- _ => apply Z.eqb_eq in H
         | H : (_ =? _) = false |- _ => apply Z.eqb_neq in H
         | H : _ && _ = true |- _ => apply andb_true_iff in H; destruct H
         end.
Ltac nat_hyps :=
  repeat match goal with
         | H : (_ =? _)%nat = true |- _ => apply Nat.eqb_eq in H
         | H : (_ =? _)%nat = false |- _ => apply Nat.eqb_neq in H
         | H : (_ <? _)%nat = true |- _ => apply Nat.ltb_lt in H
         | H : (_ <? _)%nat = false |- _ => apply Nat.ltb_ge in H
         end.

Lemma step_lift : forall (P : state -> Prop) c,
  (forall s ch s' l, P s -> step_io c s ch = Some (s', l) -> P s') ->
  (forall s i ch s' l, P s -> step_w c s i ch = Some (s', l) -> P s') ->
  (forall s v, P s -> P (set_rx s v)) -> (forall s v, P s -> P (set_gone s v)) ->
  forall s ch s' l, P s -> step c s ch = Some (s', l) -> P s'.
Proof.
  intros P c Hio Hw Hrx Hgone s ch s' l HP H. unfold step in H.
  destruct ch; try (eapply Hio; eassumption); try (eapply Hw; eassumption);
    destruct (gone s); try discriminate; inversion H; subst; auto.
Qed.

(* One step of thread t against one lock v: h, h' say whether its program point is inside the critical
   section.  The lock is taken only when free, on entering; given up only from inside, on leaving. *)
Definition lock_step (t : tid) (h h' : bool) (v v' : option tid) : Prop :=
  (v' = v /\ h' = h) \/ (v = None /\ v' = Some t /\ h' = true) \/ (h = true /\ v' = None /\ h' = false).

(* handle_close releases outbuf_lock at IoHCe only if it took it itself *)
Definition hce_ok (p : iopc) : Prop := match p with IoHCe k => hc_locked k = false | _ => True end.

(* will_close and closed are only raised; total_outbufs_len, the buffers and connected change only under
   outbuf_lock; the workers move only by notify() and add_task.  The lock discipline holds on both locks.
   Coverage is lost only by the reads of readable() / writable(), and only when the value read does not ask
   for the event: after any other step the coming select still evaluates every attribute. *)
Lemma step_io_inv : forall c s ch s' l,
  step_io c s ch = Some (s', l) ->
  ((wc s = true -> wc s' = true) /\ (closed s = true -> closed s' = true) /\
   (io_holds_o (io s) = false -> total s' = total s /\ pend s' = pend s /\ conn s' = conn s) /\
   (ws s' = ws s \/ ws s' = ws (add_task s) \/ ws s' = notify_o (ws s))) /\
  (hce_ok (io s) ->
   hce_ok (io s') /\
   lock_step TIO (io_holds_o (io s)) (io_holds_o (io s')) (olock s) (olock s') /\
   lock_step TIO (io_holds_r (io s)) (io_holds_r (io s')) (rlock s) (rlock s')) /\
  ((cov_tot (io s') = true /\ rcov (io s') = true) \/ closed s' = true \/
   (exists p', s' = goio s p' /\
    (cov_tot (io s) = true -> cov_tot p' = false -> total s <= 0) /\
    (cov_wc (io s) = true -> cov_wc p' = false -> wc s = false) /\
    (cov_cwf (io s) = true -> cov_cwf p' = false -> cwf s = false) /\
    (rcov (io s) = true -> rcov p' = false ->
     wc s = true \/ cwf s = true \/ (lookahead c < nreq s)%nat \/ total s <> 0))).
Proof.
  intros c s ch s' l H. unfold lock_step. step_io_cases H.
  all: try rewrite (add_task_eta s); simpl; try match goal with E : io _ = _ |- _ => rewrite !E end; simpl.
  (* the frame facts and the lock discipline hold at every program point by computation (for the locks: by the
     shape of the continuation k in handle_close) *)
  all: split; [repeat split; intros; auto; congruence | split].
  all: try (intros He; simpl in He; repeat split; auto; destruct k; simpl in *; auto; discriminate).
  (* coverage: the new program point covers everything, or the channel is closed *)
  all: try (left; split; reflexivity).
  all: try (right; left; assumption).
  (* what is left are the seven reads IoR1..IoR4, IoW1..IoW3 *)
  all: right; right; eexists; split; [reflexivity|]; simpl; repeat split; intros A B; try congruence.
  all: z_hyps; nat_hyps; auto.
  - (* IoR4: POLLIN is dropped because total_outbufs_len <> 0 *)
    destruct (total s =? 0) eqn:E; [discriminate B|]. z_hyps. auto.
  - (* IoW3: POLLOUT is dropped because close_when_flushed is False *)
    destruct (cwf s); [discriminate B|reflexivity].
Qed.

Definition step_io_frame c s ch s' l H := proj1 (step_io_inv c s ch s' l H).
Definition step_io_locks c s ch s' l He H := proj1 (proj2 (step_io_inv c s ch s' l H)) He.
Definition step_io_cov c s ch s' l H := proj2 (proj2 (step_io_inv c s ch s' l H)).

Lemma step_io_nth : forall c s ch s' l j q,
  step_io c s ch = Some (s', l) -> nth_error (ws s') j = Some q ->
  q = WNotif \/ exists p, nth_error (ws s) j = Some p /\ (q = p \/ (parked_o p = true /\ q = notified p)).
Proof.
  intros c s ch s' l j q H Hj. destruct (step_io_frame _ _ _ _ _ H) as (_ & _ & _ & [E|[E|E]]); rewrite E in Hj.
  - eauto.
  - apply ws_add_task_inv in Hj. destruct Hj; eauto.
  - right. apply notify_o_nth. exact Hj.
Qed.

Lemma cov_tot_all : forall p, cov_tot p = true -> cov_wc p = true /\ cov_cwf p = true.
Proof. destruct p; simpl; auto; destruct w; auto. Qed.

Lemma step_w_frame : forall c s i ch s' l pc,
  nth_error (ws s) i = Some pc -> step_w c s i ch = Some (s', l) ->
  io s' = io s /\ conn s' = conn s /\ closed s' = closed s /\
  (wc s = true -> wc s' = true) /\ (cwf s = true -> cwf s' = true) /\ (pulled s = true -> pulled s' = true) /\
  (w_holds_o pc = false -> total s' = total s /\ pend s' = pend s) /\
  exists p', (ws s' = upd i p' (ws s) \/ ws s' = upd i p' (ws (add_task s))) /\
    lock_step (TW i) (w_holds_o pc) (w_holds_o p') (olock s) (olock s') /\
    lock_step (TW i) (w_holds_r pc) (w_holds_r p') (rlock s) (rlock s').
Proof.
  intros c s i ch s' l pc Hg H. unfold step_w, getw in H. rewrite Hg in H. unfold lock_step. step_w_cases H.
  all: try rewrite (add_task_eta s); simpl.
  all: repeat split; intros; auto; try discriminate.
  all: eexists; (split; [|split]);
       [ first [ left; reflexivity | right; reflexivity | left; symmetry; apply upd_same; exact Hg ] | .. ];
       simpl; auto.
Qed.
