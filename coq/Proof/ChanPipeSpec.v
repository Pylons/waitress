(* Proof/ChanPipeSpec.v -- the invariants hold along every schedule; the C04 statements. *)
From Coq Require Import List Arith Bool ZArith Lia.
From WV Require Import Model.ChanPipe Proof.ChanPipeBase Proof.ChanPipeBaseStep Proof.ChanPipeOwn Proof.ChanPipeOwnStep
                       Proof.ChanPipeLog Proof.ChanPipeLogStep Proof.ChanPipeOut Proof.ChanPipeOutStep
                       Proof.ChanPipeQuiet Proof.ChanPipeQuietStep Proof.ChanPipeArr Proof.ChanPipeArrStep.
Import ListNotations.

Section Run.
Variable P : params.

Definition Inv (st : state) : Prop := L0 st /\ L1 st /\ L2 st /\ (p_unlocked P = false -> L3' P st) /\ L4 P st /\ L5 P st.

Lemma Inv_init : Inv init.
Proof. split; [apply L0_init | split; [apply L1_init | split; [apply L2_init | split; [intros _; apply L3_init | split; [apply L4_init | apply L5_init]]]]]. Qed.

Lemma Inv_step : forall st c st' l, Inv st -> step P st c = Some (st', l) -> Inv st'.
Proof.
  intros st c st' l (H0 & H1 & H2 & H3 & H4 & H5) Hs.
  split; [eapply L0_step; eauto | split; [eapply L1_step; eauto | split; [eapply L2_step; eauto |
  split; [intro Hu; eapply L3_step; eauto | split; [eapply L4_step; eauto | eapply L5_step; eauto]]]]].
Qed.

Lemma Inv_exec : forall sched st, Inv st -> Inv (fold_left (exec1 P) sched st).
Proof.
  induction sched as [|c sched IH]; simpl; intros st H; auto.
  apply IH. unfold exec1. destruct (step P st c) as [[st' l]|] eqn:E; auto.
  eapply Inv_step; eauto.
Qed.

Theorem Inv_run : forall sched, Inv (run P sched).
Proof. intro sched. unfold run. apply Inv_exec. apply Inv_init. Qed.

Lemma NoDup_app_l : forall (A : Type) (a b : list A), NoDup (a ++ b) -> NoDup a.
Proof.
  induction a as [|x a IH]; intros b H; simpl in *; [constructor|].
  inversion H; subst. constructor.
  - intro X. apply H2. apply in_or_app. auto.
  - eapply IH; eauto.
Qed.

Definition no_owner (st : state) : Prop := forall j, wk_owner (wpc (wk st j)) = false.

(* The service starts are a prefix of the arrivals (in arrival order, each at
   most once), the application calls are the starts except possibly the last one *)

Theorem once : forall sched,
  let s := sh (run P sched) in
  prefix (starts s) (arrivals s) /\ (starts s = execs s \/ exists x, starts s = execs s ++ [x]).
Proof.
  intros sched s. destruct (Inv_run sched) as (_ & _ & H2 & _). split.
  - apply (l2_pre _ H2).
  - apply (l2_ex _ H2).
Qed.

(* For every schedule: what the client has received plus what is still pending is exactly what was
   produced, with the one contiguous segment cut out that handle_close discarded (empty unless the
   connection was closed with output pending); what was produced is the units in order: the
   responses of the executed requests in order, each contiguous, interim responses only between
   them. *)
Definition wire_statement (st : state) : Prop :=
  let s := sh st in
  wire s ++ pending s = kept s /\
  discarded s = firstn (length (discarded s)) (skipn (cut s) (produced s)) /\
  produced s = flat_map (utoks P) (units s) /\
  resp_ids (units s) = execs s.

Theorem wire_full : p_unlocked P = false -> forall sched, wire_statement (run P sched).
Proof.
  intros Hu sched. destruct (Inv_run sched) as (_ & _ & _ & H3 & _ & _). specialize (H3 Hu).
  unfold wire_statement, pending. destruct (o_wire _ (proj1 H3)) as [T1 T2]. repeat split; auto.
  - apply (o_prod _ _ (proj2 H3)).
  - apply (o_ids _ _ (proj2 H3)).
Qed.

(* while nothing was discarded: wire ++ pending = produced *)
Corollary wire_no_close : p_unlocked P = false -> forall sched,
  discarded (sh (run P sched)) = [] ->
  wire (sh (run P sched)) ++ pending (sh (run P sched)) = produced (sh (run P sched)).
Proof.
  intros Hu sched Hd. destruct (wire_full Hu sched) as [T _]. rewrite T. unfold kept. rewrite Hd.
  simpl. rewrite Nat.add_0_r. apply firstn_skipn.
Qed.

Theorem complete_in_task : p_unlocked P = false -> forall sched j,
  let st := run P sched in
  connected (sh st) = true -> in_task (wpc (wk st j)) = true ->
  exists us n, units (sh st) = us ++ [UResp (w_cur (wk st j)) n] /\ Forall (complete P) us.
Proof.
  intros Hu sched j st Hc Hj. destruct (Inv_run sched) as (_ & _ & _ & H3 & _ & _). specialize (H3 Hu).
  destruct (o_task _ _ (proj2 H3) j Hj) as (_ & _ & us & E & F). exists us, (off_now P (wk st j)). split; auto.
Qed.

Lemma all_parked_spec : forall n st, all_parked n st = true ->
  forall j, j < n -> is_parked (wpc (wk st j)) = true /\ ~ In j (qnotified (sh st)).
Proof.
  induction n as [|n IH]; intros st H j Hj; [lia|].
  simpl in H. apply andb_true_iff in H. destruct H as [H Hr]. apply andb_true_iff in H. destruct H as [Hp Hn].
  destruct (Nat.eq_dec j n) as [->|N].
  - split.
    + destruct (wpc (wk st n)); try discriminate; reflexivity.
    + intro X. apply negb_true_iff in Hn. assert (existsb (Nat.eqb n) (qnotified (sh st)) = true).
      { apply existsb_exists. exists n. split; auto. apply Nat.eqb_refl. }
      congruence.
  - apply IH; auto. lia.
Qed.

Theorem quiescent_exactly_once : forall sched,
  let st := run P sched in
  1 <= p_nw P -> all_parked (p_nw P) st = true -> io_in_add_task (io st) = false ->
  connected (sh st) = true -> closing (sh st) = false ->
  requests (sh st) = [] /\ execs (sh st) = arrivals (sh st).
Proof.
  intros sched st Hnw Hpk Hio Hc Hcl.
  destruct (Inv_run sched) as (H0 & H1 & H2 & _ & H4 & _). fold st in H0, H1, H2, H4.
  pose proof (all_parked_spec _ _ Hpk) as Hall.
  assert (Hpc : forall j, wpc (wk st j) = WParked \/ wpc (wk st j) = WAcqD).
  { intro j. destruct (Nat.lt_ge_cases j (p_nw P)) as [L|G].
    - left. destruct (Hall j L) as [X _]. destruct (wpc (wk st j)); try discriminate; reflexivity.
    - right. rewrite (q_out _ _ H4 j G). reflexivity. }
  assert (Hno : forall j, wk_owner (wpc (wk st j)) = false) by (intro j; destruct (Hpc j) as [X|X]; rewrite X; reflexivity).
  assert (Hns : forall j, serving (wpc (wk st j)) = false) by (intro j; destruct (Hpc j) as [X|X]; rewrite X; reflexivity).
  assert (Hq : queue (sh st) = 0).
  { destruct (queue (sh st)) eqn:Eq; auto. exfalso.
    destruct (q_live _ _ H4 Hnw ltac:(lia)) as [[j [J1 J2]]|[X|X]].
    - destruct (Hall j J1) as [Y _]. destruct (wpc (wk st j)); simpl in *; discriminate.
    - destruct (qnotified (sh st)) as [|x r] eqn:En; [congruence|].
      assert (Hin : In x (qnotified (sh st))) by (rewrite En; left; reflexivity).
      assert (Hx : is_parked (wpc (wk st x)) = true) by (apply (q_list _ _ H4); apply in_or_app; right; exact Hin).
      destruct (Nat.lt_ge_cases x (p_nw P)) as [L|G].
      + destruct (Hall x L) as [_ Z]. apply Z. left. reflexivity.
      + rewrite (q_out _ _ H4 x G) in Hx. discriminate.
    - unfold io_in_add_task in Hio. unfold io_at_notify in X. destruct (ipc (io st)); try discriminate. }
  assert (Hr : requests (sh st) = []).
  { destruct (requests (sh st)) eqn:Er; auto. exfalso.
    assert (queue (sh st) = 1).
    { apply (l1_cover _ H1); auto; try (rewrite Er; discriminate).
      intro X. unfold io_handing in X. unfold io_in_add_task in Hio. destruct (ipc (io st)); try discriminate. }
    lia. }
  split; auto.
  assert (Hlive : live (sh st)) by (left; auto).
  pose proof (l2_arr _ H2 Hlive) as A. pose proof (l2_idle _ H2 Hlive Hns) as B.
  rewrite Hr, app_nil_r in A.
  destruct (list_eq_dec Nat.eq_dec (starts (sh st)) (execs (sh st))) as [E|N].
  - congruence.
  - destruct (l2_ex2 _ H2 N) as [[j Hj]|[X _]]; [rewrite Hns in Hj; discriminate | congruence].
Qed.
End Run.
