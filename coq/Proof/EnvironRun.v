(* Every run of received() from parser_init: an invariant, and what a run that
   ends completed, error-free and non-empty looks like (run_accepted). *)
From Coq Require Import List NArith ZArith Bool Lia.
From RecordUpdate Require Import RecordUpdate.
From WV Require Import Lib.PyBytes Lib.Regex Gen.GenRegex Model.Receiver Model.UrlSplit Model.Parser
  Proof.EnvironParse.
Import ListNotations.
Local Open Scope N_scope.

(* offering data to the parser, call after call; None when a call does not
   return normally in the model (escape / fuel / unmodelled) *)
Definition step (a : adj) (o : option parser) (d : bytes) : option parser :=
  match o with
  | Some p => match received a p d with ROk p' _ => Some p' | _ => None end
  | None => None
  end.
Definition feed_all (a : adj) (ds : list bytes) : option parser :=
  fold_left (step a) ds (Some parser_init).

Lemma feed_all_snoc a ds d : feed_all a (ds ++ [d]) = step a (feed_all a ds) d.
Proof. unfold feed_all. rewrite fold_left_app. reflexivity. Qed.

(* a parsed head: without a body the request is complete; a declared length
   over the limit is an error *)
Definition finish_head (a : adj) (p1 : parser) : parser :=
  let p2 := match body p1 with
            | None => p1 <| completed := true |>
            | Some _ => p1
            end in
  let p3 := if (0 <? content_length p2) && (max_request_body_size a <=? content_length p2)
            then p2 <| error := Some EBodyTooLarge |> <| completed := true |> else p2 in
  p3 <| headers_finished := true |>.

Definition received_head (a : adj) (p : parser) (data : bytes) : rcv_res :=
  let datalen := lenN data in
  let max_header := max_request_header_size a in
  let s := header_plus p ++ data in
  let index := find_double_newline s in
  let '(hbr, consumed) :=
    match index with
    | Some i => (N.of_nat i, (Z.of_N datalen - (Z.of_nat (length s) - Z.of_nat i))%Z)
    | None => (header_bytes_received p + datalen, Z.of_N datalen)
    end in
  let p := p <| header_bytes_received := hbr |> in
  if max_header <=? hbr then
    match parse_header a p fake_head_431 with
    | (p1, PSOk) => ROk (p1 <| error := Some EHeaderTooLarge |> <| completed := true |>) consumed
    | (_, PSError _) => REscapes
    | (_, PSEscapes) => REscapes
    | (_, PSUnmodelled) => RUnmodelled
    end
  else
  match index with
  | Some i =>
    let hp := lstrip_by is_reqline_ws (strip_leading_crlf (length s) (firstn i s)) in
    match hp with
    | [] => ROk (p <| empty := true |> <| completed := true |> <| headers_finished := true |>) consumed
    | _ =>
      match parse_header a p hp with
      | (_, PSEscapes) => REscapes
      | (_, PSUnmodelled) => RUnmodelled
      | (p1, PSError e) =>
        ROk (p1 <| error := Some e |> <| completed := true |> <| headers_finished := true |>) consumed
      | (p1, PSOk) => ROk (finish_head a p1) consumed
      end
    end
  | None => ROk (p <| header_plus := s |>) (Z.of_N datalen)
  end.

Definition received_body (a : adj) (p : parser) (br : body_rcv) (data : bytes) : rcv_res :=
  let step : option (body_rcv * Z * option perr * bool) :=
    match br with
    | BFixed f => let '(f', n) := fixed_received f data in
                  Some (BFixed f', n, None, f_completed f')
    | BChunked c => match chunked_received c data with
                    | Some (c', n) => Some (BChunked c', n, c_error c', c_completed c')
                    | None => None
                    end
    end in
  match step with
  | None => ROutOfFuel
  | Some (br', consumed, brerr, brdone) =>
    let bbr := (body_bytes_received p + consumed)%Z in
    let p1 := p <| body := Some br' |> <| body_bytes_received := bbr |> in
    let max_body := max_request_body_size a in
    if (Z.of_N max_body <=? bbr)%Z
    then ROk (p1 <| error := Some EBodyTooLarge |> <| completed := true |>) consumed
    else match brerr with
    | Some e => ROk (p1 <| error := Some e |> <| completed := true |>) consumed
    | None =>
      if brdone then
        let p2 := p1 <| completed := true |> in
        ROk (if chunked p2
             then p2 <| headers := hset (headers p2) s_CONTENT_LENGTH (to_dec (body_len br')) |>
             else p2) consumed
      else ROk p1 consumed
    end
  end.

Lemma received_stages a p data :
  received a p data =
  if completed p then ROk p 0%Z
  else match body p with
       | None => received_head a p data
       | Some br => received_body a p br data
       end.
Proof. reflexivity. Qed.

Lemma finish_head_cases a p1 :
  let r := finish_head a p1 in
  (error r = Some EBodyTooLarge /\ completed r = true) \/
  (reqline r = reqline p1 /\ chunked r = chunked p1 /\ content_length r = content_length p1 /\
   empty r = empty p1 /\ error r = error p1 /\ headers r = headers p1 /\ body r = body p1 /\
   completed r = match body p1 with None => true | Some _ => completed p1 end).
Proof.
  unfold finish_head. destruct (body p1) eqn:B; cbv zeta; destruct (_ && _).
  1,3: left; split; reflexivity.
  all: right; repeat split; try reflexivity; exact B.
Qed.

Lemma fixed_received_closed f d :
  fst (fixed_received f d) =
  {| f_remain := f_remain f - lenN d;
     f_buf := f_buf f ++ firstn (N.to_nat (f_remain f)) d;
     f_completed := f_completed f || (f_remain f <=? lenN d) |}.
Proof.
  unfold fixed_received, lenN.
  destruct (f_remain f <? 1) eqn:E1; [apply N.ltb_lt in E1|apply N.ltb_ge in E1]; cbn [fst].
  - replace (f_remain f) with 0 by lia. cbn [N.to_nat firstn]. rewrite app_nil_r.
    replace (0 <=? _) with true by (symmetry; apply N.leb_le; lia). rewrite orb_true_r. reflexivity.
  - destruct (f_remain f <=? N.of_nat (length d)) eqn:E2; cbn [fst].
    + apply N.leb_le in E2. rewrite orb_true_r. f_equal. lia.
    + apply N.leb_gt in E2. rewrite orb_false_r, firstn_all2 by lia. reflexivity.
Qed.

Lemma fixed_received_inv f data f' n :
  fixed_received f data = (f', n) ->
  (f_completed f = true -> f_remain f = 0) ->
  f_remain f' + lenN (f_buf f') = f_remain f + lenN (f_buf f) /\
  (f_completed f' = true -> f_remain f' = 0).
Proof.
  intros H Hc. assert (E : f' = fst (fixed_received f data)) by (rewrite H; reflexivity).
  rewrite fixed_received_closed in E. subst f'. cbn [f_remain f_buf f_completed].
  unfold lenN. rewrite app_length, firstn_length. split; [lia|].
  rewrite orb_true_iff, N.leb_le. intros [X|X]; [apply Hc in X|]; lia.
Qed.

Definition fresh (p : parser) : Prop :=
  headers p = [] /\ body p = None /\ chunked p = false /\ content_length p = 0 /\
  status3 p = (false, None, false).

Definition is_prefix (pre ds : list bytes) : Prop := exists post, ds = pre ++ post.

(* the head block handed to parse_header: everything offered up to the call
   that brought the first CRLF CRLF, cut there, leading CRLF pairs and then
   leading SP / HTAB / VT / FF / CR removed *)
Definition head_of (ds : list bytes) (hp : bytes) : Prop :=
  exists pre i, is_prefix pre ds /\ find_double_newline (concat pre) = Some i /\
                hp = lstrip_by is_reqline_ws (strip_leading_crlf (length (concat pre)) (firstn i (concat pre))).

Definition body_rel (p1 p : parser) : Prop :=
  match body p with
  | None => body p1 = None /\ headers p = headers p1 /\ completed p = true
  | Some (BFixed f) =>
    chunked p1 = false /\ headers p = headers p1 /\
    f_remain f + lenN (f_buf f) = content_length p1 /\ 0 < content_length p1 /\
    (f_completed f = true -> f_remain f = 0) /\ (completed p = true -> f_completed f = true)
  | Some (BChunked c) =>
    chunked p1 = true /\
    (completed p = false -> headers p = headers p1) /\
    (completed p = true -> headers p = hset (headers p1) s_CONTENT_LENGTH (to_dec (lenN (c_buf c))))
  end.

(* Where a parser that has been offered [ds] stands.
   InvHead: no CRLF CRLF yet; it is as at the start and has kept everything offered.
   InvReq:  the head block hp of the bytes offered was accepted by parse_header
            (from a start state p0, giving p1); p has p1's request line and
            framing, and its body receiver and dictionary are where [body_rel]
            says: no body and complete; a Content-Length receiver that has taken
            content_length - f_remain bytes; a chunked receiver, whose decoded
            length replaces Content-Length once it is complete.
   InvFail: complete with an error, or the empty request: not handed to a task. *)
Inductive Inv (a : adj) (ds : list bytes) (p : parser) : Prop :=
| InvHead :
    fresh p -> header_plus p = concat ds -> Inv a ds p
| InvReq (p0 p1 : parser) (hp : bytes) :
    fresh p0 -> head_of ds hp -> parse_header a p0 hp = (p1, PSOk) ->
    reqline p = reqline p1 -> chunked p = chunked p1 -> content_length p = content_length p1 ->
    empty p = false -> (error p <> None -> completed p = true) ->
    (error p = None -> body_rel p1 p) ->
    Inv a ds p
| InvFail :
    completed p = true -> (error p <> None \/ empty p = true) -> Inv a ds p.

Lemma not_completed_no_error p :
  (error p <> None -> completed p = true) -> completed p = false -> error p = None.
Proof. intros Er Hnc. destruct (error p) eqn:X; auto. rewrite Er in Hnc; discriminate. Qed.

Lemma is_prefix_snoc pre ds d : is_prefix pre ds -> is_prefix pre (ds ++ [d]).
Proof. intros [post ->]. exists (post ++ [d]). rewrite app_assoc. reflexivity. Qed.

Lemma head_of_snoc ds d hp : head_of ds hp -> head_of (ds ++ [d]) hp.
Proof. intros (pre & i & P & F & E). exists pre, i. split; auto using is_prefix_snoc. Qed.

Lemma Inv_init a : Inv a [] parser_init.
Proof. apply InvHead; [repeat split|reflexivity]. Qed.

Lemma Inv_completed_stable a ds d p : completed p = true -> Inv a ds p -> Inv a (ds ++ [d]) p.
Proof.
  intros Hc [F _| p0 p1 hp F Hh Hp R C L E Er B | Hcc Hf].
  - destruct F as (_ & _ & _ & _ & S). unfold status3 in S. congruence.
  - eapply InvReq; eauto using head_of_snoc.
  - apply InvFail; auto.
Qed.

Lemma Inv_step_head a ds d p r n :
  fresh p -> header_plus p = concat ds -> received_head a p d = ROk r n -> Inv a (ds ++ [d]) r.
Proof.
  intros F HP. unfold received_head.
  assert (Hs : header_plus p ++ d = concat (ds ++ [d])).
  { rewrite concat_app. cbn. rewrite app_nil_r. congruence. }
  rewrite Hs. set (s := concat (ds ++ [d])).
  destruct F as (Fh & Fb & Fc & Fl & Fs).
  unfold status3 in Fs. injection Fs as Fcomp Ferr Femp.
  destruct (find_double_newline s) as [i|] eqn:Hi.
  - cbv zeta beta iota.
    set (q := p <| header_bytes_received := N.of_nat i |>).
    assert (Fq : fresh q) by (unfold q; repeat split; cbn; auto; unfold status3; cbn; congruence).
    destruct (max_request_header_size a <=? N.of_nat i).
    + destruct (parse_header a q fake_head_431) as [p1 [| e | |]]; try discriminate.
      intro H. injection H as <- _. apply InvFail; cbn; auto. left. discriminate.
    + destruct (lstrip_by is_reqline_ws (strip_leading_crlf (length s) (firstn i s))) as [|x hp'] eqn:Hhp.
      * intro H. injection H as <- _. apply InvFail; cbn; auto.
      * destruct (parse_header a q (x :: hp')) as [p1 [| e | |]] eqn:Hph; try discriminate.
        -- intro H. injection H as <- _.
           pose proof (parse_header_ok _ _ _ _ Hph) as (fl & lines & h1 & AH).
           destruct AH as [_ _ _ _ _ _ _ AS AF].
           assert (S1 : status3 p1 = (false, None, false)).
           { rewrite AS. unfold q, status3. cbn. congruence. }
           unfold status3 in S1. injection S1 as S1c S1e S1m.
           assert (Qc : chunked q = false) by (unfold q; cbn; auto).
           assert (Qb : body q = None) by (unfold q; cbn; auto).
           destruct (finish_head_cases a p1) as [[E1 E2]|(R2 & C2 & L2 & M2 & E2 & H2 & B2 & K2)].
           { apply InvFail; [exact E2|left; congruence]. }
           apply (InvReq a _ _ q p1 (x :: hp')); auto; try congruence.
           ++ exists (ds ++ [d]), i. split; [exists []; rewrite app_nil_r; reflexivity|]. split; auto.
           ++ intros _. unfold body_rel. rewrite B2, H2, K2.
              destruct AF as [(Ac & Av & Ab & Ah & Al)|(Ac & Ah & Acl)].
              ** rewrite Ab. split; [exact Ac|]. split; [reflexivity|congruence].
              ** destruct (Acl Qc) as (Am & Al & Ab). rewrite Ab, Qb.
                 destruct (0 <? dec_value (hget_default (headers p1) s_CONTENT_LENGTH s_0)) eqn:Epos.
                 --- apply N.ltb_lt in Epos. rewrite Al. cbn. unfold lenN. cbn.
                     repeat split; try lia; try discriminate; congruence.
                 --- auto.
        -- intro H. injection H as <- _. apply InvFail; cbn; auto. left. discriminate.
  - cbv zeta beta iota.
    destruct (max_request_header_size a <=? header_bytes_received p + lenN d).
    + destruct (parse_header a _ fake_head_431) as [p1 [| e | |]]; try discriminate.
      intro H. injection H as <- _. apply InvFail; cbn; auto. left. discriminate.
    + intro H. injection H as <- _. apply InvHead.
      * repeat split; cbn; auto. unfold status3. cbn. congruence.
      * cbn. reflexivity.
Qed.

Lemma Inv_step_body a ds d p br r n :
  Inv a ds p -> completed p = false -> body p = Some br ->
  received_body a p br d = ROk r n -> Inv a (ds ++ [d]) r.
Proof.
  intros I Hnc Hb.
  destruct I as [F _| p0 p1 hp F Hh Hp R C L E Er B | Hcc Hf];
    [destruct F as (_ & Fb & _); congruence| |congruence].
  pose proof (not_completed_no_error p Er Hnc) as Ee. specialize (B Ee). unfold body_rel in B. rewrite Hb in B.
  (* a result that keeps the request-line attributes of p stays with the same head *)
  assert (K : forall r, reqline r = reqline p -> chunked r = chunked p ->
                content_length r = content_length p -> empty r = empty p ->
                (error r <> None -> completed r = true) -> (error r = None -> body_rel p1 r) ->
                Inv a (ds ++ [d]) r).
  { intros r0 Rr Cr Lr Mr Er' Br. apply (InvReq a _ r0 p0 p1 hp); auto using head_of_snoc; congruence. }
  unfold received_body.
  destruct br as [f|c].
  - destruct (fixed_received f d) as [f' n'] eqn:Hf.
    destruct B as (Bc & Bh & Bsum & Bpos & Bdone & _).
    pose proof (fixed_received_inv _ _ _ _ Hf Bdone) as (Fsum & Fdone).
    cbv zeta beta iota.
    destruct (Z.of_N (max_request_body_size a) <=? body_bytes_received p + n')%Z.
    { intro H. injection H as <- _. apply InvFail; cbn; auto. left. discriminate. }
    destruct (f_completed f') eqn:Efc.
    + cbn [chunked set]. rewrite C, Bc. intro H. injection H as <- _.
      apply K; try reflexivity.
      intros _. unfold body_rel. cbn [body set headers completed]. repeat split; auto. lia.
    + intro H. injection H as <- _.
      apply K; try reflexivity; [cbn; intro X; congruence|].
      intros _. unfold body_rel. cbn [body set headers completed].
      repeat split; auto; try lia; intro X; congruence.
  - destruct (chunked_received c d) as [[c' n']|] eqn:Hc; [|discriminate].
    destruct B as (Bc & Bh & _). specialize (Bh Hnc).
    cbv zeta beta iota.
    destruct (Z.of_N (max_request_body_size a) <=? body_bytes_received p + n')%Z.
    { intro H. injection H as <- _. apply InvFail; cbn; auto. left. discriminate. }
    destruct (c_error c') as [e|].
    { intro H. injection H as <- _. apply InvFail; cbn; auto. left. discriminate. }
    destruct (c_completed c') eqn:Ecc.
    + cbn [chunked set]. rewrite C, Bc. intro H. injection H as <- _.
      apply K; try reflexivity.
      intros _. unfold body_rel. cbn [body set headers completed body_len].
      split; [exact Bc|]. split; [discriminate|]. intros _. rewrite Bh. reflexivity.
    + intro H. injection H as <- _.
      apply K; try reflexivity; [cbn; intro X; congruence|].
      intros _. unfold body_rel. cbn [body set headers completed].
      split; [exact Bc|]. split; [intros _; exact Bh|]. intro X. congruence.
Qed.

Theorem Inv_feed_all a ds : forall p, feed_all a ds = Some p -> Inv a ds p.
Proof.
  induction ds as [|d ds IH] using rev_ind; intros p H.
  - unfold feed_all in H. cbn in H. injection H as <-. apply Inv_init.
  - rewrite feed_all_snoc in H. unfold step in H.
    destruct (feed_all a ds) as [q|] eqn:Eq; [|discriminate].
    specialize (IH q eq_refl).
    destruct (received a q d) as [r n| | |] eqn:Er; try discriminate.
    injection H as <-.
    rewrite received_stages in Er.
    destruct (completed q) eqn:Ec.
    + injection Er as <- _. apply Inv_completed_stable; assumption.
    + destruct (body q) as [br|] eqn:Eb.
      * eapply Inv_step_body; eauto.
      * destruct IH as [F HP| p0 p1 hp F Hh Hp R C L E Err B | Hcc Hf].
        -- eapply Inv_step_head; eauto.
        -- specialize (B (not_completed_no_error q Err Ec)). unfold body_rel in B. rewrite Eb in B. destruct B as (_ & _ & X). congruence.
        -- congruence.
Qed.

(* what a request handed to a task looks like *)
Record accepted_run (a : adj) (ds : list bytes) (p : parser) (p0 p1 : parser) (hp : bytes) : Prop := {
  ar_fresh : fresh p0;
  ar_head : head_of ds hp;
  ar_parse : parse_header a p0 hp = (p1, PSOk);
  ar_reqline : reqline p = reqline p1;
  ar_chunked : chunked p = chunked p1;
  ar_cl : content_length p = content_length p1;
  ar_body :
    match body p with
    | None => body p1 = None /\ headers p = headers p1
    | Some (BFixed f) =>
      chunked p1 = false /\ headers p = headers p1 /\ lenN (f_buf f) = content_length p1 /\
      0 < content_length p1
    | Some (BChunked c) =>
      chunked p1 = true /\ headers p = hset (headers p1) s_CONTENT_LENGTH (to_dec (lenN (c_buf c)))
    end
}.

Theorem run_accepted a ds p :
  feed_all a ds = Some p -> completed p = true -> error p = None -> empty p = false ->
  exists p0 p1 hp, accepted_run a ds p p0 p1 hp.
Proof.
  intros H Hc He Hm. apply Inv_feed_all in H.
  destruct H as [F _| p0 p1 hp F Hh Hp R C L E Err B | Hcc [Hf|Hf]].
  - destruct F as (_ & _ & _ & _ & S). unfold status3 in S. congruence.
  - exists p0, p1, hp. specialize (B He). unfold body_rel in B.
    constructor; auto.
    destruct (body p) as [[f|c]|].
    + destruct B as (B1 & B2 & B3 & B4 & B5 & B6).
      specialize (B6 Hc). specialize (B5 B6). repeat split; auto. lia.
    + destruct B as (B1 & _ & B3). auto.
    + destruct B as (B1 & B2 & _). auto.
  - congruence.
  - congruence.
Qed.

Corollary run_accepted_head a ds p :
  feed_all a ds = Some p -> completed p = true -> error p = None -> empty p = false ->
  exists p0 p1 hp fl lines h1,
    accepted_run a ds p p0 p1 hp /\ accepted_head a p0 p1 hp fl lines h1.
Proof.
  intros H Hc He Hm. destruct (run_accepted _ _ _ H Hc He Hm) as (p0 & p1 & hp & AR).
  destruct (parse_header_ok _ _ _ _ (ar_parse _ _ _ _ _ _ AR)) as (fl & lines & h1 & AH). eauto 8.
Qed.
