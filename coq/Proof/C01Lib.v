(* Small lemmas shared by the C01 proofs: languages of character-class
   repetitions as [forallb], PyBytes.split on one byte as a structural
   function, strip / trim, lower-casing against an ASCII word. *)
From Coq Require Import List NArith Bool Lia Arith.
From WV Require Import Lib.PyBytes Lib.Regex Lib.RegexDec Spec.Grammar Spec.Ref9112.
From WV Require Import Proof.PyBytesFacts Proof.RegexFacts.
Import ListNotations.
Local Open Scope N_scope.

Lemma matches_Emp s : matches Emp s = false.
Proof. induction s; simpl; auto. Qed.

Lemma matches_star_cls rs s :
  matches (Star (Cls rs)) s = forallb (fun x => in_ranges x rs) s.
Proof.
  induction s as [|x s IH]; simpl; auto.
  destruct (in_ranges x rs); simpl.
  - exact IH.
  - apply matches_Emp.
Qed.

Lemma matches_plus_cls rs s :
  matches (Plus (Cls rs)) s = match s with [] => false | _ => forallb (fun x => in_ranges x rs) s end.
Proof.
  destruct s as [|x s]; simpl; auto.
  destruct (in_ranges x rs); simpl.
  - apply matches_star_cls.
  - apply matches_Emp.
Qed.

Lemma Lang_star_forallb rs s : Lang (Star (Cls rs)) s <-> forallb (fun x => in_ranges x rs) s = true.
Proof. rewrite <- matches_correct, matches_star_cls. tauto. Qed.

Lemma Lang_plus_forallb rs s :
  Lang (Plus (Cls rs)) s <-> s <> [] /\ forallb (fun x => in_ranges x rs) s = true.
Proof.
  rewrite <- matches_correct, matches_plus_cls. destruct s; simpl.
  - split; [discriminate|intros [H _]; congruence].
  - split; [intro H; split; [discriminate|auto] | intros [_ H]; auto].
Qed.

(* bytes other than CR and LF: what a header value is made of once the line
   splitter has refused bare CR / LF *)
Definition clean (v : bytes) : bool := forallb (fun x => in_ranges x [(0,9); (11,12); (14,255)]) v.

Lemma clean_no_crlf v : clean v = true -> Lang no_crlf v.
Proof. intro H. apply Lang_star_forallb. exact H. Qed.

Lemma clean_bytes_ok v : clean v = true -> bytes_ok v.
Proof.
  unfold clean, bytes_ok. rewrite forallb_forall, Forall_forall. intros H x Hx.
  specialize (H x Hx). simpl in H.
  repeat (apply orb_true_iff in H as [H|H]); try discriminate;
    apply andb_true_iff in H as [_ H]; apply N.leb_le in H; lia.
Qed.

Lemma has_crlf_clean l : bytes_ok l -> has_crlf_byte l = false -> clean l = true.
Proof.
  intros Ho Hc. unfold clean. apply forallb_forall. intros x Hx.
  unfold bytes_ok in Ho. rewrite Forall_forall in Ho. specialize (Ho x Hx).
  assert (Hx2 : (x =? 13) || (x =? 10) = false).
  { destruct ((x =? 13) || (x =? 10)) eqn:E; auto.
    rewrite <- Hc. symmetry. apply existsb_exists. exists x. auto. }
  apply orb_false_iff in Hx2 as [E13 E10]. apply N.eqb_neq in E13, E10.
  cbn [in_ranges]. rewrite !orb_true_iff, !andb_true_iff, !N.leb_le. lia.
Qed.

Lemma clean_app a b : clean (a ++ b) = clean a && clean b.
Proof. unfold clean. apply forallb_app. Qed.

Lemma startswith_one s c : startswith s [c] = match s with x :: _ => c =? x | [] => false end.
Proof. destruct s; simpl; auto. rewrite startswith_nil, andb_true_r. auto. Qed.

(* c is not in s, in the two forms in use *)
Lemma memb_forallb c s : forallb (fun x => negb (x =? c)) s = negb (memb c s).
Proof.
  induction s as [|x s IH]; [reflexivity|]. cbn [forallb].
  change (memb c (x :: s)) with ((c =? x) || memb c s). rewrite IH, negb_orb, (N.eqb_sym c x). reflexivity.
Qed.

(* a string of bytes from a class that excludes c does not contain c *)
Lemma forallb_avoid (P : N -> bool) c s : P c = false -> forallb P s = true -> memb c s = false.
Proof.
  intros Hc H. induction s as [|x s IH]; [reflexivity|]. cbn [forallb] in H.
  apply andb_true_iff in H as [H1 H2]. change (memb c (x :: s)) with ((c =? x) || memb c s).
  rewrite (IH H2), orb_false_r.
  destruct (c =? x) eqn:E; [apply N.eqb_eq in E; congruence|reflexivity].
Qed.

Lemma split_on_acc c s cur :
  split_on c s cur = match split_on c s [] with
                     | h :: t => (rev cur ++ h) :: t
                     | [] => []
                     end.
Proof.
  revert cur; induction s as [|x s IH]; intro cur; simpl.
  - rewrite app_nil_r. reflexivity.
  - destruct (x =? c).
    + rewrite app_nil_r. reflexivity.
    + rewrite (IH (x :: cur)), (IH [x]). destruct (split_on c s []); auto.
      simpl. rewrite <- app_assoc. reflexivity.
Qed.

Lemma split_on_none c s : memb c s = false -> split_on c s [] = [s].
Proof.
  induction s as [|x s IH]; cbn [split_on memb existsb]; auto.
  intro H. apply orb_false_iff in H as [H1 H2]. rewrite (N.eqb_sym x c), H1.
  rewrite split_on_acc, IH; auto.
Qed.

Lemma split_on_some c pre post : memb c pre = false ->
  split_on c (pre ++ c :: post) [] = pre :: split_on c post [].
Proof.
  induction pre as [|x pre IH]; cbn [app split_on memb existsb]; intro H.
  - rewrite N.eqb_refl. reflexivity.
  - apply orb_false_iff in H as [H1 H2]. rewrite (N.eqb_sym x c), H1.
    rewrite split_on_acc, IH; auto.
Qed.

Lemma split_one c s : split s [c] = split_on c s [].
Proof.
  revert s. apply (char_split_ind c).
  - intros s H. rewrite split_char_none, split_on_none by exact H. reflexivity.
  - intros a b H IH. rewrite split_char_app, split_on_some, IH by exact H. reflexivity.
Qed.

Lemma lstrip_drop_while f s : lstrip_by f s = drop_while f s.
Proof. induction s as [|x s IH]; simpl; [reflexivity|]. rewrite IH. reflexivity. Qed.

Lemma strip_trim f s : strip_by f s = trim f s.
Proof. unfold strip_by, rstrip_by, trim. rewrite !lstrip_drop_while. reflexivity. Qed.

Lemma strip_sp_htab s : strip_by is_sp_htab s = trim is_ows s.
Proof. apply strip_trim. Qed.

Definition ascii_word (w : bytes) : Prop := Forall (fun c => c < 128) w.

Lemma lower_c_agree x c : c < 128 ->
  (lower_latin1_c x =? c) = ((if (65 <=? x) && (x <=? 90) then x + 32 else x) =? c).
Proof.
  intro Hc. unfold lower_latin1_c.
  destruct ((65 <=? x) && (x <=? 90)) eqn:A; auto.
  destruct ((192 <=? x) && (x <=? 222) && negb (x =? 215)) eqn:B; auto.
  apply andb_true_iff in B as [B _]. apply andb_true_iff in B as [B1 B2].
  apply N.leb_le in B1, B2.
  transitivity false; [|symmetry]; apply N.eqb_neq; lia.
Qed.

Lemma lower_word_agree w : ascii_word w -> forall s,
  beqb (lower_latin1 s) w = beqb (to_lower s) w.
Proof.
  induction 1 as [|c w Hc Hw IH]; intros [|x s]; simpl; auto.
  rewrite lower_c_agree by exact Hc. rewrite IH. reflexivity.
Qed.

Lemma chunked_ascii : ascii_word w_chunked.
Proof. unfold ascii_word, w_chunked. repeat constructor. Qed.

Lemma forallb_ext_in {A} (f g : A -> bool) l : (forall x, In x l -> f x = g x) -> forallb f l = forallb g l.
Proof.
  induction l as [|x l IH]; simpl; auto. intro H. rewrite H, IH; auto.
Qed.

Lemma memb_existsb c l : memb c l = existsb (fun x => x =? c) l.
Proof.
  unfold memb. induction l as [|x l IH]; cbn [existsb]; auto.
  rewrite IH, (N.eqb_sym c x). reflexivity.
Qed.

Lemma lstrip_app_keep f a b : lstrip_by f a <> [] -> lstrip_by f (a ++ b) = lstrip_by f a ++ b.
Proof.
  induction a as [|x a IH]; cbn [lstrip_by app]; [congruence|].
  destruct (f x); auto.
Qed.

Lemma lstrip_app_all f a b : lstrip_by f a = [] -> lstrip_by f (a ++ b) = lstrip_by f b.
Proof.
  induction a as [|x a IH]; cbn [lstrip_by app]; auto.
  destruct (f x); [auto|discriminate].
Qed.

Lemma lstrip_head f s : match lstrip_by f s with x :: _ => f x = false | [] => True end.
Proof.
  induction s as [|x s IH]; cbn [lstrip_by]; auto. destruct (f x) eqn:E; auto.
Qed.

Lemma lstrip_idem f s : lstrip_by f (lstrip_by f s) = lstrip_by f s.
Proof.
  pose proof (lstrip_head f s) as H. destruct (lstrip_by f s) as [|x r]; [reflexivity|].
  cbn [lstrip_by]. rewrite H. reflexivity.
Qed.

Lemma rstrip_idem f s : rstrip_by f (rstrip_by f s) = rstrip_by f s.
Proof. unfold rstrip_by. rewrite rev_involutive, lstrip_idem. reflexivity. Qed.

Lemma lstrip_snoc_keep f s x : f x = false -> exists r, lstrip_by f (s ++ [x]) = r ++ [x].
Proof.
  intro Hx. induction s as [|y s IH]; cbn [app lstrip_by].
  - rewrite Hx. exists []. reflexivity.
  - destruct (f y); [exact IH|]. exists (y :: s). reflexivity.
Qed.

Lemma rstrip_cons_keep f x s : f x = false -> exists r, rstrip_by f (x :: s) = x :: r.
Proof.
  intro Hx. unfold rstrip_by. cbn [rev].
  destruct (lstrip_snoc_keep f (rev s) x Hx) as (r & ->).
  rewrite rev_app_distr. cbn. eauto.
Qed.

Lemma rstrip_prefix f s : exists post, s = rstrip_by f s ++ post.
Proof.
  unfold rstrip_by.
  assert (H : forall l, exists pre, l = pre ++ lstrip_by f l).
  { induction l as [|x l [pre IH]]; cbn [lstrip_by]; [exists []; reflexivity|].
    destruct (f x); [exists (x :: pre); cbn; f_equal; exact IH | exists []; reflexivity]. }
  destruct (H (rev s)) as [pre E]. exists (rev pre).
  rewrite <- rev_app_distr, <- E, rev_involutive. reflexivity.
Qed.

Lemma skipn_suffix_len {A} (r s : list A) k : r = skipn k s -> r = skipn (length s - length r) s.
Proof.
  intros ->. destruct (Nat.le_gt_cases k (length s)) as [H|H].
  - rewrite skipn_length. replace (length s - (length s - k))%nat with k by lia. reflexivity.
  - rewrite (skipn_all2 s) by lia. cbn [length]. rewrite Nat.sub_0_r, skipn_all. reflexivity.
Qed.

Lemma memb_In x l : memb x l = true <-> In x l.
Proof.
  unfold memb. rewrite existsb_exists. split.
  - intros (y & Hy & E). apply N.eqb_eq in E. subst. exact Hy.
  - intro H. exists x. split; auto. apply N.eqb_refl.
Qed.

Lemma memb_incl x a b : incl a b -> memb x b = false -> memb x a = false.
Proof.
  intros Hi Hb. destruct (memb x a) eqn:E; auto. apply memb_In in E. apply Hi in E. apply memb_In in E. congruence.
Qed.

Lemma incl_lstrip f s : incl (lstrip_by f s) s.
Proof.
  induction s as [|x s IH]; cbn [lstrip_by]; [apply incl_refl|].
  destruct (f x); [apply incl_tl; exact IH | apply incl_refl].
Qed.

Lemma incl_skipn' k (s : bytes) : incl (skipn k s) s.
Proof. rewrite <- (firstn_skipn k s) at 2. apply incl_appr, incl_refl. Qed.

Lemma incl_take_until f s : incl (take_until f s) s.
Proof.
  induction s as [|x s IH]; cbn [take_until]; [apply incl_refl|].
  destruct (f x); [intros y []|]. apply incl_cons; [left; reflexivity | apply incl_tl; exact IH].
Qed.

Lemma nonempty_ne (s : bytes) : nonempty s = true <-> s <> [].
Proof. destruct s; simpl; split; congruence. Qed.

Lemma is_dig_ranges x : in_ranges x [(48, 57)] = is_dig x.
Proof. unfold is_dig. simpl. rewrite orb_false_r. reflexivity. Qed.

Lemma bytes_ok_dec s : forallb (fun x => x <? 256) s = true -> bytes_ok s.
Proof.
  unfold bytes_ok. rewrite forallb_forall, Forall_forall. intros H x Hx. apply N.ltb_lt. auto.
Qed.

Lemma forallb_ranges (R : list (N * N)) (f : N -> bool) s : bytes_ok s ->
  (forall x, x < 256 -> in_ranges x R = f x) ->
  forallb (fun x => in_ranges x R) s = forallb f s.
Proof.
  intros Hok H. apply forallb_ext_in. intros x Hx. apply H.
  unfold bytes_ok in Hok. rewrite Forall_forall in Hok. auto.
Qed.

Lemma iff_bool (a b : bool) : (a = true <-> b = true) -> a = b.
Proof. destruct a, b; intuition congruence. Qed.
