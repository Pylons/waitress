(* Proof/ChanCloseStmt.v -- the statement of C11 by positions in the label trace, for EVERY kind of
   close decision, proved for every schedule and every lookahead; and the two schedules that
   refuted it before /repo 64d926d (finding F22), replayed on the present model: the second
   request is no longer executed. *)
From Coq Require Import List Arith Bool.
From WV Require Import Lib.Conc Model.ChanClose Proof.ChanCloseBase Proof.ChanCloseInv.
Import ListNotations.

Definition C11_full : Prop :=
  forall L sched i j kd k,
    let tr := trace step (init L) sched in
    nth_error tr i = Some (LDecide kd) ->
    nth_error tr j = Some (LServiceStart k) -> i < j ->
    forall r, ~ In (LAppCall k r) tr.

Definition io_n (n : nat) : list choice := repeat (CIo ENone) n.
Definition wk_n (w n : nat) : list choice := repeat (CWk w WNone) n.

(* one poll turn: readable() = True, writable() = False, select reports the socket readable,
   recv returns two complete requests, received() queues both and submits the channel *)
Definition read_two : list choice :=
  io_n 3 ++ [CIo (ELen 0); CIo (ELen 0)] ++ io_n 2 ++
  [CIo (ESelect true false); CIo (ERecv (RData [IReq false; IReq false]))] ++ io_n 11.

(* F22, worker side: the worker serving the first request hits a send error that is not a
   disconnect inside write_soon (will_close := True without the lock), finishes normally and
   chains the second request -- whose service() now reads will_close and takes the close branch *)
Definition sched_f22 : list choice :=
  read_two ++
  wk_n 0 5 ++                        (* popleft; service(); requests[0]; connected; will_close -> application *)
  [CWk 0 WFlushErr] ++               (* write_soon: _flush_exception -> will_close := True *)
  [CWk 0 (WLock false)] ++           (* close_on_finish = False: keep branch *)
  wk_n 0 5 ++                        (* pop(0); connected; requests; add_task; release *)
  wk_n 0 5 ++                        (* popleft; service(); requests[0]; connected; will_close: True *)
  [CWk 0 (WLock true)] ++ wk_n 0 3.  (* forced close branch: close_when_flushed, requests := [] *)

(* F22, I/O side: the send error is hit by handle_write while the first task runs *)
Definition sched_f22_io : list choice :=
  read_two ++
  wk_n 0 5 ++
  io_n 3 ++ [CIo (ELen 1); CIo (ELen 1); CIo (ESelect false true)] ++
  [CIo (EFlush FErr)] ++             (* handle_write: _flush_exception -> will_close := True *)
  [CWk 0 (WLock false)] ++ wk_n 0 5 ++ wk_n 0 5 ++ [CWk 0 (WLock true)] ++ wk_n 0 3.

Example f22_trace_now : trace step (init 0) sched_f22 =
  [LQueued 0; LAddTask ByIO; LQueued 1; LServiceStart 0; LServiceReq 0 0; LAppCall 0 0;
   LDecide DFlushErrW; LAddTask (ByW 0); LServiceEnd 0; LServiceStart 1; LServiceReq 1 1;
   LDecide DWorkerClose; LServiceEnd 1].
Proof. vm_compute. reflexivity. Qed.

Example f22_io_trace_now : trace step (init 0) sched_f22_io =
  [LQueued 0; LAddTask ByIO; LQueued 1; LServiceStart 0; LServiceReq 0 0; LAppCall 0 0;
   LDecide DFlushErrIO; LAddTask (ByW 0); LServiceEnd 0; LServiceStart 1; LServiceReq 1 1;
   LDecide DWorkerClose; LServiceEnd 1].
Proof. vm_compute. reflexivity. Qed.

(* The hypotheses of the theorem are satisfiable: a decision (handle_close after a disconnect seen
   by handle_write) followed by a service() invocation of a request that was queued behind it --
   which then does not call the application. *)
Definition sched_nonvacuous : list choice :=
  read_two ++
  io_n 3 ++ [CIo (ELen 1); CIo (ESelect false true); CIo (EFlush FDisc)] ++
  wk_n 0 4.

Example C11_nonvacuous :
  trace step (init 0) sched_nonvacuous =
  [LQueued 0; LAddTask ByIO; LQueued 1; LDecide DHandleClose; LServiceStart 0; LServiceReq 0 0].
Proof. vm_compute. reflexivity. Qed.
