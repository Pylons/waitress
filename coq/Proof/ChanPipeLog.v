(* Proof/ChanPipeLog.v -- layer L2: the ghost logs.  Service starts are a
   prefix of the arrivals, application calls a prefix of the starts. *)
From Coq Require Import List Arith Bool ZArith Lia.
From WV Require Import Model.ChanPipe Proof.ChanPipeBase Proof.ChanPipeOwn.
Import ListNotations.

Definition prefix {A : Type} (a b : list A) : Prop := exists r, b = a ++ r.

(* the worker has read requests[0] and has neither popped it nor cleared the list *)
Definition serving (pc : wkpc) : bool :=
  match pc with
  | WSvConn | WSvWc
  | WWsConn | WWsAcq | WWsHw | WWsConn2 | WWsRelX | WWsRot | WWsApp | WWsTotR | WWsTotW _
  | WWsChk | WWsFl _ | WWsExcW | WWsChk2 | WWsTrig | WWsRel
  | WCbAcq | WCbCwf | WCbReq | WCbClr
  | WKbLen | WKbHw | WKbAcq | WKbPop => true
  | _ => false
  end.
(* ... and the application has been called for it and it is not being abandoned *)
Definition execd (pc : wkpc) : bool :=
  match pc with
  | WWsConn | WWsAcq | WWsHw | WWsConn2 | WWsRelX | WWsRot | WWsApp | WWsTotR | WWsTotW _
  | WWsChk | WWsFl _ | WWsExcW | WWsChk2 | WWsTrig | WWsRel
  | WKbLen | WKbHw | WKbAcq | WKbPop => true
  | _ => false
  end.
Definition is_cb2 (pc : wkpc) : bool := match pc with WCbReq | WCbClr => true | _ => false end.
Definition is_svconn (pc : wkpc) : bool := match pc with WSvConn | WSvWc => true | _ => false end.

Definition io_app (pc : iopc) : bool :=
  match pc with IoRcItem | IoRcChk | IoRcSc _ | IoRcApp | IoRcApp2 | IoRcLen | IoRcAt _ => true | _ => false end.
Definition is_rccwf (pc : iopc) : bool := match pc with IoRcCwf => true | _ => false end.
Definition is_wwc (pc : iopc) : bool := match pc with IoHwWWc => true | _ => false end.

Definition wa2 (pc : wkpc) : bool * bool * bool * bool := (serving pc, execd pc, is_cb2 pc, is_svconn pc).
Definition ia2 (pc : iopc) : bool * bool * bool := (io_app pc, is_rccwf pc, is_wwc pc).

Definition live (s : shared) : Prop := closing s = false \/ requests s <> [].

Record L2 (st : state) : Prop := {
  l2_arr : live (sh st) -> arrivals (sh st) = popped (sh st) ++ requests (sh st);
  l2_idle : live (sh st) -> (forall j, serving (wpc (wk st j)) = false) -> starts (sh st) = popped (sh st);
  l2_serv : forall j, serving (wpc (wk st j)) = true ->
            starts (sh st) = popped (sh st) ++ [w_cur (wk st j)] /\ hd_error (requests (sh st)) = Some (w_cur (wk st j));
  l2_pre : prefix (starts (sh st)) (arrivals (sh st));
  l2_ka : closing (sh st) = true -> cwf (sh st) = true \/ will_close (sh st) = true \/ is_wwc (ipc (io st)) = true;
  l2_kb : is_rccwf (ipc (io st)) = true -> closing (sh st) = true -> cwf (sh st) = true;
  l2_kc : io_app (ipc (io st)) = true -> closing (sh st) = false;
  l2_ex : starts (sh st) = execs (sh st) \/ exists x, starts (sh st) = execs (sh st) ++ [x];
  l2_ex2 : starts (sh st) <> execs (sh st) ->
           (exists j, serving (wpc (wk st j)) = true) \/ (closing (sh st) = true /\ requests (sh st) = []);
  l2_ex3 : forall j, execd (wpc (wk st j)) = true -> starts (sh st) = execs (sh st);
  l2_cb : forall j, is_cb2 (wpc (wk st j)) = true -> closing (sh st) = true;
  l2_sv : forall j, is_svconn (wpc (wk st j)) = true -> starts (sh st) = execs (sh st) ++ [w_cur (wk st j)]
}.

Lemma L2_init : L2 init.
Proof.
  split; simpl; intros; try discriminate; auto; try congruence.
  all: try (exists []; reflexivity).
Qed.

Lemma serving_owner : forall pc, serving pc = true -> wk_owner pc = true.
Proof. destruct pc; simpl; congruence. Qed.
Lemma serving_not_postpop : forall pc, serving pc = true -> postpop pc = false.
Proof. destruct pc; simpl; congruence. Qed.
Lemma execd_serving : forall pc, execd pc = true -> serving pc = true.
Proof. destruct pc; simpl; congruence. Qed.
Lemma io_app_rl : forall pc, io_app pc = true -> io_rl pc = true.
Proof. destruct pc; simpl; congruence. Qed.

(* A step that leaves the logs, the request list and the closing flag alone.  Workers keep
   what they serve; they may leave the regions execd / is_cb2 / is_svconn, whose clauses only
   promise something.  The three clauses about the closing flags are asked for the new state. *)
Lemma L2_quiet : forall st st',
  requests (sh st') = requests (sh st) -> arrivals (sh st') = arrivals (sh st) ->
  starts (sh st') = starts (sh st) -> execs (sh st') = execs (sh st) -> popped (sh st') = popped (sh st) ->
  closing (sh st') = closing (sh st) ->
  (closing (sh st) = true -> cwf (sh st') = true \/ will_close (sh st') = true \/ is_wwc (ipc (io st')) = true) ->
  (is_rccwf (ipc (io st')) = true -> closing (sh st) = true -> cwf (sh st') = true) ->
  (io_app (ipc (io st')) = true -> closing (sh st) = false) ->
  (forall j, serving (wpc (wk st' j)) = serving (wpc (wk st j)) /\ w_cur (wk st' j) = w_cur (wk st j) /\
             (execd (wpc (wk st' j)) = true -> execd (wpc (wk st j)) = true) /\
             (is_cb2 (wpc (wk st' j)) = true -> is_cb2 (wpc (wk st j)) = true) /\
             (is_svconn (wpc (wk st' j)) = true -> is_svconn (wpc (wk st j)) = true)) ->
  L2 st -> L2 st'.
Proof.
  intros st st' Hr Ha Hs He Hp Hc Ka Kb Kc Hw [A B C D _ _ _ E1 E2 E3 Cb Sv].
  assert (Hsv : forall j, serving (wpc (wk st' j)) = serving (wpc (wk st j))) by (intro j; apply (Hw j)).
  assert (Hcu : forall j, w_cur (wk st' j) = w_cur (wk st j)) by (intro j; apply (Hw j)).
  split; unfold live in *; rewrite ?Hr, ?Ha, ?Hs, ?He, ?Hp, ?Hc; auto.
  - intros X Y. apply B; auto. intro j. rewrite <- Hsv. auto.
  - intros j X. rewrite Hcu. apply C. rewrite <- Hsv. exact X.
  - intro X. destruct (E2 X) as [[j Y]|Y]; auto. left. exists j. rewrite Hsv. exact Y.
  - intros j X. apply (E3 j). apply (Hw j). exact X.
  - intros j X. apply (Cb j). apply (Hw j). exact X.
  - intros j X. rewrite Hcu. apply (Sv j). apply (Hw j). exact X.
Qed.

Lemma prefix_app_r : forall (A : Type) (a b : list A) x, prefix a b -> prefix a (b ++ [x]).
Proof. intros A a b x [r ->]. exists (r ++ [x]). rewrite app_assoc. reflexivity. Qed.
Lemma hd_error_app : forall (A : Type) (l : list A) x y, hd_error l = Some y -> hd_error (l ++ [x]) = Some y.
Proof. destruct l; simpl; intros; congruence. Qed.
Lemma hd_error_cons : forall (A : Type) (l : list A) y, hd_error l = Some y -> l = y :: tl l.
Proof. destruct l; simpl; intros; congruence. Qed.

(* a worker that owns the connection is the only one serving *)
Lemma others_not_serving : forall st me, L1 st -> wk_owner (wpc (wk st me)) = true ->
  forall j, j <> me -> serving (wpc (wk st j)) = false.
Proof.
  intros st me HL1 Ho j Hj. destruct (serving (wpc (wk st j))) eqn:E; auto.
  apply serving_owner in E. exfalso. apply Hj. eapply l1_uniq; eauto.
Qed.

Lemma is_svconn_serving : forall pc, is_svconn pc = true -> serving pc = true.
Proof. destruct pc; simpl; congruence. Qed.
Lemma is_cb2_serving : forall pc, is_cb2 pc = true -> serving pc = true.
Proof. destruct pc; simpl; congruence. Qed.

(* the owner has not read requests[0] yet: nobody is serving, and every start so far
   was followed by its application call *)
Lemma not_started_facts : forall st me, L1 st -> L2 st ->
  wk_owner (wpc (wk st me)) = true -> serving (wpc (wk st me)) = false -> requests (sh st) <> [] ->
  starts (sh st) = popped (sh st) /\ starts (sh st) = execs (sh st) /\
  arrivals (sh st) = popped (sh st) ++ requests (sh st).
Proof.
  intros st me HL1 HL2 Ho Hs Hr.
  assert (Hnone : forall j, serving (wpc (wk st j)) = false).
  { intro j. destruct (Nat.eq_dec j me) as [->|N]; auto. eapply others_not_serving; eauto. }
  assert (Hlive : live (sh st)) by (right; auto).
  repeat split.
  - apply (l2_idle _ HL2); auto.
  - destruct (list_eq_dec Nat.eq_dec (starts (sh st)) (execs (sh st))) as [E|N]; auto.
    destruct (l2_ex2 _ HL2 N) as [[j Hj]|[_ X]].
    + rewrite Hnone in Hj. discriminate.
    + congruence.
  - apply (l2_arr _ HL2); auto.
Qed.

