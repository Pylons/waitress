(* Proof/ChanFaultOnce.v -- C13_loop and C13_once.

   In every execution in which no worker reaches send_continue() ([no_wcont], finding F18), or in every
   execution at all once service() flushes with do_close=False, whatever the environment answers and
   however the threads interleave: no exception escapes the I/O loop; every socket.close(), every removal
   from the socket map or from active_channels and every closing of output buffers is done by the I/O
   thread; a socket is closed at most once, and then its descriptor is out of the map and of
   active_channels and the buffers are closed ([once_and_loop]).
   One inductive invariant, [SInv]:
     [winstr]  a worker's stack holds only instructions that tear nothing down (closed under execution
               unless the label LWCont is emitted);
     [chan_ok] per channel the teardown fields are consistent (in the map => descriptor open; socket
               closed => out of the map, ...);
     [ioK]     the I/O thread's stack: the close sequence of handle_close and the accept sequence of
               handle_accept occur only as its leading segment, each stage with the facts established so
               far ([lead]); every instruction that can raise has a catch-all frame of wasyncore below it
               ([covb]); select() is only ever called with open descriptors. *)
From Coq Require Import List Arith Bool Lia.
From WV Require Import Lib.Conc Model.ChanFault Proof.ChanFaultSpec Proof.ChanFaultBase Proof.ChanFaultStep.
Import ListNotations.

Definition winstr (i : instr) : bool :=
  match i with
  | ISvcStart _ | ISvcChkWc _ | IApp _ | IErrTask _ | IWsChk1 _ | IFbh _ | IFbhChk _ | IFbhAfter _ | IFbhLoop _ | IWsChk2 _
  | IWsAppend _ _ | IWsFlush _ | IWsAfter _ | ISvcEnd _ | ISetCwf _ | ISvcPop _ | ISvcTail _
  | IPull _ | IAddTask _ | IAcqO _ | IAcqR _ | IRelR _ | IWaitO _ | IWake _ _ | IContPre _ | IContAppend _
  | KFlushExc _ | KRelO _ | KRelR _ | KSvcTry _ | KSvcTry2 _ | KWorkerTop _ => true
  | IFlushStart _ dc | IFlush _ dc _ | IFlushSend _ dc _ _ => negb dc
  | _ => false
  end.

(* the teardown view of the state: what C13 is about *)
Definition tv (x : chan_st) := (accepted x, in_map x, in_act x, fileno x, sock x, bufc x, nclose x).
Definition srv4 (s : state) := (lst_in_map s, trg_in_map s, lst_open s, trg_open s).
Definition tvs (s : state) := (tv (chA s), tv (chB s), srv4 s).

Lemma srv4_setc : forall s c v, srv4 (setc s c v) = srv4 s.
Proof. intros. unfold srv4. destruct (srv_setc s c v) as (-> & -> & -> & -> & _). reflexivity. Qed.
Lemma srv4_setth : forall s t v, srv4 (setth s t v) = srv4 s.
Proof. intros. unfold srv4. destruct (srv_setth s t v) as (-> & -> & -> & -> & _). reflexivity. Qed.
Lemma srv4_set_dead : forall s, srv4 (set_dead s) = srv4 s.
Proof. reflexivity. Qed.

(* the facts about the teardown view that need the accessors' definitions *)
Transparent getc setc setth maint.
Lemma tvs_getc : forall s s' c, tvs s' = tvs s -> tv (getc s' c) = tv (getc s c).
Proof.
  intros s s' c H. destruct c; simpl.
  - exact (f_equal (fun p => fst (fst p)) H).
  - exact (f_equal (fun p => snd (fst p)) H).
Qed.

Lemma tv_fields : forall x y, tv x = tv y ->
  accepted x = accepted y /\ in_map x = in_map y /\ in_act x = in_act y /\ fileno x = fileno y /\
  sock x = sock y /\ bufc x = bufc y /\ nclose x = nclose y.
Proof. unfold tv. intros x y H. injection H as -> -> -> -> -> -> ->. repeat split. Qed.

Lemma tv_setc_same : forall s c v, tv v = tv (getc s c) -> tvs (setc s c v) = tvs s.
Proof. intros s c v H. unfold tvs, srv4. destruct c; simpl in *; rewrite H; reflexivity. Qed.

Lemma tvs_setth : forall s t v, tvs (setth s t v) = tvs s.
Proof. intros s t v. destruct t as [|[|]]; reflexivity. Qed.

Lemma tv_maint : forall x b, tv (maint x b) = tv x.
Proof. intros. unfold maint. destruct (b && in_act x && (nreq x =? 0)); reflexivity. Qed.

Lemma tvs_poll : forall s b1 b2,
  tvs (setc (setc s A (maint (chA s) b1)) B (maint (chB (setc s A (maint (chA s) b1))) b2)) = tvs s.
Proof. intros. unfold tvs, srv4. simpl. rewrite !tv_maint. reflexivity. Qed.

Lemma fd_open_tvs : forall s s' f, tvs s' = tvs s -> fd_open s' f = fd_open s f.
Proof.
  intros s s' f H. unfold tvs, srv4 in H.
  assert (HA : tv (chA s') = tv (chA s)) by exact (f_equal (fun p => fst (fst p)) H).
  assert (HB : tv (chB s') = tv (chB s)) by exact (f_equal (fun p => snd (fst p)) H).
  assert (HS : srv4 s' = srv4 s) by exact (f_equal snd H).
  unfold srv4 in HS. injection HS as H1 H2 H3 H4.
  destruct (tv_fields _ _ HA) as (_ & _ & _ & _ & EA & _).
  destruct (tv_fields _ _ HB) as (_ & _ & _ & _ & EB & _).
  destruct f as [| |[|]]; simpl; rewrite ?EA, ?EB; auto.
Qed.
Opaque getc setc setth maint.

Definition teardown_free (ls : list label) : bool :=
  forallb (fun l => match teardown_thread l with Some _ => false | None => match l with LLoopDied _ => false | _ => true end end) ls.

Ltac tv_solve :=
  repeat first
    [ rewrite tvs_setth
    | rewrite tv_setc_same by (rewrite ?getc_setth; unfold tv; simpl; congruence) ];
  try reflexivity.

Definition no_teardown (s s' : state) (ls : list label) : Prop := tvs s' = tvs s /\ teardown_free ls = true.

Lemma does_winstr : forall g t r k a s,
  winstr k = true ->
  match does g t r k a s with
  | None => True
  | Some m => no_teardown s (m_st m) (m_ls m) /\
              (no_wcontb (m_ls m) = true \/ wc_close g = false -> forallb winstr (m_push m) = true)
  end.
Proof.
  intros g t r k a s Hw. unfold no_teardown.
  destruct r as [x|]; [destruct (is_frame k) eqn:F; [|rewrite (does_nonframe g t x k a s F); simpl; auto]|];
  unfold does; destruct k; try discriminate F; try discriminate Hw;
  try match goal with dc : bool |- _ => destruct dc; try discriminate Hw end;
  cbn [frame exec flush_some write_soon send_continue send_continue_dc app]; repeat split_innermost; auto;
  cbn [m_st m_push m_ls]; repeat split; auto; try (intro; discriminate); tv_solve.
  all: try (intros [Hx|Hx]; [discriminate Hx|rewrite Hx; reflexivity]).
Qed.

(* instructions that occur only in the leading segment of the I/O thread's stack *)
Definition chain_only (i : instr) : bool :=
  match i with
  | ICloseBufs _ | IDClose1 _ | IDelMapTest _ | IDelMapDo _ | IFilenoNone _ | IDelAct _ _
  | ISockClose _ | ISockCloseCall _ | ISockNone _ | IRelO _
  | ISetOpts _ | KAccTry _ | IInitGso _ | IInitSbl _ | IAddChan _ | ISelect _ _ _ => true
  | _ => false
  end.
Definition tail_ok (l : list instr) : bool := forallb (fun i => negb (chain_only i)) l.

Definition catchall (i : instr) : bool := match i with KWasyn _ | KReadwrite _ => true | _ => false end.
Definition has_ca (l : list instr) : bool := existsb catchall l.

(* instructions that may stand where no catch-all frame is below them: they neither raise
   (given K) nor push anything that is not covered by a frame pushed with it *)
Definition exempt (i : instr) : bool :=
  match i with
  | IPoll | ISelect _ _ _ | ISelWait _ _ _ | IDisp _ _ | IDisp2 _ _ _ _ _
  | IHClose _ | ICloseBufs _ | INotifyO _ | IRelO _ | IDClose1 _ | IDelMapTest _ | IDelMapDo _
  | IFilenoNone _ | IDelAct _ _ | ISockClose _ | ISockCloseCall _ | ISockNone _ | IAcqO _
  | ITrigClose | ILstClose | IRwClose _ | ISetConnF _
  | KWasyn _ | KReadwrite _ | KFlushExc _ | KRelO _ | KRelR _ | KSvcTry _ | KSvcTry2 _ | KWorkerTop _ => true
  | _ => false
  end.
Fixpoint covb (l : list instr) : bool :=
  match l with
  | [] => true
  | i :: r => (exempt i || has_ca r) && covb r
  end.

Definition acc_pre (x : chan_st) : Prop :=
  accepted x = true /\ sock x = SOpen /\ nclose x = 0 /\ in_map x = false /\ in_act x = false.

Definition closed_part (x : chan_st) : Prop := bufc x = true.

Inductive lead (g : cfg) (s : state) : list instr -> Prop :=
| LT : forall r, tail_ok r = true -> lead g s r
| LSel : forall r w e rest,
    (use_poll2 g = false -> forallb (fd_open s) e = true) -> tail_ok rest = true ->
    lead g s (ISelect r w e :: rest)
| LC0 : forall c r, tail_ok r = true ->
    lead g s (IAcqO c :: ICloseBufs c :: INotifyO c :: IRelO c :: IDClose1 c :: IDelMapTest c :: ISockClose c :: r)
| LC1 : forall c r, tail_ok r = true ->
    lead g s (ICloseBufs c :: INotifyO c :: IRelO c :: IDClose1 c :: IDelMapTest c :: ISockClose c :: r)
| LC2 : forall c r, tail_ok r = true -> bufc (getc s c) = true ->
    lead g s (INotifyO c :: IRelO c :: IDClose1 c :: IDelMapTest c :: ISockClose c :: r)
| LC3 : forall c r, tail_ok r = true -> bufc (getc s c) = true ->
    lead g s (IRelO c :: IDClose1 c :: IDelMapTest c :: ISockClose c :: r)
| LC4 : forall c r, tail_ok r = true -> bufc (getc s c) = true ->
    lead g s (IDClose1 c :: IDelMapTest c :: ISockClose c :: r)
| LC5 : forall c r, tail_ok r = true -> bufc (getc s c) = true ->
    lead g s (IDelMapTest c :: ISockClose c :: r)
| LC6 : forall c r, tail_ok r = true -> bufc (getc s c) = true -> in_map (getc s c) = true ->
    lead g s (IDelMapDo c :: IFilenoNone c :: IDelAct c true :: ISockClose c :: r)
| LC7 : forall c v r, tail_ok r = true -> bufc (getc s c) = true -> in_map (getc s c) = false ->
    (v = false -> in_act (getc s c) = false) ->
    lead g s (IFilenoNone c :: IDelAct c v :: ISockClose c :: r)
| LC8 : forall c v r, tail_ok r = true -> bufc (getc s c) = true -> in_map (getc s c) = false ->
    fileno (getc s c) = false -> (v = false -> in_act (getc s c) = false) ->
    lead g s (IDelAct c v :: ISockClose c :: r)
| LC9 : forall c r, tail_ok r = true -> bufc (getc s c) = true -> in_map (getc s c) = false ->
    fileno (getc s c) = false -> in_act (getc s c) = false ->
    lead g s (ISockClose c :: r)
| LC9b : forall c r, tail_ok r = true -> bufc (getc s c) = true -> in_map (getc s c) = false ->
    fileno (getc s c) = false -> in_act (getc s c) = false -> sock (getc s c) = SOpen ->
    lead g s (ISockCloseCall c :: ISockNone c :: r)
| LC10 : forall c r, tail_ok r = true -> bufc (getc s c) = true -> in_map (getc s c) = false ->
    in_act (getc s c) = false -> sock (getc s c) = SClosed ->
    lead g s (ISockNone c :: r)
| LA1 : forall c r, tail_ok r = true -> acc_pre (getc s c) -> lead g s (ISetOpts c :: KAccTry c :: r)
| LA2 : forall c r, tail_ok r = true -> acc_pre (getc s c) -> lead g s (KAccTry c :: r)
| LA3 : forall c r, tail_ok r = true -> acc_pre (getc s c) -> lead g s (IInitGso c :: IInitSbl c :: IAddChan c :: r)
| LA4 : forall c r, tail_ok r = true -> acc_pre (getc s c) -> lead g s (IInitSbl c :: IAddChan c :: r)
| LA5 : forall c r, tail_ok r = true -> acc_pre (getc s c) -> lead g s (IAddChan c :: r)
(* ... and when the channel is constructed inside handle_accept's try ([init_guarded]) *)
| LG1 : forall c r, tail_ok r = true -> acc_pre (getc s c) -> init_guarded g = true ->
    lead g s (ISetOpts c :: IInitGso c :: IInitSbl c :: IAddChan c :: KAccTry c :: r)
| LG2 : forall c r, tail_ok r = true -> acc_pre (getc s c) -> init_guarded g = true ->
    lead g s (IInitGso c :: IInitSbl c :: IAddChan c :: KAccTry c :: r)
| LG3 : forall c r, tail_ok r = true -> acc_pre (getc s c) -> init_guarded g = true ->
    lead g s (IInitSbl c :: IAddChan c :: KAccTry c :: r)
| LG4 : forall c r, tail_ok r = true -> acc_pre (getc s c) -> init_guarded g = true ->
    lead g s (IAddChan c :: KAccTry c :: r)
| LG5 : forall c r, tail_ok r = true -> init_guarded g = true -> lead g s (KAccTry c :: r).

Record chan_ok (x : chan_st) (c : chan) (io : thread_st) : Prop := {
  k_map : in_map x = true -> fileno x = true /\ sock x = SOpen;
  k_actf : in_act x = true -> fileno x = false ->
           raising io = None /\ exists r, stk io = IDelAct c true :: r;
  k_unacc : accepted x = false -> sock x = SNone /\ nclose x = 0 /\ in_map x = false /\ in_act x = false;
  k_open : sock x = SOpen -> nclose x = 0;
  k_le : nclose x <= 1;
  k_rel : nclose x <> 0 -> in_map x = false /\ in_act x = false /\ bufc x = true;
  k_closed : sock x = SClosed -> raising io = None /\ exists r, stk io = ISockNone c :: r
}.

Definition srv_ok (s : state) : Prop :=
  (lst_in_map s = true -> lst_open s = true) /\ (trg_in_map s = true -> trg_open s = true).

Definition raise_ok (x : exn) (l : list instr) : Prop :=
  tail_ok (drop_to_frame l) = true \/
  (exists c r, drop_to_frame l = KAccTry c :: r /\ is_oserror x = true /\ tail_ok r = true).

Record ioK (g : cfg) (s : state) (th : thread_st) : Prop := {
  k_lead : raising th = None -> lead g s (stk th);
  k_cov : covb (stk th) = true;
  k_raise : forall x, raising th = Some x -> x <> XReraised /\ has_ca (stk th) = true /\ raise_ok x (stk th)
}.

Definition SInv (g : cfg) (s : state) : Prop :=
  (forall c, forallb winstr (stk (getth s (W c))) = true) /\
  (forall c, chan_ok (getc s c) c (getth s IO)) /\ srv_ok s /\ ioK g s (getth s IO).

Definition no_died (tr : list label) : Prop := forall x, ~ In (LLoopDied x) tr.

Definition OInv (g : cfg) (s : state) (tr : list label) : Prop :=
  no_wcont tr \/ wc_close g = false ->
  SInv g s /\ io_only tr /\ no_died tr /\ forall c, closes c tr = nclose (getc s c).

Lemma has_ca_app : forall p r, has_ca (p ++ r) = has_ca p || has_ca r.
Proof. intros. unfold has_ca. apply existsb_app. Qed.

Lemma has_ca_cons_nonca : forall i r, catchall i = false -> has_ca (i :: r) = has_ca r.
Proof. intros. unfold has_ca. simpl. rewrite H. reflexivity. Qed.

Lemma covb_head : forall i r, covb (i :: r) = true -> exempt i = false -> has_ca r = true.
Proof. simpl. intros i r H E. rewrite E in H. simpl in H. apply andb_true_iff in H. tauto. Qed.

Lemma covb_app_cov : forall p r, has_ca r = true -> covb r = true -> covb (p ++ r) = true.
Proof.
  induction p as [|i p IH]; simpl; intros r Hc Hr; auto.
  rewrite has_ca_app, Hc, orb_true_r, orb_true_r, IH; auto.
Qed.

Lemma covb_app_self : forall p r, covb p = true -> covb r = true -> covb (p ++ r) = true.
Proof.
  induction p as [|i p IH]; simpl; intros r Hp Hr; auto.
  apply andb_true_iff in Hp. destruct Hp as [Hi Hp]. rewrite IH by auto. rewrite andb_true_r.
  rewrite has_ca_app. destruct (exempt i); simpl in *; auto. rewrite Hi. reflexivity.
Qed.

Lemma covb_tail : forall i r, covb (i :: r) = true -> covb r = true.
Proof. simpl; intros i r H. apply andb_true_iff in H. tauto. Qed.

Lemma covb_suffix : forall p r, covb (p ++ r) = true -> covb r = true.
Proof. induction p; simpl; intros; auto. apply andb_true_iff in H. destruct H. eauto. Qed.

Lemma covb_drop : forall l, covb l = true -> covb (drop_to_frame l) = true.
Proof. intros l H. destruct (drop_to_frame_suffix l) as [pre E]. rewrite E in H. eapply covb_suffix; eauto. Qed.

Lemma has_ca_drop : forall l, has_ca (drop_to_frame l) = has_ca l.
Proof.
  induction l as [|i l IH]; simpl; auto. destruct (is_frame i) eqn:F; auto.
  rewrite IH. destruct i; simpl in *; try discriminate; auto.
Qed.

Lemma covb_exempt : forall l, forallb exempt l = true -> covb l = true.
Proof.
  induction l as [|i l IH]; simpl; intro H; auto. apply andb_true_iff in H. destruct H as [Hi Hl].
  rewrite Hi, IH by auto. reflexivity.
Qed.

Lemma tail_ok_app : forall p r, tail_ok (p ++ r) = tail_ok p && tail_ok r.
Proof. intros. unfold tail_ok. apply forallb_app. Qed.

Lemma tail_ok_drop : forall l, tail_ok l = true -> tail_ok (drop_to_frame l) = true.
Proof. intros. apply forallb_drop_to_frame. auto. Qed.

Definition labels_by (t : tid) (ls : list label) : bool :=
  forallb (fun l => match teardown_thread l with
                    | Some u => tid_eqb u t
                    | None => match l with LLoopDied _ => false | _ => true end
                    end) ls.

Definition special (i : instr) : bool :=
  match i with IHClose _ | IPoll | IAccept | ITrigClose | ILstClose => true | _ => false end.

(* three facts about every instruction, for the I/O thread's step: what an [exempt] one pushes is covered, its
   teardown labels name the thread itself, and an ordinary one pushes an ordinary tail; what it raises is never
   XReraised, and it raises only where [exempt] or the close / accept sequence allow *)
Lemma exec_gen : forall g t i a s,
  match exec g t i a s with
  | Blocked => True
  | Norm s' push ls =>
      (exempt i = true -> covb push = true) /\ labels_by t ls = true /\
      (chain_only i = false -> special i = false -> tail_ok push = true)
  | Raise s' x ls => x <> XReraised /\ (exempt i = false \/ chain_only i = true) /\ labels_by t ls = true
  end.
Proof.
  intros g t i a s.
  destruct i;
  try match goal with f : fdt |- _ => destruct f as [| |cc] end;
  try match goal with k : evk |- _ => destruct k end;
  cbn [exec event chan_event hclose_fd herror hclose hclose_body server_close flush_some write_soon send_continue app];
  repeat split_innermost; auto;
  repeat split; auto; try (intros; discriminate); try (left; reflexivity); try (right; reflexivity);
  simpl; rewrite ?tid_eqb_refl; auto.
  all: intros; try apply covb_exempt; unfold tail_ok;
       rewrite ?forallb_app, ?forallb_map by (try intros [[? [? ?]] [? ?]]; reflexivity); reflexivity.
Qed.

(* the instructions that change no teardown field when they return *)
Definition tv_keep (i : instr) : bool :=
  match i with
  | ICloseBufs _ | IDelMapDo _ | IFilenoNone _ | IDelAct _ _ | ISockCloseCall _ | ISockNone _ | IAddChan _
  | IAccept | ITrigClose | ILstClose => false
  | _ => true
  end.

Lemma exec_tvs : forall g t i a s,
  match exec g t i a s with
  | Blocked => True
  | Norm s' _ _ => tv_keep i = true -> tvs s' = tvs s
  | Raise s' _ _ => tvs s' = tvs s /\ (chain_only i = false -> tv_keep i = true)
  end.
Proof.
  intros g t i a s.
  destruct i; cbn [exec]; repeat split_innermost; auto; try (intro H; discriminate H);
  repeat split; auto; intros; try apply tvs_poll; tv_solve.
Qed.

Lemma frame_gen : forall t k x s,
  match frame t k x s with
  | FCatch s' push ls =>
      tvs s' = tvs s /\ tail_ok push = true /\ labels_by t ls = true /\
      (catchall k = true -> covb push = true) /\ (forall c, closes c ls = 0)
  | FPass s' => tvs s' = tvs s /\ (catchall k = true -> x = XReraised)
  end.
Proof.
  intros t k x s.
  destruct k;
  try match goal with f : fdt |- _ => destruct f as [| |cc] end;
  cbn [frame herror hclose_fd hclose server_close]; repeat split_innermost; auto;
  repeat split; auto; tv_solve; try (intro; discriminate); try (intros [|]; reflexivity).
  all: try (destruct x; simpl in *; congruence).
Qed.

Lemma nclose_setc : forall s c v cq,
  nclose v = nclose (getc s c) -> nclose (getc (setc s c v) cq) = nclose (getc s cq).
Proof. intros s c v cq H. rewrite getc_setc. destruct (chan_dec c cq); subst; auto. Qed.

(* socket.close() is the one instruction that counts *)
Lemma exec_closes : forall g t i a s cq,
  match exec g t i a s with
  | Blocked => True
  | Norm s' _ ls => nclose (getc s' cq) = nclose (getc s cq) + closes cq ls
  | Raise s' _ ls => nclose (getc s' cq) = nclose (getc s cq) + closes cq ls
  end.
Proof.
  intros g t i a s cq.
  destruct i; cbn [exec]; repeat split_innermost; auto; unfold closes; cbn [filter is_close_of length app];
  rewrite ?getc_setth, ?getc_set_srv, ?Nat.add_0_r; try reflexivity; try (apply nclose_setc; reflexivity).
  { match goal with |- nclose (getc ?s1 _) = _ =>
      destruct (tv_fields _ _ (tvs_getc s s1 cq (tvs_poll s _ _))) as (_ & _ & _ & _ & _ & _ & E) end. exact E. }
  all: rewrite getc_setc; destruct (chan_dec c cq) as [->|N]; [rewrite chan_eqb_refl; simpl; lia|].
  all: destruct (chan_eqb cq c) eqn:E; [apply chan_eqb_eq in E; congruence|simpl; lia].
Qed.

Lemma chan_ok_tv : forall x y c io, tv y = tv x -> chan_ok x c io -> chan_ok y c io.
Proof.
  intros x y c io H [K1 K2 K3 K4 K5 K6 K7].
  destruct (tv_fields _ _ H) as (E1 & E2 & E3 & E4 & E5 & E6 & E7).
  constructor; rewrite ?E1, ?E2, ?E3, ?E4, ?E5, ?E6, ?E7; auto.
Qed.

(* a channel that is not in the middle of its close sequence: its consistency does not depend on the I/O stack *)
Definition quiet (x : chan_st) : Prop := sock x <> SClosed /\ (in_act x = true -> fileno x = true).

Lemma chan_ok_quiet : forall x c io io', quiet x -> chan_ok x c io -> chan_ok x c io'.
Proof.
  intros x c io io' [Q1 Q2] [K1 K2 K3 K4 K5 K6 K7]. constructor; auto.
  - intros Ha Hf. rewrite Q2 in Hf by auto. discriminate.
  - intro Hs. contradiction.
Qed.

Lemma quiet_of : forall x c io, chan_ok x c io ->
  (forall r, stk io <> IDelAct c true :: r) -> (forall r, stk io <> ISockNone c :: r) -> quiet x.
Proof.
  intros x c io [K1 K2 K3 K4 K5 K6 K7] H1 H2. split.
  - intro Hs. destruct (K7 Hs) as [_ [r Er]]. eapply H2; eauto.
  - intro Ha. destruct (fileno x) eqn:Ef; auto. destruct (K2 Ha eq_refl) as [_ [r Er]]. exfalso. eapply H1; eauto.
Qed.

Lemma quiet_tv : forall x y, tv y = tv x -> quiet x -> quiet y.
Proof.
  intros x y H [Q1 Q2]. destruct (tv_fields _ _ H) as (E1 & E2 & E3 & E4 & E5 & E6 & E7).
  split; rewrite ?E3, ?E4, ?E5; auto.
Qed.

Lemma srv_ok_tvs' : forall s s1, tvs s1 = tvs s -> srv_ok s -> srv_ok s1.
Proof.
  intros s s' H [A B]. assert (HS : srv4 s' = srv4 s) by exact (f_equal snd H).
  unfold srv4 in HS. injection HS as H1 H2 H3 H4. unfold srv_ok. rewrite H1, H2, H3, H4. auto.
Qed.

Lemma acc_pre_tv : forall x y, tv y = tv x -> acc_pre x -> acc_pre y.
Proof.
  intros x y H (A1 & A2 & A3 & A4 & A5). destruct (tv_fields _ _ H) as (E1 & E2 & E3 & E4 & E5 & E6 & E7).
  unfold acc_pre. rewrite E1, E2, E3, E5, E7. auto.
Qed.

Lemma lead_tvs : forall g s s' l, tvs s' = tvs s -> lead g s l -> lead g s' l.
Proof.
  intros g s s' l H L.
  assert (F : forall c, tv (getc s' c) = tv (getc s c)) by (intro; apply tvs_getc; auto).
  assert (B : forall c, bufc (getc s' c) = bufc (getc s c)) by (intro c; destruct (tv_fields _ _ (F c)); tauto).
  assert (M : forall c, in_map (getc s' c) = in_map (getc s c)) by (intro c; destruct (tv_fields _ _ (F c)); tauto).
  assert (A : forall c, in_act (getc s' c) = in_act (getc s c)) by (intro c; destruct (tv_fields _ _ (F c)); tauto).
  assert (N : forall c, fileno (getc s' c) = fileno (getc s c)) by (intro c; destruct (tv_fields _ _ (F c)); tauto).
  assert (S : forall c, sock (getc s' c) = sock (getc s c)) by (intro c; destruct (tv_fields _ _ (F c)); tauto).
  assert (P : forall c, acc_pre (getc s c) -> acc_pre (getc s' c)) by (intros c; apply acc_pre_tv, F).
  (* each stage again, its facts read in s' *)
  inversion L; subst; try (constructor; rewrite ?B, ?M, ?A, ?N, ?S; solve [auto]).
  apply LSel; auto. intro Hp.
  match goal with Ho : _ -> forallb (fd_open s) _ = true |- _ => rewrite <- Ho by auto end.
  apply forallb_ext. intro f. apply fd_open_tvs. auto.
Qed.

Lemma tail_ok_lead_head : forall i r, tail_ok (i :: r) = true -> chain_only i = false /\ tail_ok r = true.
Proof. unfold tail_ok. simpl. intros i r H. apply andb_true_iff in H. destruct H as [H1 H2]. apply negb_true_iff in H1. auto. Qed.

Lemma closes_app : forall c a b, closes c (a ++ b) = closes c a + closes c b.
Proof. intros. unfold closes. rewrite filter_app, app_length. reflexivity. Qed.

Lemma teardown_free_facts : forall ls, teardown_free ls = true ->
  io_only ls /\ no_died ls /\ forall c, closes c ls = 0.
Proof.
  unfold teardown_free. intros ls H. rewrite forallb_forall in H. repeat split.
  - intros l t Hin E. specialize (H _ Hin). rewrite E in H. discriminate.
  - intros x Hin. specialize (H _ Hin). simpl in H. discriminate.
  - intro c. unfold closes. induction ls as [|l ls IH]; simpl; auto.
    assert (Hl := H l (or_introl eq_refl)).
    destruct l; simpl in *; try discriminate; apply IH; intros; apply H; auto.
Qed.

Lemma labels_by_io_facts : forall ls, labels_by IO ls = true -> io_only ls /\ no_died ls.
Proof.
  unfold labels_by. intros ls H. rewrite forallb_forall in H. split.
  - intros l t Hin E. specialize (H _ Hin). rewrite E in H. destruct t; auto. discriminate.
  - intros x Hin. specialize (H _ Hin). simpl in H. discriminate.
Qed.

Lemma no_died_app : forall a b, no_died a -> no_died b -> no_died (a ++ b).
Proof. unfold no_died. intros a b Ha Hb x Hin. apply in_app_or in Hin. destruct Hin; [eapply Ha|eapply Hb]; eauto. Qed.

Lemma worker_step : forall g s c a s' l,
  SInv g s -> step g s (W c, a) = Some (s', l) -> (no_wcontb l = true \/ wc_close g = false) ->
  SInv g s' /\ no_teardown s s' l.
Proof.
  intros g s c a s' l HS H Hwc.
  pose proof (fun u => step_other_thread g s (W c) a s' l u H) as Hother.
  destruct (worker_lift g c winstr (fun ls => no_wcontb ls = true \/ wc_close g = false) no_teardown)
    with (s := s) (a := a) (s' := s') (l := l) as [[Ht Hf] Hst]; auto.
  - intros s0 s1 v ls [E1 E2]. split; [rewrite tvs_setth|]; auto.
  - split; reflexivity.
  - intros. split; [tv_solve|reflexivity].
  - intros. apply does_winstr. auto.
  - apply HS.
  - pose proof HS as (Hw & Hc & Hs & [K1 K2 K3]).
    assert (Hio : getth s' IO = getth s IO) by (apply Hother; discriminate).
    split; [|split; auto]. split; [|split; [|split]].
    + intro d. destruct (chan_dec d c) as [->|N]; [exact Hst|rewrite Hother by congruence; apply Hw].
    + intro d. rewrite Hio. eapply chan_ok_tv; [apply tvs_getc; eauto|auto].
    + eapply srv_ok_tvs'; eauto.
    + rewrite Hio. constructor; auto. intro R. eapply lead_tvs; eauto.
Qed.

(* SInv after a step of the I/O thread that rewrites at most the record of channel c: the other channels
   must not be in the middle of their close sequence, since their consistency is stated against the
   I/O thread's stack, which changes *)
Lemma io_finish : forall g s s1 th' c,
  SInv g s ->
  (forall d, d <> c -> tv (getc s1 d) = tv (getc s d) /\ quiet (getc s d)) ->
  srv_ok s1 ->
  (forall d, getth s1 (W d) = getth s (W d)) ->
  chan_ok (getc s1 c) c th' ->
  ioK g s1 th' ->
  SInv g (setth s1 IO th').
Proof.
  intros g s s1 th' c (Hw & Hc & Hs & Hk) Hoth Hsrv Hwt Hcc HK. split; [|split; [|split]].
  - intro d. rewrite getth_setth_other by discriminate. rewrite Hwt. auto.
  - intro d. rewrite getth_setth_same, getc_setth. destruct (chan_dec d c) as [->|NE]; auto.
    destruct (Hoth d NE) as [Et Q]. eapply chan_ok_tv; eauto. eapply chan_ok_quiet; eauto.
  - destruct Hsrv as [A B]. destruct (srv_setth s1 IO th') as (E1 & E2 & E3 & E4 & _).
    unfold srv_ok. rewrite E1, E2, E3, E4. auto.
  - rewrite getth_setth_same. destruct HK as [K1 K2 K3]. constructor; auto.
    intro R. eapply lead_tvs; [apply tvs_setth|auto].
Qed.

Lemma io_quiet : forall g s s1 th',
  SInv g s -> (forall d, quiet (getc s d)) -> tvs s1 = tvs s ->
  (forall d, getth s1 (W d) = getth s (W d)) -> ioK g s1 th' -> SInv g (setth s1 IO th').
Proof.
  intros g s s1 th' HS HQ Et EW HK. refine (io_finish g s s1 _ A HS _ _ EW _ HK).
  - intros d _. split; [apply tvs_getc; auto|auto].
  - eapply srv_ok_tvs'; eauto. apply HS.
  - eapply chan_ok_tv; [apply tvs_getc; eauto|]. eapply chan_ok_quiet; eauto. apply HS.
Qed.

Lemma all_quiet : forall g s, SInv g s ->
  (forall d r, stk (getth s IO) <> IDelAct d true :: r) ->
  (forall d r, stk (getth s IO) <> ISockNone d :: r) ->
  forall d, quiet (getc s d).
Proof. intros g s (_ & Hc & _) H1 H2 d. eapply quiet_of; eauto. Qed.

Lemma all_quiet_raising : forall g s x, SInv g s -> raising (getth s IO) = Some x -> forall d, quiet (getc s d).
Proof.
  intros g s x (_ & Hc & _) R d. destruct (Hc d) as [K1 K2 K3 K4 K5 K6 K7]. split.
  - intro Hs. destruct (K7 Hs) as [E _]. congruence.
  - intro Ha. destruct (fileno (getc s d)) eqn:Ef; auto. destruct (K2 Ha eq_refl) as [E _]. congruence.
Qed.

Definition th_norm (th1 : thread_st) (stack : list instr) : thread_st := set_stk th1 stack.
Definition th_raise (th1 : thread_st) (stack : list instr) (x : exn) : thread_st := set_raising th1 stack (Some x).

Lemma ioK_norm : forall g s1 th1 stack,
  lead g s1 stack -> covb stack = true -> ioK g s1 (set_raising th1 stack None).
Proof.
  intros g s1 th1 stack L C. constructor; simpl; auto. intros x E. discriminate.
Qed.

Lemma ioK_raise : forall g s1 th1 stack x,
  x <> XReraised -> has_ca stack = true -> raise_ok x stack -> covb stack = true ->
  ioK g s1 (set_raising th1 stack (Some x)).
Proof.
  intros g s1 th1 stack x Hx Hc Hr Hv. constructor; simpl; auto.
  - intro; discriminate.
  - intros y Ey. injection Ey as <-. auto.
Qed.

Lemma io_raise_step : forall g s a s' l x,
  SInv g s -> raising (getth s IO) = Some x -> step g s (IO, a) = Some (s', l) ->
  SInv g s' /\ labels_by IO l = true /\ (forall c, nclose (getc s' c) = nclose (getc s c) + closes c l).
Proof.
  intros g s a s' l x HS R H.
  pose proof HS as (_ & _ & _ & [_ K2 K3]).
  destruct (K3 x R) as (Hx & Hca & Hro).
  pose proof (all_quiet_raising g s x HS R) as HQ.
  rewrite <- has_ca_drop in Hca. apply covb_drop in K2.
  assert (Hn : forall s1, tvs s1 = tvs s -> forall c, nclose (getc s1 c) = nclose (getc s c)).
  { intros s1 Et c. destruct (tv_fields _ _ (tvs_getc _ _ c Et)) as (_ & _ & _ & _ & _ & _ & E). auto. }
  unfold raise_ok in Hro.
  destruct (step_micro _ _ _ _ _ _ H) as [x' R' D|c Et|k rest m D Dm]; try congruence;
    unfold reached in D; rewrite R in D.
  { rewrite D in Hca. discriminate. }
  unfold does in Dm. rewrite R in Dm. injection Dm as <-. rewrite D in Hca, K2, Hro.
  destruct (frame IO k x s) as [s1 push ls|s1] eqn:F; simpl.
  all: pose proof (frame_gen IO k x s) as FG; rewrite F in FG.
  all: pose proof (fun d => does_other_thread g IO (Some x) k a s (W d) ltac:(discriminate)) as FO;
       unfold does in FO; rewrite F in FO; simpl in FO.
  - (* caught: what the handler pushes is an ordinary tail *)
    destruct FG as (Et & Pt & Pl & Pc & Pz).
    assert (Htl : tail_ok rest = true).
    { destruct Hro as [Ht|(c & r & Ed & _ & Ht)].
      - apply tail_ok_lead_head in Ht. tauto.
      - injection Ed as _ ->. auto. }
    split; [|split; [auto|intro c; rewrite getc_setth, Pz, Nat.add_0_r; auto]].
    apply (io_quiet g s s1); auto. constructor; simpl.
    + intros _. apply LT. rewrite tail_ok_app, Pt, Htl. reflexivity.
    + destruct (catchall k) eqn:Ek.
      * apply covb_app_self; auto. eapply covb_tail; eauto.
      * apply covb_app_cov; [|eapply covb_tail; eauto]. rewrite has_ca_cons_nonca in Hca; auto.
    + intros y Ey. discriminate.
  - (* passed on: the frame was not a catch-all, nor handle_accept's try for an OSError *)
    destruct FG as (Et & Pc).
    assert (Ek : catchall k = false) by (destruct (catchall k); auto; exfalso; apply Hx; auto).
    split; [|split; [auto|intro c; rewrite getc_setth; simpl; rewrite Nat.add_0_r; auto]].
    apply (io_quiet g s s1); auto. apply ioK_raise; auto.
    + rewrite has_ca_cons_nonca in Hca; auto.
    + left. destruct Hro as [Ht|(c & r & Ed & Ho & Ht)].
      * apply tail_ok_lead_head in Ht. apply tail_ok_drop. tauto.
      * exfalso. injection Ed as -> ->. cbn [frame] in F. rewrite Ho in F. discriminate.
    + eapply covb_tail; eauto.
Qed.

Lemma others_quiet : forall g s c i rest,
  SInv g s -> stk (getth s IO) = i :: rest ->
  (forall d, d <> c -> i <> IDelAct d true /\ i <> ISockNone d) ->
  forall d, d <> c -> quiet (getc s d).
Proof.
  intros g s c i rest (_ & Hc & _) S Hi d Hd. destruct (Hi d Hd) as [N1 N2].
  eapply quiet_of; eauto; intros r E; rewrite S in E; injection E as E _; congruence.
Qed.

Transparent asked_r asked_w getc set_srv.
Lemma asked_open : forall g s,
  (forall c, in_map (getc s c) = true -> sock (getc s c) = SOpen) -> srv_ok s ->
  forallb (fd_open s) (asked_r g s ++ asked_w s) = true.
Proof.
  intros g s Hm [HL HT]. pose proof (Hm A) as HA. pose proof (Hm B) as HB. simpl in HA, HB.
  unfold asked_r, asked_w. rewrite !forallb_app.
  destruct (trg_in_map s) eqn:E1; destruct (lst_in_map s) eqn:E2;
  destruct (in_map (chA s)) eqn:E3; destruct (in_map (chB s)) eqn:E4; simpl;
  repeat match goal with |- context [if ?b then _ else _] => destruct b end; simpl;
  rewrite ?HL, ?HT, ?HA, ?HB by auto; reflexivity.
Qed.

Lemma set_srv_fields : forall s a b c d,
  lst_in_map (set_srv s a b c d) = a /\ trg_in_map (set_srv s a b c d) = b /\
  lst_open (set_srv s a b c d) = c /\ trg_open (set_srv s a b c d) = d.
Proof. intros. simpl. auto. Qed.
Opaque asked_r asked_w getc set_srv.

Lemma others_setc : forall s c v d, d <> c -> tv (getc (setc s c v) d) = tv (getc s d).
Proof. intros. rewrite getc_setc_other by auto. reflexivity. Qed.

Lemma srv_ok_setc : forall s c v, srv_ok s -> srv_ok (setc s c v).
Proof. intros s c v [A B]. destruct (srv_setc s c v) as (E1 & E2 & E3 & E4 & _). unfold srv_ok. rewrite E1, E2, E3, E4. auto. Qed.

Lemma lead_LT_any : forall g (s' : state) l, tail_ok l = true -> lead g s' l.
Proof. intros. apply LT. auto. Qed.

Lemma covb_norm : forall g t i a s s1 push ls rest,
  covb (i :: rest) = true -> exec g t i a s = Norm s1 push ls -> covb (push ++ rest) = true.
Proof.
  intros g t i a s s1 push ls rest C E.
  pose proof (exec_gen g t i a s) as G. rewrite E in G. destruct G as [G _].
  destruct (exempt i) eqn:Ee.
  - apply covb_app_self; [auto|eapply covb_tail; eauto].
  - apply covb_app_cov; [eapply covb_head; eauto|eapply covb_tail; eauto].
Qed.

(* compute what the instruction at hand does *)
Ltac exec_compute E :=
  cbn [exec hclose_body] in E; repeat split_innermost_in E; try discriminate E; injection E as <- <- <-; cbn [app].

(* the stages of [lead], with the names the proofs below use for what each stage knows: Ht the tail, Hb bufc,
   Hm in_map, Hf fileno, Ha in_act, Hv "v = false -> not in active_channels", Hso / Hx the socket, Hp acc_pre,
   Hg the knob, Hopen the select lists *)
Ltac lead_cases L :=
  inversion L as [rr Ht|? ? ? rest Hopen Ht|c' r Ht|c' r Ht|c' r Ht Hb|c' r Ht Hb|c' r Ht Hb|c' r Ht Hb|c' r Ht Hb Hm
                 |c' v' r Ht Hb Hm Hv|c' v' r Ht Hb Hm Hf Hv|c' r Ht Hb Hm Hf Ha|c' r Ht Hb Hm Hf Ha Hso|c' r Ht Hb Hm Ha Hx
                 |c' r Ht Hp|c' r Ht Hp|c' r Ht Hp|c' r Ht Hp|c' r Ht Hp
                 |c' r Ht Hp Hg|c' r Ht Hp Hg|c' r Ht Hp Hg|c' r Ht Hp Hg|c' r Ht Hg]; subst.

(* The shape of the stack after an instruction that changes no teardown field: the next stage of the
   close / accept sequence, or an ordinary tail. *)
Lemma lead_next : forall g s i rs a s1 push ls,
  SInv g s -> raising (getth s IO) = None -> stk (getth s IO) = i :: rs -> tv_keep i = true ->
  exec g IO i a s = Norm s1 push ls -> lead g s (push ++ rs).
Proof.
  intros g s i rs a s1 push ls HS R S Hk E.
  pose proof HS as (_ & Hc & Hs & [K1 _ _]). specialize (K1 R). rewrite S in K1.
  lead_cases K1; try discriminate Hk.
  - (* an ordinary instruction *)
    destruct (tail_ok_lead_head _ _ Ht) as [Hco Htr]. destruct (special i) eqn:Hsp.
    + destruct i; try discriminate Hsp; try discriminate Hk.
      * (* IPoll: select is called on what is in the map, and that is open *)
        cbn [exec] in E. destruct (map_empty s); injection E as <- <- <-; [apply LT; auto|].
        apply LSel; auto. intros _.
        match goal with |- forallb _ (asked_r g ?x ++ _) = true => set (s1 := x) end.
        assert (Et : tvs s1 = tvs s) by apply tvs_poll.
        rewrite <- (forallb_ext _ (fd_open s1)) by (intro f; apply fd_open_tvs; auto).
        apply asked_open; [|eapply srv_ok_tvs'; eauto].
        intros d Hd. destruct (tv_fields _ _ (tvs_getc _ _ d Et)) as (_ & E2 & _ & _ & E5 & _).
        rewrite E5. apply (k_map _ _ _ (Hc d)). congruence.
      * (* IHClose *) exec_compute E; apply LC0; auto.
    + pose proof (exec_gen g IO i a s) as T. rewrite E in T.
      apply LT. rewrite tail_ok_app, (proj2 (proj2 T) Hco Hsp), Htr. reflexivity.
  - (* select() is called *) exec_compute E; apply LT; auto.
  - (* acquire outbuf_lock *) exec_compute E; apply LC1; auto.
  - (* notify *) exec_compute E; apply LC3; auto.
  - (* release *) exec_compute E; apply LC4; auto.
  - (* dispatcher.close flags *) exec_compute E; apply LC5; auto.
  - (* `if fd in map` *)
    assert (Q : quiet (getc s c')) by (eapply quiet_of; [apply Hc| |]; intros rr E'; rewrite S in E'; discriminate).
    exec_compute E.
    + apply andb_true_iff in Heqb. destruct Heqb as [Ef Em]. rewrite Ef. apply LC6; auto.
    + apply LC7; auto.
      * destruct (in_map (getc s c')) eqn:Em; auto.
        destruct (k_map _ _ _ (Hc c') Em) as [Ef _]. rewrite Ef in Heqb. discriminate.
      * intro Ef. destruct (in_act (getc s c')) eqn:Ea; auto. rewrite (proj2 Q) in Ef by auto. discriminate.
  - (* `if self.socket is not None` *)
    exec_compute E.
    + apply LC9b; auto.
    + exfalso. match goal with Hs' : sock (getc s c') = SClosed |- _ => destruct (k_closed _ _ _ (Hc c') Hs') as [_ [rr Er]] end.
      rewrite S in Er. discriminate.
    + apply LT; auto.
  - (* set_socket_options *) exec_compute E; apply LA2; auto.
  - (* leave the try, construct the channel *) exec_compute E; [apply LT|apply LA3]; auto.
  - (* getsockopt(SO_SNDBUF) *) exec_compute E; apply LA4; auto.
  - (* setblocking(0) *) exec_compute E; apply LA5; auto.
  - exec_compute E; apply LG2; auto.
  - exec_compute E; apply LG3; auto.
  - exec_compute E; apply LG4; auto.
  - exec_compute E; [apply LT; auto|congruence].
Qed.

Lemma io_keep : forall g s i rest a s1 push ls,
  SInv g s -> stk (getth s IO) = i :: rest -> (forall d, i <> IDelAct d true /\ i <> ISockNone d) ->
  exec g IO i a s = Norm s1 push ls -> tvs s1 = tvs s ->
  lead g s (push ++ rest) ->
  SInv g (setth s1 IO (set_raising (getth s1 IO) (push ++ rest) None)).
Proof.
  intros g s i rest a s1 push ls HS S Hi E Et L.
  pose proof HS as (_ & _ & _ & [_ K2 _]). rewrite S in K2.
  pose proof (fun d => does_other_thread g IO None i a s (W d) ltac:(discriminate)) as EW.
  unfold does in EW. rewrite E in EW. simpl in EW.
  apply (io_quiet g s s1); auto.
  - eapply all_quiet; eauto; intros d r E'; rewrite S in E'; injection E' as E' _; destruct (Hi d); congruence.
  - apply ioK_norm; [eapply lead_tvs; eauto|eapply covb_norm; eauto].
Qed.

Lemma io_chan : forall g s c v i rest th',
  SInv g s -> stk (getth s IO) = i :: rest ->
  (forall d, d <> c -> i <> IDelAct d true /\ i <> ISockNone d) ->
  chan_ok v c th' -> ioK g (setc s c v) th' -> SInv g (setth (setc s c v) IO th').
Proof.
  intros g s c v i rest th' HS S Hi Hv HK.
  refine (io_finish g s _ _ c HS _ _ _ _ HK).
  - intros d Hd. split; [apply others_setc; auto|eapply others_quiet; eauto].
  - apply srv_ok_setc. apply HS.
  - intro d. apply getth_setc.
  - rewrite getc_setc_same. exact Hv.
Qed.

Lemma io_srv : forall g s lm tm lo to_ th',
  SInv g s -> (forall d, quiet (getc s d)) -> (lm = true -> lo = true) -> (tm = true -> to_ = true) ->
  ioK g (set_srv s lm tm lo to_) th' -> SInv g (setth (set_srv s lm tm lo to_) IO th').
Proof.
  intros g s lm tm lo to_ th' HS HQ Hl Ht HK. refine (io_finish g s _ _ A HS _ _ _ _ HK).
  - intros d _. rewrite getc_set_srv. split; auto.
  - unfold srv_ok. destruct (set_srv_fields s lm tm lo to_) as (-> & -> & -> & ->). auto.
  - intro d. apply getth_set_srv.
  - rewrite getc_set_srv. eapply chan_ok_quiet; eauto. apply HS.
Qed.

(* the clauses of [chan_ok] for a record with one teardown field rewritten, from the clauses J1..J7 of the
   old record and its being quiet (Q1, Q2): a premise that cannot hold, or the old clause with the same premise *)
Ltac chan_fin :=
  try (intro; discriminate); try (intros; congruence);
  try match goal with
  | Q2 : in_act ?x = true -> fileno ?x = true |- in_act ?x = true -> fileno ?x = false -> _ =>
      let Ha := fresh in let Hf := fresh in intros Ha Hf; rewrite Q2 in Hf by auto; discriminate
  end;
  try match goal with
  | J6 : nclose ?x <> 0 -> _ |- nclose ?x <> 0 -> _ =>
      let Hn := fresh in intro Hn; destruct (J6 Hn) as (? & ? & ?); auto
  end;
  try match goal with
  | J3 : accepted ?x = false -> _ |- accepted ?x = false -> _ =>
      let Ha := fresh in intro Ha; destruct (J3 Ha) as (? & ? & ? & ?); repeat split; auto; congruence
  end;
  try match goal with
  | Q1 : sock ?x <> SClosed |- sock ?x = SClosed -> _ => let Hs := fresh in intro Hs; contradiction
  end.

(* The ten instructions that change a teardown field: accept, the server's close, and the writes of the
   close sequence and of add_channel, each at its stage of [lead]. *)
Lemma io_change : forall g s i rs a s1 push ls,
  SInv g s -> raising (getth s IO) = None -> stk (getth s IO) = i :: rs -> tv_keep i = false ->
  exec g IO i a s = Norm s1 push ls ->
  SInv g (setth s1 IO (set_raising (getth s1 IO) (push ++ rs) None)).
Proof.
  intros g s i rs a s1 push ls HS R S Hk E.
  pose proof HS as (_ & Hc & Hs & [K1 K2 _]). specialize (K1 R). rewrite S in K1, K2.
  pose proof (covb_norm _ _ _ _ _ _ _ _ _ K2 E) as C. pose proof E as E0.
  assert (Qc : forall c, (forall r, i :: rs <> IDelAct c true :: r) -> (forall r, i :: rs <> ISockNone c :: r) ->
                         quiet (getc s c)).
  { intros c N1 N2. eapply quiet_of; [apply Hc| |]; rewrite S; auto. }
  destruct i; try discriminate Hk;
  lead_cases K1; try discriminate.
  - (* IAccept *)
    apply tail_ok_lead_head in Ht. destruct Ht as [_ Ht].
    cbn [exec] in E. destruct a as [| | | |ra| | | | | | |]; try discriminate E. destruct ra as [c|e].
    + (* a connection: its record becomes [acc_pre] *)
      destruct (accepted (getc s c)) eqn:Eacc; [discriminate|]. injection E as <- <- <-.
      destruct (k_unacc _ _ _ (Hc c) Eacc) as (E1 & E2 & E3 & E4).
      assert (AP : acc_pre (upd_accepted (getc s c))) by (repeat split; simpl; auto).
      rewrite getth_setc. apply (io_chan g s c _ _ _ _ HS S); [intros d Hd; split; discriminate| |].
      * destruct (Hc c) as [J1 J2 J3 J4 J5 J6 J7].
        constructor; simpl; auto; try (intro; congruence); try (intros; congruence); try (rewrite E2; auto).
      * apply ioK_norm; auto.
        destruct (init_guarded g) eqn:Eg; [apply LG1|apply LA1]; auto; rewrite getc_setc_same; exact AP.
    + (* an errno: None is returned *)
      injection E as <- <- <-. eapply io_keep; eauto; [intro d; split; discriminate|apply LT; auto].
  - (* IAddChan, outside handle_accept's try *)
    exec_compute E. rewrite getth_setc. destruct Hp as (P1 & P2 & P3 & P4 & P5).
    apply (io_chan g s c _ _ _ _ HS S); [intros d Hd; split; discriminate| |].
    + constructor; simpl; auto; try (intro; congruence); try (intros; congruence); intros; lia.
    + apply ioK_norm; auto. apply LT; auto.
  - (* IAddChan, inside *)
    exec_compute E. rewrite getth_setc. destruct Hp as (P1 & P2 & P3 & P4 & P5).
    apply (io_chan g s c _ _ _ _ HS S); [intros d Hd; split; discriminate| |].
    + constructor; simpl; auto; try (intro; congruence); try (intros; congruence); intros; lia.
    + apply ioK_norm; auto. apply LG5; auto.
  - (* ITrigClose *)
    apply tail_ok_lead_head in Ht. destruct Ht as [_ Ht].
    cbn [exec] in E. destruct (trg_open s); injection E as <- <- <-;
      [|eapply io_keep; eauto; [intro d; split; discriminate|apply LT; auto]].
    cbn [app]. rewrite getth_set_srv. apply io_srv; auto; try discriminate; try apply Hs.
    + intro d. apply Qc; intros rr E'; discriminate E'.
    + apply ioK_norm; auto. apply LT; auto.
  - (* ILstClose *)
    apply tail_ok_lead_head in Ht. destruct Ht as [_ Ht].
    cbn [exec] in E. injection E as <- <- <-. cbn [app]. rewrite getth_set_srv.
    apply io_srv; auto; try discriminate; try apply Hs.
    + intro d. apply Qc; intros rr E'; discriminate E'.
    + apply ioK_norm; auto. apply LT; auto.
  - (* ICloseBufs *)
    destruct (Qc c) as [Q1 Q2]; try (intros rr E'; discriminate E'). destruct (Hc c) as [J1 J2 J3 J4 J5 J6 J7].
    exec_compute E. rewrite getth_setc.
    apply (io_chan g s c _ _ _ _ HS S); [intros d Hd; split; discriminate| |].
    + constructor; simpl; auto; chan_fin.
    + apply ioK_norm; auto. apply LC2; auto. rewrite getc_setc_same. reflexivity.
  - (* IDelMapDo *)
    destruct (Qc c) as [Q1 Q2]; try (intros rr E'; discriminate E'). destruct (Hc c) as [J1 J2 J3 J4 J5 J6 J7].
    exec_compute E. rewrite getth_setc.
    apply (io_chan g s c _ _ _ _ HS S); [intros d Hd; split; discriminate| |].
    + constructor; simpl; auto; chan_fin.
    + apply ioK_norm; auto. apply LC7; auto; rewrite getc_setc_same; simpl; auto. intro; discriminate.
  - (* IFilenoNone *)
    destruct (Qc c) as [Q1 Q2]; try (intros rr E'; discriminate E'). destruct (Hc c) as [J1 J2 J3 J4 J5 J6 J7].
    exec_compute E. rewrite getth_setc.
    apply (io_chan g s c _ _ _ _ HS S); [intros d Hd; split; discriminate| |].
    + constructor; simpl; auto; chan_fin.
      intros Ha _. split; auto. destruct v'; [eexists; reflexivity|]. rewrite Hv in Ha by auto. discriminate.
    + apply ioK_norm; auto. apply LC8; auto; rewrite getc_setc_same; simpl; auto.
  - (* IDelAct *)
    destruct (Hc c) as [J1 J2 J3 J4 J5 J6 J7].
    assert (Q1 : sock (getc s c) <> SClosed).
    { intro E'. destruct (J7 E') as [_ [rr Er]]. rewrite S in Er. discriminate. }
    assert (No : forall d, d <> c -> IDelAct c v <> IDelAct d true /\ IDelAct c v <> ISockNone d)
      by (intros d Hd; split; congruence).
    exec_compute E.
    + rewrite getth_setc. apply (io_chan g s c _ _ _ _ HS S No).
      * constructor; simpl; auto; chan_fin.
      * apply ioK_norm; auto. apply LC9; auto; rewrite getc_setc_same; simpl; auto.
    + assert (Ea : in_act (getc s c) = false) by (destruct v; simpl in Heqb; auto).
      refine (io_finish g s _ _ c HS _ _ _ _ _).
      * intros d Hd. split; [reflexivity|eapply others_quiet; eauto].
      * auto.
      * reflexivity.
      * eapply chan_ok_quiet; [split; auto|apply Hc]. intro Ha'. congruence.
      * apply ioK_norm; auto. apply LC9; auto.
  - (* ISockCloseCall *)
    destruct (Hc c) as [J1 J2 J3 J4 J5 J6 J7].
    exec_compute E; try (exfalso; congruence). rewrite getth_setc.
    apply (io_chan g s c _ _ _ _ HS S); [intros d Hd; split; discriminate| |].
    + rewrite (J4 Hso). constructor; simpl; auto; chan_fin.
      all: try (intro Hacc; destruct (J3 Hacc) as (E' & _); congruence).
      all: try (intros _; split; auto; eexists; reflexivity).
    + apply ioK_norm; auto. apply LC10; auto; rewrite getc_setc_same; simpl; auto.
  - (* ISockNone *)
    destruct (Hc c) as [J1 J2 J3 J4 J5 J6 J7].
    exec_compute E. rewrite getth_setc.
    apply (io_chan g s c _ _ _ _ HS S); [intros d Hd; split; congruence| |].
    + constructor; simpl; auto; chan_fin.
    + apply ioK_norm; auto. apply LT; auto.
Qed.

(* an instruction that raises: the frame that will catch is where [raise_ok] says *)
Lemma io_raise_instr : forall g s i rs a s1 x ls,
  SInv g s -> raising (getth s IO) = None -> stk (getth s IO) = i :: rs ->
  exec g IO i a s = Raise s1 x ls ->
  SInv g (setth s1 IO (set_raising (getth s1 IO) rs (Some x))).
Proof.
  intros g s i rs a s1 x ls HS R S E.
  pose proof HS as (_ & Hc & Hs & [K1 K2 _]). specialize (K1 R). rewrite S in K1, K2.
  pose proof (exec_gen g IO i a s) as EG. rewrite E in EG. destruct EG as (Hx & He & _).
  pose proof (exec_tvs g IO i a s) as Et. rewrite E in Et. destruct Et as [Et Hk].
  pose proof (fun d => does_other_thread g IO None i a s (W d) ltac:(discriminate)) as EW.
  unfold does in EW. rewrite E in EW. simpl in EW.
  assert (F : raise_ok x rs /\ exempt i = false /\ tv_keep i = true).
  { inversion K1 as [rr Ht|? ? ? rest Hopen Ht| | | | | | |c r Ht Hb Hm| | | | | | | | | | | | | | | ]; subst;
      try (cbn [exec] in E; repeat split_innermost_in E; discriminate E).
    - destruct (tail_ok_lead_head _ _ Ht) as [Hco Htr].
      split; [left; apply tail_ok_drop; auto|]. split; [destruct He; congruence|auto].
    - exfalso. cbn [exec] in E. destruct (use_poll2 g); simpl in E; [discriminate|].
      rewrite Hopen in E by auto. discriminate.
    - exfalso. cbn [exec] in E. rewrite Hm in E. discriminate.
    - (* ISetOpts, below it handle_accept's try *)
      cbn [exec] in E. repeat split_innermost_in E; try discriminate E. injection E as _ <- _.
      split; [right; do 2 eexists; simpl; eauto|auto].
    - (* IInitGso, IInitSbl outside the try *)
      split; [left; simpl; apply tail_ok_drop; auto|auto].
    - split; [left; simpl; apply tail_ok_drop; auto|auto].
    - cbn [exec] in E. repeat split_innermost_in E; try discriminate E. injection E as _ <- _.
      split; [right; do 2 eexists; simpl; eauto|auto].
    - cbn [exec] in E. repeat split_innermost_in E; try discriminate E. injection E as _ <- _.
      split; [right; do 2 eexists; simpl; eauto|auto].
    - cbn [exec] in E. repeat split_innermost_in E; try discriminate E. injection E as _ <- _.
      split; [right; do 2 eexists; simpl; eauto|auto]. }
  destruct F as (Hro & Hex & Hkp).
  apply (io_quiet g s s1); auto.
  - eapply all_quiet; eauto; intros d r E'; rewrite S in E'; injection E' as -> _; discriminate.
  - apply ioK_raise; auto; [eapply covb_head; eauto|eapply covb_tail; eauto].
Qed.

Lemma io_norm_step : forall g s a s' l,
  SInv g s -> raising (getth s IO) = None -> step g s (IO, a) = Some (s', l) -> SInv g s'.
Proof.
  intros g s a s' l HS R H.
  destruct (step_micro _ _ _ _ _ _ H) as [x R'|c Et|i rest m S D]; try congruence.
  unfold reached in S. unfold does in D. rewrite R in S, D.
  destruct (exec g IO i a s) as [|s1 push ls|s1 x ls] eqn:E; [discriminate| |]; injection D as <-; simpl.
  - destruct (tv_keep i) eqn:Hk; [|eapply io_change; eauto].
    pose proof (exec_tvs g IO i a s) as Et. rewrite E in Et.
    eapply io_keep; eauto; [|eapply lead_next; eauto].
    intro d. split; intros ->; discriminate Hk.
  - eapply io_raise_instr; eauto.
Qed.

Lemma io_norm_labels : forall g s a s' l,
  raising (getth s IO) = None -> step g s (IO, a) = Some (s', l) ->
  labels_by IO l = true /\ forall c, nclose (getc s' c) = nclose (getc s c) + closes c l.
Proof.
  intros g s a s' l R H.
  destruct (step_micro _ _ _ _ _ _ H) as [x R'|c Et|i rest m _ D]; try congruence.
  unfold does in D. rewrite R in D.
  pose proof (exec_gen g IO i a s) as EG. pose proof (fun c => exec_closes g IO i a s c) as EC.
  destruct (exec g IO i a s); [discriminate| |]; injection D as <-; simpl;
    (split; [tauto|intro c; rewrite getc_setth; apply EC]).
Qed.

Lemma SInv_init : forall g, SInv g init.
Proof.
  intro g. split; [|split; [|split]].
  - intros [|]; reflexivity.
  - intros [|]; constructor; simpl; auto; try (intro; discriminate); try (intros; congruence).
  - split; reflexivity.
  - constructor; simpl; auto.
    + intros _. apply LT. reflexivity.
    + intros x E. discriminate.
Qed.

Lemma SInv_step : forall g s t a s' l,
  SInv g s -> step g s (t, a) = Some (s', l) -> no_wcontb l = true \/ wc_close g = false ->
  SInv g s' /\ io_only l /\ no_died l /\ forall c, nclose (getc s' c) = nclose (getc s c) + closes c l.
Proof.
  intros g s [|c] a s' l HS H Hwc.
  - assert (X : SInv g s' /\ labels_by IO l = true /\
                forall c, nclose (getc s' c) = nclose (getc s c) + closes c l).
    { destruct (raising (getth s IO)) as [x|] eqn:R; [eapply io_raise_step; eauto|].
      split; [eapply io_norm_step; eauto|eapply io_norm_labels; eauto]. }
    destruct X as (HS' & Hl & Hc). destruct (labels_by_io_facts _ Hl). auto.
  - destruct (worker_step g s c a s' l HS H Hwc) as (HS' & Ht & Hf).
    destruct (teardown_free_facts _ Hf) as (L1 & L2 & L3). split; [auto|split; [auto|split; [auto|]]].
    intro d. rewrite L3, Nat.add_0_r.
    destruct (tv_fields _ _ (tvs_getc _ _ d Ht)) as (_ & _ & _ & _ & _ & _ & E). exact E.
Qed.

Lemma OInv_step : forall g s tr ch s' l, OInv g s tr -> step g s ch = Some (s', l) -> OInv g s' (tr ++ l).
Proof.
  intros g s tr [t a] s' l Inv H Hno.
  assert (Hn1 : no_wcont tr \/ wc_close g = false).
  { destruct Hno as [Hno|Hno]; auto. apply no_wcont_app in Hno. tauto. }
  assert (Hn2 : no_wcontb l = true \/ wc_close g = false).
  { destruct Hno as [Hno|Hno]; auto. apply no_wcont_app in Hno. left. apply no_wcontb_spec. tauto. }
  destruct (Inv Hn1) as (HS & Hio & Hnd & Hcl).
  destruct (SInv_step g s t a s' l HS H Hn2) as (HS' & L1 & L2 & Hc).
  split; [auto|split; [apply io_only_app; auto|split; [apply no_died_app; auto|]]].
  intro d. rewrite closes_app, Hcl, Hc. reflexivity.
Qed.

Lemma OInv_init : forall g, OInv g init [].
Proof.
  intros g _. split; [apply SInv_init|split; [|split]].
  - intros l t [].
  - intros x [].
  - intros [|]; reflexivity.
Qed.

Lemma OInv_all : forall g sched, OInv g (ChanFault.run g sched) (ChanFault.trace g sched).
Proof. intros g sched. apply (inv_rule_tr g (OInv g)); [apply OInv_init|apply OInv_step]. Qed.

(* C13_once and C13_loop, for the executions outside F18 ([no_wcont]: no worker reaches send_continue()) and,
   with its repair (service() reaches _flush_some with do_close=False), for every execution *)
Theorem once_and_loop : forall g sched,
  no_wcont (ChanFault.trace g sched) \/ wc_close g = false ->
  once_ok (ChanFault.run g sched) (ChanFault.trace g sched) /\ loop_ok (ChanFault.trace g sched).
Proof.
  intros g sched Hn. destruct (OInv_all g sched Hn) as ((_ & Hc & _) & Hio & Hnd & Hcl). split.
  - split; auto. intro c. rewrite Hcl. split; [apply (k_le _ _ _ (Hc c))|exact (k_rel _ _ _ (Hc c))].
  - intros x Hin. destruct (Hnd x Hin).
Qed.

(* one of the state facts behind the theorems: outside F18, a descriptor that is polled is open *)
Theorem polled_is_open : forall g sched c,
  no_wcont (ChanFault.trace g sched) ->
  in_map (getc (ChanFault.run g sched) c) = true -> sock (getc (ChanFault.run g sched) c) = SOpen.
Proof.
  intros g sched c Hn Hm. destruct (OInv_all g sched (or_introl Hn)) as ((_ & Hc & _) & _).
  destruct (Hc c) as [J1 _ _ _ _ _ _]. apply J1. auto.
Qed.
