(* C01, composition: the model's "unmodelled" result (a request-target with a
   bracketed host, which urlsplit hands to the ipaddress module) cannot occur
   under the hypothesis on request-targets (feed_modelled); a decidable
   sufficient condition for the hypothesis (no '[' / ']' in the stream); the
   inputs on which C01_full_dev itself fails. *)
From Coq Require Import List NArith ZArith Bool Lia Arith.
From RecordUpdate Require Import RecordUpdate.
From WV Require Import Lib.PyBytes Lib.Regex Gen.GenRegex Model.Receiver Model.UrlSplit Model.Parser Model.ChanSeq Spec.Ref9112.
From WV Require Import Proof.PyBytesFacts Proof.UrlSplitFacts Proof.ReceiverTotal Proof.ParserTotal Proof.ParserTotalChan
  Proof.SplitParser Proof.SplitChan.
From WV Require Import Proof.C01Lib Proof.C01Body Proof.C01Block Proof.C01Boundary Proof.C01Head Proof.C01Framing
  Proof.C01Close Proof.C01ReqLine Proof.C01ParseHeader Proof.C01Observe Proof.C01ComposeLib Proof.C01ComposeHead
  Proof.C01ComposeBody Proof.C01Compose.
Import ListNotations.
Local Open Scope N_scope.

Lemma ph_unmodelled a p hp : bytes_ok hp -> snd (parse_header a p hp) = PSUnmodelled ->
  exists t, infix t hp /\ target_shape t = true /\ split_uri t = SUnmodelled.
Proof.
  intros Hok. rewrite parse_header_eq.
  destruct (find hp CRLF) as [idx|]; [|discriminate]. cbv zeta.
  set (fl := rstrip_by is_reqline_ws (firstn idx hp)).
  destruct (has_cr_or_lf fl) eqn:Hcr; [discriminate|].
  destruct (get_header_lines _); [discriminate|].
  destruct (add_header_lines _ l) as [[e h0]|h1]; [discriminate|].
  assert (Ifl : infix fl hp) by (eapply infix_trans; [apply infix_rstrip | apply infix_firstn]).
  assert (Hokfl : bytes_ok fl) by (eapply infix_bytes_ok; eauto).
  rewrite has_cr_or_lf_ref in Hcr.
  pose proof (request_line_equiv fl Hokfl Hcr) as RE.
  destruct (crack_first_line fl) as [[[cmd uri] ver]|]; [|discriminate].
  destruct (beqb cmd [] && beqb uri [] && beqb ver []); [discriminate|].
  destruct (shape_facts fl cmd uri ver RE) as (_ & Iu & Hu).
  unfold ph_mid. destruct (split_uri uri) as [sc nl pa qu fr| | |] eqn:Su; try discriminate.
  - cbv zeta. destruct (ph_v11 _ h1 ver _) as [p2 [e|]]; [discriminate|].
    intro H. exfalso. exact (proj2 (ph_tail_no_escape p2) H).
  - intros _. exists uri. split; [eapply infix_trans; eauto|]. auto.
Qed.

(* a fresh parser offered a read: "unmodelled" comes from a request-target in the read; otherwise
   the message is complete, or in its body, or the whole read is consumed *)
Lemma received_init_cases a data : bytes_ok data ->
  match received a parser_init data with
  | ROk q n => completed q = true \/ (exists br, body q = Some br) \/ n = Z.of_nat (length data)
  | RUnmodelled => exists t, infix t data /\ target_shape t = true /\ split_uri t = SUnmodelled
  | _ => True
  end.
Proof.
  intros Hok. change parser_init with (P0 []). rewrite (received_head_eq a [] data). cbn [app].
  destruct (find_double_newline data) as [i|].
  - unfold head_found. cbv zeta. destruct (_ <=? _).
    + destruct (head_431_fields a (N.of_nat i) (Z.of_N (lenN data) - (Z.of_nat (length data) - Z.of_nat i))%Z) as (p & -> & Pc & _).
      auto.
    + set (hp := lstrip_by is_reqline_ws (strip_leading_crlf (length data) (firstn i data))).
      assert (Ihp : infix hp data).
      { unfold hp. rewrite lstrip_drop_while. eapply infix_trans; [apply infix_drop_while|].
        eapply infix_trans; [apply infix_strip_crlf | apply infix_firstn]. }
      destruct hp as [|h0 hs] eqn:Ehp; [left; reflexivity|]. rewrite <- Ehp in *.
      pose proof (ph_unmodelled a (P0 [] <| header_bytes_received := N.of_nat i |>) hp
                    (infix_bytes_ok _ _ Ihp Hok)) as U.
      destruct (parse_header a _ hp) as [p1 [| | |]]; auto.
      * destruct (body p1) as [bb1|] eqn:Hb1; destruct (_ && _); auto. right; left. psimpl. eauto.
      * destruct (U eq_refl) as (t & It & Ht & St). exists t. split; [eapply infix_trans; eauto|]. auto.
  - unfold head_more. cbv zeta. destruct (_ <=? _).
    + destruct (head_431_fields a (header_bytes_received (P0 []) + lenN data) (Z.of_N (lenN data))) as (p & -> & Pc & _).
      auto.
    + right; right. unfold lenN. lia.
Qed.

Lemma received_body_ok a p br data : completed p = false -> body p = Some br ->
  received a p data <> RUnmodelled /\
  forall q n, received a p data = ROk q n -> completed q = true \/ exists br', body q = Some br'.
Proof.
  intros Hc Hb. rewrite (received_body_eq a p br data Hc Hb).
  assert (K : forall br' n e d, body_fin a p br' n e d <> RUnmodelled /\
            forall q m, body_fin a p br' n e d = ROk q m -> completed q = true \/ exists b, body q = Some b).
  { intros br' n e d. unfold body_fin. cbv zeta.
    destruct (_ <=? _)%Z; [split; [discriminate|intros q m H; injection H as <- <-; left; reflexivity]|].
    destruct e; [split; [discriminate|intros q m H; injection H as <- <-; left; reflexivity]|].
    destruct d.
    - psimpl. destruct (chunked p); (split; [discriminate|intros q m H; injection H as <- <-; left; reflexivity]).
    - split; [discriminate|]. intros q m H; injection H as <- <-. right. psimpl. eauto. }
  destruct br as [f|c0].
  - destruct (fixed_received f data). apply K.
  - destruct (chunked_received c0 data) as [[c1 n]|]; [apply K|]. split; [discriminate|discriminate].
Qed.

Definition in_body (c : chan) : Prop :=
  match request c with
  | None => True
  | Some r => completed r = false /\ exists br, body r = Some br
  end.

Lemma loop_modelled a : forall f c data, bytes_ok data -> targets_ok data -> in_body c ->
  received_loop f a c data <> CUnmodelled.
Proof.
  induction f as [|f IH]; intros c data Hok Htg Hin; [discriminate|].
  rewrite loop_unfold. unfold cur. unfold in_body in Hin.
  assert (Hnext : forall r1 n, received a (match request c with Some r => r | None => parser_init end) data = ROk r1 n ->
            (completed r1 = true \/ (exists br, body r1 = Some br) \/ n = Z.of_nat (length data)) ->
            cont f a (post c r1) data n <> CUnmodelled).
  { intros r1 n _ Hs. unfold cont. destruct (Z.leb_spec (Z.of_nat (length data)) n); [discriminate|].
    apply IH.
    - apply bytes_ok_skipn; auto.
    - eapply targets_ok_infix; [apply infix_skipn | exact Htg].
    - unfold in_body. destruct (post_facts c r1) as (r2 & Hx & _ & Hrq). rewrite Hrq.
      destruct (completed r1) eqn:Hc1; [exact I|].
      destruct (eqx_fields r2 r1 Hx) as (_ & Xc & Xb & _). rewrite Xc, Xb. split; auto.
      destruct Hs as [Hs|[Hs|Hs]]; [congruence | exact Hs | lia]. }
  destruct (request c) as [r|].
  - destruct Hin as (Hc & br & Hb). destruct (received_body_ok a r br data Hc Hb) as (NU & Hs).
    destruct (received a r data) as [r1 n| | |] eqn:E; try discriminate; [|congruence].
    apply (Hnext r1 n eq_refl). destruct (Hs r1 n eq_refl); auto.
  - pose proof (received_init_cases a data Hok) as RC.
    destruct (received a parser_init data) as [r1 n| | |]; try discriminate.
    + apply (Hnext r1 n eq_refl). exact RC.
    + exfalso. destruct RC as (t & It & Ht & St). destruct (Htg t It Ht) as [NU _]. exact (NU St).
Qed.

Lemma feed_modelled a s : bytes_ok s -> targets_ok s -> exists c', feed a chan_init [s] = COk c'.
Proof.
  intros Hok Htg.
  destruct (feed_total a [s] chan_init (wf_chan_init a)) as [E|(c' & E & _)]; [|eauto].
  exfalso. revert E. cbn [feed]. unfold chan_received.
  destruct s as [|x s']; [discriminate|]. cbn [will_close close_when_flushed chan_init orb].
  pose proof (loop_modelled a (S (length (x :: s'))) chan_init (x :: s') Hok Htg I) as NU.
  destruct (received_loop (S (length (x :: s'))) a chan_init (x :: s')); try discriminate. congruence.
Qed.

Lemma incl_firstn' k (s : bytes) : incl (firstn k s) s.
Proof. rewrite <- (firstn_skipn k s) at 2. apply incl_appl, incl_refl. Qed.

Lemma urlsplit_cases t :
  (existsb (fun x => 128 <=? x) t = true /\ urlsplit t = UUnicodeError) \/
  (existsb (fun x => 128 <=? x) t = false /\
   ((exists nl, incl nl t /\
       ((memb 91 nl = true /\ memb 93 nl = true /\ urlsplit t = UUnmodelled) \/
        (memb 91 nl <> memb 93 nl /\ urlsplit t = UValueError))) \/
    exists sc n p q f, urlsplit t = UOk sc n p q f)).
Proof.
  rewrite urlsplit_stages. destruct (existsb (fun x => 128 <=? x) t); [left; auto|]. right. split; auto.
  cbv zeta.
  set (url2 := filter (fun x => negb ((x =? 9) || (x =? 13) || (x =? 10))) (lstrip_by is_c0_or_space t)).
  assert (I2 : incl url2 t) by (unfold url2; eapply incl_tran; [apply incl_filter | apply incl_lstrip]).
  assert (I3 : incl (snd (us_scheme url2)) url2).
  { unfold us_scheme. destruct (find url2 [58]) as [[|i']|]; try apply incl_refl.
    destruct url2 as [|c0 u2]; [apply incl_refl|]. destruct (_ && _); [apply incl_skipn' | apply incl_refl]. }
  destruct (us_scheme url2) as [scheme url3]. cbn [snd] in I3.
  unfold us_netloc. destruct (startswith url3 [47; 47]).
  - pose proof (cut_at_spec (fun x => (x =? 47) || (x =? 63) || (x =? 35)) (skipn 2 url3)) as C.
    destruct (cut_at (fun x => (x =? 47) || (x =? 63) || (x =? 35)) (skipn 2 url3)) as [nl u]. destruct C as (C & _).
    assert (In' : incl nl t).
    { intros x Hx. apply I2, I3, (incl_skipn' 2). rewrite <- C. apply in_or_app. auto. }
    destruct (memb 91 nl) eqn:E1, (memb 93 nl) eqn:E2; cbn [andb orb N.eqb Pos.eqb].
    + left. exists nl. split; [exact In'|]. left. split; [exact E1|]. split; [exact E2 | reflexivity].
    + left. exists nl. split; [exact In'|]. right. split; [congruence|reflexivity].
    + left. exists nl. split; [exact In'|]. right. split; [congruence|reflexivity].
    + right. unfold us_tail. destruct (find u [35]); [destruct (find (firstn n u) [63]) | destruct (find u [63])]; repeat eexists.
  - cbn [N.eqb]. right. unfold us_tail.
    destruct (find url3 [35]); [destruct (find (firstn n url3) [63]) | destruct (find url3 [63])]; repeat eexists.
Qed.

Lemma split_uri_unmodelled_bracket t : split_uri t = SUnmodelled -> memb 91 t = true /\ memb 93 t = true.
Proof.
  unfold split_uri. destruct (beqb (firstn 2 t) [47; 47]).
  - destruct (existsb _ t); [discriminate|].
    destruct (find t [35]); [destruct (find (firstn n t) [63]) | destruct (find t [63])]; discriminate.
  - destruct (urlsplit_cases t) as [[_ E]|[_ [(nl & Inl & [(H1 & H2 & E)|(_ & E)])|(sc & n & p & q & f & E)]]];
      rewrite E; try discriminate.
    intros _. split; apply memb_In; apply Inl; apply memb_In; assumption.
Qed.

Lemma split_uri_nobracket t : memb 91 t = false -> memb 93 t = false ->
  (split_uri t = SBadURI <-> existsb (fun x => 128 <=? x) t = true).
Proof.
  intros H1 H2. unfold split_uri. destruct (beqb (firstn 2 t) [47; 47]).
  - destruct (existsb _ t); [tauto|].
    destruct (find t [35]); [destruct (find (firstn n t) [63]) | destruct (find t [63])]; split; discriminate.
  - destruct (urlsplit_cases t) as [[Ex E]|[Ex [(nl & Inl & [(A & B & E)|(A & E)])|(sc & n & p & q & f & E)]]];
      rewrite E, Ex.
    + tauto.
    + rewrite (memb_incl 91 nl t Inl H1) in A. discriminate.
    + exfalso. apply A. rewrite (memb_incl 91 nl t Inl H1), (memb_incl 93 nl t Inl H2). reflexivity.
    + split; discriminate.
Qed.

Lemma forallb_ascii t : forallb (fun x => x <? 128) t = negb (existsb (fun x => 128 <=? x) t).
Proof.
  induction t as [|x t IH]; [reflexivity|]. cbn [forallb existsb]. rewrite IH, negb_orb. f_equal.
  rewrite N.ltb_antisym. reflexivity.
Qed.

Lemma auth_pat (l : bytes) (g : bytes -> bytes) au :
  match l with 58 :: 47 :: 47 :: r => Some (g r) | _ => None end = Some au ->
  exists r, l = 58 :: 47 :: 47 :: r /\ au = g r.
Proof.
  destruct l as [|x1 l]; [discriminate|].
  destruct x1 as [|p1]; [discriminate|].
  do 6 (try (destruct p1 as [p1|p1|]; try discriminate)).
  destruct l as [|x2 l]; [discriminate|].
  destruct x2 as [|p2]; [discriminate|].
  do 6 (try (destruct p2 as [p2|p2|]; try discriminate)).
  destruct l as [|x3 r]; [discriminate|].
  destruct x3 as [|p3]; [discriminate|].
  do 6 (try (destruct p3 as [p3|p3|]; try discriminate)).
  intro H. injection H as <-. eauto.
Qed.

Lemma target_policy_nobracket t : memb 91 t = false -> memb 93 t = false ->
  target_policy t = negb (existsb (fun x => 128 <=? x) t).
Proof.
  intros H1 H2. unfold target_policy. rewrite forallb_ascii.
  destruct (authority_of t) as [au|] eqn:Ea; [|apply andb_true_r].
  assert (Ia : incl au t).
  { unfold authority_of in Ea. destruct (take_until (fun x => x =? 58) t) as [|c sch]; [discriminate|].
    destruct (is_alpha c && forallb is_scheme_ch (c :: sch)); [|discriminate].
    pose proof (incl_skipn' (length (c :: sch)) t) as Is.
    apply auth_pat in Ea as (r & El & ->). rewrite El in Is.
    eapply incl_tran; [apply incl_take_until|].
    intros y Hy. apply Is. right; right; right. exact Hy. }
  rewrite (memb_incl 91 au t Ia H1), (memb_incl 93 au t Ia H2). apply andb_true_r.
Qed.

Theorem targets_ok_nobracket s : memb 91 s = false -> memb 93 s = false -> targets_ok s.
Proof.
  intros H1 H2 t It _.
  pose proof (infix_memb 91 t s It H1) as T1. pose proof (infix_memb 93 t s It H2) as T2.
  split.
  - intro E. apply split_uri_unmodelled_bracket in E as [E _]. congruence.
  - rewrite (split_uri_nobracket t T1 T2), (target_policy_nobracket t T1 T2).
    destruct (existsb _ t); cbn [negb]; split; auto; discriminate.
Qed.

Definition adj_mb0 : adj :=
  {| max_request_header_size := 262144; max_request_body_size := 0; adj_url_scheme := [104;116;116;112] |}.

(* "POST / HTTP/1.1\r\nTransfer-Encoding: chunked\r\n\r\n" with max_request_body_size = 0:
   the reference refuses (413: the limit is reached with 0 body bytes), the code waits for a byte *)
Definition mb0_stream : bytes :=
  [80;79;83;84;32;47;32;72;84;84;80;47;49;46;49;13;10;84;114;97;110;115;102;101;114;45;69;110;99;111;100;105;110;103;58;32;99;104;117;110;107;101;100;13;10;13;10].

(* "GET \x01http://[/ HTTP/1.1\r\n\r\n": a C0 control byte in the target.  Until /repo fix (control
   characters refused in the request-target) this was a witness against the unconditional statement:
   urlsplit stripped the leading C0 control and then saw an unbalanced '[' -> 400, while the reference
   (target = any octets but SP CR LF) delivered it.  Now the request-line gate and the reference both
   refuse the line: the stream is kept as a regression example of agreement. *)
Definition c0_target_stream : bytes :=
  [71;69;84;32;1;104;116;116;112;58;47;47;91;47;32;72;84;84;80;47;49;46;49;13;10;13;10].

(* "GET http://[::1]/ HTTP/1.1\r\n\r\n": a bracketed host, which Model/UrlSplit.v does not model *)
Definition bracket_stream : bytes :=
  [71;69;84;32;104;116;116;112;58;47;47;91;58;58;49;93;47;32;72;84;84;80;47;49;46;49;13;10;13;10].

Lemma full_dev_refuted_zero_body_limit :
  observe (feed adj_mb0 chan_init [mb0_stream]) = Some [OIncomplete] /\
  map ref_view (ref_run_dev (cfg_of adj_mb0) all_devs mb0_stream) = [ORefuse 413].
Proof. split; vm_compute; reflexivity. Qed.

(* non-vacuity of the hypotheses: the example stream of C01Observe (a chunked
   POST with extension and trailer, a Content-Length PUT, a partial GET) *)
Example compose_example :
  0 < max_request_body_size adj0 /\ bytes_ok example_stream /\ targets_ok example_stream /\
  length (ref_run_dev (cfg_of adj0) all_devs example_stream) = 3%nat.
Proof.
  split; [reflexivity|]. split; [apply bytes_ok_dec; reflexivity|]. split; [|vm_compute; reflexivity].
  apply targets_ok_nobracket; vm_compute; reflexivity.
Qed.

