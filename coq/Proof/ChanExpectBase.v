(* Proof/ChanExpectBase.v -- what the three invariants of Model/ChanExpect.v share.
   In this order: the orders they are stated with (asc: ids ascend along the queue;
   key / ordered / cnt: the output log by request id, interim before final);
   InvA (locks, program counters, one worker at a time, ids in arrival order);
   what io_complete, do_send, astep and a loop turn do, as equations and field lists;
   the transitions of [step] as rules ([trans], [step_trans]: every proof about a
   step of the model starts there); InvA is inductive. *)
From Coq Require Import List Arith Bool Lia.
From RecordUpdate Require Import RecordUpdate.
From WV Require Import Model.ChanExpect.
Import ListNotations.

Fixpoint asc (l : list areq) (hi : nat) : Prop :=
  match l with
  | [] => True
  | r :: rest => rid r < (match rest with [] => hi | r2 :: _ => rid r2 end) /\ asc rest hi
  end.

Lemma asc_weaken : forall l hi hi', asc l hi -> hi <= hi' -> asc l hi'.
Proof.
  induction l as [|r rest IH]; simpl; auto.
  intros hi hi' [H1 H2] Hle. split; [|eauto].
  destruct rest; [lia|assumption].
Qed.

Lemma asc_all_lt : forall l hi, asc l hi -> Forall (fun x => rid x < hi) l.
Proof.
  induction l as [|r rest IH]; simpl; intros hi H; constructor.
  - destruct H as [H1 H2]. destruct rest as [|r2 rest2]; [assumption|].
    specialize (IH hi H2). inversion IH; subst. lia.
  - apply IH. tauto.
Qed.

Lemma asc_snoc : forall l q hi', asc l (rid q) -> rid q < hi' -> asc (l ++ [q]) hi'.
Proof.
  induction l as [|r rest IH]; simpl; intros q hi' H Hlt.
  - auto.
  - destruct H as [H1 H2]. split; [|auto].
    destruct rest; simpl; assumption.
Qed.

Lemma asc_tail : forall r rest hi, asc (r :: rest) hi -> asc rest hi /\ rid r < hi /\
  Forall (fun x => rid r < rid x) rest.
Proof.
  intros r rest hi H. pose proof (asc_all_lt _ _ H) as F.
  inversion F as [|? ? Hlt Hrest]; subst.
  simpl in H. destruct H as [Ha Hb]. repeat split; auto.
  clear F Hlt Hrest. revert r Ha Hb.
  induction rest as [|r2 rest2 IH]; intros r Ha Hb; constructor.
  - assumption.
  - simpl in Hb. destruct Hb as [Hc Hd].
    destruct rest2 as [|r3 rest3]; [constructor|].
    specialize (IH r2 Hc Hd). eapply Forall_impl; [|exact IH]. simpl. intros; lia.
Qed.

Definition key (t : tok) : nat :=
  match t with TInterim i _ => 2 * i | TFinal i => 2 * i + 1 end.

Fixpoint ordered (l : list tok) : Prop :=
  match l with
  | [] => True
  | t :: r => Forall (fun u => key t <= key u) r /\ ordered r
  end.

Lemma ordered_snoc : forall l t, ordered l -> Forall (fun u => key u <= key t) l -> ordered (l ++ [t]).
Proof.
  induction l as [|x r IH]; simpl; intros t Ho Hf.
  - split; constructor.
  - destruct Ho as [H1 H2]. inversion Hf; subst. split.
    + apply Forall_app. split; [assumption|]. constructor; [assumption|constructor].
    + apply IH; assumption.
Qed.

Lemma ordered_split : forall l1 t l2, ordered (l1 ++ t :: l2) ->
  Forall (fun u => key u <= key t) l1 /\ Forall (fun u => key t <= key u) l2.
Proof.
  induction l1 as [|x r IH]; simpl; intros t l2 H.
  - split; [constructor|tauto].
  - destruct H as [H1 H2]. specialize (IH _ _ H2). destruct IH as [IH1 IH2].
    split; [|assumption]. constructor; [|assumption].
    rewrite Forall_forall in H1. apply H1. apply in_or_app. right. left. reflexivity.
Qed.

Definition is_interim (i : nat) (t : tok) : bool :=
  match t with TInterim j _ => j =? i | TFinal _ => false end.

Definition cnt (i : nat) (l : list tok) : nat := length (filter (is_interim i) l).

Lemma cnt_snoc : forall i l t, cnt i (l ++ [t]) = cnt i l + (if is_interim i t then 1 else 0).
Proof.
  intros. unfold cnt. rewrite filter_app, app_length. simpl.
  destruct (is_interim i t); reflexivity.
Qed.

Lemma cnt_zero_above : forall i l, Forall (fun t => key t < 2 * i) l -> cnt i l = 0.
Proof.
  induction l as [|t r IH]; intros H; [reflexivity|].
  inversion H; subst. unfold cnt in *. simpl.
  destruct t as [j w|j]; simpl in *.
  - destruct (j =? i) eqn:E; [apply Nat.eqb_eq in E; lia|auto].
  - auto.
Qed.

Lemma cnt_pos_in : forall i l, cnt i l > 0 -> exists w, In (TInterim i w) l.
Proof.
  induction l as [|t r IH]; unfold cnt; simpl; intros H; [lia|].
  destruct t as [j w|j]; simpl in H.
  - destruct (j =? i) eqn:E.
    + apply Nat.eqb_eq in E. subst. exists w. left. reflexivity.
    + destruct (IH H) as [w' Hw]. exists w'. right. assumption.
  - destruct (IH H) as [w' Hw]. exists w'. right. assumption.
Qed.

Lemma in_cnt_pos : forall i w l, In (TInterim i w) l -> cnt i l > 0.
Proof.
  induction l as [|t r IH]; simpl; intros H; [tauto|].
  unfold cnt. simpl. destruct H as [H|H].
  - subst. simpl. rewrite Nat.eqb_refl. simpl. lia.
  - specialize (IH H). unfold cnt in IH. destruct (is_interim i t); simpl; lia.
Qed.

Definition wk_ok (s : state) (w : wpc) : Prop :=
  match w with
  | WStart | WClose | WKeep => requests s <> []
  | WTask id => exists r rest, requests s = r :: rest /\ rid r = id
  | WSend => requests s = [] /\ rlock s = true /\ io s = IOIdle /\ exists q, request s = Some q
  end.

Record InvA (s : state) : Prop := {
  A_one : length (active s) + queued s <= 1;
  A_wk : forall w, In w (active s) -> wk_ok s w;
  A_q : queued s >= 1 -> requests s <> [];
  A_lock : rlock s = true <-> (io s <> IOIdle \/ In WSend (active s));
  A_ids : match request s with
          | Some q => asc (requests s) (rid q) /\ rid q < next_id s
          | None => asc (requests s) (next_id s)
          end;
  A_iosend : forall m, io s = IOSend m -> requests s = [] /\ exists q, request s = Some q
}.

Lemma InvA_init : InvA init.
Proof.
  constructor; simpl; try tauto; try lia.
  - split; [discriminate|]. intros [H|H]; tauto.
  - discriminate.
Qed.

Ltac inv_some :=
  repeat match goal with
  | H : Some _ = Some _ |- _ => inversion H; subst; clear H
  | H : (_, _) = (_, _) |- _ => inversion H; subst; clear H
  | H : None = Some _ |- _ => discriminate H
  | H : Some _ = None |- _ => discriminate H
  end.

Lemma io_complete_spec : forall s more s' l, io_complete s more = (s', l) ->
  will_close s' = will_close s /\ close_when_flushed s' = close_when_flushed s /\
  connected s' = connected s /\ active s' = active s /\ outlog s' = outlog s /\
  next_id s' = next_id s /\ askers s' = askers s /\
  io s' = (if more then IOLoop else IOIdle) /\
  rlock s' = (if more then rlock s else false) /\
  ((exists q, request s = Some q /\ a_completed q = true /\ a_empty q = false /\
      request s' = None /\ sent_continue s' = false /\ requests s' = requests s ++ [q] /\
      queued s' = (if is_nil (requests s) then S (queued s) else queued s) /\
      l = LQueue (rid q) :: (if is_nil (requests s) then [LAddTask] else [])) \/
   (exists q, request s = Some q /\ a_completed q = true /\ a_empty q = true /\
      request s' = None /\ sent_continue s' = false /\ requests s' = requests s /\
      queued s' = queued s /\ l = [LEmpty (rid q)]) \/
   ((forall q, request s = Some q -> a_completed q = false) /\
      request s' = request s /\ sent_continue s' = sent_continue s /\ requests s' = requests s /\
      queued s' = queued s /\ l = [])).
Proof.
  intros s more s' l H. unfold io_complete in H.
  destruct (request s) as [q|] eqn:Eq.
  - destruct (a_completed q) eqn:Ec.
    + destruct (a_empty q) eqn:Ee; simpl in H.
      * destruct more; inv_some; simpl; repeat split; auto;
          right; left; exists q; repeat split; auto.
      * destruct (requests s) as [|r0 rest] eqn:Er; simpl in H.
        -- destruct more; inv_some; simpl; rewrite ?Er; repeat split; auto;
             left; exists q; simpl; repeat split; auto.
        -- assert (E1 : (length (rest ++ [q]) =? 0) = false).
           { rewrite app_length. simpl. apply Nat.eqb_neq. lia. }
           rewrite E1 in H.
           destruct more; inv_some; simpl; rewrite ?Er; repeat split; auto;
             left; exists q; simpl; repeat split; auto.
    + destruct more; inv_some; simpl; repeat split; auto;
        right; right; repeat split; auto; intros q' Hq'; inversion Hq'; subst; assumption.
  - destruct more; inv_some; simpl; repeat split; auto;
      right; right; repeat split; auto; intros q' Hq'; discriminate.
Qed.

Lemma wants_continue_true : forall s, wants_continue s = true ->
  exists q, request s = Some q /\ a_expect q = true /\ a_hf q = true /\ sent_continue s = false.
Proof.
  intros s H. unfold wants_continue in H. destruct (request s) as [q|]; [|discriminate].
  apply andb_true_iff in H. destruct H as [H H3]. apply andb_true_iff in H. destruct H as [H1 H2].
  apply negb_true_iff in H3. eauto.
Qed.

Lemma do_send_some : forall s w q, request s = Some q ->
  do_send s w = (s <| outlog := outlog s ++ [TInterim (rid q) w] |> <| sent_continue := true |>,
                 [LInterim (rid q) w]).
Proof. intros s w q H. unfold do_send. rewrite H. reflexivity. Qed.

Lemma astep_cases : forall q ev q', astep q ev = Some q' ->
  q' = q \/
  (a_completed q = false /\ a_body q = true /\ exists c, q' = q <| a_completed := c |>) \/
  (a_completed q = false /\ a_body q = false /\
   ((exists se b, ev = EvHead431 se b /\ q' = set_expect se q <| a_body := b |> <| a_completed := true |>) \/
    q' = q <| a_empty := true |> <| a_completed := true |> <| a_hf := true |> \/
    (exists se b c, ev = EvHead se b c /\ b || c = true /\
       q' = set_expect se q <| a_body := b |> <| a_completed := c |> <| a_hf := true |>
              <| g_heads := S (g_heads q) |>))).
Proof.
  intros q ev q' H. unfold astep in H.
  destruct (a_completed q); [destruct ev; inv_some; auto|].
  destruct (a_body q); [destruct ev; inv_some; right; left; eauto|].
  destruct ev as [|se b| |se b c|c]; inv_some; auto.
  - right; right. eauto 7.
  - right; right. auto 6.
  - destruct (b || c) eqn:E; inv_some. right; right. eauto 10.
Qed.

Lemma astep_rid : forall q ev q', astep q ev = Some q' -> rid q' = rid q.
Proof.
  intros q ev q' H.
  destruct (astep_cases _ _ _ H) as [->|[(_ & _ & c & ->)|(_ & _ & [(se & b & _ & ->)|[->|(se & b & c & _ & _ & ->)]])]];
    simpl; auto; destruct se; reflexivity.
Qed.

(* the object a loop turn parses into: the one under construction or a new one *)
Definition parse_obj (s : state) (q0 : areq) (fresh : bool) : Prop :=
  match request s with
  | Some q => q0 = q /\ fresh = false
  | None => q0 = fresh_req (next_id s) /\ fresh = true
  end.

Definition after_parse (s : state) (q1 : areq) (fresh : bool) : state :=
  let s := s <| request := Some q1 |> in
  let s := if fresh then s <| next_id := S (next_id s) |> else s in
  if g_asked q1 then s <| askers := rid q1 :: askers s |> else s.

Lemma after_parse_fields : forall s q1 fresh,
  let s1 := after_parse s q1 fresh in
  request s1 = Some q1 /\ requests s1 = requests s /\ sent_continue s1 = sent_continue s /\
  will_close s1 = will_close s /\ close_when_flushed s1 = close_when_flushed s /\
  connected s1 = connected s /\ rlock s1 = rlock s /\ io s1 = io s /\ active s1 = active s /\
  queued s1 = queued s /\ outlog s1 = outlog s /\
  next_id s1 = (if fresh then S (next_id s) else next_id s) /\
  askers s1 = (if g_asked q1 then rid q1 :: askers s else askers s).
Proof.
  intros. unfold s1, after_parse. destruct fresh; destruct (g_asked q1); simpl; repeat split; auto.
Qed.

Lemma step_parse_eq : forall s ev more q0 fresh, io s = IOLoop -> parse_obj s q0 fresh ->
  step s (CIOParse ev more) =
  match astep q0 ev with
  | None => None
  | Some q1 =>
    let s1 := after_parse s q1 fresh in
    let lnew := if fresh then [LNew (rid q1)] else [] in
    if wants_continue s1 && is_nil (requests s1)
    then Some (s1 <| request := Some (q1 <| a_expect := false |>) |> <| io := IOSend more |>, lnew)
    else let '(s', l) := io_complete s1 more in Some (s', lnew ++ l)
  end.
Proof.
  intros s ev more q0 fresh Hio P. cbn [step]. rewrite Hio. unfold parse_obj in P.
  destruct (request s); destruct P as [-> ->]; reflexivity.
Qed.

Lemma worker_at : forall s i w, InvA s -> nth_error (active s) i = Some w ->
  active s = [w] /\ i = 0 /\ queued s = 0.
Proof.
  intros s i w HA H. pose proof (A_one s HA) as H1.
  destruct (active s) as [|w0 [|w2 r]]; simpl in H1; [destruct i; discriminate| |lia].
  destruct i as [|i]; simpl in H; [inversion H; subst|destruct i; discriminate]. repeat split. lia.
Qed.

Lemma io_busy_no_wsend : forall s, InvA s -> io s <> IOIdle -> ~ In WSend (active s).
Proof.
  intros s HA Hio Hin. destruct (A_wk s HA _ Hin) as (_ & _ & E & _). auto.
Qed.

(* The transitions, one rule per path through [step].
   In a state that satisfies InvA the worker inside service() is the only entry
   of [active] and nothing is queued beside it, so the worker rules name the whole
   list; [do_send] is applied to a state that has a request. *)
Inductive trans (s : state) : choice -> state -> list label -> Prop :=
| T_refused : io s = IOIdle -> rlock s = false -> will_close s || close_when_flushed s = true ->
    trans s CIOEnter s [LRefused]
| T_enter : io s = IOIdle -> rlock s = false -> will_close s || close_when_flushed s = false ->
    trans s CIOEnter (s <| rlock := true |> <| io := IOLoop |>) []
| T_parse : forall ev more q0 fresh q1 s' l',
    io s = IOLoop -> parse_obj s q0 fresh -> astep q0 ev = Some q1 ->
    let s1 := after_parse s q1 fresh in
    (wants_continue s1 && is_nil (requests s1) = true /\ l' = [] /\
     s' = s1 <| request := Some (q1 <| a_expect := false |>) |> <| io := IOSend more |>) \/
    (wants_continue s1 && is_nil (requests s1) = false /\ io_complete s1 more = (s', l')) ->
    trans s (CIOParse ev more) s' ((if fresh then [LNew (rid q1)] else []) ++ l')
| T_io_send : forall more q s' l',
    io s = IOSend more -> requests s = [] -> request s = Some q ->
    io_complete (s <| outlog := outlog s ++ [TInterim (rid q) false] |> <| sent_continue := true |>) more
      = (s', l') ->
    trans s CIOSend s' (LInterim (rid q) false :: l')
| T_take : active s = [] -> queued s = 1 ->
    trans s CTake (s <| queued := 0 |> <| active := [WStart] |>) []
| T_begin_none : forall i, active s = [WStart] -> queued s = 0 -> requests s = [] ->
    trans s (CWBegin i) (s <| active := [] |>) []
| T_begin : forall i r rest, active s = [WStart] -> queued s = 0 -> requests s = r :: rest ->
    trans s (CWBegin i) (s <| active := [WTask (rid r)] |>) [LServe (rid r)]
| T_write : forall i r rest, active s = [WTask (rid r)] -> queued s = 0 -> requests s = r :: rest ->
    trans s (CWWrite i) (s <| outlog := outlog s ++ [TFinal (rid r)] |>) [LFinal (rid r)]
| T_end : forall i id close, active s = [WTask id] -> queued s = 0 ->
    trans s (CWEnd i close) (s <| active := [if close then WClose else WKeep] |>) []
| T_close : forall i, active s = [WClose] -> queued s = 0 -> rlock s = false ->
    trans s (CWClose i)
      (s <| close_when_flushed := true |> <| requests := [] |> <| active := [] |>) [LCloseDecision]
| T_keep_none : forall i, active s = [WKeep] -> queued s = 0 -> rlock s = false -> requests s = [] ->
    trans s (CWKeep i) (s <| active := [] |>) []
| T_keep_more : forall i r rest, active s = [WKeep] -> queued s = 0 -> rlock s = false ->
    requests s = r :: rest -> connected s = true -> rest <> [] ->
    trans s (CWKeep i) (s <| requests := rest |> <| queued := 1 |> <| active := [] |>)
      [LPop (rid r); LAddTask]
| T_keep_send : forall i r q, active s = [WKeep] -> queued s = 0 -> rlock s = false ->
    requests s = [r] -> connected s = true -> wants_continue s = true -> request s = Some q ->
    trans s (CWKeep i)
      (s <| requests := [] |> <| request := Some (q <| a_expect := false |>) |> <| rlock := true |>
         <| active := [WSend] |>) [LPop (rid r)]
| T_keep_done : forall i r rest, active s = [WKeep] -> queued s = 0 -> rlock s = false ->
    requests s = r :: rest -> connected s && negb (is_nil rest) = false ->
    connected s && wants_continue s = false ->
    trans s (CWKeep i) (s <| requests := rest |> <| active := [] |>) [LPop (rid r)]
| T_worker_send : forall i q, active s = [WSend] -> queued s = 0 ->
    requests s = [] -> rlock s = true -> io s = IOIdle -> request s = Some q ->
    trans s (CWSend i)
      (s <| outlog := outlog s ++ [TInterim (rid q) true] |> <| sent_continue := true |>
         <| rlock := false |> <| active := [] |>) [LInterim (rid q) true]
| T_disconnect : io s = IOIdle -> trans s CDisconnect (s <| connected := false |>) []
| T_will_close : trans s CWillClose (s <| will_close := true |>) [].

Lemma step_trans : forall s c s' l, InvA s -> step s c = Some (s', l) -> trans s c s' l.
Proof.
  intros s c s' l HA H. destruct c; [simpl in H| |simpl in H..].
  (* the worker steps: which worker *)
  5-10: destruct (nth_error (active s) i) as [w|] eqn:En; [|discriminate];
        destruct (worker_at _ _ _ HA En) as (Hact & -> & Hq);
        pose proof (A_wk s HA w) as W; rewrite Hact in W; rewrite ?Hact in H; specialize (W (or_introl eq_refl));
        destruct w; try discriminate; simpl in H, W.
  - destruct (io s) eqn:Eio; try discriminate. destruct (rlock s) eqn:Erl; try discriminate.
    destruct (will_close s || close_when_flushed s) eqn:Ew; inv_some; constructor; assumption.
  - destruct (io s) eqn:Eio; try (simpl in H; rewrite Eio in H; discriminate).
    assert (P : exists q0 fresh, parse_obj s q0 fresh)
      by (unfold parse_obj; destruct (request s); eauto).
    destruct P as (q0 & fresh & P). rewrite (step_parse_eq s ev more q0 fresh Eio P) in H.
    destruct (astep q0 ev) as [q1|] eqn:Ea; [|discriminate]. cbv zeta in H.
    destruct (wants_continue _ && _) eqn:Ew.
    + inv_some. rewrite <- (app_nil_r (if fresh then _ else _)). eapply T_parse; eauto.
    + destruct (io_complete (after_parse s q1 fresh) more) as [s2 l2] eqn:Ec. inv_some.
      eapply T_parse; eauto.
  - destruct (io s) as [| |more] eqn:Eio; try discriminate.
    destruct (A_iosend s HA more Eio) as [Ers [q Eq]].
    rewrite (do_send_some _ _ _ Eq) in H.
    match type of H with (let '(_, _) := ?x in _) = _ => destruct x as [s2 l2] eqn:Ec end.
    inv_some. eapply T_io_send; eauto.
  - destruct (queued s) as [|k] eqn:Eq; try discriminate. inv_some.
    pose proof (A_one s HA) as A1. rewrite Eq in A1.
    destruct (active s) eqn:Hact; [|simpl in A1; lia]. simpl in A1.
    assert (k = 0) by lia. subst k. apply T_take; auto.
  - destruct (requests s) as [|r rest] eqn:Er; inv_some; [apply T_begin_none|eapply T_begin]; eauto.
  - destruct W as (r & rest & Er & <-). inv_some. eapply T_write; eauto.
  - inv_some. eapply T_end; eauto.
  - destruct (rlock s) eqn:Erl; try discriminate. inv_some. apply T_close; auto.
  - destruct (rlock s) eqn:Erl; try discriminate.
    destruct (requests s) as [|r rest] eqn:Er; [inv_some; apply T_keep_none; auto|].
    cbn [connected requests request sent_continue set eta_state] in H.
    change (wants_continue (s <| requests := rest |>)) with (wants_continue s) in H.
    destruct (connected s && negb (is_nil rest)) eqn:Ec.
    + inv_some. apply andb_true_iff in Ec. destruct Ec as [Ec1 Ec2]. rewrite Hq.
      eapply T_keep_more; eauto. destruct rest; [discriminate|congruence].
    + destruct (connected s && wants_continue s) eqn:Ew.
      * destruct (request s) as [q|] eqn:Eq; try discriminate. inv_some.
        apply andb_true_iff in Ew. destruct Ew as [Econ Ew]. rewrite Econ in Ec.
        destruct rest; [|discriminate]. eapply T_keep_send; eauto.
      * inv_some. eapply T_keep_done; eauto.
  - destruct W as (Ers & Erl & Eio & q & Eq). rewrite (do_send_some _ _ _ Eq) in H. inv_some.
    simpl. rewrite Hact. eapply T_worker_send; eauto.
  - destruct (io s) eqn:Eio; try discriminate. inv_some. apply T_disconnect; assumption.
  - inv_some. apply T_will_close.
Qed.

(* case analysis on a transition, with the names the proofs below use: the rules in
   the order of [trans]; s2, l' the successor and labels where a rule leaves them open *)
Ltac trans_cases T :=
  destruct T as
    [ Hio Hrl Hw | Hio Hrl Hw
    | ev more q0 fresh q1 s2 l' Hio Hq0 Ha s1 Hcase
    | more q s2 l' Hio Hrs Hq Hc
    | Hact Hqd
    | k Hact Hqd Hrs | k r rest Hact Hqd Hrs | k r rest Hact Hqd Hrs | k id cl Hact Hqd
    | k Hact Hqd Hrl | k Hact Hqd Hrl Hrs | k r rest Hact Hqd Hrl Hrs Hcon Hrest
    | k r q Hact Hqd Hrl Hrs Hcon Hw Hq | k r rest Hact Hqd Hrl Hrs Hc Hw
    | k q Hact Hqd Hrs Hrl Hio Hq | Hio | ].

Ltac openA HA := destruct HA as [A1 A2 A3 A4 A5 A6].

Lemma wk_ok_frame : forall s s' w, wk_ok s w ->
  requests s' = requests s -> rlock s' = rlock s -> io s' = io s -> request s' = request s -> wk_ok s' w.
Proof. intros s s' w H E1 E2 E3 E4. destruct w; simpl in *; rewrite ?E1, ?E2, ?E3, ?E4; auto. Qed.

Lemma wk_ok_requests : forall s s' w, wk_ok s w -> w <> WSend -> requests s' = requests s -> wk_ok s' w.
Proof. intros s s' w H Hn E. destruct w; simpl in *; rewrite ?E; auto. congruence. Qed.

Lemma io_busy_locked : forall s, InvA s -> io s <> IOIdle -> rlock s = true.
Proof. intros s HA H. apply (A_lock s HA). left. assumption. Qed.

(* with nothing queued or in service, and no worker in send_continue, nobody is around *)
Lemma empty_alone : forall s, InvA s -> requests s = [] -> ~ In WSend (active s) ->
  active s = [] /\ queued s = 0.
Proof.
  intros s HA Ers Hns. split.
  - destruct (active s) as [|w0 ?] eqn:Eact; [reflexivity|]. exfalso.
    pose proof (A_wk s HA w0) as W. rewrite Eact in W. specialize (W (or_introl eq_refl)).
    destruct w0; simpl in W; try congruence.
    + destruct W as (? & ? & ? & ?); congruence.
    + apply Hns. left. reflexivity.
  - destruct (queued s) eqn:E; [reflexivity|]. exfalso. apply (A_q s HA); [lia|assumption].
Qed.

Lemma io_send_alone : forall s m, InvA s -> io s = IOSend m -> active s = [] /\ queued s = 0.
Proof.
  intros s m HA Hio. destruct (A_iosend s HA m Hio) as [Ers _].
  apply empty_alone; auto. apply io_busy_no_wsend; [assumption|congruence].
Qed.

Lemma parse_ids : forall s q0 fresh ev q1, InvA s -> parse_obj s q0 fresh -> astep q0 ev = Some q1 ->
  asc (requests s) (rid q1) /\ rid q1 < next_id (after_parse s q1 fresh).
Proof.
  intros s q0 fresh ev q1 HA Hq0 Ha. pose proof (A_ids s HA) as I.
  destruct (after_parse_fields s q1 fresh) as (_ & _ & _ & _ & _ & _ & _ & _ & _ & _ & _ & -> & _).
  rewrite (astep_rid _ _ _ Ha). unfold parse_obj in Hq0.
  destruct (request s) as [q|]; destruct Hq0 as [-> ->]; [assumption|].
  simpl. split; [assumption|lia].
Qed.

Lemma InvA_worker_pc : forall s w w', InvA s -> active s = [w] -> w <> WSend -> w' <> WSend ->
  wk_ok s w' -> InvA (s <| active := [w'] |>).
Proof.
  intros s w w' HA Hact Hn Hn' Hok. openA HA.
  constructor; simpl; auto.
  - rewrite Hact in A1. simpl in *. assumption.
  - intros x [<-|[]]. destruct w'; simpl in *; auto; try congruence.
  - rewrite A4, Hact. simpl. split; intros [?|[?|[]]]; auto; congruence.
Qed.

Lemma InvA_worker_gone : forall s s' w, InvA s -> active s = [w] ->
  active s' = [] -> queued s' <= 1 -> (queued s' >= 1 -> requests s' <> []) ->
  io s' = io s -> rlock s' = (if match w with WSend => true | _ => false end then false else rlock s) ->
  request s' = request s -> next_id s' = next_id s ->
  (requests s' = requests s \/ requests s' = tl (requests s) \/ requests s' = []) ->
  InvA s'.
Proof.
  intros s s' w HA Hact Hact' Hq1 Hq2 Hio Hrl Hreq Hnid Hrs. openA HA.
  assert (Hwk : wk_ok s w) by (apply A2; rewrite Hact; left; reflexivity).
  assert (Hasc : forall hi, asc (requests s) hi -> asc (requests s') hi).
  { intros hi Ha. destruct Hrs as [->|[->| ->]]; auto.
    - destruct (requests s) as [|r rest]; simpl; auto. apply asc_tail in Ha. tauto.
    - simpl. exact I. }
  constructor; auto.
  - rewrite Hact'. simpl. assumption.
  - rewrite Hact'. simpl. tauto.
  - rewrite Hrl, Hio, Hact'. destruct w; simpl in Hwk |- *;
      try (rewrite A4, Hact; simpl; split; intros [?|?]; auto; try tauto; destruct H as [?|[]]; discriminate).
    destruct Hwk as (_ & _ & E & _). rewrite E. split; [discriminate|]. intros [?|[]]. congruence.
  - rewrite Hnid, Hreq. destruct (request s); [destruct A5; split; auto|auto].
  - intros m Em. rewrite Hio in Em. exfalso.
    assert (rlock s = true) by (apply A4; left; congruence).
    destruct (A6 m Em) as [Ers _].
    destruct w; simpl in Hwk; try congruence.
    + destruct Hwk as (? & ? & ? & ?); congruence.
    + destruct Hwk as (_ & _ & E & _). congruence.
Qed.

Lemma InvA_frame : forall s s', InvA s ->
  request s' = request s -> requests s' = requests s -> rlock s' = rlock s -> io s' = io s ->
  active s' = active s -> queued s' = queued s -> next_id s' = next_id s -> InvA s'.
Proof.
  intros s s' HA E1 E2 E3 E4 E5 E6 E7. openA HA.
  constructor; rewrite ?E1, ?E2, ?E3, ?E4, ?E5, ?E6, ?E7; auto.
  intros w Hw. specialize (A2 w Hw). destruct w; simpl in *; rewrite ?E1, ?E2, ?E3, ?E4; auto.
Qed.

(* the end of a loop turn, from a state [s1] in which the I/O thread holds the lock,
   no worker is in send_continue and the ids of the object are in order *)
Lemma InvA_io_complete : forall s s1 q1 more s' l, InvA s ->
  request s1 = Some q1 -> requests s1 = requests s -> active s1 = active s -> queued s1 = queued s ->
  rlock s1 = true -> ~ In WSend (active s) ->
  asc (requests s) (rid q1) -> rid q1 < next_id s1 -> asc (requests s) (next_id s1) ->
  io_complete s1 more = (s', l) -> InvA s'.
Proof.
  intros s s1 q1 more s' l HA F1 F2 F9 F10 Hrl Hns I1 I2 I3 Hc. pose proof (empty_alone s HA) as Hempty. openA HA.
  pose proof (io_complete_spec _ _ _ _ Hc) as S.
  destruct S as (S1 & S2 & S3 & S4 & S5 & S6 & S8 & S9 & S10 & S11).
  assert (Hlock' : rlock s' = true <-> io s' <> IOIdle \/ In WSend (active s')).
  { rewrite S9, S10, S4, F9, Hrl. destruct more.
    - split; auto. intros _. left. discriminate.
    - split; [discriminate|]. intros [?|?]; [congruence|tauto]. }
  assert (Hios : forall m, io s' = IOSend m -> requests s' = [] /\ exists q, request s' = Some q).
  { intros m. rewrite S9. destruct more; discriminate. }
  assert (Hwk : forall w, In w (active s) -> requests s' = requests s -> wk_ok s' w).
  { intros w Hw E. apply wk_ok_requests with s; [apply A2; assumption|congruence|assumption]. }
  destruct S11 as [(q & Sq & Sc & Se & Sr & Ssc & Srs & Sqd & _)|[(q & Sq & Sc & Se & Sr & Ssc & Srs & Sqd & _)|(Sc & Sr & Ssc & Srs & Sqd & _)]];
    rewrite F2 in Srs; rewrite ?F2, F10 in Sqd.
  - (* queued *)
    rewrite F1 in Sq. inv_some.
    constructor; auto.
    + rewrite S4, F9, Sqd. destruct (requests s) eqn:Ers; simpl; [|assumption].
      destruct (Hempty eq_refl Hns) as [-> ->]. simpl. lia.
    + rewrite S4, F9. intros w Hw0. assert (Hnw : w <> WSend) by congruence.
      specialize (A2 w Hw0).
      destruct w; simpl in *; rewrite ?Srs; try (destruct (requests s); simpl; congruence).
      destruct A2 as (r & rest & E1 & E2). rewrite E1. simpl. eauto.
    + intros _. rewrite Srs. destruct (requests s); simpl; discriminate.
    + rewrite Sr, Srs, S6. apply asc_snoc; assumption.
  - rewrite F1 in Sq. inv_some.
    constructor; auto.
    + rewrite S4, F9, Sqd. assumption.
    + rewrite S4, F9. auto.
    + rewrite Sqd, Srs. assumption.
    + rewrite Sr, Srs, S6. assumption.
  - rewrite F1 in Sr.
    constructor; auto.
    + rewrite S4, F9, Sqd. assumption.
    + rewrite S4, F9. auto.
    + rewrite Sqd, Srs. assumption.
    + rewrite Sr, Srs, S6. auto.
Qed.

Theorem InvA_step : forall s c s' l, InvA s -> step s c = Some (s', l) -> InvA s'.
Proof.
  intros s c s' l HA H.
  trans_cases (step_trans _ _ _ _ HA H); clear H.
  - assumption.
  - openA HA. rewrite ?Hio, ?Hrl in *.
    constructor; simpl; rewrite ?Hio, ?Hrl; auto.
    + intros w Hw'. specialize (A2 w Hw'). destruct w; simpl in *; auto.
      destruct A2 as (? & ? & ? & ?). congruence.
    + split; auto. intros _. left. discriminate.
    + discriminate.
  - (* a loop turn *)
    assert (Hbusy : io s <> IOIdle) by congruence.
    pose proof (io_busy_locked s HA Hbusy) as Hrl.
    pose proof (io_busy_no_wsend s HA Hbusy) as Hns.
    destruct (parse_ids _ _ _ _ _ HA Hq0 Ha) as [I1 I2]. fold s1 in I2.
    destruct (after_parse_fields s q1 fresh) as (F1 & F2 & _ & _ & _ & _ & F7 & F8 & F9 & F10 & _).
    fold s1 in F1, F2, F7, F8, F9, F10.
    destruct Hcase as [(Hw & _ & ->)|[Hw Hc]].
    + apply andb_true_iff in Hw. destruct Hw as [_ Hnil]. rewrite F2 in Hnil.
      openA HA. constructor; simpl; rewrite ?F2, ?F7, ?F8, ?F9, ?F10; auto.
      * intros w Hw. apply wk_ok_requests with s; [apply A2; assumption|congruence|simpl; assumption].
      * rewrite Hrl. split; auto. intros _. left. discriminate.
      * intros m _. split; [|eauto]. destruct (requests s); [reflexivity|discriminate].
    + eapply InvA_io_complete with (s := s) (q1 := q1); eauto; try congruence.
      eapply asc_weaken; [exact I1|lia].
  - (* the I/O thread sends *)
    destruct (io_send_alone s more HA Hio) as [Hact Hqd].
    pose proof (A_ids s HA) as I. rewrite Hq in I. destruct I as [I1 I2].
    eapply (InvA_io_complete s _ q more s2 l' HA); [..|exact Hc]; simpl; rewrite ?Hrs, ?Hact; simpl; auto.
    apply (io_busy_locked s HA). congruence.
  - openA HA. constructor; simpl; rewrite ?Hact; simpl; auto.
    + intros w [<-|[]]. simpl. apply A3. lia.
    + lia.
    + rewrite A4, Hact. simpl. split; intros [?|?]; auto; try tauto. destruct H as [?|[]]. discriminate.
  - eapply InvA_worker_gone with (s := s); eauto; simpl; try lia; try tauto.
  - eapply InvA_worker_pc; eauto; try congruence. simpl. eauto.
  - eapply InvA_frame; eauto.
  - assert (Hr : requests s <> []).
    { pose proof (A_wk s HA (WTask id)) as W. rewrite Hact in W. specialize (W (or_introl eq_refl)).
      simpl in W. destruct W as (r & rest & E & _). congruence. }
    destruct cl; eapply InvA_worker_pc; eauto; try congruence.
  - eapply InvA_worker_gone with (s := s) (w := WClose); eauto; simpl; auto; try lia.
  - eapply InvA_worker_gone with (s := s) (w := WKeep); eauto; simpl; auto; try lia.
  - eapply InvA_worker_gone with (s := s) (w := WKeep); eauto; simpl; rewrite ?Hrs; simpl; auto.
  - (* the worker starts send_continue *)
    assert (Hio : io s = IOIdle).
    { destruct (io s) eqn:E; auto; exfalso;
        assert (rlock s = true) by (apply (io_busy_locked s HA); congruence); congruence. }
    openA HA.
    constructor; simpl; rewrite ?Hact, ?Hqd, ?Hio; simpl; auto.
    + intros w [<-|[]]. simpl. rewrite Hio. eauto.
    + intros ?. lia.
    + split; auto.
    + rewrite Hq in A5. destruct A5. split; [exact I|assumption].
    + discriminate.
  - eapply InvA_worker_gone with (s := s) (w := WKeep); eauto; simpl; rewrite ?Hrs, ?Hqd; simpl; auto; try lia.
  - eapply InvA_worker_gone with (s := s) (w := WSend); eauto; simpl; rewrite ?Hqd; simpl; auto; try lia.
  - eapply InvA_frame; eauto.
  - eapply InvA_frame; eauto.
Qed.
