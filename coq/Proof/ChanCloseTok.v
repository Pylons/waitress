(* Proof/ChanCloseTok.v -- what a step can do to requests_lock and to the "token" of
   Model/ChanClose.v: the lock is owned exactly at the program points inside its `with` blocks;
   at most one of {a dispatcher entry, an active worker, the I/O thread about to call add_task,
   a cancel() in progress} exists at any time, and each of them arises from another. *)
From Coq Require Import List Arith Bool Lia.
From WV Require Import Model.ChanClose Proof.ChanCloseBase.
Import ListNotations.

Lemma no_active_of_tokio : forall s, Inv s -> tokio s -> forall w, active (wk s w) = false.
Proof.
  intros s I T w. destruct (active (wk s w)) eqn:A; auto.
  destruct (i_act_excl s I w A) as [X _]. contradiction.
Qed.

Lemma no_other_active : forall s w, Inv s -> active (wk s w) = true ->
  forall w', w' <> w -> active (wk s w') = false.
Proof.
  intros s w I A w' N. destruct (active (wk s w')) eqn:A'; auto.
  exfalso. apply N. eapply i_act_uniq; eauto.
Qed.

(* requests_lock over a step of thread t, whose program point holds it (h, h') before and after:
   untouched, acquired from None on entering the `with` block, or released on leaving it *)
Definition lock_move (t : who) (a b : option who) (h h' : bool) : Prop :=
  b = a /\ h' = h \/ a = None /\ b = Some t /\ h' = true \/ b = None /\ h = true /\ h' = false.

(* a step of worker w: requests_lock; the queue (it becomes active by taking the entry, and creates
   one as its last active step); [requests], which it only shortens, active and holding the lock *)
Lemma wk_step {s w e s' l} : step_wk s w e = Some (s', l) ->
  lock_move (ByW w) (rlock s) (rlock s') (wk_holds (wk s w)) (wk_holds (wk s' w)) /\
  (queue s' = queue s /\ (active (wk s' w) = true -> active (wk s w) = true) \/
   queue s = S (queue s') \/
   queue s' = S (queue s) /\ active (wk s w) = true /\ active (wk s' w) = false) /\
  (reqs s' = reqs s \/ active (wk s w) = true /\ wk_holds (wk s w) = true) /\
  (reqs s = [] -> reqs s' = []).
Proof.
  intro H. unfold lock_move. wk_inv H; rewrite ?Nat.eqb_refl;
  (split; [|split; [|split]]; [auto | auto | auto | intro R; auto; discriminate R]).
Qed.

Lemma lock_move_self {t a b h h'} :
  lock_move t a b h h' -> (a = Some t <-> h = true) -> (b = Some t <-> h' = true).
Proof.
  intros [(-> & ->) | [(_ & -> & ->) | (-> & _ & ->)]] L;
    [exact L | split; reflexivity | split; discriminate].
Qed.

Lemma lock_move_other {t u a b h h' P} : u <> t ->
  lock_move t a b h h' -> (a = Some t <-> h = true) -> (a = Some u <-> P) -> (b = Some u <-> P).
Proof.
  intros N [(-> & _) | [(R & -> & _) | (-> & A & _)]] L L'; [exact L' | |];
    try apply L in A; split; intro X; try congruence; apply L' in X; congruence.
Qed.

Lemma lock_move_not {t u a b h h'} : u <> t ->
  lock_move t a b h h' -> (a = Some t <-> h = true) -> a <> Some u -> b <> Some u.
Proof.
  intros N M L A. refine (proj1 (lock_move_other N M L _)). split; [exact A | contradiction].
Qed.

(* a step of the I/O thread: requests_lock; it is about to submit only if it was already, or it has
   just appended the first request; it only appends to [requests]; it creates an entry as holder
   of the token, which it gives up *)
Lemma io_step {s e s' l} : Inv s -> step_io s e = Some (s', l) ->
  lock_move ByIO (rlock s) (rlock s') (io_holds (io s)) (io_holds (io s')) /\
  (tokio s' -> tokio s \/ io s = IoRCapp /\ reqs s = []) /\
  (reqs s <> [] -> reqs s' <> []) /\
  (queue s' = queue s \/ tokio s /\ ~ tokio s' /\ queue s' = S (queue s)).
Proof.
  intros I H. pose proof (i_mret s I) as MR. pose proof (i_appx s I) as AX. unfold tokio, lock_move.
  clear I. io_inv H; mret_cases MR; (split; [|split; [|split]];
  [ auto
  | intros [X|[X Y]]; try discriminate X; auto
  | auto using app1_nonnil
  | auto; right; repeat split; auto; intros [X|[X _]]; discriminate X ]).
  - right. split; [reflexivity|]. rewrite app_length in Y. apply len_plus1. exact Y.
  - rewrite (AX eq_refl) in Y. discriminate Y.
  - left; right. split; [reflexivity|]. apply Nat.eqb_eq. assumption.
Qed.

(* a worker that changes [requests] holds the lock, so the I/O thread is not inside received() *)
Lemma wk_reqs_locked {s w e s' l} : Inv s -> step_wk s w e = Some (s', l) ->
  io_holds (io s) = true -> reqs s' = reqs s.
Proof.
  intros I H L. destruct (wk_step H) as (_ & _ & [E | (_ & LW)] & _); [exact E|].
  apply (i_lock_io s I) in L. apply (i_lock_wk s I) in LW. congruence.
Qed.

Lemma wk_tokio {s w e s' l} : Inv s -> step_wk s w e = Some (s', l) -> tokio s' -> tokio s.
Proof.
  intros I H. destruct (wk_frame H) as (E & _). unfold tokio. rewrite E.
  intros [X|[X Y]]; [left; exact X | right; split; [exact X|]].
  rewrite <- (wk_reqs_locked I H); [exact Y | rewrite X; reflexivity].
Qed.

(* ... cancel() starts by taking the entry; it only shortens [requests], and moves the I/O thread
   from IoRCapp to IoRCappX and nowhere else *)
Lemma sd_step {s s' l} : step_sd s = Some (s', l) ->
  (io s' = io s \/ io s = IoRCapp /\ io s' = IoRCappX /\ reqs s' = []) /\
  (sd s = SdIdle -> reqs s' = reqs s /\ io s' = io s) /\
  (queue s' = queue s /\ (sd s = SdIdle -> sd s' = SdIdle) \/ queue s = S (queue s')) /\
  (tokio s' -> tokio s) /\
  (reqs s = [] -> reqs s' = []).
Proof.
  intro H. unfold tokio. sd_inv H; (split; [|split; [|split; [|split]]];
  [ auto | intro S; auto; discriminate S | auto; left; split; auto; discriminate
  | auto; intros [X|[X Y]]; discriminate | auto ]).
Qed.

Lemma active_not_first s w : Inv s -> active (wk s w) = true -> io s = IoRCapp -> reqs s <> [].
Proof.
  intros I A E R. pose proof (i_reqs_wk s I w) as RW. pose proof (proj2 (i_lock_wk s I w)) as LW.
  pose proof (proj2 (i_lock_io s I)) as L. rewrite E in L. rewrite (L eq_refl) in LW.
  destruct (wk s w); try discriminate A; try (now apply RW); discriminate (LW eq_refl).
Qed.

Lemma q1_excl s : Inv s -> forall q, queue s = S q ->
  (forall w, active (wk s w) = false) /\ ~ tokio s /\ sd s = SdIdle.
Proof. intros I q Q. apply (i_q_excl s I). pose proof (i_q1 s I). lia. Qed.

Lemma no_entry s : Inv s -> tokio s \/ (exists w, active (wk s w) = true) -> queue s = 0.
Proof.
  intros I T. destruct (queue s) eqn:Q; [reflexivity|].
  destruct (q1_excl s I _ Q) as (A & T0 & _).
  destruct T as [T|(w & T)]; [contradiction | rewrite A in T; discriminate T].
Qed.

Lemma tokio_reqs s : Inv s -> tokio s -> reqs s <> [].
Proof.
  intros I [X|[_ X]]; [exact (i_reqs_io s I X) | intro R; rewrite R in X; discriminate X].
Qed.

Lemma prepop_active p : prepop p = true -> active p = true.
Proof. destruct p; auto. Qed.

