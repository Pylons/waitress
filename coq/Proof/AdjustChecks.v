(* C20, validation.  The generated decision formulas (Gen/GenAdjust.v) are each consumed
   through one characterising lemma against Proof/AdjustSpec.v, here or under the theorem
   in Props/C20.v; what is said of the model of Adjustments.__init__ (construct) holds
   for all keyword dictionaries.  Also here: the lemmas about dict_get / dict_set the
   whole family uses, and the evaluated tests on the generated tables of option names
   and documented names (params, docs_args, help_opts). *)
From Coq Require Import List NArith ZArith Bool Lia.
From WV Require Import Lib.PyBytes Gen.GenAdjust Model.Adjust Proof.AdjustSpec.
Import ListNotations.
Local Open Scope N_scope.

Lemma memstr_In : forall x l, memstr x l = true <-> In x l.
Proof.
  intros x l. unfold memstr. rewrite existsb_exists. split.
  - intros [y [Hy E]]. apply beqb_eq in E. subst. exact Hy.
  - intro H. exists x. split; [exact H|]. apply beqb_eq. reflexivity.
Qed.

Lemma memstr_not_In : forall x l, memstr x l = false <-> ~ In x l.
Proof.
  intros x l. rewrite <- memstr_In. destruct (memstr x l); split; intro H; try discriminate; auto.
  exfalso. apply H. reflexivity.
Qed.

Lemma forallb_In : forall {A} (f : A -> bool) l, forallb f l = true -> forall x, In x l -> f x = true.
Proof. intros A f l. apply forallb_forall. Qed.

Fixpoint nodupb (l : list str) : bool :=
  match l with
  | [] => true
  | x :: l' => negb (memstr x l') && nodupb l'
  end.
Lemma nodupb_NoDup : forall l, nodupb l = true -> NoDup l.
Proof.
  induction l as [|x l IH]; intro H; [constructor|].
  cbn [nodupb] in H. apply andb_true_iff in H as [H1 H2]. constructor.
  - apply memstr_not_In. destruct (memstr x l); [discriminate|reflexivity].
  - apply IH. exact H2.
Qed.

(* dict_get / dict_set (Model/Adjust.v): Python's dict as an insertion-ordered association list *)
Lemma get_set : forall {V} p k (v : V) d,
  dict_get p (dict_set k v d) = if beqb p k then Some v else dict_get p d.
Proof.
  intros V p k v. induction d as [|[k' v'] d IH].
  - reflexivity.
  - cbn [dict_set]. destruct (beqb k k') eqn:E.
    + apply beqb_eq in E. subst k'. cbn [dict_get]. destruct (beqb p k); reflexivity.
    + cbn [dict_get]. rewrite IH. destruct (beqb p k') eqn:E2; [|reflexivity].
      destruct (beqb p k) eqn:E3; [|reflexivity].
      apply beqb_eq in E2, E3. subst. rewrite beqb_refl in E. discriminate.
Qed.

Lemma dict_get_In : forall {V} k (v : V) d, dict_get k d = Some v -> In (k, v) d.
Proof.
  intros V k v. induction d as [|[k' v'] d IH]; [discriminate|]. cbn [dict_get].
  destruct (beqb k k') eqn:E; [|right; auto]. apply beqb_eq in E. intro H. injection H as ->. left. now subst.
Qed.

Lemma dict_get_set_neq : forall {V} k k' (v : V) d, beqb k k' = false ->
  dict_get k (dict_set k' v d) = dict_get k d.
Proof. intros V k k' v d H. now rewrite get_set, H. Qed.

(* assignments to another key, made or not, are not seen *)
Lemma dict_get_if_set : forall {V} k k' (b1 b2 : bool) (v1 v2 : V) d, beqb k k' = false ->
  dict_get k (if b1 then dict_set k' v1 d else if b2 then dict_set k' v2 d else d) = dict_get k d.
Proof. intros V k k' [] [] v1 v2 d H; try apply dict_get_set_neq; auto. Qed.

Lemma keys_set : forall {V} k (v : V) d,
  map fst (dict_set k v d) = if memstr k (map fst d) then map fst d else map fst d ++ [k].
Proof.
  intros V k v. induction d as [|[k' v'] d IH]; [reflexivity|].
  cbn [dict_set map fst]. unfold memstr in *. cbn [existsb].
  destruct (beqb k k') eqn:E; cbn [orb map fst]; [reflexivity|].
  rewrite IH. destruct (existsb (beqb k) (map fst d)); reflexivity.
Qed.

Lemma dict_In_get : forall {V} k (v : V) d, NoDup (map fst d) -> In (k, v) d -> dict_get k d = Some v.
Proof.
  intros V k v. induction d as [|[k' v'] d IH]; intros ND H; [contradiction|].
  cbn [map fst] in ND. inversion ND as [|? ? Hn ND']; subst.
  cbn [dict_get]. destruct H as [H|H].
  - injection H as -> ->. rewrite beqb_refl. reflexivity.
  - destruct (beqb k k') eqn:E.
    + apply beqb_eq in E. subst k'. exfalso. apply Hn. apply in_map_iff. exists (k, v). auto.
    + apply IH; assumption.
Qed.

Lemma excl_all : forall present : str -> bool, excl present = two_groups present.
Proof.
  intro p. unfold excl, two_groups, groups_present.
  change n_listen with s_listen. change n_host with s_host. change n_port with s_port.
  change n_sockets with s_sockets. change n_unix_socket with s_unix_socket.
  destruct (p s_listen), (p s_host), (p s_port), (p s_sockets), (p s_unix_socket); reflexivity.
Qed.

Definition present_of (l : list str) : str -> bool := fun n => memstr n l.

Lemma excl_names_are_the_five : excl_names = exclusive_names.
Proof. reflexivity. Qed.

Lemma assign_loop_names_known : forall kw acc a,
  assign_loop kw acc = Ok a -> forall k, In k (map fst kw) -> castof k <> None.
Proof.
  induction kw as [|[k v] kw IH]; intros acc a H k0 Hk; [destruct Hk|].
  cbn [assign_loop] in H. cbn [map fst] in Hk.
  destruct (castof k) as [c|] eqn:Ec.
  - destruct (cast_value c v) as [s|x]; [|discriminate].
    destruct Hk as [Hk|Hk].
    + subst k0. rewrite Ec. discriminate.
    + eapply IH; eassumption.
  - destruct assign_loop_standard; discriminate.
Qed.

Lemma proxy_table : forall a b cb c d e f, proxy_refused a b cb c d e f = proxy_spec a b cb c d e f.
Proof. intros [] [] [] [] [] [] []; reflexivity. Qed.

Lemma proxy_defaults_table : forall a b cb c d e f, proxy_refused a b cb c d e f = false ->
  proxy_count_defaulted a b cb c d e f = b /\ proxy_headers_defaulted a b cb c d e f = (negb c && negb a).
Proof. intros [] [] [] [] [] [] []; cbv; intro H; try discriminate H; split; reflexivity. Qed.

Lemma dedup_In : forall l x, In x (dedup l) <-> In x l.
Proof.
  induction l as [|y l IH]; intro x; [tauto|]. cbn [dedup].
  destruct (memstr y l) eqn:E.
  - rewrite IH. split; [intro; right; assumption|]. intros [H|H]; [|exact H].
    subst. apply memstr_In. exact E.
  - cbn [In]. rewrite IH. tauto.
Qed.

Definition attr_headers (a : attrs) : list str :=
  match dict_get k_trusted_proxy_headers a with Some (SSet l) => l | _ => [] end.
Definition attr_tp_none (a : attrs) : bool :=
  match dict_get k_trusted_proxy a with None => true | Some SNone => true | Some _ => false end.
Definition proxy_stage_refused (a : attrs) : bool :=
  let '(x1, x2, x3, x4, x5, x6, x7) := proxy_atoms a in proxy_refused x1 x2 x3 x4 x5 x6 x7.

Lemma lowered_exists : forall (P : str -> bool) hs,
  existsb P (lowered_headers hs) = true <-> exists h, In h hs /\ P (lower_latin1 h) = true.
Proof.
  intros P hs. unfold lowered_headers. rewrite existsb_exists. split.
  - intros [x [Hx HP]]. apply dedup_In, in_map_iff in Hx as [h [<- Hh]]. eauto.
  - intros [h [Hh HP]]. exists (lower_latin1 h). split; [apply dedup_In, in_map, Hh|exact HP].
Qed.

Lemma proxy_stage_spec : forall a,
  proxy_stage_refused a = true <-> proxy_conflict (attr_tp_none a) (attr_count a) (attr_headers a).
Proof.
  intro a. unfold proxy_stage_refused, proxy_atoms.
  fold (attr_headers a). rewrite proxy_table.
  change (match dict_get k_trusted_proxy a with
          | None => defaults_proxy_and_sockets_empty | Some SNone => true | Some _ => false end)
    with (attr_tp_none a).
  set (hs := attr_headers a). set (tp := attr_tp_none a). set (cn := attr_count a).
  change known_proxy_headers with spec_known_headers. change proxy_forwarded_name with s_forwarded.
  change proxy_min_count with 1%Z.
  unfold proxy_spec, proxy_conflict.
  (* each atom of the formula against the clause of the specification it stands for *)
  assert (Hne : nonempty_l hs = true <-> hs <> []) by (destruct hs; cbn; split; congruence).
  assert (Hc1 : negb (match cn with None => true | Some _ => false end) = true <-> cn <> None)
    by (destruct cn; cbn; split; congruence).
  assert (Hc2 : match cn with Some z => Z.ltb z 1 | None => false end = true <-> exists z, cn = Some z /\ (z < 1)%Z).
  { destruct cn as [z|]; [rewrite Z.ltb_lt|]; split; try discriminate; eauto; intros [z' [E H]]; congruence. }
  assert (Hu : existsb (fun h => negb (memstr h spec_known_headers)) (lowered_headers hs) = true
               <-> exists h, In h hs /\ ~ In (lower_latin1 h) spec_known_headers).
  { rewrite lowered_exists. split; intros [h [Hh H]]; exists h; split; auto.
    - apply memstr_not_In, negb_true_iff, H.
    - apply negb_true_iff, memstr_not_In, H. }
  assert (Hf : memstr s_forwarded (lowered_headers hs) = true <-> In s_forwarded (map lower_latin1 hs)).
  { rewrite memstr_In. apply dedup_In. }
  assert (Ho : existsb (fun h => negb (beqb h s_forwarded)) (lowered_headers hs) = true
               <-> exists h, In h hs /\ lower_latin1 h <> s_forwarded).
  { rewrite lowered_exists. split; intros [h [Hh H]]; exists h; split; auto.
    - apply beqb_false, negb_true_iff, H.
    - apply negb_true_iff, beqb_false, H. }
  (* the specification does not repeat what a clause implies *)
  assert (Hc3 : (exists z, cn = Some z /\ (z < 1)%Z) -> cn <> None) by (intros [z [E _]]; rewrite E; discriminate).
  assert (Hun : (exists h, In h hs /\ ~ In (lower_latin1 h) spec_known_headers) -> hs <> [])
    by (intros [h [Hh _]] E; rewrite E in Hh; destruct Hh).
  assert (Hfn : In s_forwarded (map lower_latin1 hs) -> hs <> []) by (intros H E; rewrite E in H; destruct H).
  rewrite !orb_true_iff, !andb_true_iff, Hc1, Hc2, Hne, Hu, Hf, Ho.
  clear - Hc3 Hun Hfn. tauto.
Qed.

Lemma sock_is_kind : forall e s,
  sock_is sock_inet e s = skind_eqb (sock_kind e s) KInet
  /\ sock_is sock_unix e s = skind_eqb (sock_kind e s) KUnix
  /\ sock_is sock_unsup e s = skind_eqb (sock_kind e s) KUnsupported.
Proof. intros [h6 hu] [[i f] t]; destruct f, t, hu; repeat split. Qed.

Lemma existsb_kind : forall e k g l, (forall s, g s = skind_eqb (sock_kind e s) k) ->
  (existsb g l = true <-> exists s, In s l /\ sock_kind e s = k).
Proof.
  intros e k g l Hg. rewrite existsb_exists. split; intros [s [Hs H]]; exists s; split; auto.
  - rewrite Hg in H. destruct (sock_kind e s), k; try discriminate; reflexivity.
  - rewrite Hg, H. destruct k; reflexivity.
Qed.

Lemma check_sockets_spec : forall e l, check_sockets e l = true <-> socks_conflict e l.
Proof.
  intros e l. unfold check_sockets, socks_conflict, socks_refused.
  rewrite orb_true_iff, andb_true_iff.
  rewrite (existsb_kind e KUnix _ l (fun s => proj1 (proj2 (sock_is_kind e s)))).
  rewrite (existsb_kind e KInet _ l (fun s => proj1 (sock_is_kind e s))).
  rewrite (existsb_kind e KUnsupported _ l (fun s => proj2 (proj2 (sock_is_kind e s)))).
  tauto.
Qed.

Lemma families_full : forall ipv4 ipv6 h6,
  (ipv4 = false -> ipv6 = false -> families_refused ipv4 ipv6 h6 = true)
  /\ (families_refused ipv4 ipv6 h6 = false -> honours ipv4 ipv6 (families_value ipv4 ipv6 h6)).
Proof. intros [] [] []; cbv; split; intros; try discriminate; try split; reflexivity. Qed.

Example families_some : families_refused false false true = true
  /\ families_refused true false true = false /\ families_value true false true = FamInet
  /\ families_value false true true = FamInet6 /\ families_value true true false = FamUnspec.
Proof. repeat split; reflexivity. Qed.

Definition attr_sockets (a : attrs) : list sock :=
  match dict_get k_sockets a with Some (SSocks l) => l | _ => [] end.
Definition attr_ipv4 (a : attrs) : bool := get_bool k_ipv4 a true.
Definition attr_ipv6 (a : attrs) : bool := get_bool k_ipv6 a true.

(* Adjustments.__init__ read backwards: an accepted dictionary has passed every test, each
   made on the attributes a the cast loop assigned, and trusted_proxy_count ends as given
   or, when not given, as the default *)
Record passed (e : env) (kw : kwargs) (a a' : attrs) : Prop := {
  ps_excl : excl (fun n => memstr n (map fst kw)) = false;
  ps_assign : assign_loop kw [] = Ok a;
  ps_families : families_refused (attr_ipv4 a) (attr_ipv6 a) (has_ipv6 e) = false;
  ps_proxy : proxy_stage_refused a = false;
  ps_sockets : check_sockets e (attr_sockets a) = false;
  ps_count : dict_get k_trusted_proxy_count a'
             = Some (SInt (match attr_count a with Some z => z | None => Z.of_N proxy_default_count end))
}.

Lemma construct_ok_inv : forall e kw a', construct e kw = Ok a' -> exists a, passed e kw a a'.
Proof.
  intros e kw a' H. unfold construct in H. cbv zeta in H.
  destruct (excl _) eqn:Ex; [discriminate|].
  destruct (assign_loop kw []) as [a|x] eqn:Ea; [|discriminate]. exists a.
  destruct (families_refused _ _ _) eqn:Ef; [discriminate|].
  destruct (listen_loop _ _ _ _ _) as [w|x]; [|discriminate].
  assert (P2 : let '(_, x2, _, _, _, _, _) := proxy_atoms a in
               x2 = match attr_count a with None => true | Some _ => false end) by reflexivity.
  destruct (proxy_atoms a) as [[[[[[x1 x2] x0] x3] x4] x5] x6] eqn:Pa.
  destruct (proxy_refused x1 x2 x0 x3 x4 x5 x6) eqn:Er; [discriminate|].
  destruct (proxy_defaults_table _ _ _ _ _ _ _ Er) as [Dc _]. rewrite Dc in H. clear Dc.
  (* the later assignments touch neither sockets nor, once made, trusted_proxy_count *)
  rewrite (dict_get_set_neq k_sockets k_listen), (dict_get_if_set k_sockets k_trusted_proxy_headers) in H
    by reflexivity.
  (* the single `if` is the double one with its second test false *)
  rewrite (dict_get_if_set k_sockets k_trusted_proxy_count x2 false _ (SInt 0)) in H by reflexivity.
  fold (attr_sockets a) in H.
  destruct (check_sockets e (attr_sockets a)) eqn:Ec; [discriminate|]. injection H as <-.
  constructor; auto; [unfold proxy_stage_refused; rewrite Pa; exact Er|].
  rewrite (dict_get_set_neq k_trusted_proxy_count k_listen),
    (dict_get_if_set k_trusted_proxy_count k_trusted_proxy_headers) by reflexivity.
  subst x2. unfold attr_count.
  destruct (dict_get k_trusted_proxy_count a) as [[| |z| | | | |]|] eqn:D; try (rewrite get_set; reflexivity). exact D.
Qed.

Lemma construct_names_known : forall e kw a',
  construct e kw = Ok a' -> forall k, In k (map fst kw) -> In k (map fst params).
Proof.
  intros e kw a' H k Hk. destruct (construct_ok_inv _ _ _ H) as (a & P). pose proof (ps_assign _ _ _ _ P) as Ha.
  pose proof (assign_loop_names_known _ _ _ Ha k Hk) as Hn.
  destruct (castof k) as [c|] eqn:E; [|now elim Hn]. exact (in_map fst _ _ (dict_get_In _ _ _ E)).
Qed.

Definition accepted_ok (e : env) (kw : kwargs) (a : attrs) : Prop :=
  two_groups (fun n : list N => memstr n (map (@fst str value) kw)) = false
  /\ (forall k, In k (map fst kw) -> In k (map fst params))
  /\ ~ proxy_conflict (attr_tp_none a) (attr_count a) (attr_headers a)
  /\ ~ socks_conflict e (attr_sockets a)
  /\ (attr_ipv4 a || attr_ipv6 a = true)
  /\ honours (attr_ipv4 a) (attr_ipv6 a) (families_value (attr_ipv4 a) (attr_ipv6 a) (has_ipv6 e)).

Definition no_underscore_prefix : str := [110;111;95].   (* no_ *)
Definition no_dash_prefix : str := [110;111;45].         (* no- *)

(* the option spellings of a parameter come back to it: --p-q to p_q, --no-p-q to no_p_q,
   no parameter itself starts with no_, and no spelling contains '=' *)
Definition name_ok (pc : str * cast) : bool :=
  let p := fst pc in
  beqb (cli_unmangle (dashdash ++ cli_mangle p)) p
  && negb (startswith p no_underscore_prefix)
  && beqb (cli_unmangle (dashdash ++ no_dash_prefix ++ cli_mangle p)) (no_underscore_prefix ++ p)
  && negb (memb 61 (cli_mangle p)).

Lemma params_names_ok : forallb name_ok params = true.
Proof. vm_compute. reflexivity. Qed.
Definition help_names : list str := map (fun h => fst (fst h)) help_opts.
Definition runner_only : list str := [k_help; k_call; k_app].

(* runner.HELP has a line for the parameter (sockets has none: it cannot be given on the
   command line), with =VALUE exactly when the parameter is not a flag *)
Definition help_entry_ok (pc : str * cast) : bool :=
  beqb (fst pc) s_sockets
  || existsb (fun h => beqb (fst (fst h)) (cli_mangle (fst pc))
                       && Bool.eqb (snd h) (negb (cast_eqb (snd pc) CBool))) help_opts.

Lemma params_in_docs_args : forallb (fun pc => memstr (fst pc) docs_args) params = true.
Proof. vm_compute. reflexivity. Qed.
Lemma params_in_help : forallb help_entry_ok params = true.
Proof. vm_compute. reflexivity. Qed.
Lemma docs_args_are_params : forallb (fun d => memstr d (map fst params)) docs_args = true.
Proof. vm_compute. reflexivity. Qed.
Lemma help_names_are_params :
  forallb (fun h => memstr h (map (fun pc => cli_mangle (fst pc)) params ++ runner_only)) help_names = true.
Proof. vm_compute. reflexivity. Qed.

Example excl_some : excl (present_of [s_listen; s_port]) = true /\ excl (present_of [s_host; s_port]) = false.
Proof. split; reflexivity. Qed.
Example proxy_conflict_some :
  proxy_conflict false None [[70;111;114;119;97;114;100;101;100]; xfwd [102;111;114]].  (* Forwarded x-forwarded-for *)
Proof.
  right. right. right. right. split.
  - left. reflexivity.
  - exists (xfwd [102;111;114]). split; [right; left; reflexivity|]. discriminate.
Qed.
Example socks_conflict_some : socks_conflict {| has_ipv6 := true; has_af_unix := true |}
  [(true, SfInet, StStream); (true, SfUnix, StStream)].
Proof.
  right. split.
  - exists (true, SfUnix, StStream). split; [right; left; reflexivity|reflexivity].
  - exists (true, SfInet, StStream). split; [left; reflexivity|reflexivity].
Qed.

(* listen = a:1 b:2, trusted_proxy = *, trusted_proxy_headers = Forwarded : accepted *)
Example construct_accepts_some : exists a,
  construct {| has_ipv6 := true; has_af_unix := true |}
    [(k_listen, VStr [97;58;49;32;98;58;50]); (k_trusted_proxy, VStr [42]);
     (k_trusted_proxy_headers, VStr [70;111;114;119;97;114;100;101;100])] = Ok a.
Proof. eexists. vm_compute. reflexivity. Qed.
(* ... and with x-forwarded-for next to Forwarded: refused *)
Example construct_refuses_some :
  construct {| has_ipv6 := true; has_af_unix := true |}
    [(k_trusted_proxy, VStr [42]);
     (k_trusted_proxy_headers, VStr ([70;111;114;119;97;114;100;101;100;32] ++ xfwd [102;111;114]))] = Exn ValueError.
Proof. vm_compute. reflexivity. Qed.
