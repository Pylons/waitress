(* C10, call-site layer for the request line.  What parse_header does with the
   first line (Model/Parser.v): first_line = line.rstrip(b" \t\x0b\x0c\r"); refuse if it
   contains CR or LF; crack_first_line = fullmatch + "method is upper-case".
   Proved here: for a line WITHOUT trailing whitespace the verdict is exactly
   the request-line grammar.  Lines with surrounding whitespace are the open
   known finding kf_c10_reqline_ws (refuted in Findings/C10_KF1.v). *)
From Coq Require Import List NArith Bool Lia.
From WV Require Import Lib.Regex Lib.RegexDec Lib.PyBytes Gen.GenRegex Spec.Grammar
  Proof.C10Gates Proof.RegexFacts Proof.PyBytesFacts Proof.C10CallSites Model.Receiver Model.Parser.
Import ListNotations.
Local Open Scope N_scope.

Definition request_line_accepts (line : bytes) : bool :=
  let fl := rstrip_by is_reqline_ws line in
  negb (has_cr_or_lf fl) &&
  match crack_first_line fl with
  | None => false
  | Some (c, u, v) => negb (beqb c [] && beqb u [] && beqb v [])
  end.

Fixpoint count (c : N) (s : bytes) : nat :=
  match s with [] => O | x :: s' => if x =? c then S (count c s') else count c s' end.

Lemma count_app c a b : count c (a ++ b) = (count c a + count c b)%nat.
Proof. induction a as [|x a IH]; simpl; auto. destruct (x =? c); simpl; auto. Qed.

Lemma count_zero c a : Forall (fun x => x <> c) a -> count c a = O.
Proof.
  induction 1 as [|x a Hx Ha IH]; simpl; auto.
  destruct (x =? c) eqn:E; auto. apply N.eqb_eq in E. congruence.
Qed.

Lemma split_char_length c s : length (split s [c]) = S (count c s).
Proof.
  revert s. apply (char_split_ind c); [intros s H | intros a b H IH].
  - rewrite split_char_none by exact H. rewrite count_zero by (apply memb_false_forall, H). reflexivity.
  - rewrite split_char_app by exact H. rewrite count_app, count_zero by (apply memb_false_forall, H).
    cbn [length count Nat.add]. rewrite N.eqb_refl, IH. reflexivity.
Qed.

Definition no_sp : re := all_but 32.
Definition one_or_two_sp : re := Cat no_sp (Cat SP (Cat no_sp (Opt (Cat SP no_sp)))).
Definition tchar_prefix : re := Cat (Plus tchar) (Cat SP any_bytes).

Lemma gate_sp_count : forall s, bytes_ok s -> Lang gate_request_line s -> Lang one_or_two_sp s.
Proof. apply incl_check_sound. vm_compute. reflexivity. Qed.

Lemma gate_tchar_prefix : forall s, bytes_ok s -> Lang gate_request_line s -> Lang tchar_prefix s.
Proof. apply incl_check_sound. vm_compute. reflexivity. Qed.

Lemma spec_no_crlf : forall s, bytes_ok s -> Lang spec_request_line s -> Lang no_crlf s.
Proof. apply incl_check_sound. vm_compute. reflexivity. Qed.

Lemma Lang_Plus_cls rs a :
  Lang (Plus (Cls rs)) a <-> a <> [] /\ Forall (fun x => in_ranges x rs = true) a.
Proof.
  unfold Plus. rewrite Lang_Cat. split.
  - intros (u & v & -> & Hu & Hv). apply Lang_Cls in Hu as (x & -> & Hx).
    apply Lang_star_cls in Hv. split; [discriminate|]. constructor; auto.
  - intros [Hne H]. destruct a as [|x a]; [congruence|]. inversion H; subst.
    exists [x], a. repeat split; auto. + constructor; auto. + apply Lang_star_cls; auto.
Qed.

Lemma Lang_no_sp s : bytes_ok s -> (Lang no_sp s <-> Forall (fun x => x <> 32) s).
Proof. apply Lang_all_but. lia. Qed.

Lemma count_sp_of_shape s : bytes_ok s -> Lang one_or_two_sp s -> count 32 s = 1%nat \/ count 32 s = 2%nat.
Proof.
  intros Hs H. unfold one_or_two_sp in H.
  apply Lang_Cat in H as (a & r1 & -> & Ha & H).
  apply Lang_Cat in H as (sp & r2 & -> & Hsp & H). apply Lang_Sym in Hsp; subst sp.
  apply Lang_Cat in H as (b & r3 & -> & Hb & H).
  apply bytes_ok_app in Hs as [Hsa Hs]. apply bytes_ok_app in Hs as [_ Hs].
  apply bytes_ok_app in Hs as [Hsb Hs3].
  apply Lang_no_sp in Ha, Hb; auto.
  rewrite !count_app. rewrite (count_zero 32 a Ha), (count_zero 32 b Hb). simpl.
  apply Lang_Alt in H as [H|H].
  - apply Lang_Eps in H; subst. simpl. left. reflexivity.
  - apply Lang_Cat in H as (sp & c & -> & Hsp & Hc). apply Lang_Sym in Hsp; subst sp.
    apply bytes_ok_app in Hs3 as [_ Hsc]. apply Lang_no_sp in Hc; auto.
    rewrite count_app, (count_zero 32 c Hc). simpl. right. reflexivity.
Qed.

(* the ranges of a character class of Spec/Grammar.v ([] for anything else: the lemmas below are
   about tchar and method_char, which are classes) *)
Definition ranges (r : re) : list (N * N) := match r with Cls rs => rs | _ => [] end.

(* tchar that is its own upper-case image = method_char *)
Lemma tchar_upper_pointwise x :
  in_ranges x (ranges tchar) = true ->
  (upper_ascii_b x = x <->
   in_ranges x (ranges method_char) = true).
Proof.
  intro H. rewrite <- N.eqb_eq. apply eq_iff_eq_true, eqb_prop. revert x H.
  apply ranges_table; vm_compute; reflexivity.
Qed.

Lemma upper_fixed_iff a :
  Forall (fun x => in_ranges x (ranges tchar) = true) a ->
  (beqb a (upper_ascii a) = true <->
   Forall (fun x => in_ranges x (ranges method_char) = true) a).
Proof.
  induction 1 as [|x a Hx Ha IH].
  - simpl. split; auto.
  - cbn [upper_ascii map beqb]. rewrite andb_true_iff, N.eqb_eq.
    fold (upper_ascii a). rewrite IH. pose proof (tchar_upper_pointwise x Hx) as P.
    split.
    + intros [E F]. constructor; auto. apply P. congruence.
    + intro F. inversion F; subst. split; auto. symmetry. apply P; auto.
Qed.

Lemma tchar_no_sp a :
  Forall (fun x => in_ranges x (ranges tchar) = true) a -> Forall (fun x => x <> 32) a.
Proof.
  apply Forall_impl. intros x H. apply N.eqb_neq, negb_true_iff. revert x H.
  apply ranges_table; vm_compute; reflexivity.
Qed.

Lemma method_is_tchar a :
  Forall (fun x => in_ranges x (ranges method_char) = true) a ->
  Forall (fun x => in_ranges x (ranges tchar) = true) a.
Proof. apply Forall_impl. apply ranges_table; vm_compute; reflexivity. Qed.

Lemma method_no_sp a :
  Forall (fun x => in_ranges x (ranges method_char) = true) a -> Forall (fun x => x <> 32) a.
Proof. intro H. apply tchar_no_sp, method_is_tchar, H. Qed.

(* decomposition of a line that starts with a token / method followed by SP *)
Lemma prefix_decomp cls s : bytes_ok s ->
  Lang (Cat (Plus (Cls cls)) (Cat SP any_bytes)) s <->
  exists a b, s = a ++ 32 :: b /\ a <> [] /\ Forall (fun x => in_ranges x cls = true) a.
Proof.
  intro Hs. rewrite Lang_Cat. split.
  - intros (a & r & -> & Ha & Hr). apply Lang_Cat in Hr as (sp & b & -> & Hsp & _).
    apply Lang_Sym in Hsp; subst. apply Lang_Plus_cls in Ha as [Hne Ha]. exists a, b. auto.
  - intros (a & b & -> & Hne & Ha). exists a, (32 :: b). split; [reflexivity|]. split.
    + apply Lang_Plus_cls; auto.
    + apply Lang_Cat. exists [32], b. repeat split; auto. apply Lang_Sym; auto.
      apply Lang_any_bytes. apply bytes_ok_app in Hs as [_ Hs]. inversion Hs; auto.
Qed.

Theorem request_line_callsite_partial : forall line, bytes_ok line ->
  rstrip_by is_reqline_ws line = line ->          (* no trailing whitespace: outside kf_c10_reqline_ws *)
  (request_line_accepts line = true <-> Lang spec_request_line line).
Proof.
  intros line Hb Hr. unfold request_line_accepts. rewrite Hr.
  unfold crack_first_line.
  split.
  - intro H. apply andb_true_iff in H as [H1 H2]. apply negb_true_iff in H1.
    destruct (matches gate_request_line line) eqn:G; cbn [negb] in H2; [|discriminate].
    apply matches_correct in G.
    apply request_line_exact; auto. { apply has_cr_or_lf_false; auto. }
    split; auto.
    pose proof (gate_tchar_prefix line Hb G) as T. unfold tchar_prefix, tchar in T.
    apply prefix_decomp in T as (a & b & E & Hne & Ha); auto.
    unfold upper_method_prefix, method_char. apply prefix_decomp; auto.
    exists a, b. repeat split; auto.
    rewrite E, split_char_app in H2 by (apply memb_false_forall, tchar_no_sp, Ha).
    apply upper_fixed_iff; auto.
    destruct (split b [32]) as [|u [|v [|w rest]]]; try discriminate H2.
    + destruct (beqb a (upper_ascii a)); auto; discriminate.
    + destruct (beqb a (upper_ascii a)); auto; discriminate.
  - intro S0.
    pose proof (spec_no_crlf line Hb S0) as NC.
    apply (request_line_exact line Hb NC) in S0 as [G U].
    assert (C : has_cr_or_lf line = false).
    { unfold no_crlf in NC. apply Lang_star_cls in NC. unfold has_cr_or_lf.
      apply orb_false_iff. split; apply memb_false_forall; eapply Forall_impl; try exact NC;
        intros x Hx E; subst; vm_compute in Hx; discriminate. }
    rewrite C. cbn [negb andb].
    pose proof G as G'. apply matches_correct in G'. rewrite G'. cbn [negb].
    unfold upper_method_prefix, method_char in U.
    apply prefix_decomp in U as (a & b & E & Hne & Ha); auto.
    pose proof (count_sp_of_shape line Hb (gate_sp_count line Hb G)) as Cn.
    rewrite E, count_app, (count_zero 32 a (method_no_sp a Ha)) in Cn. cbn [count Nat.add N.eqb Pos.eqb] in Cn.
    rewrite E, split_char_app by (apply memb_false_forall, method_no_sp, Ha).
    assert (Up : beqb a (upper_ascii a) = true).
    { apply upper_fixed_iff; auto. apply method_is_tchar; auto. }
    pose proof (split_char_length 32 b) as Lr.
    destruct (split b [32]) as [|u [|v [|w rest]]]; simpl in Lr.
    + lia.
    + rewrite Up. destruct a; [congruence|]. reflexivity.
    + rewrite Up. destruct a; [congruence|]. reflexivity.
    + lia.
Qed.

Example request_line_ok :
  request_line_accepts [71;69;84;32;47;32;72;84;84;80;47;49;46;49] = true.
Proof. vm_compute. reflexivity. Qed.
Example request_line_lower_method :
  request_line_accepts [103;101;116;32;47] = false.
Proof. vm_compute. reflexivity. Qed.
