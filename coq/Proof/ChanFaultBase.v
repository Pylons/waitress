(* Proof/ChanFaultBase.v -- basic facts about Model/ChanFault.v used by all the
   C13 proofs: accessors, the invariant rule for (state, trace) invariants, and
   list helpers about stacks. *)
From Coq Require Import List Arith Bool Lia.
From WV Require Import Lib.Conc Model.ChanFault.
Import ListNotations.

Lemma chan_eqb_refl : forall c, chan_eqb c c = true.
Proof. destruct c; reflexivity. Qed.
Lemma chan_eqb_eq : forall c d, chan_eqb c d = true <-> c = d.
Proof. destruct c, d; simpl; split; intro H; auto; discriminate. Qed.
Lemma tid_eqb_eq : forall a b, tid_eqb a b = true <-> a = b.
Proof.
  destruct a, b; simpl; split; intro H; auto; try discriminate.
  - apply chan_eqb_eq in H. subst; auto.
  - inversion H. apply chan_eqb_refl.
Qed.
Lemma tid_eqb_refl : forall t, tid_eqb t t = true.
Proof. intro t. apply tid_eqb_eq. reflexivity. Qed.
Lemma chan_dec : forall c d : chan, {c = d} + {c <> d}.
Proof. decide equality. Qed.
Lemma tid_dec : forall c d : tid, {c = d} + {c <> d}.
Proof. decide equality; apply chan_dec. Qed.

Lemma getc_setc_same : forall s c v, getc (setc s c v) c = v.
Proof. destruct c; reflexivity. Qed.
Lemma getc_setc_other : forall s c d v, c <> d -> getc (setc s c v) d = getc s d.
Proof. destruct c, d; simpl; intros; auto; congruence. Qed.
Lemma getc_setc : forall s c d v, getc (setc s c v) d = if chan_dec c d then v else getc s d.
Proof.
  intros. destruct (chan_dec c d); subst; [apply getc_setc_same|apply getc_setc_other; auto].
Qed.
Lemma getth_setth_same : forall s t v, getth (setth s t v) t = v.
Proof. destruct t as [|[|]]; reflexivity. Qed.
Lemma getth_setth_other : forall s t u v, t <> u -> getth (setth s t v) u = getth s u.
Proof. destruct t as [|[|]], u as [|[|]]; simpl; intros; auto; congruence. Qed.
Lemma getth_setc : forall s c v t, getth (setc s c v) t = getth s t.
Proof. destruct c, t as [|[|]]; reflexivity. Qed.
Lemma getc_setth : forall s t v c, getc (setth s t v) c = getc s c.
Proof. destruct c, t as [|[|]]; reflexivity. Qed.
Lemma getc_set_srv : forall s a b c d x, getc (set_srv s a b c d) x = getc s x.
Proof. destruct x; reflexivity. Qed.
Lemma getth_set_srv : forall s a b c d t, getth (set_srv s a b c d) t = getth s t.
Proof. destruct t as [|[|]]; reflexivity. Qed.
Lemma getc_set_dead : forall s x, getc (set_dead s) x = getc s x.
Proof. destruct x; reflexivity. Qed.
Lemma getth_set_dead : forall s t, getth (set_dead s) t = getth s t.
Proof. destruct t as [|[|]]; reflexivity. Qed.

Lemma srv_setc : forall s c v,
  lst_in_map (setc s c v) = lst_in_map s /\ trg_in_map (setc s c v) = trg_in_map s /\
  lst_open (setc s c v) = lst_open s /\ trg_open (setc s c v) = trg_open s /\ io_dead (setc s c v) = io_dead s.
Proof. destruct c; simpl; auto. Qed.
Lemma srv_setth : forall s t v,
  lst_in_map (setth s t v) = lst_in_map s /\ trg_in_map (setth s t v) = trg_in_map s /\
  lst_open (setth s t v) = lst_open s /\ trg_open (setth s t v) = trg_open s /\ io_dead (setth s t v) = io_dead s.
Proof. destruct t as [|[|]]; simpl; auto. Qed.

(* the model's run/trace are the generic ones of Lib/Conc.v *)
Lemma run_tr_conc : forall g sched,
  ChanFault.run_tr g sched = Conc.run_tr (step g) init sched.
Proof. reflexivity. Qed.

Theorem inv_rule_tr : forall g (Inv : state -> list label -> Prop),
  Inv init [] ->
  (forall s tr c s' l, Inv s tr -> step g s c = Some (s', l) -> Inv s' (tr ++ l)) ->
  forall sched, Inv (ChanFault.run g sched) (ChanFault.trace g sched).
Proof.
  intros g Inv H0 Hs sched.
  exact (invariant_rule_tr state choice label (step g) Inv init H0 Hs sched).
Qed.

Lemma drop_to_frame_suffix : forall l, exists pre, l = pre ++ drop_to_frame l.
Proof.
  induction l as [|i r IH]; simpl.
  - exists []. reflexivity.
  - destruct (is_frame i).
    + exists []. reflexivity.
    + destruct IH as [pre E]. exists (i :: pre). simpl. congruence.
Qed.

Lemma drop_to_frame_head : forall l k r, drop_to_frame l = k :: r -> is_frame k = true.
Proof.
  induction l as [|i l IH]; simpl; intros k r E; try discriminate.
  destruct (is_frame i) eqn:F.
  - inversion E; subst; auto.
  - eauto.
Qed.

Lemma forallb_drop_to_frame : forall (p : instr -> bool) l,
  forallb p l = true -> forallb p (drop_to_frame l) = true.
Proof.
  intros p l H. destruct (drop_to_frame_suffix l) as [pre E].
  rewrite E in H. rewrite forallb_app in H. apply andb_true_iff in H. tauto.
Qed.

Lemma forallb_tail : forall (p : instr -> bool) i l, forallb p (i :: l) = true -> forallb p l = true.
Proof. simpl; intros p i l H. apply andb_true_iff in H. tauto. Qed.

Lemma forallb_map : forall (P : instr -> bool) (A : Type) (f : A -> instr) l,
  (forall x, P (f x) = true) -> forallb P (map f l) = true.
Proof. intros P A f l H. induction l; simpl; auto. rewrite H. auto. Qed.

Lemma forallb_ext : forall (A : Type) (p q : A -> bool) l, (forall x, p x = q x) -> forallb p l = forallb q l.
Proof. induction l; simpl; intros; auto. rewrite H, IHl; auto. Qed.
