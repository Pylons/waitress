(* Proof/ChanWakeL6.v -- layer 6 of the C05 invariant: the wake-up per cause.  Output at or
   above send_bytes, will_close and close_when_flushed are each either seen by the I/O
   thread's coming select, or announced by a pulled trigger, or owned by a worker whose next
   steps decide about (or perform) the pull_trigger -- no matter how long workers stay inside
   the application (WApp). *)
From Coq Require Import List ZArith Bool Arith Lia.
From WV Require Import Model.ChanWake Proof.ChanWakeInv Proof.ChanWakeBase Proof.ChanWakeL1 Proof.ChanWakeL2
  Proof.ChanWakeL3 Proof.ChanWakeL4.
Import ListNotations.
Open Scope Z_scope.

Definition G6 (c : cfg) (s : state) : Prop :=
  closed s = false ->
  ((0 < total s /\ sb c <= total s) ->
     pulled s = true \/ cov_tot (io s) = true \/ existsb act_tot (ws s) = true) /\
  (wc s = true -> pulled s = true \/ cov_wc (io s) = true \/ existsb act_wc (ws s) = true) /\
  (cwf s = true -> pulled s = true \/ cov_cwf (io s) = true \/ existsb act_cwf (ws s) = true).

Lemma g6_init : forall c nw, G6 c (init nw).
Proof. intros c nw _. simpl. repeat split; intros; try lia; try discriminate. Qed.

Lemma g6_step_io : forall c s ch s' l,
  G6 c s -> step_io c s ch = Some (s', l) -> G6 c s'.
Proof.
  intros c s ch s' l HG H Hc.
  destruct (step_io_cov _ _ _ _ _ H) as [[Ct _]|[Cc|(p' & -> & Mt & Mw & Mc & _)]].
  - destruct (cov_tot_all _ Ct) as (Cw & Cf). auto.
  - congruence.
  - simpl in *. destruct (HG Hc) as (G1 & G2 & G3). repeat split; intros Hx.
    + destruct (G1 Hx) as [?|[Hcov|?]]; auto. destruct (cov_tot p'); auto. specialize (Mt Hcov eq_refl). lia.
    + destruct (G2 Hx) as [?|[Hcov|?]]; auto. destruct (cov_wc p'); auto. specialize (Mw Hcov eq_refl). congruence.
    + destruct (G3 Hx) as [?|[Hcov|?]]; auto. destruct (cov_cwf p'); auto. specialize (Mc Hcov eq_refl). congruence.
Qed.

(* from the moment handle_close has cleared connected the I/O thread covers every cause *)
Lemma g6_hc_late : forall c s, closed s = true \/ io_hc_late (io s) = true -> G6 c s.
Proof.
  intros c s [Hc|Hl] Hc'; [congruence|].
  destruct (io s); try discriminate Hl; simpl; auto.
Qed.

(* one cause through a step of worker i from pc to p': it is announced afterwards if the worker now answers
   for it or has pulled, or if it was announced before and the worker was not the one answering *)
Lemma cause_kept : forall (f : wpc -> bool) (A A' : Prop) (cv pl pl' : bool) l i pc p',
  nth_error l i = Some pc ->
  (A -> pl = true \/ cv = true \/ existsb f l = true) -> (pl = true -> pl' = true) ->
  (A' -> f p' = true \/ pl' = true \/ (A /\ f pc = false)) ->
  A' -> pl' = true \/ cv = true \/ existsb f (upd i p' l) = true.
Proof.
  intros f A A' cv pl pl' l i pc p' Hg HA Hpl Hstep HA'.
  destruct (Hstep HA') as [Hf|[Hp|[Ha Hpc]]]; auto.
  - right; right. eapply existsb_upd_new; eauto.
  - destruct (HA Ha) as [?|[?|Hex]]; auto. right; right. eapply existsb_upd_keep; eauto.
Qed.

Lemma g6_step_w : forall c s i ch s' l,
  Inv2 s -> Inv3 s -> G6 c s -> step_w c s i ch = Some (s', l) -> G6 c s'.
Proof.
  intros c s i ch s' l HI2 HI3 HG H. unfold step_w in H.
  destruct (getw s i) as [pc|] eqn:Hg; [|discriminate]. unfold getw in Hg.
  pose proof (i3_c3 _ HI3) as Hc3.
  step_w_cases H.
  (* service() ends with connected = False: handle_close is under way *)
  all: try (apply g6_hc_late; simpl; apply Hc3; reflexivity).
  all: z_hyps; intros Hc; try rewrite (add_task_eta s) in Hc |- *; simpl in Hc |- *; try congruence.
  all: destruct (HG Hc) as (G1 & G2 & G3); clear HG.
  (* a flush that leaves the worker where it is *)
  all: try match goal with |- context [upd] => fail 1 | _ => rewrite <- (upd_same _ _ _ _ Hg) at 1 2 3 end.
  all: try (repeat split; (eapply cause_kept; [exact Hg | eassumption | | ]; simpl; auto; intros Hx; try tauto;
            try (exfalso; lia); try (right; right; split; [lia|reflexivity])); fail).
  (* the worker found another request and submits the channel again *)
  assert (Hm : forall f (A : Prop) cv, f WIdle = false -> f WK5b = false ->
            (A -> pulled s = true \/ cv = true \/ existsb f (ws s) = true) ->
            A -> pulled s = true \/ cv = true \/ existsb f (upd i WK7 (ws (add_task s))) = true).
  { intros f A cv Hi Hk G Ha. destruct (G Ha) as [?|[?|Hex]]; auto. right; right.
    eapply existsb_upd_keep; [apply (add_task_nth_keep s i WK5b HI2 Hg eq_refl) | apply existsb_add_task_mono; auto | auto]. }
  repeat split; eapply Hm; eauto.
Qed.
