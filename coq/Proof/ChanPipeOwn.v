(* Proof/ChanPipeOwn.v -- layer L1: the queue / ownership discipline.
   At most one dispatcher entry, at most one worker owning the connection, the
   entry exists iff requests are pending and nobody owns the connection. *)
From Coq Require Import List Arith Bool ZArith Lia.
From WV Require Import Model.ChanPipe Proof.ChanPipeBase.
Import ListNotations.

Definition postpop (pc : wkpc) : bool :=
  match pc with WKbConn | WKbReq | WKbConn2 | WKbSc _ => true | _ => false end.
Definition is_c2 (pc : wkpc) : bool := match pc with WKbConn2 => true | _ => false end.
Definition is_sc (pc : wkpc) : bool := match pc with WKbSc _ => true | _ => false end.
Definition is_atacq (pc : iopc) : bool := match pc with IoRcAt AtAcq => true | _ => false end.

(* what L1 sees of a worker's program point *)
Definition wa1 (pc : wkpc) : bool * bool * bool * bool := (wk_owner pc, postpop pc, is_c2 pc, is_sc pc).

Record L1 (st : state) : Prop := {
  l1_uniq : forall j k, wk_owner (wpc (wk st j)) = true -> wk_owner (wpc (wk st k)) = true -> j = k;
  l1_q : queue (sh st) <= 1;
  l1_qown : queue (sh st) = 1 -> forall j, wk_owner (wpc (wk st j)) = false;
  l1_qreq : queue (sh st) = 1 -> requests (sh st) <> [];
  l1_ownreq : forall j, wk_owner (wpc (wk st j)) = true -> postpop (wpc (wk st j)) = false -> requests (sh st) <> [];
  l1_cover : connected (sh st) = true -> (forall j, wk_owner (wpc (wk st j)) = false) -> requests (sh st) <> [] ->
             (io_handing (io st) = true -> 2 <= length (requests (sh st))) -> queue (sh st) = 1;
  l1_c2 : forall j, is_c2 (wpc (wk st j)) = true -> requests (sh st) <> [] -> connected (sh st) = false;
  l1_sc : forall j, is_sc (wpc (wk st j)) = true -> requests (sh st) = [];
  l1_at : is_atacq (ipc (io st)) = true -> length (requests (sh st)) = 1;
  l1_hand : io_handing (io st) = true -> length (requests (sh st)) = 1 ->
            queue (sh st) = 0 /\ forall j, wk_owner (wpc (wk st j)) = false
}.

Lemma L1_init : L1 init.
Proof.
  split; simpl; intros; try discriminate; try lia; try congruence; auto.
Qed.

Lemma app_one_nonnil : forall (A : Type) (l : list A) x, l ++ [x] <> [].
Proof. intros A l x H. apply app_eq_nil in H. destruct H. discriminate. Qed.
Lemma len_app_one : forall (A : Type) (l : list A) x, length (l ++ [x]) = S (length l).
Proof. intros. rewrite app_length. simpl. lia. Qed.
Lemma len1_app_one : forall (A : Type) (l : list A) x, length (l ++ [x]) = 1 -> l = [].
Proof. intros A l x H. rewrite len_app_one in H. destruct l; simpl in *; auto. lia. Qed.

Lemma postpop_rl : forall pc, postpop pc = true -> wk_rl pc = true.
Proof. destruct pc; simpl; congruence. Qed.

(* while the I/O thread is inside received() and the request list is empty, nothing
   is queued and no worker owns the connection *)
Lemma io_rl_empty_no_owner : forall st, L0 st -> L1 st ->
  io_rl (ipc (io st)) = true -> requests (sh st) = [] ->
  queue (sh st) = 0 /\ forall j, wk_owner (wpc (wk st j)) = false.
Proof.
  intros st HL0 HL1 Hio Hreq. split.
  - pose proof (l1_q _ HL1). pose proof (l1_qreq _ HL1).
    destruct (queue (sh st)) as [|[|q]]; auto; try lia. exfalso. apply H0; auto.
  - intro j. destruct (wk_owner (wpc (wk st j))) eqn:Eo; auto.
    destruct (postpop (wpc (wk st j))) eqn:Ep.
    + apply postpop_rl in Ep. discriminate (lock_ok_excl _ _ _ _ TIo (TW j) (l0_r _ HL0) Hio Ep).
    + exfalso. eapply (l1_ownreq _ HL1); eauto.
Qed.

(* what L1 asks of a single worker, given the request list and the connection flag *)
Definition wk1_ok (r : list nat) (c : bool) (pc : wkpc) : Prop :=
  (wk_owner pc = true -> postpop pc = false -> r <> []) /\
  (is_c2 pc = true -> r <> [] -> c = false) /\
  (is_sc pc = true -> r = []).

Lemma L1_wk1 : forall st, L1 st -> forall j, wk1_ok (requests (sh st)) (connected (sh st)) (wpc (wk st j)).
Proof. intros st H j. split; [apply (l1_ownreq _ H) | split; [apply (l1_c2 _ H) | apply (l1_sc _ H)]]. Qed.

Lemma no_owner_dec : forall st, L1 st -> queue (sh st) = 0 \/ forall j, wk_owner (wpc (wk st j)) = false.
Proof.
  intros st H. pose proof (l1_q _ H). destruct (queue (sh st)) as [|[|q]] eqn:E; auto; [|lia].
  right. apply (l1_qown _ H E).
Qed.

(* A step that leaves the request list and the queue alone.  The connection may be dropped.
   The I/O thread may leave the hand-over when another request is pending, and may go on to
   add_task when there is exactly one.  Each worker either looks the same to L1 or it moves on
   within its turn: it does not become the owner, it gives ownership up only when nothing is
   left to hand over (no request, or the connection is gone), and its new program point is
   consistent. *)
Lemma L1_quiet : forall st st',
  requests (sh st') = requests (sh st) -> queue (sh st') = queue (sh st) ->
  (connected (sh st') = true -> connected (sh st) = true) ->
  (io_handing (io st') = io_handing (io st) \/
   (io_handing (io st') = false /\ length (requests (sh st)) <> 1)) ->
  (is_atacq (ipc (io st')) = true -> is_atacq (ipc (io st)) = true \/ length (requests (sh st)) = 1) ->
  (forall j, wa1 (wpc (wk st' j)) = wa1 (wpc (wk st j)) \/
             ((wk_owner (wpc (wk st' j)) = true -> wk_owner (wpc (wk st j)) = true) /\
              (wk_owner (wpc (wk st j)) = true -> wk_owner (wpc (wk st' j)) = false ->
               requests (sh st) <> [] -> connected (sh st) = false) /\
              wk1_ok (requests (sh st)) (connected (sh st)) (wpc (wk st' j)))) ->
  L1 st -> L1 st'.
Proof.
  intros st st' Hr Hq Hc Hh Ha Hw H.
  assert (Ho : forall j, wk_owner (wpc (wk st' j)) = true -> wk_owner (wpc (wk st j)) = true).
  { intros j X. destruct (Hw j) as [E|[E _]]; [unfold wa1 in E; congruence | auto]. }
  assert (Hno : forall j, wk_owner (wpc (wk st j)) = false -> wk_owner (wpc (wk st' j)) = false).
  { intros j X. destruct (wk_owner (wpc (wk st' j))) eqn:E; auto. apply Ho in E. congruence. }
  assert (Hk : forall j, wk1_ok (requests (sh st)) (connected (sh st)) (wpc (wk st' j))).
  { intro j. destruct (Hw j) as [E|[_ [_ E]]]; auto. pose proof (L1_wk1 _ H j) as K.
    unfold wa1 in E. unfold wk1_ok in *. injection E as E1 E2 E3 E4. rewrite E1, E2, E3, E4. exact K. }
  split; rewrite ?Hr, ?Hq; try apply H.
  - intros j k Hj Hk'. apply (l1_uniq _ H); auto.
  - intros E j. apply Hno. apply (l1_qown _ H E).
  - intros j. apply (Hk j).
  - intros C N R X. apply (l1_cover _ H); auto.
    + intro j. destruct (wk_owner (wpc (wk st j))) eqn:E; auto.
      destruct (Hw j) as [W|[_ [W _]]].
      * unfold wa1 in W. specialize (N j). congruence.
      * specialize (W E (N j) R). specialize (Hc C). congruence.
    + intro Y. destruct Hh as [Hh|[_ Hh]]; [apply X; congruence|].
      destruct (requests (sh st)) as [|? [|? ?]]; simpl in *; try congruence; lia.
  - intros j X R. destruct (connected (sh st')) eqn:C; auto.
    rewrite (proj1 (proj2 (Hk j)) X R) in Hc. discriminate (Hc eq_refl).
  - intros j. apply (Hk j).
  - intro X. destruct (Ha X) as [Y|Y]; [apply (l1_at _ H Y) | exact Y].
  - intros X Y. destruct Hh as [Hh|[Hh _]]; [|congruence]. rewrite Hh in X.
    destruct (l1_hand _ H X Y) as [A B]. split; auto.
Qed.

Lemma handing_rl : forall i, io_handing i = true -> io_rl (ipc i) = true.
Proof. intros [pc ? ? ? ? ? ?]; unfold io_handing; simpl. destruct pc; try congruence; auto. Qed.
Lemma atacq_handing : forall i, is_atacq (ipc i) = true -> io_handing i = true.
Proof. intros [pc ? ? ? ? ? ?]. unfold io_handing. simpl. destruct pc; try discriminate. destruct a; auto. Qed.
