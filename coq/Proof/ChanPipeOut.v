(* Proof/ChanPipeOut.v -- layer L3 (defined as L3' = Bf /\ Un below): the output buffers and the wire (for the code as it is:
   p_unlocked = false, every flush runs under outbuf_lock).
   Transport: wire ++ pending = produced with the segment discarded by handle_close cut out
              (nothing duplicated, lost, reordered between the buffers and the wire)
   Production: produced = the units in order; the response units are the executed requests in
   order; every response unit but the one being written is complete. *)
From Coq Require Import List Arith Bool ZArith Lia.
From WV Require Import Model.ChanPipe Proof.ChanPipeBase Proof.ChanPipeOwn Proof.ChanPipeLog.
Import ListNotations.

Lemma concat_hd : forall (A : Type) (l : list (list A)), l <> [] -> concat l = hd [] l ++ concat (tl l).
Proof. destruct l; simpl; intros; congruence. Qed.

Lemma skipn_app_le : forall (A : Type) n (a b : list A), n <= length a -> skipn n (a ++ b) = skipn n a ++ b.
Proof.
  intros A n a b H. rewrite skipn_app. replace (n - length a) with 0 by lia. reflexivity.
Qed.

Lemma firstn_skipn_app : forall (A : Type) n (a b : list A), n <= length a ->
  firstn n a ++ skipn n (a ++ b) = a ++ b.
Proof. intros. rewrite skipn_app_le by auto. rewrite app_assoc, firstn_skipn. reflexivity. Qed.

Lemma concat_set_hd : forall (l : list (list tok)) x, l <> [] -> concat (set_hd l x) = x ++ concat (tl l).
Proof. destruct l; simpl; intros; congruence. Qed.

Lemma app_last_cons2 : forall (b b' : list tok) r x, app_last (b :: b' :: r) x = b :: app_last (b' :: r) x.
Proof. reflexivity. Qed.

Lemma concat_app_last : forall (l : list (list tok)) x, concat (app_last l x) = concat l ++ x.
Proof.
  induction l as [|b r IH]; intro x.
  - simpl. rewrite app_nil_r. reflexivity.
  - destruct r as [|b' r'].
    + simpl. rewrite !app_nil_r. reflexivity.
    + rewrite app_last_cons2. cbn [concat]. rewrite IH. cbn [concat]. rewrite <- !app_assoc. reflexivity.
Qed.

Lemma app_last_nonnil : forall (l : list (list tok)) x, app_last l x <> [].
Proof. destruct l as [|b [|b' r]]; simpl; intros; discriminate. Qed.

Lemma concat_snoc_nil : forall (l : list (list tok)), concat (l ++ [[]]) = concat l.
Proof. intro l. rewrite concat_app. simpl. rewrite app_nil_r. reflexivity. Qed.

Lemma concat_map_nil : forall (l : list (list tok)), concat (map (fun _ => @nil tok) l) = [].
Proof. induction l; simpl; auto. Qed.

Lemma length_zero_nil : forall (A : Type) (l : list A), length l = 0 -> l = [].
Proof. destruct l; simpl; intros; auto; discriminate. Qed.

Lemma resp_toks_app : forall id a b, resp_toks id 0 (a + b) = resp_toks id 0 a ++ resp_toks id a b.
Proof. intros. unfold resp_toks. rewrite seq_app, map_app. reflexivity. Qed.

Lemma bump_last : forall id m us n, bump id m (us ++ [UResp id n]) = us ++ [UResp id (n + m)].
Proof.
  induction us as [|u r IH]; intro n; simpl.
  - rewrite Nat.eqb_refl. reflexivity.
  - destruct (r ++ [UResp id n]) eqn:E.
    + destruct r; discriminate.
    + rewrite <- E. rewrite IH. destruct u; reflexivity.
Qed.

Lemma resp_ids_app : forall a b, resp_ids (a ++ b) = resp_ids a ++ resp_ids b.
Proof. intros. unfold resp_ids. rewrite flat_map_app. reflexivity. Qed.

Definition FlInv (s : shared) (f : flst) : Prop :=
  match fpc f with
  | FlLoad => infl s = 0
  | FlGet => infl s = 0 /\ f_olen f = length (hd [] (obs s))
  | FlSend => infl s = 0 /\ f_olen f = length (hd [] (obs s)) /\ f_chunk f = hd [] (obs s)
  | FlSkip => infl s = f_n f /\ f_olen f = length (hd [] (obs s)) /\ f_n f <= length (hd [] (obs s))
  | FlTotR | FlTotW => infl s = 0 /\ f_olen f = length (hd [] (obs s))
  | FlLen => infl s = 0 /\ hd [] (obs s) = []
  | FlPop => infl s = 0 /\ hd [] (obs s) = [] /\ 1 < length (obs s)
  end.

(* what the client has received plus what is pending *)
Definition tr_l (s : shared) : list tok := wire s ++ skipn (infl s) (concat (obs s)).

Definition transport (s : shared) : Prop :=
  tr_l s = kept s /\
  discarded s = firstn (length (discarded s)) (skipn (cut s) (produced s)).

(* the fields a flush step does not touch *)
Definition same_rest (s s' : shared) : Prop :=
  produced s' = produced s /\ discarded s' = discarded s /\ cut s' = cut s.

Lemma FlInv_fl0 : forall s, infl s = 0 -> FlInv s fl0.
Proof. intros. unfold FlInv. simpl. auto. Qed.

Lemma fl_step_ok : forall s f e s' r l,
  fl_step s f e = Some (s', r, l) ->
  obs s <> [] -> FlInv s f ->
  obs s' <> [] /\ tr_l s' = tr_l s /\ same_rest s s' /\
  match r with FCont f' => FlInv s' f' | FDone _ => infl s' = 0 | FExc => False end.
Proof.
  intros s f e s' r l Hs Hne HI. unfold fl_step in Hs. unfold FlInv in HI. unfold tr_l in *.
  destruct f as [pc olen chunk n tmp sent]. cbn [fpc f_olen f_chunk f_n f_tmp f_sent] in *.
  destruct pc.
  - (* FlLoad *)
    destruct (obs s) as [|b rest] eqn:Eo; [congruence|].
    inv_some Hs. repeat split; auto; try congruence.
    destruct (Nat.ltb 0 (length b)) eqn:El; unfold FlInv; cbn [fpc f_olen f_chunk f_n]; rewrite ?Eo; cbn [hd]; split; auto.
    apply Nat.ltb_ge in El. apply length_zero_nil. lia.
  - (* FlGet *)
    inv_some Hs. destruct HI as [Hi Ho]. repeat split; auto.
  - (* FlSend *)
    destruct e; try discriminate.
    destruct ((n0 <=? len) && (len <=? length chunk) && ((0 <? len) || (length chunk =? 0)))%bool eqn:Ec; [|discriminate].
    destruct HI as [Hi [Ho Hc]]. subst chunk.
    apply andb_true_iff in Ec. destruct Ec as [Ec _]. apply andb_true_iff in Ec. destruct Ec as [E1 E2].
    apply Nat.leb_le in E1. apply Nat.leb_le in E2.
    assert (Hw : (wire s ++ firstn n0 (hd [] (obs s))) ++ skipn (infl s + n0) (concat (obs s)) =
                 wire s ++ skipn (infl s) (concat (obs s))).
    { rewrite Hi in *. cbn [Nat.add skipn].
      rewrite (concat_hd _ (obs s) Hne). rewrite <- app_assoc. f_equal.
      rewrite firstn_skipn_app by lia. reflexivity. }
    destruct (Nat.eqb n0 0) eqn:E0; inv_some Hs; cbn.
    + apply Nat.eqb_eq in E0. subst n0. repeat split; auto. lia.
    + repeat split; auto. unfold FlInv; cbn. repeat split; auto; try lia. eapply Nat.le_trans; eauto.
  - (* FlSkip *)
    destruct HI as [Hi [Ho Hn]].
    destruct (Nat.ltb (length (hd [] (obs s))) n) eqn:El.
    + apply Nat.ltb_lt in El. lia.
    + injection Hs as Hs1 Hs2 Hs3; subst s' r l. cbn. rewrite Hi. replace (n - n) with 0 by lia.
      assert (Hc : concat (set_hd (obs s) (skipn n (hd [] (obs s)))) = skipn n (concat (obs s))).
      { rewrite concat_set_hd by auto. rewrite (concat_hd _ (obs s) Hne). rewrite skipn_app_le by auto. reflexivity. }
      assert (Hl : length (hd [] (set_hd (obs s) (skipn n (hd [] (obs s))))) = olen - n).
      { destruct (obs s) as [|b rest]; [congruence|]. cbn in *. rewrite skipn_length. lia. }
      assert (Hne' : set_hd (obs s) (skipn n (hd [] (obs s))) <> []) by (destruct (obs s); simpl; discriminate).
      assert (HT' : wire s ++ concat (set_hd (obs s) (skipn n (hd [] (obs s)))) = wire s ++ skipn n (concat (obs s))).
      { rewrite Hc. reflexivity. }
      unfold FlInv; cbn. repeat split; auto.
  - (* FlTotR *)
    inv_some Hs. destruct HI as [Hi Ho]. repeat split; auto.
  - (* FlTotW *)
    inv_some Hs. destruct HI as [Hi Ho]. cbn. repeat split; auto.
    destruct olen as [|olen']; unfold FlInv, fl_set; cbn; split; auto.
    apply length_zero_nil. auto.
  - (* FlLen *)
    destruct HI as [Hi Hh].
    destruct (Nat.ltb 1 (length (obs s))) eqn:El; inv_some Hs; repeat split; auto.
    unfold FlInv, fl_set; cbn. apply Nat.ltb_lt in El. auto.
  - (* FlPop *)
    destruct HI as [Hi [Hh Hl]].
    destruct (obs s) as [|b rest] eqn:Eo; [congruence|].
    inv_some Hs. cbn in *. subst b. unfold FlInv, fl_set; cbn.
    assert (rest <> []) by (destruct rest; simpl in *; [lia|discriminate]).
    repeat split; auto.
Qed.

Definition io_fl (pc : iopc) : option flst :=
  match pc with IoHwFlU f | IoHwFlL f | IoRcSc (ScFl f) => Some f | _ => None end.
Definition wk_fl (pc : wkpc) : option flst :=
  match pc with WWsFl f | WKbSc (ScFl f) => Some f | _ => None end.
Definition io_unl (pc : iopc) : bool := match pc with IoHwFlU _ => true | _ => false end.
Definition is_iosc (pc : iopc) : bool := match pc with IoRcSc _ => true | _ => false end.
Lemma wk_fl_ol : forall pc f, wk_fl pc = Some f -> wk_ol pc = true.
Proof. destruct pc; simpl; try discriminate; auto. destruct sc; simpl; try discriminate; auto. Qed.
Lemma io_fl_touch : forall pc f, io_fl pc = Some f -> io_ol pc = true \/ io_unl pc = true.
Proof. destruct pc; simpl; try discriminate; auto. destruct sc; simpl; try discriminate; auto. Qed.
Definition is_relx (pc : wkpc) : bool := match pc with WWsRelX => true | _ => false end.
(* about to append to the output buffers *)
Definition app_pc (pc : wkpc) : bool := match pc with WWsRot | WWsApp => true | _ => false end.
(* handle_close has emptied the buffers / has released outbuf_lock again *)
Definition io_closed (pc : iopc) : bool :=
  match pc with
  | IoHc h _ => match h with HcAcq | HcBufs => false | _ => true end
  | IoHrWConn | IoDead => true
  | _ => false
  end.
Definition io_after_close (pc : iopc) : bool :=
  match pc with
  | IoHc h _ => match h with HcNotify | HcRel | HcConn2 => true | _ => false end
  | IoHrWConn | IoDead => true
  | _ => false
  end.

(* inside task.service(): between the application call and the return of the last write_soon *)
Definition in_task (pc : wkpc) : bool :=
  match pc with
  | WWsConn | WWsAcq | WWsHw | WWsConn2 | WWsRelX | WWsRot | WWsApp | WWsTotR | WWsTotW _
  | WWsChk | WWsFl _ | WWsExcW | WWsChk2 | WWsTrig | WWsRel => true
  | _ => false
  end.
(* ... and the data of the current write_soon call is in the buffer already *)
Definition appended (pc : wkpc) : bool :=
  match pc with
  | WWsTotR | WWsTotW _ | WWsChk | WWsFl _ | WWsExcW | WWsChk2 | WWsTrig | WWsRel => true
  | _ => false
  end.

(* L3, in two parts.  The buffers: the transport statement and the state of every flush in
   progress.  The units: what was produced, by unit, and where each task stands in its response. *)

Record Bf (st : state) : Prop := {
  o_ne : obs (sh st) <> [];
  o_unl : io_unl (ipc (io st)) = false;
  o_fio : forall f, io_fl (ipc (io st)) = Some f -> FlInv (sh st) f;
  o_fwk : forall j f, wk_fl (wpc (wk st j)) = Some f -> FlInv (sh st) f;
  o_infl : io_fl (ipc (io st)) = None -> (forall j, wk_fl (wpc (wk st j)) = None) -> infl (sh st) = 0;
  o_wire : transport (sh st);
  o_cut : cut (sh st) + length (discarded (sh st)) <= length (produced (sh st));
  o_disc : discarded (sh st) <> [] -> io_closed (ipc (io st)) = true
}.

Section L3.
Variable P : params.

Definition writes (w : wkst) : list nat := r_writes (desc P (w_cur w)).
Definition off_now (w : wkst) : nat := if appended (wpc w) then w_off w + wsize P w else w_off w.
Definition complete (u : unit_) : Prop := match u with UResp id n => n = resp_len P id | UCont _ => True end.

Record Un (st : state) : Prop := {
  o_iosc : is_iosc (ipc (io st)) = true -> requests (sh st) = [];
  o_prod : produced (sh st) = flat_map (utoks P) (units (sh st));
  o_ids : resp_ids (units (sh st)) = execs (sh st);
  o_task : forall j, in_task (wpc (wk st j)) = true ->
           w_idx (wk st j) < length (writes (wk st j)) /\
           w_off (wk st j) = list_sum (firstn (w_idx (wk st j)) (writes (wk st j))) /\
           exists us, units (sh st) = us ++ [UResp (w_cur (wk st j)) (off_now (wk st j))] /\
                      (connected (sh st) = true -> Forall complete us);
  o_done : (forall j, in_task (wpc (wk st j)) = false) -> connected (sh st) = true -> Forall complete (units (sh st));
  o_relx : forall j, is_relx (wpc (wk st j)) = true -> connected (sh st) = false
}.

Definition L3' (st : state) : Prop := Bf st /\ Un st.

Lemma L3_init : L3' init.
Proof.
  split; split; simpl; intros; try discriminate; auto; try congruence.
  unfold transport, tr_l, kept; simpl; auto.
Qed.
End L3.
