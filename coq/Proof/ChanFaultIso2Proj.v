(* Proof/ChanFaultIso2Proj.v -- the projection used by the trace-level isolation theorem.

   [a] is the connection whose socket calls are faulted (or anything else), [b] the
   connection that is observed.
     vis b / view b   what an observer of connection b sees of a trace: every label of b
                      (accept, set-up faults, environment answers, wire bytes, handle_close,
                      buffers closed, map / active_channels deletions, socket.close, the
                      application's actions, its worker's caught exceptions and death) AND
                      every label that belongs to no connection: the loop dying or ending,
                      the listener and the trigger being closed or leaving the map.  Hidden:
                      the labels of the other connection, and [LCaught IO _] (the I/O
                      thread's "a ladder swallowed x", which does not say for whom).
     strip a / proj a the I/O thread's stack with the instructions of a removed and FC a
                      removed from the lists a pending select carries
     tr_ans a         the environment's answer with a removed: select does not report FC a,
                      accept() does not deliver a (it answers EWOULDBLOCK instead)
   and the per-instruction facts about them (all by case analysis over the instruction set). *)
From Coq Require Import List Arith ZArith Bool Lia.
From WV Require Import Lib.Conc Model.ChanFault Proof.ChanFaultSpec Proof.ChanFaultBase Proof.ChanFaultStep
                       Proof.ChanFaultOnce Proof.ChanFaultIso Proof.ChanFaultIso2Cov.
Import ListNotations.

Definition vis (b : chan) (l : label) : bool :=
  match l with
  | LCaught IO _ => false
  | LCaught (W c) _ => chan_eqb b c
  | _ => match label_chan l with Some c => chan_eqb b c | None => true end
  end.
Definition view (b : chan) (ls : list label) : list label := filter (vis b) ls.
Definition hidden (d : chan) (ls : list label) : bool := forallb (fun l => negb (vis d l)) ls.

Lemma view_app : forall b x y, view b (x ++ y) = view b x ++ view b y.
Proof. intros. unfold view. apply filter_app. Qed.

Lemma hidden_view : forall d ls, hidden d ls = true -> view d ls = [].
Proof.
  unfold hidden, view. induction ls as [|l ls IH]; simpl; intro H; auto.
  apply andb_true_iff in H. destruct H as [Hl Hr]. apply negb_true_iff in Hl. rewrite Hl. auto.
Qed.

Lemma hidden_labels_of : forall d ls, hidden d ls = true -> labels_of d ls = [].
Proof.
  unfold hidden, labels_of. induction ls as [|l ls IH]; simpl; intro H; auto.
  apply andb_true_iff in H. destruct H as [Hl Hr]. rewrite IH by auto.
  apply negb_true_iff in Hl. destruct l; simpl in *;
  try match goal with f : fdt |- _ => destruct f; simpl in * end;
  try discriminate; try rewrite Hl; auto.
Qed.

Lemma labels_of_app : forall c x y, labels_of c (x ++ y) = labels_of c x ++ labels_of c y.
Proof. intros. unfold labels_of. apply filter_app. Qed.

Definition isfa (a : chan) (f : fdt) : bool := fdt_eqb f (FC a).
Definition filt (a : chan) (l : list fdt) : list fdt := filter (fun f => negb (isfa a f)) l.
Definition filtp (a : chan) (l : list (fdt * (bool * bool) * (bool * bool))) :=
  filter (fun p => negb (isfa a (fst (fst p)))) l.

Definition strip (a : chan) (i : instr) : instr :=
  match i with
  | ISelect r w e => ISelect (filt a r) (filt a w) (filt a e)
  | ISelWait r w e => ISelWait (filt a r) (filt a w) (filt a e)
  | _ => i
  end.
Definition proj (a : chan) (l : list instr) : list instr :=
  map (strip a) (filter (fun i => negb (about a i)) l).

Definition tr_ans (a : chan) (ans : answer) : answer :=
  match ans with
  | ASel r w e => ASel (filt a r) (filt a w) (filt a e)
  | APoll2 l => APoll2 (filtp a l)
  | AAcc (AccConn c) => if chan_eqb c a then AAcc (AccErr EWOULDBLOCK) else ans
  | _ => ans
  end.

Lemma proj_app : forall a p r, proj a (p ++ r) = proj a p ++ proj a r.
Proof. intros. unfold proj. rewrite filter_app, map_app. reflexivity. Qed.

Lemma proj_about_a : forall a p, forallb (about a) p = true -> proj a p = [].
Proof.
  unfold proj. induction p as [|i p IH]; simpl; intro H; auto.
  apply andb_true_iff in H. destruct H as [Hi Hp]. rewrite Hi. simpl. auto.
Qed.

Lemma about_other : forall a b i, a <> b -> about b i = true -> about a i = false.
Proof.
  intros a b i Hab H. apply about_chan_of in H. unfold about. rewrite H. apply neq_eqb. auto.
Qed.

Lemma strip_about : forall a b i, about b i = true -> strip a i = i.
Proof. intros a b i H. destruct i; simpl; auto; discriminate. Qed.

Lemma proj_about_b : forall a b p, a <> b -> forallb (about b) p = true -> proj a p = p.
Proof.
  unfold proj. induction p as [|i p IH]; simpl; intros Hab H; auto.
  apply andb_true_iff in H. destruct H as [Hi Hp]. rewrite (about_other a b i Hab Hi). simpl.
  rewrite (strip_about a b i Hi), IH by auto. reflexivity.
Qed.

Lemma proj_cons_a : forall a i r, about a i = true -> proj a (i :: r) = proj a r.
Proof. intros. unfold proj. simpl. rewrite H. reflexivity. Qed.
Lemma proj_cons_na : forall a i r, about a i = false -> proj a (i :: r) = strip a i :: proj a r.
Proof. intros. unfold proj. simpl. rewrite H. reflexivity. Qed.

Lemma is_frame_strip : forall a i, is_frame (strip a i) = is_frame i.
Proof. destruct i; reflexivity. Qed.

(* unwinding commutes with the projection when the part that is unwound belongs to b *)
Lemma prot_drop_proj : forall a b os l, a <> b -> prot os b l = true ->
  exists k rest, drop_to_frame l = k :: rest /\ drop_to_frame (proj a l) = k :: proj a rest /\
    about b k = true /\ (catcher os k = true \/ prot os b rest = true).
Proof.
  intros a b os l Hab. induction l as [|i r IH]; simpl; intro H; [discriminate|].
  apply andb_true_iff in H. destruct H as [Hi H].
  rewrite (proj_cons_na a i r (about_other a b i Hab Hi)), (strip_about a b i Hi). simpl.
  destruct (is_frame i) eqn:F.
  - exists i, r. repeat split; auto. apply orb_true_iff in H. auto.
  - assert (Hc : catcher os i = false).
    { destruct (catcher os i) eqn:E; auto. apply catcher_frame in E. congruence. }
    rewrite Hc in H. simpl in H. auto.
Qed.

Lemma mem_fd_filt : forall a f l, mem_fd f (filt a l) = mem_fd f l && negb (isfa a f).
Proof.
  intros a f l. unfold mem_fd, filt. induction l as [|x l IH]; simpl; auto.
  destruct (isfa a x) eqn:Ex; simpl.
  - rewrite IH. destruct (fdt_eqb f x) eqn:Ef; simpl; auto.
    assert (f = x) by (destruct f as [| |[|]], x as [| |[|]]; simpl in Ef; congruence).
    subst. rewrite Ex. simpl. rewrite andb_false_r. reflexivity.
  - rewrite IH. destruct (fdt_eqb f x) eqn:Ef; simpl; auto.
    assert (f = x) by (destruct f as [| |[|]], x as [| |[|]]; simpl in Ef; congruence).
    subst. rewrite Ex. reflexivity.
Qed.

Lemma subset_filt : forall a x y, subset_fd x y = true -> subset_fd (filt a x) (filt a y) = true.
Proof.
  intros a x y. unfold subset_fd. induction x as [|f x IH]; simpl; intro H; auto.
  apply andb_true_iff in H. destruct H as [Hf Hx].
  destruct (isfa a f) eqn:Ef; simpl; auto.
  rewrite mem_fd_filt, Hf, Ef, IH by auto. reflexivity.
Qed.

Lemma forallb_filter : forall (A : Type) (p q : A -> bool) l, forallb p l = true -> forallb p (filter q l) = true.
Proof.
  induction l as [|x l IH]; simpl; intro H; auto. apply andb_true_iff in H. destruct H as [Hx Hl].
  destruct (q x); simpl; auto. rewrite Hx. auto.
Qed.

Lemma filt_app : forall a x y, filt a (x ++ y) = filt a x ++ filt a y.
Proof. intros. unfold filt. apply filter_app. Qed.

Lemma about_disp : forall a k f, about a (IDisp k f) = isfa a f.
Proof. intros a k f. unfold about, isfa. destruct f as [| |c]; simpl; auto. destruct a, c; reflexivity. Qed.

Lemma proj_map_disp : forall a k l, proj a (map (IDisp k) l) = map (IDisp k) (filt a l).
Proof.
  intros a k l. unfold proj, filt. induction l as [|f l IH]; simpl; auto.
  rewrite about_disp. destruct (isfa a f); simpl; auto. rewrite IH. reflexivity.
Qed.

Lemma proj_map_p2 : forall a l, proj a (map p2_instr l) = map p2_instr (filtp a l).
Proof.
  intros a l. unfold proj, filtp. induction l as [|p l IH]; simpl; auto.
  destruct p as [[f [rd wr]] [pri hup]]. simpl.
  replace (about a (IDisp2 f rd wr pri hup)) with (isfa a f)
    by (unfold about, isfa; destruct f as [| |c]; simpl; auto; destruct a, c; reflexivity).
  destruct (isfa a f); simpl; auto. rewrite IH. reflexivity.
Qed.

Lemma p2_ok_filt : forall a r w e l, p2_ok r w e l = true -> p2_ok (filt a r) (filt a w) (filt a e) (filtp a l) = true.
Proof.
  intros a r w e l. unfold p2_ok, filtp. induction l as [|p l IH]; simpl; intro H; auto.
  apply andb_true_iff in H. destruct H as [Hp Hl].
  destruct p as [[f [rd wr]] [pri hup]]. simpl. destruct (isfa a f) eqn:Ef; simpl; auto.
  rewrite IH by auto. rewrite andb_true_r.
  unfold p2_entry_ok in *. rewrite !mem_fd_filt, Ef. simpl. rewrite !andb_true_r. exact Hp.
Qed.

Lemma does_hidden : forall g t r k a s c d, chan_of k = Some c -> d <> c -> t <> W d ->
  match does g t r k a s with
  | None => True
  | Some m => hidden d (m_ls m) = true
  end.
Proof.
  intros g t r k a s c d Hc Hd Ht. pose proof (neq_eqb c d Hd) as Hn.
  assert (Hv : forall x, vis d (LCaught t x) = false).
  { intro x. destruct t as [|tc]; simpl; auto. apply neq_eqb. congruence. }
  destruct r as [x|]; [destruct (is_frame k) eqn:F; [|rewrite (does_nonframe g t x k a s F); reflexivity]|];
  unfold does; destruct k; try discriminate F; try discriminate Hc; simpl in Hc;
  try match goal with f : fdt |- _ => destruct f as [| |cc]; try discriminate Hc end;
  injection Hc as ->;
  try match goal with k : evk |- _ => destruct k end;
  cbn [frame exec]; repeat split_innermost; auto;
  unfold hidden; cbn [m_ls forallb]; rewrite ?Hv; simpl; rewrite ?Hn; reflexivity.
Qed.
