(* No output buffer of a channel grows without bound (the reason write_soon rotates to a fresh
   OverflowableBuffer once current_outbuf_count reaches outbuf_high_watermark): over Model/ChanOut.v,
   for every history of writes of at most W bytes each, file hand-overs and flushes, and every socket
   behaviour, every OverflowableBuffer in self.outbufs holds at most
       max(outbuf_high_watermark - 1, 0) + W
   bytes, the writable last one at most current_outbuf_count, and current_outbuf_count itself stays
   within that bound.  (ReadOnlyFileBasedBuffer elements are files of the application, not memory of
   the server; the bound on the TOTAL backlog is the interleaving property C12_bound: it needs the
   producer to wait.) *)
From Coq Require Import List NArith ZArith Bool Lia ZifyBool Arith.
From WV Require Import Lib.PyBytes Model.Buffers Spec.Fifo Proof.Buffers Proof.BuffersRefine Proof.BuffersRo
  Model.ChanOut Proof.ChanOut.
Import ListNotations.
Local Open Scope Z_scope.

Definition bnd (c : cfg) (W : Z) : Z := Z.max (c_high_watermark c - 1) 0 + W.

Definition ob_bounded (B : Z) (b : outbuf) : Prop := is_ob b = true -> q_len (babs b) <= B.

Definition last_le (ch : chan) : Prop :=
  forall l b, outbufs ch = l ++ [b] -> q_len (babs b) <= current_outbuf_count ch.

Definition binv (c : cfg) (W : Z) (ch : chan) : Prop :=
  cinv ch /\ Forall (ob_bounded (bnd c W)) (outbufs ch) /\
  0 <= current_outbuf_count ch <= bnd c W /\ last_le ch.

Lemma q_len_nonneg (q : list N) : 0 <= q_len q.
Proof. unfold q_len. lia. Qed.

Lemma binv_new c W : 0 <= W -> binv c W chan_new.
Proof.
  intro HW. split; [apply cinv_new|]. split; [|split].
  - constructor; [|constructor]. intros _. cbn. unfold bnd. lia.
  - cbn. unfold bnd. lia.
  - intros l b E. cbn in E. destruct l as [|x l]; [|destruct l; discriminate].
    injection E as <-. cbn. lia.
Qed.

Lemma write_bytes_bound c W ch data : 0 <= W -> lenZ data <= W -> binv c W ch ->
  exists ch', write_bytes_buf c ch data = (ch', Done) /\ binv c W ch'.
Proof.
  intros HW Hd (Hi & Hf & Hc & Hl).
  destruct (write_bytes_spec c ch data Hi) as (ch' & E & Hi' & _).
  exists ch'. split; [exact E|]. split; [exact Hi'|].
  destruct (write_bytes_shape c ch data Hi) as (l & o & o' & El & _ & H3 & E'). cbv zeta in El, E'.
  rewrite E' in E. injection E as <-. cbn [outbufs current_outbuf_count].
  (* the buffer written to held at most the (possibly reset) count, which is below the watermark *)
  set (cur := if current_outbuf_count ch >=? c_high_watermark c then 0 else current_outbuf_count ch) in *.
  assert (K : Forall (ob_bounded (bnd c W)) l /\ q_len (abs o) <= cur /\
              0 <= cur <= Z.max (c_high_watermark c - 1) 0).
  { unfold cur. destruct (current_outbuf_count ch >=? c_high_watermark c) eqn:Erot.
    - apply app_inj_tail in El as (<- & Eo). injection Eo as <-. split; [exact Hf|]. cbn. lia.
    - rewrite El in Hf. apply Forall_app in Hf as [Hf1 _]. split; [exact Hf1|].
      split; [exact (Hl l (OB o) El) | lia]. }
  destruct K as (Hf1 & Ho & Hcur).
  assert (Hnew : q_len (abs o') <= cur + lenZ data).
  { rewrite H3, q_len_app. unfold q_len at 2. unfold lenZ. lia. }
  split; [|split].
  - apply Forall_app; split; [exact Hf1|]. constructor; [|constructor].
    intros _. cbn [babs]. unfold bnd. lia.
  - unfold bnd, lenZ in *. lia.
  - intros l2 b Eb. apply app_inj_tail in Eb as [_ <-]. exact Hnew.
Qed.

Lemma write_file_bound c W ch rb : 0 <= W -> bok (RO rb) -> binv c W ch -> binv c W (write_file_buf ch rb).
Proof.
  intros HW Hb (Hi & Hf & Hc & Hl).
  destruct (write_file_spec ch rb Hi Hb) as (Hi' & _).
  split; [exact Hi'|]. unfold write_file_buf. cbn [outbufs current_outbuf_count]. split; [|split].
  - apply Forall_app; split; [exact Hf|]. constructor; [intro X; discriminate X|].
    constructor; [|constructor]. intros _. cbn. unfold bnd. lia.
  - unfold bnd. lia.
  - intros l b Eb. change [RO rb; OB o_new] with ([RO rb] ++ [OB o_new]) in Eb. rewrite app_assoc in Eb.
    apply app_inj_tail in Eb as [_ <-]. cbn. lia.
Qed.

Lemma flush_bound c W ch ans : cfg_ok c -> binv c W ch -> binv c W (f_chan (flush_some c ch ans)).
Proof.
  intros Hc (Hi & Hf & Hcnt & Hl).
  destruct (flush_some_spec c ch ans Hc Hi) as [_ S2 _ _ _ _ _ S8 (pre & b0 & b & rest & E & E' & Hle & Hk)].
  rewrite E in Hf. apply Forall_app in Hf as (_ & Hf). inversion Hf as [|? ? Hb0 Hrest]; subst.
  split; [exact S2|]. rewrite S8, E'. split; [|split; [exact Hcnt|]].
  - constructor; [|exact Hrest]. intro Hob. rewrite Hk in Hob. specialize (Hb0 Hob). lia.
  - (* the last buffer is the shortened head, or was the last one before *)
    intros l2 x E2. rewrite E' in E2. rewrite S8. destruct rest as [|y r].
    + destruct l2 as [|z [|z' l2]]; cbn in E2; try discriminate E2. injection E2 as <-.
      specialize (Hl pre b0 E). lia.
    + destruct l2 as [|z l2]; [discriminate|]. injection E2 as _ E2.
      apply (Hl (pre ++ b0 :: l2) x). rewrite E, E2, <- app_assoc. reflexivity.
Qed.

(* send_continue appends without looking at the watermark: the bound is stated for histories of
   writes, hand-overs and flushes (an interim response adds 25 bytes to whatever the last buffer holds) *)
Definition cop_small (W : Z) (p : cop) : Prop :=
  match p with CWrite (WBytes data) _ => lenZ data <= W | CContinue _ => False | _ => True end.

Lemma cstep_bound c W ch p : cfg_ok c -> 0 <= W -> binv c W ch -> cop_ok p -> cop_small W p ->
  binv c W (fst (cstep c ch p)).
Proof.
  intros Hc HW Hb Hp Hs. destruct p as [d ans | ans | ans]; cbn [cstep fst]; [| |now elim Hs].
  - unfold write_soon. destruct (w_truthy d); cbn [negb]; [|exact Hb].
    assert (Hw : exists ch1, (match d with
                              | WBytes data => write_bytes_buf c ch data
                              | WFile rb => (write_file_buf ch rb, Done)
                              end) = (ch1, Done) /\ binv c W ch1).
    { destruct d as [data | rb].
      - apply write_bytes_bound; auto.
      - eexists; split; [reflexivity|]. apply write_file_bound; auto. }
    destruct Hw as (ch1 & -> & Hb1).
    destruct (total_outbufs_len ch1 >=? c_send_bytes c); cbn [w_chan]; [|exact Hb1].
    apply flush_bound; auto.
  - apply flush_bound; auto.
Qed.

Theorem out_buffers_bounded c W ps : cfg_ok c -> 0 <= W -> Forall cop_ok ps -> Forall (cop_small W) ps ->
  forall ch, binv c W ch -> binv c W (fst (crun c ch ps)).
Proof.
  intros Hc HW. induction ps as [|p ps IH]; intros Hok Hsm ch Hb; cbn [crun]; [exact Hb|].
  inversion Hok as [|? ? Ho1 Ho2]; subst. inversion Hsm as [|? ? Hs1 Hs2]; subst.
  pose proof (cstep_bound c W ch p Hc HW Hb Ho1 Hs1) as Hstep.
  destruct (cstep c ch p) as [ch1 o]. cbn [fst] in Hstep.
  specialize (IH Ho2 Hs2 ch1 Hstep).
  destruct (crun c ch1 ps) as [ch2 w]. exact IH.
Qed.

Corollary out_buffers_bounded_new c W ps : cfg_ok c -> 0 <= W -> Forall cop_ok ps -> Forall (cop_small W) ps ->
  let ch := fst (crun c chan_new ps) in
  Forall (ob_bounded (bnd c W)) (outbufs ch) /\ 0 <= current_outbuf_count ch <= bnd c W.
Proof.
  intros Hc HW Hok Hsm. destruct (out_buffers_bounded c W ps Hc HW Hok Hsm chan_new (binv_new c W HW)) as (_ & H1 & H2 & _).
  auto.
Qed.

(* the bound is attained: high watermark 4, writes of 3 bytes: a buffer of 3 + 3 = 6 bytes *)
Example bound_attained :
  let r := fst (crun ex_cfg chan_new [CWrite (WBytes [1;2;3]%N) []; CWrite (WBytes [4;5;6]%N) []]) in
  map (fun b => q_len (babs b)) (outbufs r) = [6] /\ bnd ex_cfg 3 = 6.
Proof. vm_compute. split; reflexivity. Qed.
