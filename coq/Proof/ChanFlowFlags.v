(* Proof/ChanFlowFlags.v -- L2: connected / closed / in_map.  The outbufs are closed
   (closed_bufs, ghost) only by handle_close under outbuf_lock; connected is
   False from the next step on; total_outbufs_len never becomes positive again. *)
From Coq Require Import List ZArith Bool Arith Lia.
From WV Require Import Lib.Conc Model.ChanFlow Proof.ChanFlow.
Import ListNotations.
Local Open Scope Z_scope.

Definition hc_after (pc : iopc) : bool :=
  match pc with IoHcConn _ | IoHcNotify _ | IoHcRel _ | IoHcClose _ | IoEof => true | _ => false end.
Definition is_hcconn (pc : iopc) : bool := match pc with IoHcConn _ => true | _ => false end.
Definition is_wadd (pc : wpc) : bool := match pc with WAdd _ => true | _ => false end.

Definition hc_mid (pc : iopc) : bool :=
  match pc with IoHcConn _ | IoHcNotify _ | IoHcRel _ | IoHcClose _ => true | _ => false end.
(* program points the I/O thread can only be at while the outbufs are open *)
Definition io_pre (pc : iopc) : bool :=
  match pc with
  | IoRd1 | IoRd2 | IoRd3 | IoRd4 | IoWr1 _ | IoWr2 _ | IoWr3 _ | IoRecv _
  | IoRcvAcq _ | IoRcvWc _ | IoRcvCwf _ | IoRcvApp _ | IoRcvRel _
  | IoHw1 | IoHw2 | IoHw2b | IoTry | IoFlush | IoSubL _ | IoRelX | IoHwExn => true
  | IoSel r w => r || w
  | _ => false
  end.

Definition L2 (s : state) : Prop :=
  (closed_bufs s = false -> connected s = true /\ in_map s = true /\ sock_closed s = false)
  /\ (hc_after (io s) = true -> closed_bufs s = true)
  /\ (closed_bufs s = true -> connected s = true -> is_hcconn (io s) = true)
  /\ (in_map s = false -> connected s = false /\ sock_closed s = true)
  /\ (sock_closed s = true -> in_map s = false)
  /\ (closed_bufs s = true -> total s <= 0 /\ is_wadd (wk s) = false)
  /\ (closed_bufs s = true -> in_map s = true -> hc_mid (io s) = true)
  /\ (io_pre (io s) = true -> closed_bufs s = false)
  /\ match wk s with WSub _ k => 0 <= k | _ => True end.

Lemma L2_init : L2 init.
Proof. unfold L2, init; cbn; repeat split; intros; try discriminate; lia. Qed.

Lemma not_holds_not_wadd pc : w_holds pc = false -> is_wadd pc = false.
Proof. destruct pc; cbn; congruence. Qed.

Lemma hcconn_holds pc : is_hcconn pc = true -> io_holds pc = true.
Proof. destruct pc; cbn; congruence. Qed.

(* In the steps, what is not the hypothesis again ([frame]) is: the way back to readable() and the
   subtraction, where the outbufs are open because the I/O thread is not inside handle_close;
   handle_close itself (IoHcTot needs that no append is in flight: the I/O thread holds the lock);
   and an append by the worker, which holds the lock and has seen connected = true, so the
   outbufs are open ([open_if_connected]). *)
Lemma open_if_connected s : L2 s -> connected s = true -> io_holds (io s) = false -> closed_bufs s = false.
Proof.
  intros (_ & _ & H3 & _) C F. destruct (closed_bufs s); trivial.
  rewrite (hcconn_holds _ (H3 eq_refl C)) in F. discriminate F.
Qed.

Lemma L2_step_io p s r res s' l : L0 s -> L2 s -> step_io p s r res = Some (s', l) -> L2 s'.
Proof.
  intros H0 (H1 & H2 & H3 & H4 & H5 & H6 & H7 & H8 & H9) E. unfold step_io in E.
  destruct (io s) eqn:Eio; unf.
  all: split_ifs E; try discriminate E; injection E as <- <-.
  all: wake_cases s; try rewrite Ew in *.
  all: unfold L2; frame s.
  (* By cases on closed_bufs, from the conjuncts of L2 as they are: IoWr1-3, IoSel keep [io_pre];
     IoSel and IoHw7 back at IoRd1 are in the map and outside handle_close, IoSubL is at an [io_pre]
     point, so the outbufs are open; IoHcTot, IoHcConn, IoHcClose, IoEof are past IoHcTot, so they are
     closed, and the flags they write are the ones L2 asks for. *)
  all: first [at_pc (IoWr1 _) | at_pc (IoWr2 _) | at_pc (IoWr3 _) | at_pc (IoSel _ _) | at_pc (IoSubL _) | at_pc IoHw7
             | at_pc (IoHcTot _) | at_pc (IoHcConn _) | at_pc (IoHcClose _) | at_pc IoEof];
    cbn in *; b2p; subst; rewrite ?orb_true_r in *; destruct (closed_bufs s) eqn:C;
    try solve [intuition (try discriminate; try lia)].
  (* IoHcTot closes the outbufs: no append is in flight, since the I/O thread holds the lock *)
  all: at_pc (IoHcTot _); intros _; split; [lia | apply not_holds_not_wadd, (L0_w_out s H0); rewrite Eio; reflexivity].
Qed.

Lemma L2_step_w p s r s' l : L0 s -> L2 s -> step_w p s r = Some (s', l) -> L2 s'.
Proof.
  intros H0 H E. assert (HL2 := H). destruct H as (H1 & H2 & H3 & H4 & H5 & H6 & H7 & H8 & H9). unfold step_w in E.
  destruct (wk s) eqn:Ewk; unf.
  all: split_ifs E; try discriminate E; injection E as <- <-.
  all: unfold L2; frame s.
  (* By cases on closed_bufs: WFlush sends k >= 1 bytes; WSub lowers the counter by k >= 0; at WAdd
     the outbufs are open (conjunct 6). *)
  all: first [at_pc WWrAcq | at_pc (WFlush _ _) | at_pc (WSub _ _) | at_pc (WAdd _) | at_pc (WFbParked _ _) | at_pc (WFbParkedE _ _)];
    cbn in *; b2p; subst; rewrite ?orb_true_r in *; destruct (closed_bufs s) eqn:C;
    try solve [intuition (try discriminate; try lia)].
  (* an append (reached from WWrAcq, WFlush FW, WSub FW, WFbParked FW, WFbParkedE FW) with closed outbufs *)
  all: first [at_pc WWrAcq | at_pc (WFlush _ _) | at_pc (WSub _ _) | at_pc (WFbParked _ _) | at_pc (WFbParkedE _ _)];
    exfalso; rewrite (open_if_connected s HL2) in C; [discriminate C | assumption | apply (L0_io_out s H0); rewrite Ewk; auto].
Qed.

Lemma L2_step p s c s' l : L0 s -> L2 s -> step p s c = Some (s', l) -> L2 s'.
Proof.
  destruct c as [r res|r|n|a]; cbn [step].
  - apply L2_step_io.
  - apply L2_step_w.
  - intros _ H E. unfold step_tail in E. destruct n as [|[|[|[|[|[|n]]]]]]; try discriminate E; cbv iota in E.
    all: split_ifs E; try discriminate E; injection E as <- <-; exact H.
  - intros _ H E. destruct a; cbn in E; split_ifs E; try discriminate E; injection E as <- <-;
      exact H.
Qed.

Definition L02 (s : state) : Prop := L0 s /\ L2 s.

Theorem L2_all p sched : L2 (run p sched).
Proof.
  assert (H : L02 (run p sched)).
  { unfold run. apply invariant_rule. split. apply L0_init. apply L2_init.
    intros s c s' l [A B] E. split. eapply L0_step; eauto. eapply L2_step; eauto. }
  apply H.
Qed.
