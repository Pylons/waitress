(* urllib.parse.urlsplit as modelled in Model/UrlSplit.v, cut into the stages
   its text goes through, and cut_at without its inner loop. *)
From Coq Require Import List NArith Bool.
From WV Require Import Lib.PyBytes Model.UrlSplit.
Import ListNotations.
Local Open Scope N_scope.

(* the prefix before the first byte satisfying f, and the rest from that byte on *)
Lemma cut_at_spec f s :
  let '(a, b) := cut_at f s in
  a ++ b = s /\ Forall (fun x => f x = false) a /\ b = lstrip_by (fun x => negb (f x)) s.
Proof.
  unfold cut_at.
  set (go := fix go (s acc : bytes) {struct s} : bytes * bytes :=
               match s with
               | [] => (rev acc, [])
               | x :: s' => if f x then (rev acc, s) else go s' (x :: acc)
               end).
  assert (G : forall s acc, exists a, go s acc = (rev acc ++ a, lstrip_by (fun x => negb (f x)) s) /\
                                      a ++ lstrip_by (fun x => negb (f x)) s = s /\
                                      Forall (fun x => f x = false) a).
  { induction s0 as [|x s0 IH]; intro acc; cbn [go lstrip_by].
    - exists []. rewrite app_nil_r. auto.
    - destruct (f x) eqn:E; cbn [negb].
      + exists []. rewrite app_nil_r. auto.
      + destruct (IH (x :: acc)) as (a & -> & Ha & Fa). exists (x :: a). cbn [rev app].
        rewrite <- app_assoc, Ha. auto. }
  destruct (G s []) as (a & -> & Ha & Fa). auto.
Qed.

(* the scheme, lower-cased, and what follows its colon; ([], url) when there is none *)
Definition us_scheme (url2 : bytes) : bytes * bytes :=
  match find url2 [58] with
  | Some (S i') =>
    let i := S i' in
    match url2 with
    | c0 :: _ =>
      if is_alpha c0 && forallb is_scheme_char (firstn i url2)
      then (lower_ascii (firstn i url2), skipn (S i) url2)
      else ([], url2)
    | [] => ([], url2)
    end
  | _ => ([], url2)
  end.

(* after "//": the authority, the rest, and how many of "[" "]" the authority
   contains (1: ValueError, 2: validated by CPython, not modelled) *)
Definition us_netloc (url3 : bytes) : bytes * bytes * N :=
  if startswith url3 [47; 47] then
    let rest := skipn 2 url3 in
    let '(nl, u) := cut_at (fun x => (x =? 47) || (x =? 63) || (x =? 35)) rest in
    let hasl := memb 91 nl in
    let hasr := memb 93 nl in
    (nl, u, if hasl && hasr then 2 else if hasl || hasr then 1 else 0)
  else ([], url3, 0).

(* fragment after the first "#", then query after the first "?" *)
Definition us_tail (scheme netloc url4 : bytes) : usplit :=
  let '(url5, fragment) :=
    match find url4 [35] with
    | Some i => (firstn i url4, skipn (S i) url4)
    | None => (url4, [])
    end in
  let '(path, query) :=
    match find url5 [63] with
    | Some i => (firstn i url5, skipn (S i) url5)
    | None => (url5, [])
    end in
  UOk scheme netloc path query fragment.

Lemma urlsplit_stages url0 :
  urlsplit url0 =
  if existsb (fun x => 128 <=? x) url0 then UUnicodeError else
  let url1 := lstrip_by is_c0_or_space url0 in
  let url2 := filter (fun x => negb ((x =? 9) || (x =? 13) || (x =? 10))) url1 in
  let '(scheme, url3) := us_scheme url2 in
  let '(netloc, url4, bad) := us_netloc url3 in
  if bad =? 1 then UValueError else
  if bad =? 2 then UUnmodelled else
  us_tail scheme netloc url4.
Proof. reflexivity. Qed.
