(* T4a -- where the head ends.  The reference reads lines one at a time and
   stops at the first empty line that follows at least one line; the model
   (Parser.received) searches the first CRLF CRLF (find_double_newline).  Both
   put the end of the head at the same offset and leave the same rest: this is
   the "byte after one message starts the next" half for heads. *)
From Coq Require Import List NArith ZArith Bool Lia Arith.
From WV Require Import Lib.PyBytes Model.Receiver Spec.Ref9112 Proof.C01Lib Proof.C01Body.
Import ListNotations.
Local Open Scope N_scope.

(* the control skeleton of read_head: [e] = "a CRLF here ends the head" *)
Fixpoint scan (fuel : nat) (e : bool) (s : bytes) (n : N) : option (bytes * N) :=
  match fuel with
  | O => None
  | S f =>
    match s with
    | x :: y :: r' =>
      if (x =? 13) && (y =? 10) then (if e then Some (r', n + 2) else scan f true r' (n + 2))
      else scan f false (y :: r') (n + 1)
    | _ => None
    end
  end.

Definition ends_head (cur : bytes) (acc : list bytes) : bool :=
  match cur, acc with [], _ :: _ => true | _, _ => false end.

Lemma read_head_scan : forall fuel s cur acc n, (length s < fuel)%nat ->
  match read_head s cur acc n with
  | Some (_, rest, k) => scan fuel (ends_head cur acc) s n = Some (rest, k)
  | None => scan fuel (ends_head cur acc) s n = None
  end.
Proof.
  induction fuel as [|f IH]; intros s cur acc n Hl; [lia|].
  destruct s as [|x [|y r']]; cbn [read_head scan]; auto.
  destruct ((x =? 13) && (y =? 10)).
  - destruct cur as [|c cur'].
    + destruct acc as [|a acc']; cbn [ends_head].
      * apply (IH r' [] [rev []] (n + 2)). cbn [length] in Hl. lia.
      * reflexivity.
    + cbn [ends_head]. apply (IH r' [] (rev (c :: cur') :: acc) (n + 2)). cbn [length] in Hl. lia.
  - apply (IH (y :: r') (x :: cur) acc (n + 1)). cbn [length] in *. lia.
Qed.

Lemma scan_true fuel s n : (length s < fuel)%nat ->
  scan (S fuel) true s n =
  if startswith s CRLF then Some (skipn 2 s, n + 2) else scan (S fuel) false s n.
Proof.
  intro Hl. rewrite startswith_crlf. destruct s as [|x [|y r']]; cbn [scan]; auto.
  destruct ((x =? 13) && (y =? 10)); reflexivity.
Qed.

Lemma scan_fuel : forall f1 f2 e s n, (length s < f1)%nat -> (length s < f2)%nat ->
  scan f1 e s n = scan f2 e s n.
Proof.
  induction f1 as [|f1 IH]; intros f2 e s n H1 H2; [lia|]. destruct f2 as [|f2]; [lia|].
  destruct s as [|x [|y r']]; cbn [scan]; auto. cbn [length] in *.
  destruct ((x =? 13) && (y =? 10)).
  - destruct e; auto. apply IH; lia.
  - apply IH; cbn [length]; lia.
Qed.

Lemma adc_cons x r n : after_double_crlf (x :: r) n =
  if (x =? 13) && lf_cr_lf r then Some (n + 4) else after_double_crlf r (n + 1).
Proof. reflexivity. Qed.

Lemma adc_ge s n p : after_double_crlf s n = Some p -> n <= p.
Proof.
  rewrite adc_fdn. destruct (find_double_newline s); cbn [option_map]; [|discriminate].
  intro H. injection H as <-. lia.
Qed.

Lemma scan_adc : forall k s n fuel, (length s <= k)%nat -> (length s < fuel)%nat ->
  scan fuel false s n =
  match after_double_crlf s n with
  | Some p => Some (skipn (N.to_nat (p - n)) s, p)
  | None => None
  end.
Proof.
  induction k as [|k IH]; intros s n fuel Hk Hf.
  { destruct s; [|cbn in Hk; lia]. destruct fuel; reflexivity. }
  destruct fuel as [|f]; [lia|].
  destruct s as [|x [|y r']].
  - reflexivity.
  - cbn [scan after_double_crlf lf_cr_lf]. rewrite andb_false_r. reflexivity.
  - cbn [scan]. rewrite adc_cons. cbn [length] in *.
    destruct ((x =? 13) && (y =? 10)) eqn:E.
    + apply andb_true_iff in E as [E1 E2]. rewrite E1, lf_cr_lf_cons, E2. cbn [andb].
      destruct f as [|f']; [lia|]. rewrite scan_true by lia.
      destruct (startswith r' CRLF).
      * f_equal. f_equal; [|lia]. replace (N.to_nat (n + 4 - n)) with 4%nat by lia. reflexivity.
      * rewrite (IH r' (n + 2) (S f')) by lia.
        apply N.eqb_eq in E2. subst y. rewrite adc_cons. cbn [N.eqb Pos.eqb andb].
        replace (n + 1 + 1) with (n + 2) by lia.
        destruct (after_double_crlf r' (n + 2)) as [p|] eqn:A; [|reflexivity]. apply adc_ge in A.
        f_equal. f_equal. replace (N.to_nat (p - n)) with (2 + N.to_nat (p - (n + 2)))%nat by lia. reflexivity.
    + assert (E' : (x =? 13) && lf_cr_lf (y :: r') = false).
      { rewrite lf_cr_lf_cons. destruct (x =? 13), (y =? 10); cbn in *; auto; discriminate. }
      rewrite E'. rewrite (IH (y :: r') (n + 1) f) by (cbn [length]; lia).
      destruct (after_double_crlf (y :: r') (n + 1)) as [p|] eqn:A; [|reflexivity]. apply adc_ge in A.
      f_equal. f_equal. replace (N.to_nat (p - n)) with (S (N.to_nat (p - (n + 1)))) by lia. reflexivity.
Qed.

Theorem head_boundary : forall s,
  match read_head s [] [] 0, find_double_newline s with
  | Some (_, rest, n), Some i => n = N.of_nat i /\ rest = skipn i s
  | None, None => True
  | _, _ => False
  end.
Proof.
  intro s. pose proof (read_head_scan (S (length s)) s [] [] 0 ltac:(lia)) as R.
  cbn [ends_head] in R.
  pose proof (scan_adc (length s) s 0 (S (length s)) ltac:(lia) ltac:(lia)) as A.
  pose proof (adc_fdn s 0) as F.
  destruct (read_head s [] [] 0) as [[[ls rest] n]|]; rewrite R in A.
  - destruct (after_double_crlf s 0) as [p|]; [|discriminate]. injection A as -> ->.
    destruct (find_double_newline s) as [i|]; cbn [option_map] in F; [|discriminate].
    injection F as ->. split; [lia|]. f_equal. lia.
  - destruct (after_double_crlf s 0); [discriminate|].
    destruct (find_double_newline s); cbn [option_map] in F; [discriminate|exact I].
Qed.

Example head_boundary_example :
  read_head [13;10; 71;69;84;32;47;13;10; 72;58;49;13;10; 13;10; 88;89] [] [] 0
  = Some ([[]; [71;69;84;32;47]; [72;58;49]], [88;89], 16).
Proof. reflexivity. Qed.
