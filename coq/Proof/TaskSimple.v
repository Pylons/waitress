(* Plain applications (one start_response, then an iterable of byte chunks)
   and header lists that declare no Content-Length (C03). *)
From Coq Require Import String.
From Coq Require Import List NArith ZArith Bool Lia Arith.
From WV Require Import Lib.PyBytes Gen.GenTables Model.Task Spec.ClientParse
  Proof.TaskBody.
Import ListNotations.
Local Open Scope N_scope.

Definition simple_app (status : str) (hs : list (pyobj * pyobj)) (kind : ikind) (chunks : list bytes) (hc : bool) : app :=
  mkApp [AStart (PStr status) hs None] kind (plain_steps chunks) hc None.

Section Simple.
Variable cap : str -> str.
Variable lower : str -> str.
Variable c : cfg.
Variable r : req.

Definition not_cl (h : pyobj * pyobj) : Prop :=
  match fst h with PStr k => beqb (lower k) (lit "content-length") = false | PNonStr => True end.

Lemma sr_headers_no_cl hs : Forall not_cl hs -> forall t acc,
  t_clen (fst (sr_headers lower t hs acc)) = t_clen t.
Proof.
  induction 1 as [|[k v] hs Hh Hhs IH]; intros t acc; cbn [sr_headers]; auto.
  destruct k as [k|]; auto. destruct v as [v|]; auto.
  destruct (has_crlf v); auto. destruct (has_crlf k); auto.
  destruct (negb (is_token k)); auto.
  unfold not_cl in Hh. cbn [fst] in Hh. rewrite Hh.
  destruct (existsb (beqb (lower k)) hop_by_hop); auto.
Qed.

(* exc_info clears the recorded length together with the headers: stated for calls without it *)
Lemma start_response_no_cl t status hs (exc : option exn) : exc = None -> Forall not_cl hs ->
  t_clen (fst (start_response lower t status hs exc)) = t_clen t.
Proof.
  intros -> H. unfold start_response.
  destruct (t_complete t && _); auto.
  cbn zeta. destruct status as [s|]; auto. destruct (has_crlf s); auto.
  pose proof (sr_headers_no_cl hs H (set_status s (set_complete true t)) []) as F.
  destruct (sr_headers lower _ hs []) as [t4 [l|e]]; cbn [fst] in *; auto.
Qed.

Lemma run_actions_single disc s a :
  run_actions cap lower c r disc s [a] =
  match run_action cap lower c r disc s a with
  | (s1, Exn e) => (s1, Exn e)
  | (s1, Ok _) => (s1, Ok tt)
  end.
Proof. reflexivity. Qed.

Definition len1 (k : ikind) : bool := match k with KSized n => n =? 1 | _ => false end.
Definition is_file (k : ikind) : bool := match k with KFile _ => true | _ => false end.

End Simple.
