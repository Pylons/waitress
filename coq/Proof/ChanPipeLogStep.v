(* Proof/ChanPipeLogStep.v -- layer L2 is preserved by every step.  Six steps write a log, the
   request list or the closing flag, one lemma each, stated on the update the model makes;
   all others go through L2_quiet. *)
From Coq Require Import List Arith Bool ZArith Lia.
From WV Require Import Model.ChanPipe Proof.ChanPipeBase Proof.ChanPipeOwn Proof.ChanPipeLog.
Import ListNotations.

Section Moves.
Variables (s : shared) (i : iost) (w : nat -> wkst).
Hypothesis H1 : L1 {| sh := s; io := i; wk := w |}.
Hypothesis H2 : L2 {| sh := s; io := i; wk := w |}.

(* requests.append inside received(): closing is not set there *)
Lemma L2_append : forall i' x,
  io_app (ipc i) = true -> ia2 (ipc i') = (true, false, false) ->
  L2 {| sh := set_arrivals (set_requests s (requests s ++ [x])) (arrivals s ++ [x]); io := i'; wk := w |}.
Proof.
  intros i' x Hi Hi'. injection Hi' as I1 I2 I3.
  destruct (H2) as [A B C D Ka Kb Kc E1 E2 E3 Cb Sv]. cbn [sh io wk] in *.
  specialize (Kc Hi). assert (Hl : live s) by (left; exact Kc).
  split; unfold live; cbn; rewrite ?I1, ?I2, ?I3; try congruence; auto.
  - intros _. rewrite (A Hl). symmetry. apply app_assoc.
  - intros j X. destruct (C j X) as [Y Z]. split; auto. apply hd_error_app. exact Z.
  - apply prefix_app_r. exact D.
  - intro X. destruct (E2 X) as [Y|[Y _]]; auto. congruence.
Qed.

(* service() reads requests[0]: the owner has not started anything yet *)
Lemma L2_start : forall me x id rest,
  wk_owner (wpc (w me)) = true -> serving (wpc (w me)) = false -> requests s = id :: rest ->
  wa2 (wpc x) = (true, false, false, true) -> w_cur x = id ->
  L2 {| sh := set_starts s (starts s ++ [id]); io := i; wk := upd w me x |}.
Proof.
  intros me x id rest Ho Hns Hreq Hx Hcur. injection Hx as X1 X2 X3 X4.
  destruct (not_started_facts _ me H1 H2 Ho Hns) as (N1 & N2 & N3); [cbn; congruence|].
  pose proof (others_not_serving _ me H1 Ho) as Hoth.
  destruct (H2) as [A B C D Ka Kb Kc E1 E2 E3 Cb Sv]. cbn [sh io wk] in *.
  assert (Hme : forall j, serving (wpc (upd w me x j)) = true -> j = me).
  { intro j. upd_cases j me; auto. rewrite Hoth by auto. discriminate. }
  split; unfold live; cbn; auto.
  - intros _ N. specialize (N me). rewrite upd_same in N. congruence.
  - intros j X. rewrite (Hme j X), upd_same, Hcur, Hreq. split; [congruence | reflexivity].
  - exists rest. rewrite N3, N1, Hreq, <- app_assoc. reflexivity.
  - right. exists id. congruence.
  - intros _. left. exists me. rewrite upd_same. exact X1.
  - intros j X. rewrite (Hme j (execd_serving _ X)), upd_same in X. congruence.
  - intros j X. rewrite (Hme j (is_cb2_serving _ X)), upd_same in X. congruence.
  - intros j X. rewrite (Hme j (is_svconn_serving _ X)), upd_same, Hcur. congruence.
Qed.

(* the application is called *)
Lemma L2_exec : forall me x p u c,
  is_svconn (wpc (w me)) = true -> w_cur (w me) = c ->
  serving (wpc x) = true -> is_cb2 (wpc x) = false -> is_svconn (wpc x) = false -> w_cur x = c ->
  L2 {| sh := set_prod (set_execs s (execs s ++ [c])) p u; io := i; wk := upd w me x |}.
Proof.
  intros me x p u c Hsv <- X1 X3 X4 Hcur.
  pose proof (is_svconn_serving _ Hsv) as Hme.
  pose proof (others_not_serving _ me H1 (serving_owner _ Hme)) as Hoth.
  destruct (H2) as [A B C D Ka Kb Kc E1 E2 E3 Cb Sv]. cbn [sh io wk] in *.
  specialize (Sv me Hsv).
  assert (Hsame : forall j, serving (wpc (upd w me x j)) = serving (wpc (w j))) by (intro j; upd_cases j me; congruence).
  split; unfold live; cbn; auto.
  - intros L N. apply B; auto. intro j. rewrite <- Hsame. apply N.
  - intros j X. rewrite Hsame in X. upd_cases j me; [rewrite Hcur|]; auto.
  - intro X. contradiction.
  - intro j. upd_cases j me; [congruence | apply Cb].
  - intros j X. exfalso. revert X. upd_cases j me; [congruence|].
    intro X. apply is_svconn_serving in X. rewrite Hoth in X by auto. discriminate.
Qed.

(* the close branch sets close_when_flushed; the I/O thread is not inside received() *)
Lemma L2_closing : forall me x,
  serving (wpc (w me)) = true -> io_app (ipc i) = false ->
  wa2 (wpc x) = (true, false, true, false) -> w_cur x = w_cur (w me) ->
  L2 {| sh := set_closing (set_cwf s true) true; io := i; wk := upd w me x |}.
Proof.
  intros me x Hme Hio Hx Hcur. injection Hx as X1 X2 X3 X4.
  destruct (H2) as [A B C D Ka Kb Kc E1 E2 E3 Cb Sv]. cbn [sh io wk] in *.
  assert (Hsame : forall j, serving (wpc (upd w me x j)) = serving (wpc (w j))) by (intro j; upd_cases j me; congruence).
  split; unfold live; cbn; rewrite ?Hio; auto; try discriminate.
  - intros [X|X]; [discriminate | apply A; right; exact X].
  - intros _ N. specialize (N me). rewrite Hsame in N. congruence.
  - intros j X. rewrite Hsame in X. upd_cases j me; [rewrite Hcur|]; auto.
  - intros _. left. exists me. rewrite Hsame. exact Hme.
  - intro j. upd_cases j me; [congruence | apply E3].
  - intro j. upd_cases j me; [congruence | apply Sv].
Qed.

(* ... and clears the request list *)
Lemma L2_clear : forall me x,
  is_cb2 (wpc (w me)) = true -> wa2 (wpc x) = (false, false, false, false) ->
  L2 {| sh := set_requests s []; io := i; wk := upd w me x |}.
Proof.
  intros me x Hcb Hx. injection Hx as X1 X2 X3 X4.
  pose proof (is_cb2_serving _ Hcb) as Hme.
  pose proof (others_not_serving _ me H1 (serving_owner _ Hme)) as Hoth.
  destruct (H2) as [A B C D Ka Kb Kc E1 E2 E3 Cb Sv]. cbn [sh io wk] in *.
  specialize (Cb me Hcb).
  assert (Hno : forall j, serving (wpc (upd w me x j)) = false) by (intro j; upd_cases j me; auto).
  split; unfold live; cbn; auto.
  - intros [Y|Y]; congruence.
  - intros [Y|Y]; congruence.
  - intros j Y. rewrite Hno in Y. discriminate.
  - intros j X. apply execd_serving in X. rewrite Hno in X. discriminate.
  - intros j X. apply is_svconn_serving in X. rewrite Hno in X. discriminate.
Qed.

(* the keep branch pops the request that was served *)
Lemma L2_pop : forall me x,
  execd (wpc (w me)) = true -> wa2 (wpc x) = (false, false, false, false) ->
  L2 {| sh := set_popped (set_requests s (tl (requests s))) (popped s ++ firstn 1 (requests s));
        io := i; wk := upd w me x |}.
Proof.
  intros me x Hex Hx. injection Hx as X1 X2 X3 X4.
  pose proof (execd_serving _ Hex) as Hme.
  pose proof (others_not_serving _ me H1 (serving_owner _ Hme)) as Hoth.
  destruct (H2) as [A B C D Ka Kb Kc E1 E2 E3 Cb Sv]. cbn [sh io wk] in *.
  destruct (C me Hme) as [S1 S2]. apply hd_error_cons in S2. specialize (E3 me Hex).
  assert (Hno : forall j, serving (wpc (upd w me x j)) = false) by (intro j; upd_cases j me; auto).
  assert (Hp : popped s ++ firstn 1 (requests s) = popped s ++ [w_cur (w me)]) by (rewrite S2; reflexivity).
  split; unfold live; cbn [sh io wk requests popped arrivals starts execs closing cwf will_close set_popped set_requests];
    rewrite ?Hp; auto.
  - intros _. rewrite <- app_assoc. cbn. rewrite <- S2. apply A. right. rewrite S2. discriminate.
  - intros j X. rewrite Hno in X. discriminate.
  - intro X. contradiction.
  - intro j. upd_cases j me; [congruence | apply Cb].
  - intro j. upd_cases j me; [congruence | apply Sv].
Qed.

End Moves.

Section Step.
Variable P : params.

(* L2_quiet with the side conditions computed; the clauses about the closing flags are those of
   the old state, or hold because will_close has just been set or is about to be, or are left *)
Ltac wk_same := repeat split; first [ reflexivity | let X := fresh in intro X; first [ exact X | discriminate X ] ].
Ltac quiet HL2 wk :=
  apply (L2_quiet _ _) with (11 := HL2); cbn;
  [ reflexivity | reflexivity | reflexivity | reflexivity | reflexivity | reflexivity
  | first [ exact (l2_ka _ HL2) | intro; right; left; reflexivity | intro; right; right; reflexivity | idtac ]
  | first [ exact (l2_kb _ HL2) | let X := fresh in intro X; discriminate X | idtac ]
  | first [ exact (l2_kc _ HL2) | let X := fresh in intro X; discriminate X | idtac ]
  | let j := fresh "j" in intro j; wk j; wk_same ].
Ltac quiet2_io HL2 := quiet HL2 ltac:(fun j => idtac).
Ltac quiet2_wk HL2 me Hw :=
  quiet HL2 ltac:(fun j => unfold upd; destruct (Nat.eqb_spec j me); [subst j; rewrite Hw; cbn|]).

Theorem L2_step : forall st c st' l, L0 st -> L1 st -> L2 st -> step P st c = Some (st', l) -> L2 st'.
Proof.
  intros st c st' l HL0 HL1 HL2 Hs. destruct c as [e | me e].
  - step_io Hs; fl_out; cbn [sh io wk ipc] in *.
    all: try solve [quiet2_io HL2].
    all: pose proof (l2_ka _ HL2) as Ka; pose proof (l2_kb _ HL2) as Kb; pose proof (l2_kc _ HL2) as Kc; cbn in Ka, Kb, Kc.
    + (* IoRcWc, will_close unset: by Ka closing implies close_when_flushed *)
      quiet2_io HL2. intros _ X. destruct (Ka X) as [Y|[Y|Y]]; [exact Y | congruence | discriminate].
    + (* IoRcCwf, close_when_flushed unset: by Kb not closing *)
      quiet2_io HL2. intros _. destruct (closing s') eqn:X; auto. rewrite Kb in *; auto; discriminate.
    + (* IoRcApp2 *) apply (L2_append _ _ _ HL2); reflexivity.
  - pose proof (lock_ok_excl _ _ _ _ TIo (TW me) (l0_r _ HL0)) as Hrl. cbn in Hrl.
    step_wk Hs; fl_out; cbn [sh io wk ipc] in *.
    all: try solve [quiet2_wk HL2 me Hw].
    + (* WSvReq *) eapply (L2_start _ _ _ HL1 HL2 me); try eassumption; rewrite ?Hw; reflexivity.
    + (* WSvWc -> write_soon *) apply (L2_exec _ _ _ HL1 HL2 me); rewrite ?Hw; reflexivity.
    + (* WSvWc -> close branch *) apply (L2_exec _ _ _ HL1 HL2 me); rewrite ?Hw; reflexivity.
    + (* WSvWc -> keep branch *) apply (L2_exec _ _ _ HL1 HL2 me); rewrite ?Hw; reflexivity.
    + (* WCbCwf; requests_lock keeps the I/O thread out of received() *)
      apply (L2_closing _ _ _ HL2 me); try (rewrite ?Hw; reflexivity).
      destruct (io_app (ipc i)) eqn:X; auto. apply io_app_rl in X. discriminate (Hrl X eq_refl).
    + (* WCbClr *) apply (L2_clear _ _ _ HL1 HL2 me); rewrite ?Hw; reflexivity.
    + (* WKbPop *) apply (L2_pop _ _ _ HL1 HL2 me); rewrite ?Hw; reflexivity.
Qed.
End Step.
