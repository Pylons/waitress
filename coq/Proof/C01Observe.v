(* The goal statement of C01 over the channel model, and what is known about
   it.  [observe] reads the model of HTTPChannel.received (Model/ChanSeq.v) the
   way the search reads the real channel: the queued requests in order, each a
   delivered message or a refusal, cut after the first refusal and after the
   first message after which the task layer closes; then whether an
   unfinished message is pending. *)
From Coq Require Import List NArith ZArith Bool Lia.
From WV Require Import Lib.PyBytes Lib.Regex Model.Receiver Model.Parser Model.ChanSeq Spec.Ref9112.
From WV Require Import Proof.C01Lib Proof.C01Framing Proof.C01Close Proof.C01Body.
Import ListNotations.
Local Open Scope N_scope.

Inductive obs :=
| ODeliver (method target version : bytes) (dict : list (bytes * bytes)) (body : bytes) (close : bool)
| ORefuse (code : N)
| OIncomplete.

Definition ref_view (o : ref_outcome) : obs :=
  match o with
  | Deliver m c => ODeliver (m_method m) (m_target m) (m_version m) (delivered_view m) (m_body m) c
  | Refuse code => ORefuse code
  | Incomplete => OIncomplete
  end.

Definition obs_of_parser (p : parser) : obs :=
  match error p with
  | Some e => ORefuse (perr_code e)
  | None =>
    ODeliver (command p) (request_uri p) (version p) (headers p)
             (match body p with Some b => body_bytes b | None => [] end)
             (model_close (version p) (hget_default (headers p) s_CONNECTION []) (connection_close p))
  end.

Definition closes (o : obs) : bool :=
  match o with ODeliver _ _ _ _ _ c => c | ORefuse _ => true | OIncomplete => true end.

Fixpoint cut (l : list obs) : list obs * bool :=
  match l with
  | [] => ([], false)
  | o :: r => if closes o then ([o], true) else let '(r', c) := cut r in (o :: r', c)
  end.

Definition pending (c : chan) : list obs :=
  match request c with
  | Some r => if negb (completed r) && (nonempty (header_plus r) || headers_finished r) then [OIncomplete] else []
  | None => []
  end.

Definition observe (r : chan_res) : option (list obs) :=
  match r with
  | COk c => let '(l, closed) := cut (map obs_of_parser (requests c)) in
             Some (if closed then l else l ++ pending c)
  | _ => None
  end.

Definition cfg_of (a : adj) : cfg :=
  {| max_header := max_request_header_size a; max_body := max_request_body_size a;
     tol_reqline_ws := true; tol_limit_first := true |}.

(* the deviation that the code still shows: trailers are not validated (F10) *)
Definition all_devs : devs := {| dv_trailer := true |}.

(* the goal statement of C01; false of the code as it is (F10), see Props/C01.v *)
Definition C01_full : Prop :=
  forall a s, bytes_ok s ->
  observe (feed a chan_init [s]) = Some (map ref_view (ref_run (cfg_of a) s)).

(* the same statement with the named deviations switched on: what the code is
   conjectured (and tested by K-chanseq + the search) to satisfy today *)
Definition C01_full_dev : Prop :=
  forall a s, bytes_ok s ->
  observe (feed a chan_init [s]) = Some (map ref_view (ref_run_dev (cfg_of a) all_devs s)).

Definition adj0 : adj :=
  {| max_request_header_size := 262144; max_request_body_size := 1073741824; adj_url_scheme := [104;116;116;112] |}.

(* "POST /a HTTP/1.1\r\nTransfer-Encoding: chunked\r\n\r\n0\r\nfoo\r\n\r\n"  (F10) *)
Definition f10_stream : bytes :=
  [80;79;83;84;32;47;97;32;72;84;84;80;47;49;46;49;13;10;
   84;114;97;110;115;102;101;114;45;69;110;99;111;100;105;110;103;58;32;99;104;117;110;107;101;100;13;10;13;10]
  ++ f10_body.

(* non-vacuity of the goal statement: a pipeline of a chunked POST with
   extension and trailer, a Content-Length PUT and a partial third message *)
Definition example_stream : bytes :=
  (* POST /a HTTP/1.1\r\nHost: h\r\nTransfer-Encoding: Chunked\r\n\r\n3;x=y\r\nabc\r\n0\r\nT: 1\r\n\r\n *)
  [80;79;83;84;32;47;97;32;72;84;84;80;47;49;46;49;13;10; 72;111;115;116;58;32;104;13;10;
   84;114;97;110;115;102;101;114;45;69;110;99;111;100;105;110;103;58;32;67;104;117;110;107;101;100;13;10;13;10;
   51;59;120;61;121;13;10;97;98;99;13;10;48;13;10;84;58;32;49;13;10;13;10]
  (* PUT /b HTTP/1.1\r\nContent-Length: 2\r\nX-A: 1\r\nx-a: 2\r\n\r\nhi *)
  ++ [80;85;84;32;47;98;32;72;84;84;80;47;49;46;49;13;10;
      67;111;110;116;101;110;116;45;76;101;110;103;116;104;58;32;50;13;10;
      88;45;65;58;32;49;13;10;120;45;97;58;32;50;13;10;13;10;104;105]
  (* GET / *)
  ++ [71;69;84;32;47].

Example C01_full_example :
  observe (feed adj0 chan_init [example_stream])
  = Some (map ref_view (ref_run (cfg_of adj0) example_stream))
  /\ length (ref_run (cfg_of adj0) example_stream) = 3%nat.
Proof. split; vm_compute; reflexivity. Qed.
