(* Proof/DispatcherInv.v -- the inductive invariant of Model/Dispatcher.v.
   Four groups, each preserved by every step:
     InvA  structure: threads = live workers, waiter list = workers at WWait,
           lock held iff shutdown is in its cancel loop, xwait iff SdWaiting
     InvB  counting: stop/notify protocol, requested count, active_count
     InvC  ledger: queue = [taken, next), per-task class/counters
     InvD  the snapshot taken by shutdown is cancelled task by task *)
From Coq Require Import List Arith ZArith Bool Lia.
From WV Require Import Model.Dispatcher Spec.Pool Proof.DispatcherLib.
Import ListNotations.

Record InvA (s : state) : Prop := {
  A_ths : map fst (workers s) = threads s;
  A_nodup : NoDup (threads s);
  A_qw_nodup : NoDup (qwait s);
  A_qw : forall w, In w (qwait s) <-> In (w, WWait) (workers s);
  A_lock1 : sd s = SdCancel -> lock s = Some OShutdown;
  A_lock2 : sd s <> SdCancel -> lock s = None;
  A_xw : xwait s = true <-> sd s = SdWaiting
}.

Lemma nodup_ws : forall s, InvA s -> NoDup (map fst (workers s)).
Proof. intros s H. rewrite (A_ths s H). apply (A_nodup s H). Qed.

(* The cases of a step and of the shutdown thread's section, under fixed names.
   step_inv: k Hf Ha (submit) | n Hf Hr (resize) | w pc Hf Hin Hpc Hw (work) | w k t Hf Hin Ha
   (follow) | w t r Hin (finish) | cp s1 ls Hf Hsd Hr (shutdown is called) | e Hs (shutdown
   thread); in the finish and call cases s' is replaced by its value.
   sd_inv: ls Hsd Hl Hc (leave the wait loop, to the cancel loop | returning false) | Hsd Hl
   (wait) | Hsd (timeout) | t q Hsd Eq (cancel one) | Hsd Eq (return true). *)
Ltac step_inv IA H :=
  destruct (step_cases _ _ _ _ (nodup_ws _ IA) H)
    as [k Hf Ha | n Hf Hr | w pc Hf Hin Hpc Hw | w k t Hf Hin Ha | w t r Hin -> _ | cp s1 ls Hf Hsd Hr -> _ | e Hs].
Ltac sd_inv H :=
  destruct (do_sd_cases _ _ _ _ H) as [ls Hsd Hl Hc _ | ls Hsd Hl Hc _ | Hsd Hl | Hsd | t q Hsd Eq | Hsd Eq].

Lemma unlocked : forall s, InvA s -> lock s = None -> sd s <> SdCancel.
Proof. intros s IA Hf Hc. apply (A_lock1 s IA) in Hc. congruence. Qed.

Lemma not_waiting : forall s w pc, InvA s -> In (w, pc) (workers s) -> pc <> WWait -> ~ In w (qwait s).
Proof.
  intros s w pc I Hin Hpc. rewrite (A_qw s I). intro Hc. apply Hpc.
  eapply In_unique; eauto. apply nodup_ws; auto.
Qed.

Lemma notify_A : forall k s s' l, InvA s -> notify_case k s s' l -> InvA s'.
Proof.
  intros k s s' l I [Eq | w En]; auto.
  destruct I as [Ths Nd Qnd Qw L1 L2 Xw]. constructor; simpl; auto.
  - rewrite map_fst_set_pc; auto.
  - apply NoDup_remove_nth; auto.
  - intros v. rewrite (In_remove_nth (qwait s) k w v Qnd En), In_set_pc, Qw. split.
    + intros [Hne Hin]. right; auto.
    + intros [[_ [Hd _]]|[Hne Hin]]; [discriminate|auto].
Qed.

Lemma add_state_A : forall s, InvA s -> InvA (add_state s).
Proof. intros s I. destruct I as [Ths Nd Qnd Qw L1 L2 Xw]. constructor; simpl; auto. Qed.

Lemma do_add_A : forall b k s s' l, InvA s -> do_add b k s = Some (s', l) -> InvA s'.
Proof.
  intros b k s s' l I H. destruct (do_add_cases _ _ _ _ _ H) as [l2 [N _]].
  eapply notify_A; [apply add_state_A|]; eauto.
Qed.

Lemma do_resize_A : forall n s s' l, InvA s -> do_resize n s = (s', l) -> InvA s'.
Proof.
  intros n s s' l I H.
  destruct (do_resize_cases _ _ _ _ (A_nodup s I) H) as [new Hnd Hlen | Hlt | Heq];
    destruct I as [Ths Nd Qnd Qw L1 L2 Xw]; constructor; simpl; auto.
  - rewrite map_app, map_map. simpl. rewrite map_id. congruence.
  - intros w. rewrite Qw, in_app_iff. split; auto.
    intros [Hin|Hin]; auto. apply in_map_iff in Hin. destruct Hin as [x [Hx _]]. discriminate.
  - rewrite map_fst_wake_all; auto.
  - constructor.
  - intros w. split; [tauto|]. intros Hw. apply wake_all_no_wait in Hw. tauto.
Qed.

Lemma do_work_A : forall w pc s s' l,
  InvA s -> In (w, pc) (workers s) -> pc <> WWait -> lock s = None ->
  do_work w pc s = Some (s', l) -> InvA s'.
Proof.
  intros w pc s s' l I Hin Hpc Hfree H.
  pose proof (not_waiting s w pc I Hin Hpc) as Hnw.
  assert (Hne : forall v, In v (qwait s) -> v <> w) by (intros v Hv E; subst; auto).
  destruct (do_work_cases _ _ _ _ _ H) as [Eq Est | t q Eq Est | st Est];
    destruct I as [Ths Nd Qnd Qw L1 L2 Xw]; constructor; simpl; auto.
  - (* park: A_ths *) rewrite map_fst_set_pc; auto.
  - (* park: A_qw_nodup *) apply NoDup_snoc; auto.
  - (* park: A_qw *) intros v. rewrite in_app_iff, In_set_pc, <- Qw. simpl. split.
    + intros [Hv|[Hv|[]]]; [right; auto|]. subst. left. repeat split; auto. eapply In_fst; eauto.
    + intros [[Hv _]|[Hne' Hv]]; subst; auto.
  - (* pop: A_ths *) rewrite map_fst_set_pc; auto.
  - (* pop: A_qw *) intros v. rewrite In_set_pc, <- Qw. split.
    + intros Hv. right. auto.
    + intros [[_ [Hd _]]|[_ Hv]]; [discriminate|auto].
  - (* exit: A_ths *) rewrite map_fst_del_w. congruence.
  - (* exit: A_nodup *) apply NoDup_filter; auto.
  - (* exit: A_qw *) intros v. rewrite In_del_w, <- Qw. split; [auto|tauto].
  - (* exit: A_lock1, the shutdown thread is woken or stays where it is *) destruct (xwait s); [discriminate|auto].
  - (* exit: A_xw *) split; [discriminate|]. destruct (xwait s) eqn:Ex; [discriminate|].
    intros Hs. apply Xw in Hs. discriminate.
Qed.

Lemma finish_A : forall w t s, InvA s -> In (w, WRun t) (workers s) -> InvA (finish_state w t s).
Proof.
  intros w t s I Hin.
  assert (Hnw : ~ In w (qwait s)) by (eapply not_waiting; eauto; discriminate).
  destruct I as [Ths Nd Qnd Qw L1 L2 Xw]. constructor; simpl; auto.
  - rewrite map_fst_set_pc; auto.
  - intros v. rewrite In_set_pc, <- Qw. split.
    + intros Hv. right. split; auto. intro; subst; auto.
    + intros [[_ [Hd _]]|[_ Hv]]; [discriminate|auto].
Qed.

Lemma do_sd_A : forall e s s' l, InvA s -> do_sd e s = Some (s', l) -> InvA s'.
Proof.
  intros e s s' l I H.
  (* the four cases that only set sd / lock / xwait leave lock and xwait goals about constants;
     the cancel loop touches the queue, and its end the waiters *)
  sd_inv H;
    destruct I as [Ths Nd Qnd Qw L1 L2 Xw]; constructor; simpl; auto; try discriminate; try (split; discriminate); try tauto.
  - (* timeout: A_lock2 *) intros _. apply L2. congruence.
  - (* one cancel: A_xw *) rewrite Xw, Hsd. split; discriminate.
  - (* return true: A_ths *) rewrite map_fst_wake_all; auto.
  - (* return true: A_qw_nodup *) constructor.
  - (* return true: A_qw *) intros w. split; [tauto|]. intros Hw. apply wake_all_no_wait in Hw. tauto.
  - (* return true: A_xw *) rewrite Xw, Hsd. split; discriminate.
Qed.

Theorem step_A : forall s c s' l, InvA s -> step s c = Some (s', l) -> InvA s'.
Proof.
  intros s c s' l I H.
  step_inv I H.
  - eapply do_add_A; eauto.
  - eapply do_resize_A; eauto.
  - eapply do_work_A; eauto. destruct Hpc; subst; discriminate.
  - eapply do_add_A; eauto.
  - apply finish_A; auto.
  - destruct (do_resize_frame _ _ _ _ (A_nodup s I) Hr) as [F1 _]. rewrite Hsd in F1.
    destruct (do_resize_A _ _ _ _ I Hr) as [Ths Nd Qnd Qw L1 L2 Xw].
    constructor; simpl; auto; try discriminate.
    + intros _. apply L2. congruence.
    + rewrite Xw, F1. split; discriminate.
  - eapply do_sd_A; eauto.
Qed.

Record InvB (s : state) : Prop := {
  B_stop : stop_count s > 0 -> qwait s = [];
  B_wake : qwait s <> [] -> length (queue s) <= cnt is_notified (workers s);
  B_req : length (threads s) = requested s + stop_count s;
  B_act : active_count s = Z.of_nat (cnt is_active (workers s))
}.

(* the task appended to the queue is paid for by the waiter that notify wakes *)
Lemma do_add_B : forall b k s s' l, InvA s -> InvB s -> do_add b k s = Some (s', l) -> InvB s'.
Proof.
  intros b k s s' l IA IB H. destruct IB as [Stop Wake Req Act].
  destruct (do_add_cases _ _ _ _ _ H) as [l2 [[Eq | w En] _]]; simpl in *.
  - constructor; simpl; auto. congruence.
  - assert (Hw : In (w, WWait) (workers s)).
    { apply (A_qw s IA). eapply nth_error_In; eauto. }
    pose proof (cnt_set_pc is_notified w WNotified WWait (workers s) (nodup_ws s IA) Hw) as C1.
    pose proof (cnt_set_pc is_active w WNotified WWait (workers s) (nodup_ws s IA) Hw) as C2.
    simpl in C1, C2.
    assert (Hne : qwait s <> []) by (intro E; rewrite E in En; destruct k; discriminate).
    constructor; simpl; auto.
    + intros Hs. apply Stop in Hs. congruence.
    + intros _. rewrite app_length. simpl. specialize (Wake Hne). lia.
    + rewrite Act. f_equal. lia.
Qed.

Lemma do_resize_B : forall n s s' l, InvA s -> InvB s -> do_resize n s = (s', l) -> InvB s'.
Proof.
  intros n s s' l IA IB H. destruct IB as [Stop Wake Req Act].
  destruct (do_resize_cases _ _ _ _ (A_nodup s IA) H) as [new Hnd Hlen | Hlt | Heq];
    constructor; simpl; auto; try lia.
  - intros Hq. rewrite cnt_app, cnt_new. simpl. specialize (Wake Hq). lia.
  - rewrite app_length. lia.
  - rewrite cnt_app, cnt_new. simpl. rewrite Act, Nat2Z.inj_add. reflexivity.
  - intros Hc. congruence.
  - rewrite cnt_wake_all_active. auto.
Qed.

Lemma do_work_B : forall w pc s s' l,
  InvA s -> InvB s -> In (w, pc) (workers s) -> pc = WAcq \/ pc = WNotified ->
  do_work w pc s = Some (s', l) -> InvB s'.
Proof.
  intros w pc s s' l IA IB Hin Hpc H. destruct IB as [Stop Wake Req Act].
  pose proof (nodup_ws s IA) as Hnd.
  assert (Ha : act_of pc s = (active_count s + Z.of_nat (b2n (is_notified pc)))%Z)
    by (destruct Hpc; subst pc; simpl; lia).
  assert (Hb : b2n (is_active pc) + b2n (is_notified pc) = 1) by (destruct Hpc; subst pc; auto).
  destruct (do_work_cases _ _ _ _ _ H) as [Eq Est | t q Eq Est | st Est]; constructor; simpl; try lia.
  - (* park *) intros _. rewrite Eq. simpl. lia.
  - pose proof (cnt_set_pc is_active w WWait pc (workers s) Hnd Hin) as C. simpl in C. lia.
  - (* pop *) intros Hq. specialize (Wake Hq). rewrite Eq in Wake. simpl in Wake.
    pose proof (cnt_set_pc is_notified w (WRun t) pc (workers s) Hnd Hin) as C. simpl in C. lia.
  - pose proof (cnt_set_pc is_active w (WRun t) pc (workers s) Hnd Hin) as C. simpl in C. lia.
  - (* exit *) intros _. apply Stop. lia.
  - intros Hc. rewrite Stop in Hc by lia. congruence.
  - assert (Hth : In w (threads s)) by (rewrite <- (A_ths s IA); eapply In_fst; eauto).
    pose proof (discard_length w (threads s) (A_nodup s IA) Hth). lia.
  - pose proof (cnt_del_w is_active w pc (workers s) Hnd Hin) as C. lia.
Qed.

Lemma finish_B : forall w t s, InvA s -> InvB s -> In (w, WRun t) (workers s) -> InvB (finish_state w t s).
Proof.
  intros w t s IA IB Hin. destruct IB as [Stop Wake Req Act].
  pose proof (cnt_set_pc is_active w WAcq (WRun t) (workers s) (nodup_ws s IA) Hin) as C2.
  pose proof (cnt_set_pc is_notified w WAcq (WRun t) (workers s) (nodup_ws s IA) Hin) as C1.
  simpl in C1, C2. constructor; simpl; auto.
  - intros Hq. specialize (Wake Hq). lia.
  - rewrite Act. f_equal. lia.
Qed.

Lemma do_sd_B : forall e s s' l, InvB s -> do_sd e s = Some (s', l) -> InvB s'.
Proof.
  intros e s s' l I H. destruct I as [Stop Wake Req Act].
  sd_inv H;
    constructor; simpl; auto.
  - intros Hq. specialize (Wake Hq). rewrite Eq in Wake. simpl in Wake. lia.
  - intros Hc. congruence.
  - rewrite cnt_wake_all_active. auto.
Qed.

Theorem step_B : forall s c s' l, InvA s -> InvB s -> step s c = Some (s', l) -> InvB s'.
Proof.
  intros s c s' l IA IB H.
  step_inv IA H.
  - eapply do_add_B; eauto.
  - eapply do_resize_B; eauto.
  - eapply do_work_B; eauto.
  - eapply do_add_B; eauto.
  - apply finish_B; auto.
  - destruct (do_resize_B _ _ _ _ IA IB Hr). constructor; simpl; auto.
  - eapply do_sd_B; eauto.
Qed.

Definition led_ok_at (led : list tinfo) (tk : nat) (ws : list (nat * wpc)) (t : task) : Prop :=
  let i := nth t led ti0 in
  match ti_st i with
  | Queued => tk <= t /\ ti_svc i = 0 /\ ti_cnc i = 0
  | Running w => t < tk /\ In (w, WRun t) ws /\ ti_svc i = 1 /\ ti_cnc i = 0
  | Done => t < tk /\ ti_svc i = 1 /\ ti_cnc i = 0
  | Cancelled => t < tk /\ ti_svc i = 0 /\ ti_cnc i = 1
  end.

Definition led_ok (s : state) (t : task) : Prop := led_ok_at (ledger s) (taken s) (workers s) t.

Record InvC (s : state) : Prop := {
  C_taken : taken s <= length (ledger s);
  C_queue : queue s = seq (taken s) (length (ledger s) - taken s);
  C_led : forall t, t < length (ledger s) -> led_ok s t;
  C_run : forall w t, In (w, WRun t) (workers s) ->
            t < length (ledger s) /\ ti_st (info s t) = Running w
}.

(* group C reads the workers only through who runs what *)
Definition same_runs (ws ws' : list (nat * wpc)) : Prop :=
  forall v t, In (v, WRun t) ws <-> In (v, WRun t) ws'.

Lemma same_runs_refl : forall ws, same_runs ws ws.
Proof. intros ws v t. tauto. Qed.

Lemma same_runs_set_pc : forall ws w old pc,
  NoDup (map fst ws) -> In (w, old) ws -> (forall t, old <> WRun t) -> (forall t, pc <> WRun t) ->
  same_runs ws (set_pc w pc ws).
Proof.
  intros ws w old pc Hnd Hin Ho Hp v t. rewrite In_set_pc. split.
  - intros Hv. right. split; auto. intro; subst v.
    apply (Ho t). eapply In_unique; eauto.
  - intros [[_ [Hd _]]|[_ Hv]]; auto. exfalso. eapply Hp; eauto.
Qed.

Lemma same_runs_del_w : forall ws w old,
  NoDup (map fst ws) -> In (w, old) ws -> (forall t, old <> WRun t) -> same_runs ws (del_w w ws).
Proof.
  intros ws w old Hnd Hin Ho v t. rewrite In_del_w. split.
  - intros Hv. split; auto. intro; subst v. apply (Ho t). eapply In_unique; eauto.
  - tauto.
Qed.

Lemma same_runs_wake_all : forall ws, same_runs ws (wake_all ws).
Proof.
  intros ws v t. rewrite In_wake_all. split.
  - intros Hv. right. split; auto. discriminate.
  - intros [[Hd _]|[_ Hv]]; auto. discriminate.
Qed.

Lemma same_runs_new : forall ws (new : list nat), same_runs ws (ws ++ map (fun x => (x, WAcq)) new).
Proof.
  intros ws new v t. rewrite in_app_iff. split; auto.
  intros [Hv|Hv]; auto. apply in_map_iff in Hv. destruct Hv as [x [Hx _]]. discriminate.
Qed.

Lemma InvC_frame : forall s s',
  InvC s -> ledger s' = ledger s -> taken s' = taken s -> queue s' = queue s ->
  same_runs (workers s) (workers s') -> InvC s'.
Proof.
  intros s s' I Hl Ht Hq Hr. destruct I as [Tk Q Led Run].
  constructor; unfold led_ok, info in *; rewrite ?Hl, ?Ht, ?Hq; auto.
  - intros t Hlt. specialize (Led t Hlt). unfold led_ok_at in *.
    destruct (ti_st (nth t (ledger s) ti0)); auto.
    destruct Led as [H1 [H2 H3]]. split; auto. split; auto. apply Hr; auto.
  - intros w t Hin. apply Hr in Hin. auto.
Qed.

Lemma notify_runs : forall k s s' l, InvA s -> notify_case k s s' l ->
  same_runs (workers s) (workers s').
Proof.
  intros k s s' l IA [Eq | w En]; simpl; [apply same_runs_refl|].
  apply same_runs_set_pc with (old := WWait); try discriminate.
  - apply nodup_ws; auto.
  - apply (A_qw s IA). eapply nth_error_In; eauto.
Qed.

Lemma add_state_C : forall s, InvC s -> InvC (add_state s).
Proof.
  intros s I. destruct I as [Tk Q Led Run]. constructor; unfold led_ok, info in *; simpl.
  - rewrite app_length. simpl. lia.
  - rewrite app_length. simpl.
    replace (length (ledger s) + 1 - taken s) with (S (length (ledger s) - taken s)) by lia.
    rewrite seq_S, <- Q. f_equal. f_equal. lia.
  - intros t Hlt. rewrite app_length in Hlt. simpl in Hlt.
    unfold led_ok_at. destruct (Nat.eq_dec t (length (ledger s))) as [E|E].
    + subst t. rewrite app_nth2; [|lia]. rewrite Nat.sub_diag. simpl. repeat split; auto.
    + assert (Hlt' : t < length (ledger s)) by lia. rewrite app_nth1; auto.
      apply (Led t Hlt').
  - intros w t Hin. destruct (Run w t Hin) as [H1 H2]. rewrite app_length. simpl.
    split; [lia|]. rewrite app_nth1; auto.
Qed.

Lemma do_add_C : forall b k s s' l, InvA s -> InvC s -> do_add b k s = Some (s', l) -> InvC s'.
Proof.
  intros b k s s' l IA IC H. destruct (do_add_frame _ _ _ _ _ H) as [F1 [F2 [F3 _]]].
  destruct (do_add_cases _ _ _ _ _ H) as [l2 [N _]].
  apply (InvC_frame (add_state s) s'); auto. apply add_state_C; auto.
  eapply notify_runs; eauto. apply add_state_A; auto.
Qed.

Lemma do_resize_C : forall n s s' l, InvA s -> InvC s -> do_resize n s = (s', l) -> InvC s'.
Proof.
  intros n s s' l IA IC H.
  destruct (do_resize_frame _ _ _ _ (A_nodup s IA) H) as [_ [F4 [F5 [F6 _]]]].
  eapply InvC_frame; eauto.
  destruct (do_resize_cases _ _ _ _ (A_nodup s IA) H); simpl;
    [apply same_runs_new | apply same_runs_wake_all | apply same_runs_refl].
Qed.

Lemma queue_head_taken : forall s t q, InvC s -> queue s = t :: q ->
  t = taken s /\ t < length (ledger s) /\ q = seq (S t) (length (ledger s) - S t).
Proof.
  intros s t q IC Hq. rewrite (C_queue s IC) in Hq.
  destruct (length (ledger s) - taken s) as [|n] eqn:E; simpl in Hq; inv Hq.
  repeat split; [lia|]. f_equal. lia.
Qed.

Lemma queue_head_queued : forall s t q, InvC s -> queue s = t :: q ->
  ti_st (info s t) = Queued /\ ti_svc (info s t) = 0 /\ ti_cnc (info s t) = 0.
Proof.
  intros s t q IC Hq. destruct (queue_head_taken s t q IC Hq) as [Et [Hlt _]].
  pose proof (C_led s IC t Hlt) as Led. unfold led_ok, led_ok_at, info in *.
  destruct (ti_st (nth t (ledger s) ti0)); try (destruct Led; lia). tauto.
Qed.

(* removing the head t of the queue: its ledger entry changes from Queued to a
   class that is correct for a taken task, the workers change from ws to ws' *)
Lemma take_head_C : forall s s' t q (f : tinfo -> tinfo),
  InvC s -> queue s = t :: q ->
  queue s' = q -> ledger s' = upd t f (ledger s) -> taken s' = S (taken s) ->
  (forall i led, ti_st i = Queued -> ti_svc i = 0 -> ti_cnc i = 0 -> nth t led ti0 = f i ->
     led_ok_at led (S t) (workers s') t) ->
  (forall v u, u <> t -> In (v, WRun u) (workers s) -> In (v, WRun u) (workers s')) ->
  (forall v u, In (v, WRun u) (workers s') ->
      (u = t /\ ti_st (f (info s t)) = Running v) \/ In (v, WRun u) (workers s)) ->
  InvC s'.
Proof.
  intros s s' t q f I Hq Hq' Hl' Ht' Hnew Hkeep Hback.
  destruct (queue_head_taken s t q I Hq) as [Et [Hlt Eq]].
  destruct (queue_head_queued s t q I Hq) as [O1 [O2 O3]]. destruct I as [Tk Q Led Run].
  constructor; unfold led_ok, info in *; rewrite ?Hq', ?Hl', ?Ht'; rewrite ?upd_length.
  - lia.
  - rewrite Eq, <- Et. reflexivity.
  - intros u Hu. destruct (Nat.eq_dec u t) as [E|E].
    + subst u. rewrite <- Et. apply (Hnew _ _ O1 O2 O3). apply upd_nth_same; auto.
    + specialize (Led u Hu). unfold led_ok_at in *. rewrite upd_nth_other; auto.
      destruct (ti_st (nth u (ledger s) ti0)).
      * destruct Led as [H1 H2]. split; auto. lia.
      * destruct Led as [H1 [H2 H3]]. split; [lia|]. split; auto.
      * destruct Led as [H1 H2]. split; auto.
      * destruct Led as [H1 H2]. split; auto.
  - intros v u Hin. apply Hback in Hin. destruct Hin as [[Eu Hr]|Hin].
    + subst u. split; auto. rewrite upd_nth_same; auto.
    + destruct (Run v u Hin) as [H1 H2]. split; auto.
      rewrite upd_nth_other; auto. intro; subst u. congruence.
Qed.

Lemma do_work_C : forall w pc s s' l,
  InvA s -> InvC s -> In (w, pc) (workers s) -> pc = WAcq \/ pc = WNotified ->
  do_work w pc s = Some (s', l) -> InvC s'.
Proof.
  intros w pc s s' l IA IC Hin Hpc H.
  pose proof (nodup_ws s IA) as Hnd.
  assert (Hnr : forall t, pc <> WRun t) by (intros t; destruct Hpc; subst; discriminate).
  destruct (do_work_cases _ _ _ _ _ H) as [Eq Est | t q Eq Est | st Est].
  - eapply InvC_frame; eauto. simpl. eapply same_runs_set_pc; eauto. discriminate.
  - eapply (take_head_C s _ t q); simpl; eauto; simpl.
    + intros i led I1 I2 I3 E. unfold led_ok_at. rewrite E. simpl. rewrite I2. repeat split; auto.
      apply In_set_pc. left. repeat split; auto. eapply In_fst; eauto.
    + intros v u Hu Hv. apply In_set_pc. right. split; auto.
      intro; subst v. apply (Hnr u). eapply In_unique; eauto.
    + intros v u Hv. apply In_set_pc in Hv. destruct Hv as [[Ev [Eu _]]|[_ Hv]]; auto.
      inv Eu. left. split; auto.
  - eapply InvC_frame; eauto. simpl. eapply same_runs_del_w; eauto.
Qed.

Lemma finish_C : forall w t s, InvA s -> InvC s -> In (w, WRun t) (workers s) -> InvC (finish_state w t s).
Proof.
  intros w t s IA IC Hin.
  pose proof (nodup_ws s IA) as Hnd.
  destruct IC as [Tk Q Led Run]. destruct (Run w t Hin) as [Ht Hst].
  pose proof (Led t Ht) as Hok. unfold led_ok, led_ok_at, info in *. rewrite Hst in Hok.
  destruct Hok as [K1 [K2 [K3 K4]]].
  constructor; unfold led_ok, info; simpl; rewrite ?upd_length; auto.
  - intros u Hu. unfold led_ok_at. destruct (Nat.eq_dec u t) as [E|E].
    + subst u. rewrite upd_nth_same; auto. simpl. auto.
    + rewrite upd_nth_other; auto. specialize (Led u Hu).
      destruct (ti_st (nth u (ledger s) ti0)) eqn:Eu; auto.
      destruct Led as [H1 [H2 H3]]. split; auto. split; auto.
      apply In_set_pc. right. split; auto. intro; subst w0.
      assert (WRun u = WRun t) by (eapply In_unique; eauto). congruence.
  - intros v u Hv. apply In_set_pc in Hv. destruct Hv as [[_ [Hd _]]|[Hne Hv]]; [discriminate|].
    destruct (Run v u Hv) as [H1 H2]. split; auto.
    rewrite upd_nth_other; auto. intro; subst u. rewrite Hst in H2. congruence.
Qed.

Lemma do_sd_C : forall e s s' l, InvC s -> do_sd e s = Some (s', l) -> InvC s'.
Proof.
  intros e s s' l I H.
  sd_inv H;
    try (eapply InvC_frame; eauto; apply same_runs_refl).
  - eapply (take_head_C s _ t q); simpl; eauto.
    intros i led I1 I2 I3 E. unfold led_ok_at. rewrite E. simpl. rewrite I3. auto.
  - eapply InvC_frame; eauto. apply same_runs_wake_all.
Qed.

Theorem step_C : forall s c s' l, InvA s -> InvC s -> step s c = Some (s', l) -> InvC s'.
Proof.
  intros s c s' l IA IC H.
  step_inv IA H.
  - eapply do_add_C; eauto.
  - eapply do_resize_C; eauto.
  - eapply do_work_C; eauto.
  - eapply do_add_C; eauto.
  - apply finish_C; auto.
  - eapply InvC_frame; [eapply do_resize_C; eauto|..]; auto. apply same_runs_refl.
  - eapply do_sd_C; eauto.
Qed.

Definition cancelled (s : state) (t : task) : Prop :=
  t < length (ledger s) /\ ti_st (info s t) = Cancelled.

Record InvD (s : state) : Prop := {
  D_cancel : sd s = SdCancel -> forall t, In t (sd_snap s) -> In t (queue s) \/ cancelled s t;
  D_done : sd s = SdDone true -> forall t, In t (sd_snap s) -> cancelled s t
}.

Lemma step_ledger : forall s c s' l, InvA s -> InvC s -> step s c = Some (s', l) ->
  ledger s' = ledger s \/ ledger s' = ledger s ++ [ti0] \/
  exists t f, ledger s' = upd t f (ledger s) /\ ti_st (info s t) <> Cancelled.
Proof.
  intros s c s' l IA IC H.
  assert (Hd : forall t q, queue s = t :: q -> ti_st (info s t) <> Cancelled).
  { intros t q Eq. destruct (queue_head_queued s t q IC Eq) as [E _]. congruence. }
  step_inv IA H.
  - right. left. apply (do_add_frame _ _ _ _ _ Ha).
  - left. apply (do_resize_frame _ _ _ _ (A_nodup s IA) Hr).
  - destruct (do_work_cases _ _ _ _ _ Hw); simpl; eauto 8.
  - right. left. apply (do_add_frame _ _ _ _ _ Ha).
  - right. right. eexists. eexists. split; [reflexivity|]. destruct (C_run s IC w t Hin) as [_ E]. congruence.
  - left. apply (do_resize_frame _ _ _ _ (A_nodup s IA) Hr).
  - destruct (do_sd_cases _ _ _ _ Hs); simpl; eauto 8.
Qed.

Theorem step_cancelled : forall s c s' l t, InvA s -> InvC s -> step s c = Some (s', l) ->
  cancelled s t -> cancelled s' t.
Proof.
  intros s c s' l t IA IC H [H1 H2]. unfold cancelled, info in *.
  destruct (step_ledger s c s' l IA IC H) as [E | [E | [t0 [f [E Hn]]]]]; rewrite E.
  - auto.
  - rewrite app_length, app_nth1; auto. split; auto. lia.
  - rewrite upd_length, upd_nth_other; auto. intro; subst t0. auto.
Qed.

Lemma InvD_frame : forall s s', InvD s -> sd_snap s' = sd_snap s ->
  sd s' = SdAcq \/ (sd s' = sd s /\ (sd s = SdCancel -> queue s' = queue s)) ->
  (forall t, cancelled s t -> cancelled s' t) -> InvD s'.
Proof.
  intros s s' [Dc Dd] Hs Hsd Hst.
  constructor; rewrite Hs; intros E t Hin; destruct Hsd as [Hsd|[Hsd Hq]]; try congruence;
    rewrite Hsd in E.
  - rewrite (Hq E). destruct (Dc E t Hin); auto.
  - auto.
Qed.

Theorem step_D : forall s c s' l, InvA s -> InvC s -> InvD s -> step s c = Some (s', l) -> InvD s'.
Proof.
  intros s c s' l IA IC ID H.
  assert (Hst : forall t, cancelled s t -> cancelled s' t).
  { intros t. eapply step_cancelled; eauto. }
  assert (Hfree : lock s = None -> sd s = SdCancel -> queue s' = queue s).
  { intros Hf Hc. destruct (unlocked s IA Hf Hc). }
  step_inv IA H.
  - destruct (do_add_frame _ _ _ _ _ Ha) as [_ [_ [_ [F4 F5]]]]. eapply InvD_frame; eauto.
  - destruct (do_resize_frame _ _ _ _ (A_nodup s IA) Hr) as [F1 [_ [_ [_ F7]]]]. eapply InvD_frame; eauto.
  - destruct (do_work_frame _ _ _ _ _ Hw) as [F1 [F2|F2]]; eapply InvD_frame; eauto.
  - destruct (do_add_frame _ _ _ _ _ Ha) as [_ [_ [_ [F4 F5]]]]. eapply InvD_frame; eauto.
  - eapply InvD_frame; eauto.
  - constructor; simpl; intros; discriminate.
  - destruct ID as [Dc Dd].
    sd_inv Hs;
      constructor; simpl; intros E u Hin; try discriminate; auto.
    + (* one cancel: the head of the queue becomes cancelled *)
      destruct (Dc Hsd u Hin) as [Hq|Hq]; [|right; auto]. rewrite Eq in Hq. destruct Hq as [<-|Hq]; auto.
      right. destruct (queue_head_taken s t q IC Eq) as [_ [Hlt _]].
      unfold cancelled, info. simpl. rewrite upd_length, upd_nth_same; auto.
    + destruct (Dc Hsd u Hin) as [Hq|Hq]; auto. rewrite Eq in Hq. destruct Hq.
Qed.

Record Inv (s : state) : Prop := {
  inv_A : InvA s; inv_B : InvB s; inv_C : InvC s; inv_D : InvD s
}.

Theorem Inv_init : Inv init.
Proof.
  constructor; constructor; simpl; auto; try constructor; try tauto; try discriminate.
  intros t H. lia.
Qed.

Theorem Inv_step : forall s c s' l, Inv s -> step s c = Some (s', l) -> Inv s'.
Proof.
  intros s c s' l [IA IB IC ID] H. constructor.
  - eapply step_A; eauto.
  - eapply step_B; eauto.
  - eapply step_C; eauto.
  - eapply step_D; eauto.
Qed.
