(* C03: a failure after the head was sent closes the connection and nothing
   more is written; error responses (ErrorTask: request.error set by
   the parser, and the 500 the ladder builds): the client reads exactly one
   response with the error's status, the body has the announced Content-Length,
   the head says "Connection: close" once, and the connection is closed; to a HEAD
   request (fix 7243240) only the head is written. *)
From Coq Require Import String.
From Coq Require Import List NArith ZArith Bool Lia Arith Permutation.
From WV Require Import Lib.PyBytes Gen.GenTables Model.Task Spec.ClientParse
  Proof.PyBytesFacts Proof.TaskSort Proof.TaskLines Proof.TaskHead Proof.TaskStart Proof.TaskRun Proof.TaskChunk Proof.TaskClient
  Proof.TaskOracle Proof.TaskC08 Proof.TaskLadder Proof.TaskC09 Proof.TaskFrame Proof.TaskBody Proof.TaskSimple Proof.TaskFrameClient
  Proof.TaskFrameEnd Proof.TaskFrame2Sem Proof.TaskFrame2Run Proof.TaskFrame2Head Proof.TaskFrame2Dec.
Import ListNotations.
Local Open Scope N_scope.

(* Error.to_response: the body *)
Definition err_body (c : cfg) (reason body : str) : bytes :=
  let ident := match c_ident c with _ :: _ => c_ident c | [] => err_default_ident end in
  utf8 (reason ++ CRLF ++ CRLF ++ body ++ CRLF ++ CRLF ++ lit "(generated by " ++ ident ++ lit ")").

(* the task ErrorTask.execute hands to write() *)
Definition err_task (v11 : bool) (status : str) (n : Z) : task :=
  mkTask v11 status [err_header; f_close] true false true false (Some n) 0%Z.

Lemma error_setup c r disc version ch code reason body :
  error_execute py_cap py_lower c r disc (new_task version true, ch) ((code, reason), body)
  = task_write py_cap py_lower c r disc
      (err_task (beqb version (lit "1.1")) (code ++ [32] ++ reason) (Z.of_nat (length (err_body c reason body))), ch)
      (if r_head r then [] else err_body c reason body).     (* fix 7243240: no body for HEAD *)
Proof. reflexivity. Qed.

Lemma err_task_scof v11 status n rh :
  let t := set_rh ([err_header; f_close] ++ rh) (err_task v11 status n) in
  set_close_on_finish py_cap py_lower t = t.
Proof.
  cbn zeta. rewrite scof_hasconn; [reflexivity|reflexivity|].
  right. left. reflexivity.
Qed.

Definition err_rh (n : Z) : list (str * str) :=
  [err_header; f_close; (lit "Content-Length", z_to_dec n)].

Lemma prepared_err c r v11 status n :
  (0 <= n)%Z -> has_body (err_task v11 status n) = true ->
  let tp := bh_prepare py_cap py_lower c r (err_task v11 status n) in
  exists tail, t_rh tp = err_rh n ++ tail /\ Forall tail_field tail
    /\ t_cof tp = true /\ t_chunked tp = false /\ t_status tp = status /\ t_v11 tp = v11.
Proof.
  intros Hn Hb. cbn zeta. unfold bh_prepare.
  assert (Ea : bh_loop py_cap (err_task v11 status n) = mkAcc [err_header; f_close] None None None).
  { unfold bh_loop. rewrite Hb. reflexivity. }
  rewrite Ea. cbn [ac_rh].
  change (set_rh [err_header; f_close] (err_task v11 status n)) with (err_task v11 status n).
  unfold bh_clen. cbn [ac_cl]. change (t_clen (err_task v11 status n)) with (Some n). rewrite Hb.
  set (t2 := set_rh (t_rh (err_task v11 status n) ++ [(lit "Content-Length", z_to_dec n)]) (err_task v11 status n)).
  assert (Econn : bh_conn py_cap py_lower (request_connection r) (r_connection_close r) (Some (z_to_dec n)) t2 = t2).
  { unfold bh_conn. rewrite (z_to_dec_truthy n Hn). cbn [negb].
    pose proof (err_task_scof v11 status n [(lit "Content-Length", z_to_dec n)]) as Es. cbn zeta in Es.
    change (set_rh ([err_header; f_close] ++ [(lit "Content-Length", z_to_dec n)]) (err_task v11 status n)) with t2 in Es.
    change (t_v11 t2) with v11. change (t_cof t2) with true. cbn [negb]. rewrite andb_false_r, Es.
    destruct v11; cbn [negb]; [destruct (_ || _)|]; reflexivity. }
  rewrite Econn.
  destruct (bh_tail c (mkAcc [err_header; f_close] None None None) t2) as (tail & E & F & A1 & A2 & A3 & A4).
  exists tail. split; [rewrite E; reflexivity|]. split; [exact F|].
  rewrite A1, A2, A3, A4. repeat split; reflexivity.
Qed.

Definition sl_err (version : str) (status : str) : bytes :=
  lit "HTTP/" ++ (if beqb version (lit "1.1") then lit "1.1" else lit "1.0") ++ [32] ++ status.

(* one error task, from a fresh channel state; used for request.error and for the ladder's 500.
   ErrorTask.execute passes to write() the body, or b"" when the request is a HEAD;
   Content-Length announces the length of the body in both cases *)
Lemma error_task_wire c r version ch code reason body :
  cfg_clean c -> clean code -> clean reason ->
  has_body (err_task (beqb version (lit "1.1")) (code ++ [32] ++ reason) 0%Z) = true ->
  let x := task_run py_cap py_lower c r None (new_task version true, ch) (inr ((code, reason), body)) in
  x_out x = Ok tt ->
  let bodyb := err_body c reason body in
  exists tp,
    task_clean tp /\ nocolon_rh tp /\ has_body tp = true
    /\ first_line tp = sl_err version (code ++ [32] ++ reason)
    /\ te_fields tp = [] /\ cl_fields tp = [(lit "Content-Length", to_dec (lenN bodyb))]
    /\ filter (field_is (lit "connection")) (map client_field (t_rh tp)) = [client_field f_close]
    /\ In err_header (t_rh tp)
    /\ chan_wire (snd (x_st x)) = chan_wire ch ++ head_text tp ++ (if r_head r then [] else bodyb)
    /\ t_cof (fst (x_st x)) = true.
Proof.
  intros Hc Hcode Hreason Hb. cbn zeta. unfold task_run. rewrite error_setup.
  change (if r_head r then [] else err_body c reason body)
    with (if r_head r return bytes then [] else err_body c reason body).
  remember (if r_head r return bytes then [] else err_body c reason body) as bw eqn:Hbw.
  assert (Hlen : (length bw <= length (err_body c reason body))%nat)
    by (rewrite Hbw; destruct (r_head r); cbn [length]; lia).
  clear Hbw.
  set (bodyb := err_body c reason body) in *. set (status := code ++ [32] ++ reason) in *.
  set (n := Z.of_nat (length bodyb)). set (v11 := beqb version (lit "1.1")) in *.
  set (te := err_task v11 status n).
  assert (Hbe : has_body te = true) by exact Hb.
  destruct (task_write py_cap py_lower c r None (te, ch) bw) as [s1 [[]|e1]] eqn:Ew; cbn [x_out x_st];
    [|intro X; discriminate X].
  assert (Ews : tw_seq py_cap py_lower c r (te, ch) [bw] = (s1, Ok tt)) by (cbn [tw_seq]; rewrite Ew; reflexivity).
  destruct (tw_seq_fresh py_cap py_lower c r bw [] te ch s1 eq_refl eq_refl Ews) as (tp & head & Eb & Ef & W).
  unfold build_response_header in Eb. injection Eb as Etp Ehead. apply encode_latin1_ok in Ehead. symmetry in Etp.
  assert (Hn : (0 <= n)%Z) by (subst n; apply Nat2Z.is_nonneg).
  destruct (prepared_err c r v11 status n Hn Hbe) as (tail & Prh & Ptail & Pcof & Pchk & Pst & Pv).
  fold te in Prh, Pcof, Pchk, Pst, Pv. rewrite <- Etp in Prh, Pcof, Pchk, Pst, Pv.
  assert (Hclean : task_clean tp).
  { rewrite Etp. apply bh_prepare_clean; auto. apply py_cap_clean. split; cbn [t_status t_rh te err_task].
    - subst status. apply clean_app. split; [exact Hcode|]. apply clean_app. split; [reflexivity|exact Hreason].
    - repeat constructor. }
  assert (Hbp : has_body tp = true) by (unfold has_body in *; rewrite Pst; exact Hbe).
  destruct (keeps_bh_prepare py_cap py_lower c r te) as (_ & _ & K3 & K4 & _). rewrite <- Etp in K3, K4.
  destruct (ws_sem_len [bw] (set_wrote true tp) n) as [B1 B2];
    try (cbn [t_chunked t_clen t_cbw set_wrote]; congruence); auto.
  { cbn [t_cbw set_wrote]. rewrite K4. split; [reflexivity|exact Hn]. }
  cbn [t_cbw set_wrote concat] in B1, B2. rewrite K4 in B1, B2. cbn [t_cbw te err_task] in B1, B2.
  rewrite app_nil_r, Z.sub_0_r in B1. unfold n in B1 at 1. rewrite Nat2Z.id, (firstn_all2 bw Hlen) in B1.
  pose proof (ws_sem_same [bw] (set_wrote true tp)) as (A1 & A2 & A3 & A4 & A5 & A6 & A7 & A8).
  rewrite <- Ef in A1, A2, A3, A4, A5, A6, A7, A8. cbn [t_status t_chunked t_cof t_wrote_header set_wrote] in A2, A3, A4.
  destruct s1 as [t2 ch2]. cbn [fst snd] in *.
  destruct (finish_after_head py_cap py_lower c r t2 ch2 A4) as (ch3 & Ef3 & W3). rewrite Ef3. cbn [x_out x_st fst snd].
  intros _. exists tp.
  split; [exact Hclean|]. split.
  { unfold nocolon_rh. rewrite Prh. apply Forall_app. split; [repeat constructor|apply tail_no_colon; auto]. }
  split; [exact Hbp|]. split.
  { unfold first_line, version_str, sl_err. rewrite Pst, Pv. reflexivity. }
  split.
  { unfold te_fields. rewrite Prh, map_app, filter_app.
    rewrite (tail_not_named tail te_name eq_refl eq_refl eq_refl Ptail). reflexivity. }
  split.
  { unfold cl_fields. rewrite Prh, map_app, filter_app.
    rewrite (tail_not_named tail cl_name eq_refl eq_refl eq_refl Ptail).
    rewrite app_nil_r.
    assert (E : filter (field_is cl_name) (map client_field (err_rh n))
                = [(lit "Content-Length", strip_by is_sp_htab (z_to_dec n))]) by reflexivity.
    rewrite E, (z_to_dec_nonneg n Hn), (strip_digits _ (to_dec_all_digits _)).
    unfold n, lenN. rewrite <- nat_N_Z, N2Z.id. reflexivity. }
  split.
  { rewrite Prh, map_app, filter_app.
    rewrite (tail_not_named tail (lit "connection") eq_refl eq_refl eq_refl Ptail). reflexivity. }
  split; [rewrite Prh; left; reflexivity|].
  split; [|rewrite A3; exact Pcof].
  rewrite W3, W, A2, Pchk, B1, Ehead. cbn [andb]. rewrite !app_nil_r, <- Etp. reflexivity.
Qed.

Lemma error_task_client tp bodyb :
  task_clean tp -> nocolon_rh tp -> has_body tp = true -> te_fields tp = [] ->
  cl_fields tp = [(lit "Content-Length", to_dec (lenN bodyb))] ->
  parse_one false (head_text tp ++ bodyb)
  = Some (mkResponse (first_line tp) (cfields tp) (FLength (lenN bodyb)) bodyb, []).
Proof.
  intros Hcl Hnc Hb Hte Hcf.
  pose proof (parse_length tp (to_dec (lenN bodyb)) bodyb [] Hcl Hnc Hb Hte Hcf (to_dec_all_digits _)) as PL.
  rewrite dec_value_to_dec, app_nil_r in PL. apply PL. reflexivity.
Qed.

Lemma err_client_core X tp sl bodyb n :
  task_clean tp -> nocolon_rh tp -> has_body tp = true -> first_line tp = sl ->
  te_fields tp = [] -> cl_fields tp = [(lit "Content-Length", to_dec (lenN bodyb))] ->
  filter (field_is (lit "connection")) (map client_field (t_rh tp)) = [client_field f_close] ->
  In err_header (t_rh tp) ->
  chan_wire (snd (x_st X)) = chan_wire (mkChan [] n) ++ head_text tp ++ bodyb ->
  exists fields,
    parse_one false (wire (rev (ch_writes (snd (x_st X))))) = Some (mkResponse sl fields (FLength (lenN bodyb)) bodyb, [])
    /\ filter (field_is (lit "connection")) fields = [(lit "Connection", lit "close")]
    /\ In (client_field err_header) fields.
Proof.
  intros Hclean Hnc Hbp Psl Pte Pcl Pconn Pct W. unfold chan_wire in W.
  exists (cfields tp). rewrite W. cbn [ch_writes rev wire flat_map List.app].
  rewrite (error_task_client tp _ Hclean Hnc Hbp Pte Pcl), Psl.
  split; [reflexivity|]. split; [apply sorted_filter_singleton; exact Pconn|]. apply in_cfields; exact Pct.
Qed.

Lemma err_client_head_core X tp sl bodyb n :
  task_clean tp -> nocolon_rh tp -> first_line tp = sl ->
  cl_fields tp = [(lit "Content-Length", to_dec (lenN bodyb))] ->
  filter (field_is (lit "connection")) (map client_field (t_rh tp)) = [client_field f_close] ->
  In err_header (t_rh tp) ->
  chan_wire (snd (x_st X)) = chan_wire (mkChan [] n) ++ head_text tp ++ [] ->
  exists fields,
    parse_one true (wire (rev (ch_writes (snd (x_st X))))) = Some (mkResponse sl fields FNoBody [], [])
    /\ filter (field_is (lit "connection")) fields = [(lit "Connection", lit "close")]
    /\ filter (field_is cl_name) fields = [(lit "Content-Length", to_dec (lenN bodyb))]
    /\ In (client_field err_header) fields.
Proof.
  intros Hclean Hnc Psl Pcl Pconn Pct W. unfold chan_wire in W.
  exists (cfields tp). rewrite W. cbn [ch_writes rev wire flat_map List.app].
  rewrite (parse_nobody tp true [] Hclean Hnc (or_introl eq_refl)), Psl.
  split; [reflexivity|]. split; [apply sorted_filter_singleton; exact Pconn|].
  split; [apply sorted_filter_singleton; exact Pcl|]. apply in_cfields; exact Pct.
Qed.

Theorem frame_error c r a code reason body :
  cfg_clean c -> r_error r = Some ((code, reason), body) -> r_head r = false -> clean code -> clean reason ->
  startswith (code ++ [32] ++ reason) (lit "1") || startswith (code ++ [32] ++ reason) (lit "204")
    || startswith (code ++ [32] ++ reason) (lit "304") = false ->
  let res := run_task c r a None in
  o_raw res = None ->
  let bodyb := err_body c reason body in
  exists fields,
    parse_one false (wire (o_writes res))
    = Some (mkResponse (sl_err (r_version r) (code ++ [32] ++ reason)) fields (FLength (lenN bodyb)) bodyb, [])
    /\ filter (field_is (lit "connection")) fields = [(lit "Connection", lit "close")]
    /\ In (client_field err_header) fields
    /\ o_close res = true /\ o_next res = false /\ o_served_500 res = false /\ o_escaped res = None.
Proof.
  intros Hc He Hh Hcode Hreason Hst. cbn zeta. unfold run_task. intro Hraw.
  destruct (service_quiet py_cap py_lower c r None a eq_refl Hraw) as [Eraw ->]. clear Hraw.
  cbn [wound_up o_writes o_close o_next o_served_500 o_escaped].
  revert Eraw. unfold job_of, start_state. rewrite He. intro Eraw.
  assert (Hb : has_body (err_task (beqb (r_version r) (lit "1.1")) (code ++ [32] ++ reason) 0%Z) = true).
  { unfold has_body. cbn [t_status err_task]. rewrite Hst. reflexivity. }
  destruct (error_task_wire c r (r_version r) (mkChan [] 0) code reason body Hc Hcode Hreason Hb Eraw)
    as (tp & Hclean & Hnc & Hbp & Psl & Pte & Pcl & Pconn & Pct & W & ->).
  rewrite Hh in W.
  destruct (err_client_core _ tp _ _ 0 Hclean Hnc Hbp Psl Pte Pcl Pconn Pct W) as (fields & F1 & F2 & F3).
  exists fields. repeat split; auto.
Qed.

Theorem frame_error_head c r a code reason body :
  cfg_clean c -> r_error r = Some ((code, reason), body) -> r_head r = true -> clean code -> clean reason ->
  startswith (code ++ [32] ++ reason) (lit "1") || startswith (code ++ [32] ++ reason) (lit "204")
    || startswith (code ++ [32] ++ reason) (lit "304") = false ->
  let res := run_task c r a None in
  o_raw res = None ->
  let bodyb := err_body c reason body in
  exists fields,
    parse_one true (wire (o_writes res))
    = Some (mkResponse (sl_err (r_version r) (code ++ [32] ++ reason)) fields FNoBody [], [])
    /\ filter (field_is (lit "connection")) fields = [(lit "Connection", lit "close")]
    /\ filter (field_is cl_name) fields = [(lit "Content-Length", to_dec (lenN bodyb))]
    /\ In (client_field err_header) fields
    /\ o_close res = true /\ o_next res = false /\ o_served_500 res = false /\ o_escaped res = None.
Proof.
  intros Hc He Hh Hcode Hreason Hst. cbn zeta. unfold run_task. intro Hraw.
  destruct (service_quiet py_cap py_lower c r None a eq_refl Hraw) as [Eraw ->]. clear Hraw.
  cbn [wound_up o_writes o_close o_next o_served_500 o_escaped].
  revert Eraw. unfold job_of, start_state. rewrite He. intro Eraw.
  assert (Hb : has_body (err_task (beqb (r_version r) (lit "1.1")) (code ++ [32] ++ reason) 0%Z) = true).
  { unfold has_body. cbn [t_status err_task]. rewrite Hst. reflexivity. }
  destruct (error_task_wire c r (r_version r) (mkChan [] 0) code reason body Hc Hcode Hreason Hb Eraw)
    as (tp & Hclean & Hnc & _ & Psl & _ & Pcl & Pconn & Pct & W & ->).
  rewrite Hh in W.
  destruct (err_client_head_core _ tp _ _ 0 Hclean Hnc Psl Pcl Pconn Pct W) as (fields & F1 & F2 & F3 & F4).
  exists fields. repeat split; auto.
Qed.

(* the hypotheses are satisfiable: a 501 answered to HEAD + Transfer-Encoding: gzip on HTTP/1.1 *)
Example frame_error_head_example :
  let r := mkReq (lit "1.1") None true false (Some (err_ServerNotImplemented, lit "Transfer-Encoding requested is not supported.")) in
  o_raw (run_task sample_cfg r (mkApp [] KGen [] false None) None) = None
  /\ wire (o_writes (run_task sample_cfg r (mkApp [] KGen [] false None) None))
     = lit "HTTP/1.1 501 Not Implemented" ++ CRLF ++ lit "Connection: close" ++ CRLF
       ++ lit "Content-Length: 91" ++ CRLF ++ lit "Content-Type: text/plain; charset=utf-8" ++ CRLF
       ++ lit "Date: Thu, 01 Jan 2026 00:00:00 GMT" ++ CRLF ++ lit "Server: waitress" ++ CRLF ++ CRLF.
Proof. vm_compute. repeat split; reflexivity. Qed.

(* the hypotheses are satisfiable: a 400 answered to an HTTP/1.0 keep-alive request *)
Example frame_error_example :
  let r := mkReq (lit "1.0") (Some (lit "Keep-Alive")) false false (Some (err_BadRequest, lit "Invalid header")) in
  o_raw (run_task sample_cfg r (mkApp [] KGen [] false None) None) = None
  /\ clean (fst err_BadRequest) /\ clean (snd err_BadRequest).
Proof. vm_compute. repeat split; reflexivity. Qed.

(* the ladder's err_request inherits version, CONNECTION and -- fix 52947ac -- the command *)
Definition req_500 (c : cfg) (r : req) : req :=
  mkReq (r_version r) (r_connection r) (r_head r) false
        (Some (err_InternalServerError, if c_expose_tracebacks c then c_tb c else internal_error_text)).

(* when the 500 task completes, Task.service adds nothing to its run *)
Lemma response_500_quiet c r n :
  x_out (task_run py_cap py_lower c (req_500 c r) None (new_task (r_version r) true, mkChan [] n)
                  (inr (err_InternalServerError, if c_expose_tracebacks c then c_tb c else internal_error_text))) = Ok tt ->
  response_500 py_cap py_lower c r None n
  = rev (ch_writes (snd (x_st (task_run py_cap py_lower c (req_500 c r) None (new_task (r_version r) true, mkChan [] n)
                  (inr (err_InternalServerError, if c_expose_tracebacks c then c_tb c else internal_error_text)))))).
Proof.
  intro H. rewrite response_500_run. unfold run_500. cbv zeta. fold (req_500 c r).
  rewrite task_service_quiet by (unfold raised; rewrite H; reflexivity). reflexivity.
Qed.

(* the hypotheses are satisfiable: HEAD on HTTP/1.1, the application raises before any output *)
Example frame_500_head_example :
  let r := mkReq (lit "1.1") None true false None in
  let res := run_task sample_cfg r (mkApp [ARaise AppException] KGen [] false None) None in
  o_served_500 res = true
  /\ wire (o_writes res)
     = lit "HTTP/1.1 500 Internal Server Error" ++ CRLF ++ lit "Connection: close" ++ CRLF
       ++ lit "Content-Length: 110" ++ CRLF ++ lit "Content-Type: text/plain; charset=utf-8" ++ CRLF
       ++ lit "Date: Thu, 01 Jan 2026 00:00:00 GMT" ++ CRLF ++ lit "Server: waitress" ++ CRLF ++ CRLF.
Proof. vm_compute. split; reflexivity. Qed.
