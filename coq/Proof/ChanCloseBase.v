(* Proof/ChanCloseBase.v -- definitions of the inductive invariant of Model/ChanClose.v, the
   case analysis of a step shared by the preservation proofs, and what each thread's step
   leaves alone. *)
From Coq Require Import List Arith Bool Lia.
From WV Require Import Model.ChanClose.
Import ListNotations.

(* program points at which the thread owns requests_lock *)
Definition io_holds (p : iopc) : bool :=
  match p with
  | IoRC1 | IoRC2 | IoRCloop | IoRCapp | IoRCappX | IoRClen | IoRCadd | IoRCrel => true
  | _ => false
  end.
Definition wk_holds (p : wpc) : bool :=
  match p with
  | WClose1 _ | WClose2 _ | WClose3 _ | WKeep1 _ | WKeep2 _ | WKeep3 _ | WKeepAdd _ | WKeepE _ | WKeep5 _ => true
  | _ => false
  end.
(* the worker is inside service() (from the popleft on) and has not yet reached the point where it
   hands the channel over (add_task) or gives it up (requests cleared / nothing left / not connected) *)
Definition active (p : wpc) : bool :=
  match p with
  | WPopped | WSvc0 _ _ | WSvc1 _ _ _ | WSvc1b _ _ _ | WTask _ _ | WClose1 _ | WClose2 _
  | WKeep1 _ | WKeep2 _ | WKeep3 _ | WKeepAdd _ => true
  | _ => false
  end.
(* ... and the request it serves is still in [requests] *)
Definition prepop (p : wpc) : bool :=
  match p with
  | WPopped | WSvc0 _ _ | WSvc1 _ _ _ | WSvc1b _ _ _ | WTask _ _ | WClose1 _ | WClose2 _ | WKeep1 _
  | WKeepAdd _ => true
  | _ => false
  end.
(* the worker is about to create a dispatcher entry / to enter service() *)
Definition starter (p : wpc) : bool := match p with WKeepAdd _ | WPopped => true | _ => false end.
Definition at_close2 (p : wpc) : bool := match p with WClose2 _ => true | _ => false end.
(* service() entered after a decision, before its read of connected / of will_close *)
Definition late_early (p : wpc) : bool :=
  match p with WSvc0 _ true | WSvc1 _ true _ => true | _ => false end.
Definition late_b (p : wpc) : bool :=
  match p with WSvc1b _ true _ => true | _ => false end.

(* the I/O thread is about to create a dispatcher entry *)
Definition tokio (s : state) : Prop :=
  io s = IoRCadd \/ (io s = IoRClen /\ length (reqs s) = 1).

(* received() will refuse, whenever its flag test is evaluated *)
Definition flags_ok (s : state) : Prop :=
  cwf s = true \/ (wc s = true /\ io s <> IoRC2) \/ io s = IoHW3.

(* no service() invocation can start any more *)
Definition Closed (s : state) : Prop :=
  flags_ok s /\
  (io s <> IoRCloop /\ io s <> IoRCapp /\ io s <> IoRCappX /\ io s <> IoRClen /\ io s <> IoRCadd) /\
  queue s = 0 /\
  (forall w, starter (wk s w) = false) /\
  (reqs s = [] \/ exists w, at_close2 (wk s w) = true).

Record Inv (s : state) : Prop := mkInv {
  i_lock_io : rlock s = Some ByIO <-> io_holds (io s) = true;
  i_lock_wk : forall w, rlock s = Some (ByW w) <-> wk_holds (wk s w) = true;
  i_lock_sd : rlock s <> Some BySD;
  i_q1 : queue s <= 1;
  i_q_excl : queue s = 1 -> (forall w, active (wk s w) = false) /\ ~ tokio s /\ sd s = SdIdle;
  i_act_uniq : forall w1 w2, active (wk s w1) = true -> active (wk s w2) = true -> w1 = w2;
  i_act_excl : forall w, active (wk s w) = true -> ~ tokio s /\ sd s = SdIdle;
  i_tok_sd : tokio s -> sd s = SdIdle;
  i_reqs_q : queue s = 1 -> reqs s <> [];
  i_reqs_io : io s = IoRCadd -> reqs s <> [];
  i_reqs_wk : forall w, prepop (wk s w) = true -> reqs s <> [];
  i_reqs_sd : sd s <> SdIdle -> reqs s <> [];
  i_m2 : io s = IoM2 -> reqs s = [];
  i_appx : io s = IoRCappX -> reqs s = [];
  i_mret : mret s = IoTop \/ mret s = IoSel;
  i_cwf : (cwf s = true \/ io s = IoHW1b \/ io s = IoHW2 \/ io s = IoHW3) -> gdec s = true;
  i_safe : gdec s = true -> conn s = false \/ Closed s \/ wc s = true;
  i_late : forall w, late_early (wk s w) = true -> conn s = false \/ wc s = true;
  i_late_b : forall w, late_b (wk s w) = true -> wc s = true
}.

Lemma len_plus1 : forall (A : Type) (l : list A), length l + 1 = 1 -> l = [].
Proof. intros A [|x l] H; simpl in H; [reflexivity|lia]. Qed.
Lemma app1_nonnil : forall (A : Type) (l : list A) x, l ++ [x] <> [].
Proof. intros A [|y l] x; discriminate. Qed.

Lemma nth_error_split2 {A} {tr : list A} {i j x y} :
  nth_error tr i = Some x -> nth_error tr j = Some y -> i < j ->
  exists a b c, tr = a ++ x :: b ++ y :: c.
Proof.
  intros Hi Hj Lt. apply nth_error_split in Hi. destruct Hi as (a & t & -> & La).
  rewrite nth_error_app2, La in Hj by lia.
  replace (j - i) with (S (j - i - 1)) in Hj by lia. cbn [nth_error] in Hj.
  apply nth_error_split in Hj. destruct Hj as (b & c & -> & _). exists a, b, c. reflexivity.
Qed.

Lemma fold_left_keeps {A B} (f : A -> B -> A) (P : A -> Prop) :
  (forall a x, P a -> P (f a x)) -> forall l a, P a -> P (fold_left f l a).
Proof. intros K l. induction l as [|x l IH]; intros a H; simpl; auto. Qed.

Lemma wk_set_same : forall s w p, wk (set_wk s w p) w = p.
Proof. intros. simpl. rewrite Nat.eqb_refl. reflexivity. Qed.
Lemma wk_set_other : forall s w p w', w' <> w -> wk (set_wk s w p) w' = wk s w'.
Proof. intros. simpl. destruct (Nat.eqb_spec w' w); congruence. Qed.

(* A step, program point by program point.
   [io_inv H] / [wk_inv H] / [sd_inv H] split a successful step [H] into its program points: the
   pc and every value the step reads are replaced by what they are in that case (in the
   hypotheses present and in the goal; a successful acquire reads [rlock s = None]), the new
   state is written out and projected. *)
Lemma free_none s : is_free s = true -> rlock s = None.
Proof. unfold is_free. destruct (rlock s); [discriminate | reflexivity]. Qed.

Ltac step_inv s H :=
  repeat match type of H with context [match ?x with _ => _ end] => destruct x eqn:? end;
  try discriminate H;
  match type of H with Some _ = Some (?s', ?l) =>
    let E1 := fresh in let E2 := fresh "E" in injection H as E1 E2; subst s'; subst l end;
  try match goal with F : _ && _ = true |- _ => apply andb_true_iff in F; destruct F as [F ?] end;
  try match goal with F : is_free _ = true |- _ => apply free_none in F; rewrite F in * end;
  cbn;
  repeat match goal with
  | E : ?f s = _ |- context [?f s] => rewrite E
  | E : wk s ?w = _ |- context [wk s ?w] => rewrite E
  end.
Ltac io_inv H :=
  match type of H with step_io ?s _ = _ => unfold step_io, after_read, turn_end in H; step_inv s H end.
Ltac wk_inv H := match type of H with step_wk ?s _ _ = _ => unfold step_wk in H; step_inv s H end.
Ltac sd_inv H := match type of H with step_sd ?s = _ => unfold step_sd in H; step_inv s H end.

(* maintenance returns to [mret s]: one of two points *)
Ltac mret_cases MR :=
  try match goal with |- context [mret ?s] => destruct MR as [MR|MR]; rewrite MR end.

Lemma io_frame {s e s' l} : step_io s e = Some (s', l) -> wk s' = wk s /\ sd s' = sd s.
Proof. intro H. io_inv H; split; reflexivity. Qed.

Lemma wk_frame {s w e s' l} : step_wk s w e = Some (s', l) ->
  io s' = io s /\ sd s' = sd s /\ mret s' = mret s /\ forall w', w' <> w -> wk s' w' = wk s w'.
Proof.
  intro H. wk_inv H; repeat split; intros w' N; try rewrite (proj2 (Nat.eqb_neq w' w) N); reflexivity.
Qed.

Lemma sd_frame {s s' l} : step_sd s = Some (s', l) ->
  wk s' = wk s /\ rlock s' = rlock s /\ cwf s' = cwf s /\ mret s' = mret s.
Proof. intro H. sd_inv H; repeat split. Qed.

