(* What a successful parse_header establishes (accepted_head).  parse_header
   is cut into stages (definitionally equal to the model's text:
   parse_header_stages is proved by reflexivity) so that each stage can be
   analysed on a small term.  At the end: strip_leading_crlf round by round,
   and that any fuel above the length gives the same. *)
From Coq Require Import List NArith ZArith Bool Lia.
From RecordUpdate Require Import RecordUpdate.
From WV Require Import Lib.PyBytes Lib.Regex Gen.GenRegex Model.Receiver Model.UrlSplit Model.Parser.
Import ListNotations.
Local Open Scope N_scope.

Definition stage_chunk (p : parser) (encs : list bytes) : parser * option perr :=
  match encs with
  | [] => (p, None)
  | _ =>
    if negb (length encs =? 1)%nat then (p, Some ETEMultipleChunked)
    else
      let p := p <| chunked := true |> <| body := Some (BChunked chunked_init) |> in
      let cl := hget (headers p) s_CONTENT_LENGTH in
      let p := p <| headers := hpop (headers p) s_CONTENT_LENGTH |> in
      (match cl with Some _ => p <| connection_close := true |> | None => p end, None)
  end.

Definition stage_11 (h1 : hdict) (connection : bytes) (p : parser) : parser * option perr :=
  let te := hget_default h1 s_TRANSFER_ENCODING [] in
  let p := p <| headers := hpop h1 s_TRANSFER_ENCODING |> in
  let encs := te_encodings te in
  if negb (forallb (fun e => beqb e s_chunked) encs) then (p, Some ETENotSupported)
  else
    match stage_chunk p encs with
    | (p, Some e) => (p, Some e)
    | (p, None) =>
      let expect := lower_latin1 (hget_default (headers p) s_EXPECT []) in
      let p := p <| expect_continue := beqb expect s_100_continue |> in
      let p := if existsb (fun t => beqb (strip_by is_sp_htab t) s_close)
                          (split (lower_latin1 connection) [44])
               then p <| connection_close := true |> else p in
      (p, None)
    end.

Definition stage_cl (p : parser) : parser * ph_status :=
  if chunked p then (p, PSOk)
  else
    let cl := hget_default (headers p) s_CONTENT_LENGTH s_0 in
    if negb (matches gate_content_length cl) then (p, PSError EContentLengthInvalid)
    else if int_max_str_digits <? lenN cl then (p, PSError EContentLengthInvalid)
    else
      let n := dec_value cl in
      let p := p <| content_length := n |> in
      (if 0 <? n then p <| body := Some (BFixed (fixed_init n)) |> else p, PSOk).

Definition stage_uri (a : adj) (p : parser) (h1 : hdict) (cmd uri ver : bytes) : parser * ph_status :=
  let p := p <| request_uri := uri |> <| command := cmd |> <| version := ver |> in
  match split_uri uri with
  | SBadURI => (p, PSError EBadURI)
  | SEscapes => (p, PSEscapes)
  | SUnmodelled => (p, PSUnmodelled)
  | SOk sc nl pa qu fr =>
    let p := p <| p_scheme := sc |> <| p_netloc := nl |> <| path := pa |>
               <| query := qu |> <| fragment := fr |> <| url_scheme := adj_url_scheme a |> in
    let connection := hget_default h1 s_CONNECTION [] in
    let p := if beqb ver s_1_0 && negb (beqb (lower_latin1 connection) s_keep_alive)
             then p <| connection_close := true |> else p in
    let p := if negb (beqb ver s_1_1)
                && (match hget h1 s_TRANSFER_ENCODING with Some _ => true | None => false end)
             then p <| connection_close := true |> else p in
    let r11 := if beqb ver s_1_1 then stage_11 h1 connection p else (p, None) in
    match r11 with
    | (p, Some e) => (p, PSError e)
    | (p, None) => stage_cl p
    end
  end.

Lemma parse_header_stages a p hp :
  parse_header a p hp =
  match find hp CRLF with
  | None => (p, PSError EHeaderInvalid)
  | Some index =>
    let fl := rstrip_by is_reqline_ws (firstn index hp) in
    let header := skipn (index + 2) hp in
    if has_cr_or_lf fl then (p, PSError EBareCRLFFirstLine)
    else
    let p := p <| first_line := fl |> in
    match get_header_lines header with
    | inl e => (p, PSError e)
    | inr lines =>
      match add_header_lines (headers p) lines with
      | inl (e, h) => (p <| headers := h |>, PSError e)
      | inr h1 =>
        let p := p <| headers := h1 |> in
        match crack_first_line fl with
        | None => (p, PSError EMalformedMethod)
        | Some (cmd, uri, ver) =>
          if beqb cmd [] && beqb uri [] && beqb ver [] then (p, PSError EStartLineInvalid)
          else stage_uri a p h1 cmd uri ver
        end
      end
    end
  end.
Proof. reflexivity. Qed.

(* the attributes the later stages never touch *)
Definition status3 (p : parser) := (completed p, error p, empty p).
Definition reqline (p : parser) := (command p, version p, request_uri p, path p, query p, url_scheme p).

Lemma stage_chunk_ok p encs p' :
  stage_chunk p encs = (p', None) ->
  status3 p' = status3 p /\ reqline p' = reqline p /\ content_length p' = content_length p /\
  ((encs = [] /\ p' = p) \/
   (length encs = 1%nat /\ chunked p' = true /\ body p' = Some (BChunked chunked_init) /\
    headers p' = hpop (headers p) s_CONTENT_LENGTH)).
Proof.
  unfold stage_chunk. destruct encs as [|e0 encs'].
  - intro H. injection H as <-. auto 6.
  - destruct (negb (length (e0 :: encs') =? 1)%nat) eqn:E; [discriminate|].
    apply negb_false_iff in E. apply Nat.eqb_eq in E.
    cbn [headers set]. intro H. injection H as <-.
    destruct (hget (headers p) s_CONTENT_LENGTH); cbn; auto 8.
Qed.

(* the last two assignments of the 1.1 stage (expect_continue, connection_close)
   change no attribute that accepted_head speaks of *)
Lemma stage_11_flags_frame (q : parser) (e b : bool) :
  let q' := if b then q <| expect_continue := e |> <| connection_close := true |>
            else q <| expect_continue := e |> in
  status3 q' = status3 q /\ reqline q' = reqline q /\ content_length q' = content_length q /\
  chunked q' = chunked q /\ body q' = body q /\ headers q' = headers q.
Proof. destruct b; cbn; auto 8. Qed.

Lemma stage_11_ok h1 conn p p' :
  stage_11 h1 conn p = (p', None) ->
  status3 p' = status3 p /\ reqline p' = reqline p /\ content_length p' = content_length p /\
  forallb (fun e => beqb e s_chunked) (te_encodings (hget_default h1 s_TRANSFER_ENCODING [])) = true /\
  ((te_encodings (hget_default h1 s_TRANSFER_ENCODING []) = [] /\
    chunked p' = chunked p /\ body p' = body p /\ headers p' = hpop h1 s_TRANSFER_ENCODING) \/
   (length (te_encodings (hget_default h1 s_TRANSFER_ENCODING [])) = 1%nat /\
    chunked p' = true /\ body p' = Some (BChunked chunked_init) /\
    headers p' = hpop (hpop h1 s_TRANSFER_ENCODING) s_CONTENT_LENGTH)).
Proof.
  unfold stage_11.
  destruct (negb (forallb _ _)) eqn:Efa; [discriminate|].
  apply negb_false_iff in Efa.
  destruct (stage_chunk _ _) as [q [e|]] eqn:Esc; [discriminate|].
  apply stage_chunk_ok in Esc. destruct Esc as (S3 & RL & CL & Hc).
  intro H. injection H as <-.
  set (e := beqb _ s_100_continue). set (b := existsb _ (split _ _)).
  destruct (stage_11_flags_frame q e b) as (S3' & RL' & CL' & C' & B' & H'). cbv zeta in *.
  rewrite S3', RL', CL', C', B', H'.
  split; [exact S3|]. split; [exact RL|]. split; [exact CL|]. split; [exact Efa|].
  destruct Hc as [[He ->]|(Hl & C1 & B1 & H1)].
  - left. auto.
  - right. auto.
Qed.

Lemma stage_cl_ok p p' :
  stage_cl p = (p', PSOk) ->
  status3 p' = status3 p /\ reqline p' = reqline p /\ headers p' = headers p /\ chunked p' = chunked p /\
  ((chunked p = true /\ p' = p) \/
   (chunked p = false /\
    let cl := hget_default (headers p) s_CONTENT_LENGTH s_0 in
    matches gate_content_length cl = true /\
    content_length p' = dec_value cl /\
    body p' = if 0 <? dec_value cl then Some (BFixed (fixed_init (dec_value cl))) else body p)).
Proof.
  unfold stage_cl. destruct (chunked p) eqn:Ec.
  - intro H. injection H as <-. auto 8.
  - destruct (negb (matches _ _)) eqn:Em; [discriminate|]. apply negb_false_iff in Em.
    destruct (_ <? _) eqn:Edig; [discriminate|].
    intro H. injection H as <-.
    destruct (0 <? dec_value _) eqn:Epos; cbn; rewrite ?Epos; auto 10.
Qed.

Record accepted_head (a : adj) (p p' : parser) (hp : bytes)
       (fl : bytes) (lines : list bytes) (h1 : hdict) : Prop := {
  ah_find : exists index, find hp CRLF = Some index /\
            fl = rstrip_by is_reqline_ws (firstn index hp) /\
            get_header_lines (skipn (index + 2) hp) = inr lines;
  ah_no_crlf : has_cr_or_lf fl = false;
  ah_lines : add_header_lines (headers p) lines = inr h1;
  ah_crack : crack_first_line fl = Some (command p', request_uri p', version p');
  ah_crack_ne : beqb (command p') [] && beqb (request_uri p') [] && beqb (version p') [] = false;
  ah_split : exists sc nl fr, split_uri (request_uri p') = SOk sc nl (path p') (query p') fr;
  ah_scheme : url_scheme p' = adj_url_scheme a;
  ah_status : status3 p' = status3 p;
  ah_framing :
    (chunked p' = true /\ version p' = s_1_1 /\ body p' = Some (BChunked chunked_init) /\
     headers p' = hpop (hpop h1 s_TRANSFER_ENCODING) s_CONTENT_LENGTH /\
     content_length p' = content_length p)
    \/
    (chunked p' = chunked p /\
     headers p' = (if beqb (version p') s_1_1 then hpop h1 s_TRANSFER_ENCODING else h1) /\
     (chunked p = false ->
      let cl := hget_default (headers p') s_CONTENT_LENGTH s_0 in
      matches gate_content_length cl = true /\
      content_length p' = dec_value cl /\
      body p' = if 0 <? dec_value cl then Some (BFixed (fixed_init (dec_value cl))) else body p))
}.

Lemma parse_header_ok a p hp p' :
  parse_header a p hp = (p', PSOk) ->
  exists fl lines h1, accepted_head a p p' hp fl lines h1.
Proof.
  rewrite parse_header_stages.
  destruct (find hp CRLF) as [index|] eqn:Hfind; [|discriminate].
  cbv zeta.
  destruct (has_cr_or_lf _) eqn:Hcr; [discriminate|].
  destruct (get_header_lines _) as [e|lines] eqn:Hl; [discriminate|].
  cbn [headers set].
  destruct (add_header_lines (headers p) lines) as [[e h]|h1] eqn:Hadd; [discriminate|].
  destruct (crack_first_line _) as [[[cmd uri] ver]|] eqn:Hcrack; [|discriminate].
  destruct (beqb cmd [] && beqb uri [] && beqb ver []) eqn:Ene; [discriminate|].
  unfold stage_uri.
  destruct (split_uri uri) as [sc nl pa qu fr| | |] eqn:Hsplit; try discriminate.
  set (fl := rstrip_by is_reqline_ws (firstn index hp)) in *.
  set (q0 := _ <| url_scheme := adj_url_scheme a |>).
  set (conn := hget_default h1 s_CONNECTION []).
  set (q1 := if negb (beqb ver s_1_1) && _ then _ else _).
  assert (Q1 : status3 q1 = status3 p /\ reqline q1 = (cmd, ver, uri, pa, qu, adj_url_scheme a) /\
               headers q1 = h1 /\ chunked q1 = chunked p /\ body q1 = body p /\
               content_length q1 = content_length p).
  { unfold q1. destruct (beqb ver s_1_0 && _); destruct (negb (beqb ver s_1_1) && _); cbn; auto 8. }
  destruct Q1 as (S1 & R1 & H1 & C1 & B1 & L1).
  cbv zeta.
  (* the 1.1 stage, or nothing: either the framing is as before and only
     Transfer-Encoding has left the dictionary, or the request is chunked *)
  set (r11 := if beqb ver s_1_1 then stage_11 h1 conn q1 else (q1, None)).
  assert (R11 : match r11 with
                | (q2, Some _) => True
                | (q2, None) =>
                  status3 q2 = status3 q1 /\ reqline q2 = reqline q1 /\
                  content_length q2 = content_length q1 /\
                  ((chunked q2 = chunked q1 /\ body q2 = body q1 /\
                    headers q2 = if beqb ver s_1_1 then hpop h1 s_TRANSFER_ENCODING else h1) \/
                   (ver = s_1_1 /\ chunked q2 = true /\ body q2 = Some (BChunked chunked_init) /\
                    headers q2 = hpop (hpop h1 s_TRANSFER_ENCODING) s_CONTENT_LENGTH))
                end).
  { unfold r11. destruct (beqb ver s_1_1) eqn:E11; [|auto 8].
    destruct (stage_11 h1 conn q1) as [q2 [e|]] eqn:E2; [exact I|].
    apply stage_11_ok in E2 as (S2 & R2 & L2 & _ & [(_ & C2 & B2 & H2)|(_ & C2 & B2 & H2)]).
    - auto 8.
    - apply beqb_eq in E11. auto 10. }
  destruct r11 as [q2 [e|]]; [discriminate|]. destruct R11 as (S2 & R2 & L2 & FR).
  intro Hcl. apply stage_cl_ok in Hcl. destruct Hcl as (S3 & R3 & H3 & C3 & Hcl).
  exists fl, lines, h1.
  assert (RL : reqline p' = (cmd, ver, uri, pa, qu, adj_url_scheme a)) by congruence.
  unfold reqline in RL. injection RL as Rc Rv Ru Rp Rq Rs.
  rewrite <- Rc, <- Ru, <- Rv in Hcrack, Ene. rewrite <- Ru, <- Rp, <- Rq in Hsplit.
  constructor; eauto; [congruence|].
  - destruct FR as [(C2 & B2 & H2)|(E11 & C2 & B2 & H2)].
    + right. split; [congruence|]. split; [rewrite Rv; congruence|].
      intro Hcf. destruct Hcl as [[Ht _]|(Hf & Hrest)]; [congruence|].
      cbv zeta in Hrest. destruct Hrest as (M & CL & B). cbv zeta.
      rewrite H3. split; [exact M|]. split; [exact CL|]. rewrite B, B2, B1. reflexivity.
    + left. destruct Hcl as [[Ht ->]|(Hf & _)]; [|congruence].
      split; [exact C2|]. split; [congruence|]. split; [exact B2|]. split; congruence.
Qed.

(* strip_leading_crlf matches on the numerals 13 and 10, i.e. on the bits of x
   and y; the proof walks them to reach the default branch *)
Lemma strip_leading_crlf_step f s :
  strip_leading_crlf (S f) s =
  match s with
  | x :: y :: s' => if (x =? 13) && (y =? 10) then strip_leading_crlf f s' else s
  | _ => s
  end.
Proof.
  destruct s as [|x [|y s']]; [reflexivity| |].
  - destruct x as [|p]; [reflexivity|].
    do 4 (try (destruct p as [p|p|]; try reflexivity)); reflexivity.
  - destruct ((x =? 13) && (y =? 10)) eqn:C.
    + apply andb_true_iff in C as [C1 C2]. apply N.eqb_eq in C1. apply N.eqb_eq in C2. subst. reflexivity.
    + destruct x as [|p]; [reflexivity|].
      do 4 (try (destruct p as [p|p|]; try reflexivity)); try reflexivity.
      destruct y as [|q]; [reflexivity|].
      do 4 (try (destruct q as [q|q|]; try reflexivity)); try reflexivity. discriminate C.
Qed.

Lemma strip_crlf_fuel f1 : forall f2 t, (length t <= f1)%nat -> (length t <= f2)%nat ->
  strip_leading_crlf f1 t = strip_leading_crlf f2 t.
Proof.
  induction f1 as [|f1 IH]; intros f2 t H1 H2.
  - destruct t; [|simpl in H1; lia]. destruct f2; reflexivity.
  - destruct f2 as [|f2].
    + destruct t; [reflexivity | simpl in H2; lia].
    + cbn [strip_leading_crlf].
      destruct t as [|x [|y t']]; try reflexivity.
      rewrite (IH f2 t') by (simpl in *; lia). reflexivity.
Qed.
