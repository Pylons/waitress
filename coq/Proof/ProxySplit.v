(* "for every list length": a header value is the join of its elements, and
   splitting it gives the elements back -- every n >= 1 arises. *)
From Coq Require Import List NArith Bool.
From WV Require Import Lib.PyBytes Lib.PyStrProxy Proof.PyBytesFacts.
Import ListNotations.
Local Open Scope N_scope.

Lemma split_join c l : l <> [] -> (forall x, In x l -> memb c x = false) -> split (join [c] l) [c] = l.
Proof.
  induction l as [|x l IH]; [congruence|]. intros _ Hx.
  destruct l as [|y l].
  - cbn [join]. apply split_char_none. apply Hx. left. reflexivity.
  - change (join [c] (x :: y :: l)) with (x ++ c :: join [c] (y :: l)).
    rewrite split_char_app by (apply Hx; left; reflexivity). f_equal.
    apply IH; [discriminate|]. intros z Hz. apply Hx. right. exact Hz.
Qed.
