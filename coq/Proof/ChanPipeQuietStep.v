(* Proof/ChanPipeQuietStep.v -- layer L4 is preserved by every step. *)
From Coq Require Import List Arith Bool ZArith Lia Permutation.
From WV Require Import Model.ChanPipe Proof.ChanPipeBase Proof.ChanPipeOwn Proof.ChanPipeLog Proof.ChanPipeQuiet.
Import ListNotations.

Section Step4.
Variable P : params.

Ltac frame4_io HL4 :=
  apply (L4_frame P _ _) with (7 := HL4); cbn; try reflexivity; intros; reflexivity.
Ltac frame4_wk HL4 me Hw Hme :=
  apply (L4_frame P _ _) with (7 := HL4); cbn; try reflexivity;
  [ let j := fresh "j" in intro j; unfold upd; destruct (Nat.eqb_spec j me); [subst j; rewrite Hw|]; reflexivity
  | let j := fresh "j" in let H := fresh in intros j H; unfold upd; destruct (Nat.eqb_spec j me);
    [ subst j; apply Nat.ltb_lt in Hme; lia | reflexivity ] ].

Lemma wwait_dl : forall pc, is_wwait pc = true -> wk_dl pc = true.
Proof. destruct pc; simpl; congruence. Qed.

(* a worker step that changes neither the waiter lists nor whether the worker is parked *)
Ltac same_parked QL me Hw :=
  match goal with |- parked_list (upd ?w _ _) _ => apply (parked_same w) end;
  [ let j := fresh "j" in intro j; unfold upd; destruct (Nat.eqb_spec j me); [subst j; rewrite Hw|]; reflexivity
  | exact QL ].

(* the four clauses of L4 after a step of worker me: q_out is settled (me < p_nw); left are q_wait for
   me, q_wait for the others, q_list and q_live, in this order *)
Ltac clauses me :=
  split; cbn [sh io wk ipc qwait qnotified queue set_qw set_dlock set_queue];
  [ intros j X; unfold upd; destruct (Nat.eqb_spec j me); [subst j; lia | auto]
  | intros j; unfold upd; destruct (Nat.eqb_spec j me); [subst j|] | | ].

Theorem L4_step : forall st c st' l, L0 st -> L1 st -> L4 P st -> step P st c = Some (st', l) -> L4 P st'.
Proof.
  intros st c st' l HL0 HL1 HL4 Hs.
  pose proof (l1_q _ HL1) as Hq1.
  destruct HL0 as [_ _ [D1 D2]].
  (* while the dispatcher lock is free no worker is between its test of the queue and wait() *)
  assert (Hnw : dlock (sh st) = None -> forall j, is_wwait (wpc (wk st j)) = false).
  { intros F j. destruct (is_wwait (wpc (wk st j))) eqn:X; auto. apply wwait_dl in X. apply (proj2 (D2 j)) in X. congruence. }
  destruct c as [e | me e].
  - step_io Hs; fl_out; cbn [sh io wk ipc] in *.
    all: try solve [frame4_io HL4].
    all: destruct HL4 as [QA QB QL QF]; cbn [sh io wk ipc] in *.
    + (* add_task: acquire + append *)
      specialize (Hnw (free_none _ E0)).
      split; cbn [sh io wk ipc]; auto.
      intros j X. rewrite Hnw in X. discriminate.
    + (* notify, nobody parked un-notified: a worker is awake, or one has been notified already *)
      split; cbn [sh io wk ipc]; auto.
      intros H H0. destruct (QF H H0) as [X|[X|X]]; auto.
      destruct (awake (wpc (w 0))) eqn:Ea; [left; exists 0; auto|].
      destruct (is_wwait (wpc (w 0))) eqn:Ew.
      * rewrite (QB 0 Ew) in H0. lia.
      * assert (Ep : is_parked (wpc (w 0)) = true) by (destruct (wpc (w 0)); simpl in *; congruence).
        apply (proj2 QL) in Ep. rewrite E0 in Ep. right. left. intro Z. rewrite Z in Ep. contradiction.
    + (* notify: the longest waiter is moved to the notified list *)
      rewrite E0 in QL.
      split; cbn [sh io wk ipc]; auto.
      * apply (parked_perm _ _ _ (notify_perm _ _ _) QL).
      * right. left. intro Z. apply app_eq_nil in Z. destruct Z. discriminate.
  - pose proof (q_wait _ _ HL4 me) as QBme.
    step_wk Hs; fl_out; cbn [sh io wk ipc] in *.
    all: try solve [frame4_wk HL4 me Hw Hme].
    all: assert (Hlt : me < p_nw P) by (apply Nat.ltb_lt; exact Hme).
    all: destruct HL4 as [QA QB QL QF]; cbn [sh io wk ipc] in *.
    all: cbn in QBme.
    + (* WAcqD, queue empty: about to wait *)
      clauses me;
      [ auto
      | apply QB
      | same_parked QL me Hw
      | lia ].
    + (* WAcqD, takes the entry *)
      clauses me;
      [ discriminate
      | intro X; apply QB in X; lia
      | same_parked QL me Hw
      | lia ].
    + (* WWait: parked *)
      clauses me;
      [ discriminate
      | apply QB
      | apply (parked_park _ _ _ _ _ QL); [rewrite Hw|]; reflexivity
      | rewrite QBme by reflexivity; lia ].
    + (* parked, notified, queue empty: waits again *)
      clauses me;
      [ auto
      | apply QB
      | apply (parked_wake _ _ _ _ _ QL); [apply existsb_In; apply andb_true_iff in E0; apply E0 | reflexivity]
      | lia ].
    + (* parked, notified, takes the entry *)
      clauses me;
      [ discriminate
      | intro X; apply QB in X; lia
      | apply (parked_wake _ _ _ _ _ QL); [apply existsb_In; apply andb_true_iff in E0; apply E0 | reflexivity]
      | lia ].
    + (* add_task by the finishing worker *)
      clauses me;
      [ discriminate
      | intro X; rewrite (Hnw (free_none _ E0)) in X; discriminate
      | same_parked QL me Hw
      | intros _ _; left; exists me; rewrite upd_same; auto ].
    + (* notify by the finishing worker *)
      clauses me;
      [ discriminate
      | apply QB
      | rewrite E0 in QL; apply (parked_perm _ _ _ (notify_perm _ _ _)); same_parked QL me Hw
      | intros _ _; left; exists me; rewrite upd_same; auto ].
Qed.
End Step4.
