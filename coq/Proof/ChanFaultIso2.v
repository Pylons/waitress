(* Proof/ChanFaultIso2.v -- C13_isolation at the level of whole runs.

   PROVED (isolation_trace): for every configuration g with the two repaired knob values, every
   pair of distinct connections a, b and EVERY schedule sched1 of the two-connection system (all
   interleavings, all lengths, every answer of the environment to every socket call -- faults on a's
   recv / send / getsockopt / setsockopt / setblocking, EOF, partial sends, exceptional conditions,
   a's application raising, anything) there EXISTS a schedule sched2 of the same system in which
   connection a is ABSENT (no label of a in the whole trace: accept() never delivers it; its record
   is the initial one; its worker never ran) such that
       view b (trace g sched1) = view b (trace g sched2)
   -- the observer of b sees the same sequence of events: every label of b (environment answers, WIRE
   BYTES, handle_close, socket.close, ...) and every label of the loop, the listener and the trigger --
   and the final record of b, b's worker and the listener / trigger / loop flags are the same.
   Since sched2 is itself a schedule of the system, the set of b-views of ALL runs equals the set of
   b-views of the runs without a (C13_isolation_views): what b can observe does not depend on whether a
   exists, let alone on the faults injected on it.

   This is existential schedule matching by a stuttering simulation (ChanFaultIso2Sim.v), in the
   direction "faulted a  ==>  a absent".  NOT proved: matching against a run in which a is PRESENT and
   fault-free with a prescribed behaviour of its own (that needs inserting a's steps, not deleting
   them); and nothing is claimed for the old knob values (with init_guarded = false a's set-up fault
   closes the listener, with wc_close = true a's worker can kill the loop: C13_*_refuted_old). *)
From Coq Require Import List Arith ZArith Bool Lia.
From WV Require Import Lib.Conc Model.ChanFault Proof.ChanFaultSpec Proof.ChanFaultBase Proof.ChanFaultStep
                       Proof.ChanFaultOnce Proof.ChanFaultListener Proof.ChanFaultIso Proof.ChanFaultIso2Cov Proof.ChanFaultIso2Proj
                       Proof.ChanFaultIso2Sim.
Import ListNotations.

Lemma run_tr_snoc : forall g sched ch, ChanFault.run_tr g (sched ++ [ch]) = ChanFault.exec1 g (ChanFault.run_tr g sched) ch.
Proof. intros g sched ch. exact (Conc.run_tr_snoc state choice label (step g) init sched ch). Qed.

Theorem isolation_sim : forall g a b sched1,
  a <> b -> wc_close g = false -> init_guarded g = true ->
  exists sched2,
    rel a b (ChanFault.run g sched1) (ChanFault.run g sched2) /\
    view b (ChanFault.trace g sched1) = view b (ChanFault.trace g sched2) /\
    labels_of a (ChanFault.trace g sched2) = [].
Proof.
  intros g a b sched1 Hab Hwc Hg. induction sched1 as [|ch sched1 IH] using rev_ind.
  - exists []. split; [apply rel_init; auto|split; reflexivity].
  - destruct IH as (sched2 & HR & HV & HA).
    destruct (ioI_always g sched1 Hwc Hg) as [HS HI].
    destruct (LInv_all g sched1 (or_intror Hg)) as ((HL & _) & _).
    pose proof (fun c => wtagged_always g sched1 c) as Hw.
    unfold ChanFault.run, ChanFault.trace in *. rewrite run_tr_snoc. unfold ChanFault.exec1.
    destruct (step g (fst (ChanFault.run_tr g sched1)) ch) as [[s1' l1]|] eqn:H.
    + destruct (sim_step g a b _ _ ch s1' l1 Hab Hg HS HI HL Hw HR H) as (o & s2' & l2 & Ho & HR' & HV' & HA').
      destruct o as [ch2|].
      * exists (sched2 ++ [ch2]). rewrite run_tr_snoc. unfold ChanFault.exec1. rewrite Ho. simpl.
        split; [auto|]. rewrite !view_app, labels_of_app, HV, HV', HA, HA'. auto.
      * destruct Ho as [-> ->]. exists sched2. simpl. split; [auto|].
        rewrite view_app, HV, HV'. rewrite app_nil_r. auto.
    + exists sched2. auto.
Qed.

(* the wire log of a connection: the byte counts the kernel accepted on it, in order *)
Definition wire_log (b : chan) (tr : list label) : list nat :=
  flat_map (fun l => match l with LWire c n => if chan_eqb b c then [n] else [] | _ => [] end) tr.

Lemma wire_log_view : forall b tr, wire_log b (view b tr) = wire_log b tr.
Proof.
  intros b tr. unfold wire_log, view. induction tr as [|l tr IH]; simpl; auto.
  destruct (vis b l) eqn:V; simpl; rewrite IH; auto.
  destruct l; simpl in *; auto. rewrite V. reflexivity.
Qed.

Theorem isolation_trace : forall g a b sched1,
  a <> b -> wc_close g = false -> init_guarded g = true ->
  exists sched2,
    (labels_of a (ChanFault.trace g sched2) = [] /\
     getc (ChanFault.run g sched2) a = chan0 /\ getth (ChanFault.run g sched2) (W a) = th0 []) /\
    view b (ChanFault.trace g sched1) = view b (ChanFault.trace g sched2) /\
    getc (ChanFault.run g sched1) b = getc (ChanFault.run g sched2) b /\
    getth (ChanFault.run g sched1) (W b) = getth (ChanFault.run g sched2) (W b) /\
    srv5 (ChanFault.run g sched1) = srv5 (ChanFault.run g sched2).
Proof.
  intros g a b sched1 Hab Hwc Hg.
  destruct (isolation_sim g a b sched1 Hab Hwc Hg) as (sched2 & [(Hb & Hs & Ha) Rwb Rwa _ _] & HV & HA).
  exists sched2. repeat split; auto.
Qed.

(* connection a is absent from a run *)
Definition absent (g : cfg) (a : chan) (sched : list choice) : Prop :=
  labels_of a (ChanFault.trace g sched) = [] /\
  getc (ChanFault.run g sched) a = chan0 /\ getth (ChanFault.run g sched) (W a) = th0 [].

(* no label of a: in particular no environment answer on a's socket, no fault *)
Lemma absent_no_label : forall a tr l, labels_of a tr = [] -> In l tr -> label_chan l <> Some a.
Proof.
  intros a tr l H Hin E. unfold labels_of in H.
  assert (X : In l (filter (fun l => match label_chan l with Some d => chan_eqb a d | None => false end) tr)).
  { apply filter_In. split; auto. rewrite E. apply chan_eqb_refl. }
  rewrite H in X. destruct X.
Qed.

(* a concrete instance: a is accepted, reset by its client in recv() and torn down while b is accepted,
   sends a request, is served and gets 10 bytes on the wire; the matching run has b only *)
Definition xcfg : cfg := mkCfg 1 5 1000 50 false false true.
Definition xio (n : nat) := repeat (IO, ANone) n.
Definition xacc (c : chan) : list choice :=
  xio 2 ++ [(IO, ASel [FL] [] [])] ++ xio 1
  ++ [(IO, AAcc (AccConn c)); (IO, ACall None); (IO, ACall None); (IO, ACall None)] ++ xio 3.
Definition xitem := mkItem false true false.
Definition xworker : list choice :=
  [(W B, ANone); (W B, ANone); (W B, ANone); (W B, AApp (AppWrite 10))] ++ repeat (W B, ANone) 8 ++ [(W B, ASend (SOk 10))].
Definition x_faulted : list choice :=
  xacc A ++ xacc B ++ xio 2 ++ [(IO, ASel [FC A; FC B] [] [])] ++ xio 2 ++ [(IO, ARecv (RErr ECONNRESET))] ++ xio 20
  ++ [(IO, ARecv (RData [xitem]))] ++ xio 12 ++ xworker.
Definition x_alone : list choice :=
  xacc B ++ xio 2 ++ [(IO, ASel [FC B] [] [])] ++ xio 2 ++ [(IO, ARecv (RData [xitem]))] ++ xio 12 ++ xworker.

Example isolation_example :
  view B (ChanFault.trace xcfg x_faulted) = view B (ChanFault.trace xcfg x_alone) /\
  absent xcfg A x_alone /\
  In (LEnv A (ARecv (RErr ECONNRESET))) (ChanFault.trace xcfg x_faulted) /\
  In (LClose IO A) (ChanFault.trace xcfg x_faulted) /\
  In (LWire B 10) (ChanFault.trace xcfg x_faulted) /\
  wire_log B (ChanFault.trace xcfg x_alone) = [10].
Proof. unfold absent. vm_compute. intuition. Qed.
