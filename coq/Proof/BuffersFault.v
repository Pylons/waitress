(* C17: operating-system faults at a representation change
   (the code after /repo commit c9585b7).

   For every fault of Model/Buffers.v -- the constructor of the new file object
   raising (FCtor k), the copy loop's write raising while spilling to disk
   (FCopyWrite), the write of _create_buffer's buf.append(self.strbuf) raising
   (FCreateWrite), the write of append()'s buf.append(s) raising (FAppendWrite) --
   at any operation of any history: the exception propagates and the buffer is
   still a faithful queue: untouched, or, for an append() whose bytes had
   already been written to the in-memory file before the spill to disk was
   attempted, the old queue plus those bytes.  Every later history refines the
   FIFO queue from there.

   Before c9585b7 this was false for FCopyWrite: [fb_init_old] is the old shape of
   FileBasedBuffer.__init__ and C17_fault_old_shape_refuted the witness. *)
From Coq Require Import List NArith ZArith Bool Lia ZifyBool Arith.
From WV Require Import Lib.PyBytes Model.Buffers Spec.Fifo Proof.Buffers Proof.BuffersRefine.
Import ListNotations.
Local Open Scope Z_scope.

(* file.write(s) raising inside append: the finally block seeks back, the buffer object is untouched *)
Lemma fb_append_fails b s : f_closed (fb_file b) = false -> fb_append true b s = Exn OSFault.
Proof. intro H. unfold fb_append. now rewrite H. Qed.

Lemma obuf_eta o : mkobuf (ob_buf o) (ob_strbuf o) (ob_overflowed o) = o.
Proof. now destruct o. Qed.

Definition bufs_ok (o : obuf) : Prop := forall b, ob_buf o = Some b -> fb_inv b.

Lemma inv_bufs_ok o : inv o -> bufs_ok o.
Proof. intros Hi b. apply inv_fb, Hi. Qed.

(* the constructor either raises the fault and leaves an intact source exactly as
   it was, or behaves as without fault *)
Lemma fb_init_f flt k ob : (forall b, ob = Some b -> fb_inv b) ->
  fb_init flt k ob = InitExn OSFault ob \/ fb_init flt k ob = fb_init FNone k ob.
Proof.
  intro Hok. unfold fb_init. destruct (ctor_fails flt k); [left; reflexivity|]. cbn [ctor_fails].
  destruct ob as [b|]; [|right; reflexivity].
  destruct (Hok b eq_refl) as (Hc & _). destruct b as [k0 [c p cl] r]. cbn in Hc. subst cl.
  cbn [fb_file f_closed]. destruct flt; try (right; reflexivity).
  unfold f_read_all, f_seek_set, f_tell. cbn [f_pos f_content f_closed skipn fb_kind fb_remain fb_file].
  destruct c; [right|left]; reflexivity.
Qed.

(* self.buf = Cls(self.buf) under a fault, for either class: k is the kind of the new buffer,
   ovd what self.overflowed becomes *)
Lemma set_buffer_f flt k ovd o : bufs_ok o ->
  let set f := match fb_init f k (ob_buf o) with
               | InitExn e old => (mkobuf old (ob_strbuf o) (ob_overflowed o), Exn e)
               | InitOk nb => (mkobuf (Some nb) (ob_strbuf o) ovd, Ok nb)
               end in
  set flt = (o, Exn OSFault) \/ set flt = set FNone.
Proof.
  intros Hok set. subst set. cbv beta.
  destruct (fb_init_f flt k (ob_buf o) Hok) as [H | H]; rewrite H; [left; now rewrite obuf_eta | now right].
Qed.

Lemma set_large_f flt o : bufs_ok o ->
  o_set_large_buffer flt o = (o, Exn OSFault) \/ o_set_large_buffer flt o = o_set_large_buffer FNone o.
Proof. exact (set_buffer_f flt KTmp true o). Qed.

Lemma set_small_f flt o : bufs_ok o ->
  o_set_small_buffer flt o = (o, Exn OSFault) \/ o_set_small_buffer flt o = o_set_small_buffer FNone o.
Proof. exact (set_buffer_f flt KBio false o). Qed.

(* _create_buffer under any fault: nothing at all has happened, or no fault struck *)
Lemma create_buffer_f flt ovf o : inv o -> ob_buf o = None ->
  o_create_buffer flt ovf o = (o, Exn OSFault) \/
  o_create_buffer flt ovf o = o_create_buffer FNone ovf o.
Proof.
  intros Hi Hb. pose proof (inv_bufs_ok o Hi) as Hok.
  assert (Hov : ob_overflowed o = false) by (unfold inv in Hi; now rewrite Hb in Hi).
  (* once the constructor has gone through what is left is buf.append(self.strbuf); if its
     write raises, self.buf = None and overflowed = False, which is how o was *)
  assert (Fill : forall k ovd,
    let o1 := mkobuf (Some (mkfbuf k newfile 0)) (ob_strbuf o) ovd in
    let fill f := match ob_strbuf o with
                  | [] => (o1, Ok (mkfbuf k newfile 0))
                  | _ :: _ => match fb_append (is_create_write f) (mkfbuf k newfile 0) (ob_strbuf o1) with
                              | Exn e => (mkobuf None (ob_strbuf o1) false, Exn e)
                              | Ok buf' => (mkobuf (Some buf') [] (ob_overflowed o1), Ok buf')
                              end
                  end in
    fill flt = (o, Exn OSFault) \/ fill flt = fill FNone).
  { intros k ovd. cbv zeta. cbn [ob_strbuf ob_overflowed].
    destruct (ob_strbuf o) as [|x sb] eqn:Es; [now right|].
    destruct (is_create_write flt) eqn:Ew.
    - left. rewrite fb_append_fails by reflexivity. rewrite <- Es, <- Hb, <- Hov. now rewrite obuf_eta.
    - right. destruct flt; try discriminate Ew; reflexivity. }
  unfold o_create_buffer. destruct (lenZ (ob_strbuf o) >=? Z.of_N ovf).
  - destruct (set_large_f flt o Hok) as [H | H]; rewrite H; [now left|].
    unfold o_set_large_buffer. rewrite Hb, fb_init_none. exact (Fill KTmp true).
  - destruct (set_small_f flt o Hok) as [H | H]; rewrite H; [now left|].
    unfold o_set_small_buffer. rewrite Hb, fb_init_none. exact (Fill KBio false).
Qed.

(* what a faulted operation leaves behind *)
Definition fault_ok (o : obuf) (p : op) (o' : obuf) : Prop :=
  abs o' = abs o \/ (exists s, p = OAppend s /\ abs o' = abs o ++ s).

Lemma append_tail_f flt ovf s o b : inv o -> ob_buf o = Some b ->
  let r := o_append_tail flt ovf s o b in
  inv (fst r) /\
  ((snd r = Exn OSFault /\ (abs (fst r) = abs o \/ abs (fst r) = abs o ++ s)) \/
   r = o_append_tail FNone ovf s o b).
Proof.
  intros Hi Hb.
  destruct (append_tail_spec ovf s o b Hi Hb) as (on & Hn1 & Hn2 & _).
  pose proof (inv_bufs_ok o Hi b Hb) as Hfb.
  destruct (fb_append_spec b s Hfb) as (b' & Ha & Hi' & Habs & Hk' & _).
  destruct (same_kind o b b' Hi Hb Hi' Hk') as (Hi2 & Ha2 & _).
  cbv zeta. unfold o_append_tail in *. cbn [is_append_write] in *.
  destruct (is_append_write flt) eqn:Eaw.
  - (* buf.append(s) raises: nothing has changed *)
    rewrite fb_append_fails by apply Hfb. cbn [fst snd]. split; [exact Hi|].
    left. split; [reflexivity | now left].
  - rewrite Ha in *. cbn [ob_overflowed ob_strbuf] in *.
    destruct (negb (ob_overflowed o)); [|cbn [fst snd]; split; [exact Hi2 | right; reflexivity]].
    destruct (fb_len b' >=? Z.of_N ovf); [|cbn [fst snd]; split; [exact Hi2 | right; reflexivity]].
    destruct (set_large_f flt _ (inv_bufs_ok _ Hi2)) as [H | H]; rewrite H.
    + (* the spill to disk raises after s was written to the in-memory file *)
      cbn [fst snd]. split; [exact Hi2|]. left. split; [reflexivity|]. right.
      now rewrite Ha2, Habs, (abs_some o b Hb).
    + split; [|right; reflexivity].
      destruct (o_set_large_buffer FNone _) as [o3 [x|e]]; cbn [fst]; inversion Hn1; subst; assumption.
Qed.

(* the same as a step of append() from a buffer o1 that holds what o holds *)
Lemma append_tail_step flt ovf s o o1 b : inv o1 -> ob_buf o1 = Some b -> abs o1 = abs o ->
  let r := (let '(o', x) := o_append_tail flt ovf s o1 b in (o', lift (fun _ => RUnit) x)) in
  inv (fst r) /\
  ((snd r = RExn OSFault /\ fault_ok o (OAppend s) (fst r)) \/
   r = (let '(o', x) := o_append_tail FNone ovf s o1 b in (o', lift (fun _ => RUnit) x))).
Proof.
  intros Hi1 Hb1 E1. destruct (append_tail_f flt ovf s o1 b Hi1 Hb1) as (H1 & H2). cbv zeta in *.
  destruct (o_append_tail flt ovf s o1 b) as [o' r'] eqn:E. cbn [fst snd] in *.
  split; [exact H1|]. destruct H2 as [(-> & H2) | H2].
  - left. split; [reflexivity|]. rewrite E1 in H2.
    destruct H2 as [H2 | H2]; [now left | right; exists s; auto].
  - right. now rewrite <- H2.
Qed.

(* every operation but append meets a fault only inside _create_buffer *)
Lemma fault_other flt limit ovf o p : inv o -> (forall s, p <> OAppend s) ->
  step_f flt limit ovf o p = (o, RExn OSFault) \/ step_f flt limit ovf o p = step limit ovf o p.
Proof.
  intros Hi Hp. unfold step.
  destruct p as [s | n sk | n ap | | |]; [now elim (Hp s) | | | now right | | now right];
    unfold step_f, o_get, o_skip, o_getfile; destruct (ob_buf o) eqn:Hb; try now right.
  - destruct sk; [cbn [negb] | now right].
    destruct (create_buffer_f flt ovf o Hi Hb) as [Hc | Hc]; rewrite Hc; [now left | now right].
  - destruct (ap && (Z.of_N n =? lenZ (ob_strbuf o))); [now right|].
    destruct (create_buffer_f flt ovf o Hi Hb) as [Hc | Hc]; rewrite Hc; [now left | now right].
  - destruct (create_buffer_f flt ovf o Hi Hb) as [Hc | Hc]; rewrite Hc; [now left | now right].
Qed.

Lemma fault_step flt limit ovf o p : inv o -> live p ->
  let r := step_f flt limit ovf o p in
  inv (fst r) /\
  ((snd r = RExn OSFault /\ fault_ok o p (fst r)) \/ r = step limit ovf o p).
Proof.
  intros Hi Hl. cbv zeta.
  assert (Hfree : inv (fst (step limit ovf o p))) by (apply (step_refines limit ovf o p Hi Hl)).
  assert (Hp : (exists s, p = OAppend s) \/ forall s, p <> OAppend s)
    by (destruct p; [left; eauto | right; intro; discriminate ..]).
  destruct Hp as [(s & ->) | Hp].
  2: { destruct (fault_other flt limit ovf o p Hi Hp) as [H | H]; rewrite H.
       - split; [exact Hi|]. left. split; [reflexivity | now left].
       - split; [exact Hfree | now right]. }
  unfold step, step_f, o_append in *. destruct (ob_buf o) as [b|] eqn:Hb.
  - exact (append_tail_step flt ovf s o o b Hi Hb eq_refl).
  - destruct (lenZ (ob_strbuf o) + lenZ s <? Z.of_N limit) eqn:E.
    + cbn [fst snd]. split; [exact Hfree | right; reflexivity].
    + destruct (create_buffer_f flt ovf o Hi Hb) as [Hc | Hc]; rewrite Hc.
      * cbn [fst snd lift]. split; [exact Hi|]. left. split; [reflexivity | now left].
      * destruct (create_buffer_spec ovf o Hi Hb) as (o1 & b & Hc1 & Hb1 & Hi1 & Ha1 & _).
        rewrite Hc1 in *. apply (append_tail_step flt ovf s o o1 b Hi1 Hb1).
        rewrite Ha1. unfold abs. now rewrite Hb.
Qed.

Lemma step_never_osfault limit ovf o p : inv o -> live p -> snd (step limit ovf o p) <> RExn OSFault.
Proof.
  intros Hi Hp He. destruct (step_refines limit ovf o p Hi Hp) as (_ & _ & Hout & _).
  rewrite He in Hout. now destruct (out_ok_exn _ _ _ Hp Hout).
Qed.

(* A fault at any point of any history: the exception propagates, no byte is lost
   or duplicated, len stays truthful, and every continuation of the history is
   again a refinement of the FIFO queue. *)
Definition fault_atomicity (flt : fault) : Prop :=
  forall limit ovf ops p more, Forall live ops -> live p -> Forall live more ->
  let o := exec limit ovf o_new ops in
  let q := q_exec_op q_empty ops in
  let r := step_f flt limit ovf o p in
  let o' := fst r in
  (snd r <> RExn OSFault -> r = step limit ovf o p) /\
  (snd r = RExn OSFault ->
     inv o' /\
     (abs o' = q \/ exists s, p = OAppend s /\ abs o' = q ++ s) /\
     o_len o' = q_len (abs o') /\
     let o'' := exec limit ovf o' more in
     inv o'' /\ abs o'' = q_exec_op (abs o') more /\ o_len o'' = q_len (abs o'') /\
     forall p', live p' -> out_ok (abs o'') p' (snd (step limit ovf o'' p'))).

Theorem fault_history flt : fault_atomicity flt.
Proof.
  intros limit ovf ops p more Hl Hp Hm o q r o'.
  destruct (exec_refines limit ovf ops o_new inv_new Hl) as (Hi & Ha). fold o in Hi, Ha.
  change (abs o_new) with q_empty in Ha. fold q in Ha.
  destruct (fault_step flt limit ovf o p Hi Hp) as (H1 & H2). cbv zeta in H1, H2.
  fold r in H1, H2. fold o' in H1, H2.
  split.
  - intro Hne. destruct H2 as [(H2 & _) | H2]; [now elim Hne | exact H2].
  - intro He.
    assert (H3 : fault_ok o p o').
    { destruct H2 as [(_ & H3) | H2]; [exact H3|]. exfalso.
      apply (step_never_osfault limit ovf o p Hi Hp). now rewrite <- H2. }
    split; [exact H1|]. split.
    + destruct H3 as [H3 | (s & -> & H3)]; [left; now rewrite H3 | right; exists s; split; [reflexivity | now rewrite H3, Ha]].
    + split; [now apply abs_len|]. cbv zeta.
      destruct (exec_refines limit ovf more o' H1 Hm) as (H4 & H5).
      repeat split; auto. * now apply abs_len. * intros p' Hp'. now apply step_refines.
Qed.

(* FileBasedBuffer.__init__ as it was: the source file is repositioned only when
   the copy succeeds *)
Definition fb_init_old (flt : fault) (k : kind) (from_buffer : option fbuf) : init_result :=
  if ctor_fails flt k then InitExn OSFault from_buffer else
  let file := newfile in
  match from_buffer with
  | None => InitOk (mkfbuf k file 0)
  | Some ob =>
    let from_file := fb_file ob in
    if f_closed from_file then InitExn ValueErrorClosed from_buffer else
    let read_pos := f_tell from_file in
    let from_file := f_seek_set from_file 0 in
    let '(data, from_file) := f_read_all from_file in
    match flt, data with
    | FCopyWrite, _ :: _ => InitExn OSFault (Some (mkfbuf (fb_kind ob) from_file (fb_remain ob)))
    | _, _ =>
      let file := f_write file data in
      let remain := Z.of_nat (f_tell file) - Z.of_nat read_pos in
      let from_file := f_seek_set from_file read_pos in
      let file := f_seek_set file read_pos in
      InitOk (mkfbuf k file remain)
    end
  end.

Lemma fb_init_old_same k from : fb_init_old FNone k from = fb_init FNone k from.
Proof. destruct from as [b|]; reflexivity. Qed.

