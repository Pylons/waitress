(* Proof/DispatcherSpec.v -- the specifications of Spec/Pool.v follow from the
   inductive invariant of Proof/DispatcherInv.v, for every schedule. *)
From Coq Require Import List Arith ZArith Bool Lia.
From WV Require Import Lib.Conc Model.Dispatcher Spec.Pool Proof.DispatcherLib Proof.DispatcherInv.
Import ListNotations.

Definition runD (sched : list choice) : state := run step init sched.
Definition traceD (sched : list choice) : list label := trace step init sched.

Theorem Inv_run : forall sched, Inv (runD sched).
Proof.
  intros. unfold runD. apply invariant_rule.
  - apply Inv_init.
  - intros. eapply Inv_step; eauto.
Qed.

Lemma Inv_once : forall s, Inv s -> once_spec s.
Proof.
  intros s [IA IB IC ID]. pose proof (nodup_ws s IA) as Hnd.
  destruct IC as [Ctk Cq Cled Crun].
  assert (Hinq : forall t, In t (queue s) <-> taken s <= t < length (ledger s)).
  { intros t. rewrite Cq. rewrite in_seq. lia. }
  constructor; unfold submitted, next_id, st, svc, cnc, info.
  - rewrite Cq. apply seq_NoDup.
  - intros t Hin. apply Hinq in Hin. lia.
  - intros t Ht. rewrite Hinq. specialize (Cled t Ht). unfold led_ok, led_ok_at in Cled.
    destruct (ti_st (nth t (ledger s) ti0)); split; intros H; try discriminate; try lia; auto.
  - intros t w Ht. split.
    + intros H. specialize (Cled t Ht). unfold led_ok, led_ok_at in Cled. rewrite H in Cled. tauto.
    + intros H. apply Crun in H. tauto.
  - intros t w H. apply Crun in H. tauto.
  - intros w pc1 pc2 H1 H2. eapply In_unique; eauto.
  - intros t Ht. specialize (Cled t Ht). unfold led_ok, led_ok_at in Cled.
    destruct (ti_st (nth t (ledger s) ti0)); tauto.
  - intros t Ht. specialize (Cled t Ht). unfold led_ok, led_ok_at in Cled.
    destruct (ti_st (nth t (ledger s) ti0)); tauto.
Qed.

Lemma projections_app : forall a b,
  submits (a ++ b) = submits a ++ submits b /\ takes (a ++ b) = takes a ++ takes b /\
  starts (a ++ b) = starts a ++ starts b.
Proof.
  induction a as [|x a IH]; simpl; intros b; auto. destruct (IH b) as (A & B & C).
  destruct x; simpl; rewrite ?A, ?B, ?C; auto.
Qed.

Definition quiet (l : list label) : Prop := submits l = [] /\ takes l = [] /\ starts l = [].

Lemma quiet_starts : forall new, quiet (map LStart new).
Proof. induction new; simpl; unfold quiet in *; simpl; tauto. Qed.

(* what a step does to the three projections of the trace *)
Inductive step_kind (s s' : state) (c : choice) (l : list label) : Prop :=
| K_quiet : quiet l -> length (ledger s') = length (ledger s) -> taken s' = taken s -> step_kind s s' c l
| K_submit : submits l = [length (ledger s)] -> takes l = [] -> starts l = [] ->
             length (ledger s') = S (length (ledger s)) -> taken s' = taken s -> step_kind s s' c l
| K_pop : forall w, c = CWork w -> In w (map fst (workers s)) ->
          submits l = [] -> takes l = [taken s] -> starts l = [taken s] ->
          length (ledger s') = length (ledger s) -> taken s' = S (taken s) -> step_kind s s' c l
| K_cancel : submits l = [] -> takes l = [taken s] -> starts l = [] ->
          length (ledger s') = length (ledger s) -> taken s' = S (taken s) -> step_kind s s' c l.

Lemma step_kind_of : forall s c s' l, InvA s -> InvC s -> step s c = Some (s', l) -> step_kind s s' c l.
Proof.
  intros s c s' l IA IC H.
  assert (Hadd : forall b k, do_add b k s = Some (s', l) -> step_kind s s' c l).
  { intros b k Ha. destruct (do_add_cases _ _ _ _ _ Ha) as [l2 [[Eq | w En] ->]];
      apply K_submit; simpl; auto; rewrite app_length; simpl; lia. }
  assert (Hres : forall n s1 ls, do_resize n s = (s1, ls) ->
            quiet ls /\ length (ledger s1) = length (ledger s) /\ taken s1 = taken s).
  { intros n s1 ls Hr. destruct (do_resize_cases _ _ _ _ (A_nodup s IA) Hr); simpl;
      (split; [|auto]); [apply quiet_starts | repeat split | repeat split]. }
  destruct (step_cases s c s' l (nodup_ws s IA) H)
    as [k Hf Ha | n Hf Hr | w pc Hf Hin Hpc Hw | w k t Hf Hin Ha | w t r Hin -> -> | cp s1 ls Hf Hsd Hr -> -> | e Hs];
    eauto.
  - destruct (Hres _ _ _ Hr) as [Q [L T]]. apply K_quiet; auto.
  - destruct (do_work_cases _ _ _ _ _ Hw) as [Eq Est | t q Eq Est | st Est].
    + apply K_quiet; repeat split.
    + destruct (queue_head_taken s t q IC Eq) as [-> _].
      apply (K_pop _ _ _ _ w); simpl; auto. eapply In_fst; eauto. apply upd_length.
    + apply K_quiet; simpl; auto. destruct (xwait s); repeat split.
  - apply K_quiet; simpl; auto. repeat split. apply upd_length.
  - destruct (Hres _ _ _ Hr) as [Q [L T]]. apply K_quiet; auto.
  - destruct (do_sd_cases _ _ _ _ Hs) as [ls Hsd Hl Hc [-> | ->] | ls Hsd Hl Hc [-> | ->] | Hsd Hl | Hsd | t q Hsd Eq | Hsd Eq];
      try (apply K_quiet; simpl; auto; repeat split; fail).
    destruct (queue_head_taken s t q IC Eq) as [-> _]. apply K_cancel; simpl; auto. apply upd_length.
Qed.

Lemma Subseq_nil_l : forall A (l : list A), Subseq [] l.
Proof. induction l; constructor; auto. Qed.

Lemma Subseq_app : forall A (a b c d : list A), Subseq a b -> Subseq c d -> Subseq (a ++ c) (b ++ d).
Proof.
  intros A a b c d H. induction H; simpl; intros;
    [auto | apply Subseq_skip; auto | apply Subseq_take; auto].
Qed.

Definition InvT (s : state) (tr : list label) : Prop :=
  Inv s /\ submits tr = seq 0 (length (ledger s)) /\ takes tr = seq 0 (taken s) /\
  Subseq (starts tr) (takes tr).

Lemma InvT_step : forall s tr c s' l, InvT s tr -> step s c = Some (s', l) -> InvT s' (tr ++ l).
Proof.
  intros s tr c s' l [I [T1 [T2 T3]]] H.
  split; [eapply Inv_step; eauto|].
  destruct (projections_app tr l) as (-> & -> & ->).
  destruct (step_kind_of s c s' l (inv_A s I) (inv_C s I) H)
    as [[Q1 [Q2 Q3]] K2 K3 | K1 K2 K3 K4 K5 | w Kc Kw K1 K2 K3 K4 K5 | K1 K2 K3 K4 K5].
  - rewrite Q1, Q2, Q3, K2, K3, !app_nil_r. auto.
  - rewrite K1, K2, K3, K4, K5, !app_nil_r. rewrite seq_S. simpl. rewrite T1. auto.
  - rewrite K1, K2, K3, K4, K5, !app_nil_r. rewrite seq_S. simpl. rewrite T2.
    repeat split; auto. apply Subseq_app; auto. rewrite <- T2. auto.
    apply Subseq_take. apply Subseq_nil.
  - rewrite K1, K2, K3, K4, K5, !app_nil_r. rewrite seq_S. simpl. rewrite T2.
    repeat split; auto. rewrite <- (app_nil_r (starts tr)). apply Subseq_app.
    rewrite <- T2. auto. apply Subseq_skip. apply Subseq_nil.
Qed.

Theorem InvT_run : forall sched, InvT (runD sched) (traceD sched).
Proof.
  intros. unfold runD, traceD. apply (invariant_rule_tr _ _ _ step InvT).
  - split; [apply Inv_init|]. simpl. repeat split; constructor.
  - intros. eapply InvT_step; eauto.
Qed.

Lemma quiescent_parts : forall s, quiescent s = true ->
  lock s = None /\ (forall w pc, In (w, pc) (workers s) -> pc = WWait) /\
  (sd s = SdIdle \/ exists r, sd s = SdDone r).
Proof.
  intros s H. unfold quiescent in H. apply andb_true_iff in H. destruct H as [H H3].
  apply andb_true_iff in H. destruct H as [H1 H2]. split; [apply free_true; auto|]. split.
  - intros w pc Hin. rewrite forallb_forall in H2. specialize (H2 _ Hin). simpl in H2.
    destruct pc; try discriminate; auto.
  - destruct (sd s); try discriminate; eauto.
Qed.

Lemma parked_waiters : forall s, InvA s -> (forall w pc, In (w, pc) (workers s) -> pc = WWait) ->
  qwait s = [] -> workers s = [].
Proof.
  intros s IA Hw Hz. destruct (workers s) as [|[w pc] ws] eqn:Ew; auto. exfalso.
  assert (Hin : In (w, pc) (workers s)) by (rewrite Ew; left; auto). rewrite <- Ew in Hw.
  rewrite (Hw w pc Hin) in Hin. apply (A_qw s IA) in Hin. rewrite Hz in Hin. destruct Hin.
Qed.

Lemma Inv_quiescent : forall s, Inv s -> quiescent_spec s.
Proof.
  intros s [IA IB IC ID] Hq Hne. apply quiescent_parts in Hq. destruct Hq as [_ [Hw _]].
  assert (E : workers s = []).
  { apply parked_waiters; auto. destruct (qwait s) eqn:Eq; auto. exfalso.
    assert (Hqw : qwait s <> []) by congruence. pose proof (B_wake s IB Hqw) as Hlen.
    rewrite (cnt_zero is_notified (workers s)) in Hlen.
    - destruct (queue s); [congruence|simpl in Hlen; lia].
    - intros v q Hv. rewrite (Hw v q Hv). auto. }
  split; auto. rewrite <- (A_ths s IA), E. auto.
Qed.

Lemma Inv_resize : forall s, Inv s -> resize_spec s.
Proof.
  intros s I. pose proof I as [IA IB IC ID]. split; [apply (B_req s IB)|].
  intros Hq. pose proof (quiescent_parts s Hq) as [_ [Hw _]].
  pose proof (B_req s IB) as Hr. rewrite <- (A_ths s IA), map_length in Hr.
  assert (Hs : stop_count s = 0).
  { destruct (stop_count s) eqn:Es; auto. exfalso.
    rewrite (parked_waiters s IA Hw) in Hr; [simpl in Hr; lia|]. apply (B_stop s IB); lia. }
  split; auto. lia.
Qed.

Lemma do_work_total : forall w pc s, exists r, do_work w pc s = Some r.
Proof. intros. unfold do_work. destruct (queue s); destruct (stop_count s); eauto. Qed.

(* [quiescent] is the right notion: it holds exactly when no thread of the pool can
   move, i.e. every enabled choice is an environment choice *)
Theorem quiescent_char : forall s, Inv s ->
  (quiescent s = true <-> forall c, is_env c = false -> step s c = None).
Proof.
  intros s I. pose proof I as [IA IB IC ID]. pose proof (nodup_ws s IA) as Hnd. split.
  - (* every section of a worker needs a worker that is not parked, every section of
       the shutdown thread a shutdown in progress *)
    intros Hq c Hc. destruct (quiescent_parts s Hq) as [Hl [Hw Hs]].
    destruct (step s c) as [[s' l]|] eqn:E; auto. exfalso.
    destruct (step_cases s c s' l Hnd E)
      as [k Hf Ha | n Hf Hr | w pc Hf Hin Hpc Hw' | w k t Hf Hin Ha | w t r Hin _ _ | cp s1 ls Hf Hsd Hr _ _ | e Hs'];
      try discriminate; try (apply Hw in Hin; destruct Hpc; congruence); try (apply Hw in Hin; discriminate).
    destruct (do_sd_cases _ _ _ _ Hs'); destruct Hs as [Hs|[r Hs]]; congruence.
  - intros H.
    assert (Hsd : sd s = SdIdle \/ exists r, sd s = SdDone r).
    { pose proof (H (CSd true) eq_refl) as H1. simpl in H1. unfold do_sd in H1.
      destruct (sd s) eqn:Esd; eauto; exfalso.
      - assert (Hf : free s = true).
        { unfold free. rewrite (A_lock2 s IA); auto. congruence. }
        rewrite Hf in H1. destruct (threads s); destruct (sd_cancel s); discriminate.
      - discriminate.
      - destruct (queue s); discriminate. }
    assert (Hf : free s = true).
    { unfold free. rewrite (A_lock2 s IA); auto. destruct Hsd as [E|[r E]]; congruence. }
    unfold quiescent. rewrite Hf. simpl. apply andb_true_iff. split.
    + apply forallb_forall. intros [w pc] Hin. simpl.
      pose proof Hin as Hg. apply get_pc_In in Hg; auto.
      pose proof (H (CWork w) eq_refl) as H1. pose proof (H (CFinish w false) eq_refl) as H2.
      simpl in H1, H2. rewrite Hf, Hg in H1. rewrite Hg in H2.
      destruct pc; auto; try discriminate;
        match type of H1 with do_work ?w ?pc ?s = None =>
          destruct (do_work_total w pc s) as [r Hr]; congruence end.
    + destruct Hsd as [E|[r E]]; rewrite E; auto.
Qed.

(* a return label can only come from the shutdown thread: from the end of the
   cancel loop (true) or from leaving the wait loop without cancel_pending (false) *)
Lemma ret_cases : forall s c s' l r, InvA s -> step s c = Some (s', l) -> In (LSdReturn r) l ->
  (r = true /\ sd s' = SdDone true /\ queue s' = []) \/
  (r = false /\ queue s' = queue s /\ ledger s' = ledger s /\ sd_cancel s = false).
Proof.
  intros s c s' l r IA H Hin.
  assert (Hadd : forall b k, do_add b k s = Some (s', l) -> False).
  { intros b k Ha. destruct (do_add_cases _ _ _ _ _ Ha) as [l2 [[Eq | w En] ->]];
      simpl in Hin; intuition discriminate. }
  assert (Hres : forall n s1 ls, do_resize n s = (s1, ls) -> ~ In (LSdReturn r) ls).
  { intros n s1 ls Hr Hi. destruct (do_resize_cases _ _ _ _ (A_nodup s IA) Hr); simpl in Hi.
    - apply in_map_iff in Hi. destruct Hi as [x [Hx _]]. discriminate.
    - intuition discriminate.
    - auto. }
  destruct (step_cases s c s' l (nodup_ws s IA) H)
    as [k Hf Ha | n Hf Hr | w pc Hf Hin' Hpc Hw | w k t Hf Hin' Ha | w t r' Hin' -> -> | cp s1 ls Hf Hsd Hr -> -> | e Hs];
    try (exfalso; eauto; fail).
  - exfalso. eapply Hres; eauto.
  - exfalso. destruct (do_work_cases _ _ _ _ _ Hw); simpl in Hin; try destruct (xwait s);
      simpl in Hin; intuition discriminate.
  - simpl in Hin. intuition discriminate.
  - exfalso. destruct Hin as [Hd|Hin]; [discriminate|]. eapply Hres; eauto.
  - destruct (do_sd_cases _ _ _ _ Hs) as [ls Hsd Hl Hc [-> | ->] | ls Hsd Hl Hc [-> | ->] | Hsd Hl | Hsd | t q Hsd Eq | Hsd Eq];
      simpl in Hin; try (exfalso; intuition discriminate).
    + right. destruct Hin as [Hd|[]]. inv Hd. auto.
    + right. destruct Hin as [Hd|[Hd|[]]]; inv Hd. auto.
    + left. destruct Hin as [Hd|[Hd|[]]]; inv Hd. auto.
Qed.

Theorem shutdown_true_step : forall s c s' l, Inv s -> step s c = Some (s', l) -> shutdown_true_spec s' l.
Proof.
  intros s c s' l I H Hin. pose proof (Inv_step _ _ _ _ I H) as I'.
  destruct (ret_cases _ _ _ _ _ (inv_A s I) H Hin) as [[_ [S1 S2]] | [Hd _]]; [|discriminate].
  split; auto.
  intros t Ht. destruct (D_done s' (inv_D s' I') S1 t Ht) as [C1 C2].
  pose proof (C_led s' (inv_C s' I') t C1) as Hok.
  unfold led_ok, led_ok_at, st, cnc, svc, info in *. rewrite C2 in Hok. tauto.
Qed.

Theorem shutdown_false_step : forall s c s' l, Inv s -> step s c = Some (s', l) -> shutdown_false_spec s s' l.
Proof.
  intros s c s' l I H Hin.
  destruct (ret_cases _ _ _ _ _ (inv_A s I) H Hin) as [[Hd _] | [_ F]]; [discriminate|auto].
Qed.

Theorem shutdown_snap_step : forall s c s' l, Inv s -> step s c = Some (s', l) -> shutdown_snap_spec s c s'.
Proof.
  intros s c s' l I H. pose proof (inv_A s I) as IA.
  (* a section run with the lock free that leaves the shutdown thread where it is, or wakes it *)
  assert (V : lock s = None -> sd s' = sd s \/ sd s' = SdAcq -> shutdown_snap_spec s c s').
  { intros Hf Hsd. pose proof (unlocked s IA Hf). split; [|tauto]. destruct Hsd; congruence. }
  step_inv IA H.
  - apply V; auto. left. apply (do_add_frame _ _ _ _ _ Ha).
  - apply V; auto. left. apply (do_resize_frame _ _ _ _ (A_nodup s IA) Hr).
  - apply V; auto. apply (do_work_frame _ _ _ _ _ Hw).
  - apply V; auto. left. apply (do_add_frame _ _ _ _ _ Ha).
  - split; simpl; [congruence|auto].
  - apply V; auto.
  - sd_inv Hs;
      split; simpl; try congruence; auto.
    intros _. split; auto. right. eauto.
Qed.

Theorem no_worker_step : forall s c s' l, Inv s -> step s c = Some (s', l) -> no_worker_spec s l.
Proof.
  intros s c s' l I H Hw.
  destruct (step_kind_of s c s' l (inv_A s I) (inv_C s I) H)
    as [[Q1 [Q2 Q3]] K2 K3 | K1 K2 K3 K4 K5 | w Kc Kw K1 K2 K3 K4 K5 | K1 K2 K3 K4 K5]; auto.
  rewrite Hw in Kw. destruct Kw.
Qed.

(* with no worker alive the queued tasks stay queued, whatever happens, until
   set_thread_count is called again or shutdown cancels them *)
Theorem stranded_step : forall s c s' l, Inv s -> step s c = Some (s', l) -> workers s = [] ->
  (forall n, c <> CResize n) -> (forall e, c <> CSd e) ->
  forall t, In t (queue s) -> In t (queue s') /\ st s' t = Queued.
Proof.
  intros s c s' l I H Hw Hr Hs t Hin.
  pose proof (Inv_step _ _ _ _ I H) as I'. pose proof (Inv_once s' I') as O'.
  assert (Hq : In t (queue s')).
  { pose proof (inv_A s I) as IA.
    destruct (step_cases s c s' l (nodup_ws s IA) H)
      as [k Hf Ha | n Hf Hr' | w pc Hf Hin' Hpc Hw' | w k u Hf Hin' Ha | w u r Hin' -> _ | cp s1 ls Hf Hsd Hr' -> _ | e Hs'];
      try (rewrite Hw in Hin'; destruct Hin').
    - destruct (do_add_frame _ _ _ _ _ Ha) as [_ [_ [F3 _]]]. rewrite F3. apply in_or_app; auto.
    - destruct (Hr n); auto.
    - destruct (do_resize_frame _ _ _ _ (A_nodup s IA) Hr') as [_ [F4 _]]. simpl. congruence.
    - destruct (Hs e); auto. }
  split; auto. apply (once_queued s' O'); auto. apply (once_queue_submitted s' O'); auto.
Qed.

(* the meaning of threads, stop_count, active_count, the waiter list and the lock *)
Definition bookkeeping_spec (s : state) : Prop :=
  map fst (workers s) = threads s /\ NoDup (threads s) /\
  active_count s = Z.of_nat (cnt is_active (workers s)) /\
  length (threads s) = requested s + stop_count s /\
  (stop_count s > 0 -> qwait s = []) /\
  (forall w, In w (qwait s) <-> In (w, WWait) (workers s)) /\
  (lock s = None <-> sd s <> SdCancel).
