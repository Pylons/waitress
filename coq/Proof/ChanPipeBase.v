(* Proof/ChanPipeBase.v -- regions of the program points of Model/ChanPipe.v; layer L0: each lock is
   held exactly by the thread inside its region, and what one step may do to a lock; the opening
   of every preservation proof (step_io / step_wk). *)
From Coq Require Import List Arith Bool ZArith Lia.
From WV Require Import Model.ChanPipe.
Import ListNotations.

(* take apart the matches / ifs of a hypothesis [H : ... = Some _] *)
Ltac break_step H :=
  repeat (match type of H with
          | context [match ?x with _ => _ end] =>
              lazymatch x with
              | context [match _ with _ => _ end] => fail
              | _ => first [ is_var x; destruct x | let E := fresh "E" in destruct x eqn:E ]
              end
          end; try discriminate H).

Ltac inv_some H := injection H as; subst.

Lemma free_none : forall l, free l = true -> l = None.
Proof. destruct l; simpl; congruence. Qed.

Lemma free_none_r : forall a l, (a && free l)%bool = true -> l = None.
Proof. intros a l H. apply andb_true_iff in H. apply free_none. apply H. Qed.

Lemma upd_same : forall f i x, upd f i x i = x.
Proof. intros. unfold upd. rewrite Nat.eqb_refl. reflexivity. Qed.
Lemma upd_other : forall f i x j, j <> i -> upd f i x j = f j.
Proof. intros. unfold upd. destruct (Nat.eqb_spec j i); congruence. Qed.

Definition sc_ol (c : scpc) : bool := match c with ScAcq => false | _ => true end.
Definition at_dl (a : atpc) : bool := match a with AtAcq => false | _ => true end.

Definition io_rl (pc : iopc) : bool :=
  match pc with
  | IoRcWc | IoRcCwf | IoRcItem | IoRcChk | IoRcSc _ | IoRcApp | IoRcApp2 | IoRcLen | IoRcAt _ | IoRcRel => true
  | _ => false
  end.
Definition io_ol (pc : iopc) : bool :=
  match pc with
  | IoRcSc c => sc_ol c
  | IoHwFlL _ | IoHwNTot | IoHwNotify | IoHwRel | IoHwRelX => true
  | IoHc h _ => match h with HcAcq | HcConn2 => false | _ => true end
  | _ => false
  end.
Definition io_dl (pc : iopc) : bool := match pc with IoRcAt a => at_dl a | _ => false end.

Definition wk_rl (pc : wkpc) : bool :=
  match pc with
  | WCbCwf | WCbReq | WCbClr | WCbRel | WKbPop | WKbConn | WKbReq | WKbAt _ | WKbConn2 | WKbSc _ | WKbRel => true
  | _ => false
  end.
Definition wk_ol (pc : wkpc) : bool :=
  match pc with
  | WWsHw | WWsConn2 | WWsRelX | WWsRot | WWsApp | WWsTotR | WWsTotW _ | WWsChk | WWsFl _ | WWsExcW | WWsChk2 | WWsTrig | WWsRel => true
  | WKbSc c => sc_ol c
  | _ => false
  end.
Definition wk_dl (pc : wkpc) : bool :=
  match pc with WWait | WRelD => true | WKbAt a => at_dl a | _ => false end.

Definition lock_ok (lk : shared -> option tid) (ior : iopc -> bool) (wkr : wkpc -> bool) (st : state) : Prop :=
  (lk (sh st) = Some TIo <-> ior (ipc (io st)) = true) /\
  (forall j, lk (sh st) = Some (TW j) <-> wkr (wpc (wk st j)) = true).

Record L0 (st : state) : Prop := {
  l0_r : lock_ok rlock io_rl wk_rl st;
  l0_o : lock_ok olock io_ol wk_ol st;
  l0_d : lock_ok dlock io_dl wk_dl st
}.

Lemma L0_init : L0 init.
Proof. split; split; simpl; intros; split; intros; discriminate. Qed.

Definition in_reg (ior : iopc -> bool) (wkr : wkpc -> bool) (st : state) (t : tid) : bool :=
  match t with TIo => ior (ipc (io st)) | TW j => wkr (wpc (wk st j)) end.

Lemma lock_ok_reg : forall lk ior wkr st,
  lock_ok lk ior wkr st <-> forall t, lk (sh st) = Some t <-> in_reg ior wkr st t = true.
Proof.
  unfold lock_ok. intros. split.
  - intros [A B] [|j]; simpl; auto.
  - intro A. split; [apply (A TIo) | intro j; apply (A (TW j))].
Qed.

(* two threads inside the region of a lock are one thread *)
Lemma lock_ok_excl : forall lk ior wkr st t u, lock_ok lk ior wkr st ->
  in_reg ior wkr st t = true -> in_reg ior wkr st u = true -> t = u.
Proof.
  intros lk ior wkr st t u H Ht Hu. rewrite lock_ok_reg in H.
  apply H in Ht. apply H in Hu. congruence.
Qed.

(* what a step of thread t may do to a lock: nothing, while staying on its side of the region;
   take it when it is free, entering the region; give it back, leaving the region *)
Definition lock_eff (t : tid) (l l' : option tid) (r r' : bool) : Prop :=
  (l' = l /\ r' = r) \/ (l = None /\ l' = Some t /\ r' = true) \/ (r = true /\ l' = None /\ r' = false).

Lemma lock_ok_step : forall lk ior wkr st st' t,
  lock_ok lk ior wkr st ->
  (forall u, u <> t -> in_reg ior wkr st' u = in_reg ior wkr st u) ->
  lock_eff t (lk (sh st)) (lk (sh st')) (in_reg ior wkr st t) (in_reg ior wkr st' t) ->
  lock_ok lk ior wkr st'.
Proof.
  intros lk ior wkr st st' t H Hoth Heff. rewrite lock_ok_reg in *. intro u.
  assert (D : u = t \/ u <> t).
  { destruct u as [|j], t as [|k]; try (right; discriminate); auto.
    destruct (Nat.eq_dec j k); [left; congruence | right; congruence]. }
  destruct D as [->|N].
  - destruct Heff as [[E1 E2]|[(E1 & E2 & E3)|(E1 & E2 & E3)]].
    + rewrite E1, E2. apply H.
    + rewrite E2, E3. tauto.
    + rewrite E2, E3. split; discriminate.
  - rewrite Hoth by auto. rewrite <- (H u).
    destruct Heff as [[E1 E2]|[(E1 & E2 & E3)|(E1 & E2 & E3)]].
    + rewrite E1. tauto.
    + rewrite E1, E2. split; [congruence | discriminate].
    + apply (H t) in E1. rewrite E1, E2. split; [discriminate | congruence].
Qed.

Lemma lock_ok_io : forall lk ior wkr s i w s' i',
  lock_ok lk ior wkr {| sh := s; io := i; wk := w |} ->
  lock_eff TIo (lk s) (lk s') (ior (ipc i)) (ior (ipc i')) ->
  lock_ok lk ior wkr {| sh := s'; io := i'; wk := w |}.
Proof.
  intros lk ior wkr s i w s' i' H E. apply (lock_ok_step _ _ _ _ _ TIo H); auto.
  intros [|j] N; [congruence | reflexivity].
Qed.

Lemma lock_ok_wk : forall lk ior wkr s i w s' me x,
  lock_ok lk ior wkr {| sh := s; io := i; wk := w |} ->
  lock_eff (TW me) (lk s) (lk s') (wkr (wpc (w me))) (wkr (wpc x)) ->
  lock_ok lk ior wkr {| sh := s'; io := i; wk := upd w me x |}.
Proof.
  intros lk ior wkr s i w s' me x H E. apply (lock_ok_step _ _ _ _ _ (TW me) H).
  - intros [|j] N; [reflexivity|]. simpl. rewrite upd_other; congruence.
  - simpl. rewrite upd_same. exact E.
Qed.


Lemma fl_step_shape : forall s f e s' r l, fl_step s f e = Some (s', r, l) ->
  s' = set_total (set_wire (set_obs s (obs s')) (wire s') (infl s')) (total s').
Proof.
  intros s f e s' r l H. unfold fl_step in H. destruct s. destruct (fpc f); break_step H; inv_some H; reflexivity.
Qed.

Ltac fl_out :=
  try match goal with E : fl_step _ _ _ = Some _ |- _ => rewrite (fl_step_shape _ _ _ _ _ _ E); clear E end.

(* the standard opening of a preservation proof: [step_io Hs] / [step_wk Hs] turn
   Hs : step P st c = Some (st', l) into one goal per program point and branch, with
   st = {| sh := s; io := i; wk := w |} taken apart and st' replaced by its value.
   In the worker goals Hw : w me = {| wpc := <pc>; ... |}.  _flush_some stays folded: at its
   program points E : fl_step s f e = Some (s', r, l) with r taken apart.  The layers that do not
   read what _flush_some writes go on with [fl_out], which puts fl_step_shape in the place of s'. *)
Ltac step_io Hs :=
  match type of Hs with step ?P ?st (CIo ?e) = Some (?st', ?l) =>
    unfold step in Hs;
    let E := fresh "E" in
    destruct (io_step P (sh st) (io st) e) as [[[s' i'] l']|] eqn:E; [|discriminate Hs];
    inv_some Hs;
    unfold io_step, sc_step, at_step, sc_enter, io_after_read in E;
    destruct st as [s i w]; cbn [sh io wk] in *;
    destruct i as [pc ir iw iws its icur icomp]; cbn [ipc i_r i_w i_ws i_items i_cur i_comp] in *;
    destruct pc; break_step E; inv_some E
  end.

Ltac step_wk Hs :=
  match type of Hs with step ?P ?st (CWk ?me ?e) = Some (?st', ?l) =>
    unfold step in Hs;
    let Hme := fresh "Hme" in
    destruct (Nat.ltb me (p_nw P)) eqn:Hme; [|discriminate Hs];
    let E := fresh "E" in
    destruct (wk_step P me (sh st) (wk st me) e) as [[[s' w'] l']|] eqn:E; [|discriminate Hs];
    inv_some Hs;
    unfold wk_step, sc_step, at_step, sc_enter, wk_next_write in E;
    destruct st as [s i w]; cbn [sh io wk] in *;
    let Hw := fresh "Hw" in
    destruct (w me) as [pc cur idx off cl] eqn:Hw; cbn [wpc w_cur w_idx w_off w_close] in *;
    destruct pc; break_step E; inv_some E
  end.

(* for a goal [forall j, ... (upd w me x j) ...] *)
Ltac upd_cases j me :=
  unfold upd in *; destruct (Nat.eqb_spec j me); [subst j|].

