(* C18, reaping.  First the invariant that a descriptor is in at most one place
   ([wf]).  Then: an idle connection whose last activity is older than
   channel_timeout is closed by the first poll turn in which its listener's
   maintenance is due -- PROVIDED its socket is writable when polled.  Without
   that hypothesis the statement is false (F21: [stalled_never_closed], the witness
   [s_f21] and [reap_refuted]); a witness for the positive theorems comes last. *)
From Coq Require Import List ZArith Bool Lia ZifyBool Arith.
From WV Require Import Gen.GenPreds Model.Server Proof.ServerBase Proof.ServerInv Proof.ServerLimit.
Import ListNotations.
Local Open Scope Z_scope.

Definition bl_fds (l : listener) : list Z := map s_fd (l_backlog l).
Definition backlog_fds (s : state) : list Z := flat_map bl_fds (st_listeners s).
Definition chan_fds (s : state) : list Z := map c_fd (st_chans s).
Definition cnt (f : Z) (l : list Z) : nat := count_occ Z.eq_dec l f.

(* every descriptor is in at most one place (a backlog or the map), and below nextfd *)
Definition wf (s : state) : Prop :=
  forall f, (cnt f (backlog_fds s) + cnt f (chan_fds s) <= 1)%nat /\
            (st_nextfd s <= f -> (cnt f (backlog_fds s) + cnt f (chan_fds s) = 0)%nat).

Lemma cnt_app : forall f a b, cnt f (a ++ b) = (cnt f a + cnt f b)%nat.
Proof. intros. unfold cnt. apply count_occ_app. Qed.

Lemma cnt_in : forall f l, In f l <-> (cnt f l > 0)%nat.
Proof. intros. unfold cnt. apply count_occ_In. Qed.

Lemma add_backlog_cnt : forall f i k ls ls',
  add_backlog i k ls = Some ls' ->
  cnt f (flat_map bl_fds ls') = (cnt f (flat_map bl_fds ls) + cnt f [s_fd k])%nat.
Proof.
  induction i as [|i IH]; intros k ls ls' H; destruct ls as [|l r]; cbn in H; try discriminate.
  - inversion H; subst. cbn [flat_map]. rewrite !cnt_app. unfold bl_fds at 1. cbn [l_backlog].
    rewrite map_app, cnt_app. cbn [map]. fold (bl_fds l). lia.
  - destruct (add_backlog i k r) eqn:E; [|discriminate]. inversion H; subst. cbn [flat_map].
    rewrite !cnt_app. rewrite (IH k r l0 E). lia.
Qed.

Lemma flat_map_map : forall (A B C : Type) (g : A -> B) (h : B -> list C) l,
  flat_map h (map g l) = flat_map (fun x => h (g x)) l.
Proof. induction l as [|x l IH]; cbn; [reflexivity|]. rewrite IH. reflexivity. Qed.

Lemma step_chan_fds : forall p s e, e <> EPoll -> chan_fds (step p s e) = chan_fds s.
Proof.
  intros p s e NP. destruct (step_chans_nonpoll p s e NP) as (g & E & Hg). unfold chan_fds.
  rewrite E, map_map. apply map_ext. intros c. apply (touch_fd _ _ _ _ _ (Hg c)).
Qed.

Lemma upd_sock_backlog : forall fd g s, (forall k, s_fd (g k) = s_fd k) ->
  backlog_fds (upd_sock fd g s) = backlog_fds s.
Proof.
  intros fd g s Hg. unfold backlog_fds, upd_sock. cbn.
  rewrite flat_map_map. apply flat_map_ext. intros l. unfold bl_fds. cbn. rewrite map_map.
  apply map_ext. intros k. destruct (s_fd k =? fd); [apply Hg|reflexivity].
Qed.

Lemma connect_fds : forall p s i f,
  step p s (EConnect i) = s \/
  (cnt f (backlog_fds (step p s (EConnect i))) = cnt f (backlog_fds s) + cnt f [st_nextfd s])%nat /\
  st_nextfd (step p s (EConnect i)) = st_nextfd s + 1.
Proof.
  intros p s i f. cbn [step]. destruct (add_backlog i _ (st_listeners s)) eqn:E; [right|left; reflexivity].
  split; [|reflexivity]. unfold backlog_fds. cbn [st_listeners]. apply (add_backlog_cnt f _ _ _ _ E).
Qed.

Lemma step_backlog_fds : forall p s e, (forall i, e <> EConnect i) -> e <> EPoll ->
  backlog_fds (step p s e) = backlog_fds s /\ st_nextfd (step p s e) = st_nextfd s.
Proof.
  intros p s e NC NP. destruct e as [i|fd t|fd ws|fd n|fd|fd|d| ]; cbn [step].
  - (* EConnect *) destruct (NC i). reflexivity.
  - (* ESend *) split; [apply upd_sock_backlog; intros k; destruct (s_gone k)|]; reflexivity.
  - (* EAppFinish *) split; reflexivity.
  - (* EReads *) split; [apply upd_sock_backlog; intros k; destruct (s_reading k)|]; reflexivity.
  - (* EStalls *) split; [apply upd_sock_backlog|]; reflexivity.
  - (* EDisconnect *) split; [apply upd_sock_backlog|]; reflexivity.
  - (* EAdvance *) split; reflexivity.
  - (* EPoll *) congruence.
Qed.

Lemma event_kinds : forall e, (exists i, e = EConnect i) \/ e = EPoll \/ ((forall i, e <> EConnect i) /\ e <> EPoll).
Proof. intros e. destruct e; eauto; right; right; split; intros; discriminate. Qed.

Lemma accepted_cnt : forall f p now mlen ls idx,
  (cnt f (flat_map bl_fds (map (la_listener p now mlen) ls)) + cnt f (map c_fd (accepted p now mlen idx ls))
   = cnt f (flat_map bl_fds ls))%nat.
Proof.
  induction ls as [|l r IH]; intros idx; cbn [map flat_map accepted]; [reflexivity|].
  rewrite map_app, !cnt_app. specialize (IH (S idx)).
  assert (H : (cnt f (bl_fds (la_listener p now mlen l)) +
               cnt f (map c_fd (if acc_ok p mlen l then match l_backlog l with k :: _ => [new_chan now idx k] | [] => [] end else []))
               = cnt f (bl_fds l))%nat).
  { unfold bl_fds, la_listener. cbn [l_backlog]. destruct (acc_ok p mlen l); [|cbn; lia].
    destruct (l_backlog l) as [|k bl]; [cbn; lia|]. cbn [tl map]. unfold c_fd at 1. cbn [new_chan c_sock].
    unfold cnt. cbn [count_occ]. destruct (Z.eq_dec (s_fd k) f); lia. }
  lia.
Qed.

Lemma survivors_cnt : forall f p now cs,
  (cnt f (map c_fd (flat_map (chan_turn p now) cs)) <= cnt f (map c_fd cs))%nat.
Proof.
  induction cs as [|c cs IH]; cbn [flat_map map]; [lia|].
  rewrite map_app, cnt_app. pose proof (chan_turn_len p now c) as L.
  destruct (chan_turn p now c) as [|c' [|c'' rest]] eqn:E; cbn [length] in L; try lia.
  - unfold cnt in *. cbn [map count_occ]. destruct (Z.eq_dec (c_fd c) f); lia.
  - assert (I : In c' (chan_turn p now c)) by (rewrite E; left; reflexivity).
    apply chan_turn_id in I. destruct I as [A _]. unfold cnt in *. cbn [map count_occ]. rewrite A.
    destruct (Z.eq_dec (c_fd c) f); lia.
Qed.

Lemma poll_cnt : forall f p s,
  (cnt f (backlog_fds (poll p s)) + cnt f (chan_fds (poll p s)) <= cnt f (backlog_fds s) + cnt f (chan_fds s))%nat.
Proof.
  intros f p s. rewrite poll_eq. unfold backlog_fds, chan_fds, poll_chans. cbn [st_listeners st_chans].
  rewrite map_app, cnt_app.
  pose proof (accepted_cnt f p (st_clock s) (map_len s) (st_listeners s) 0).
  pose proof (survivors_cnt f p (st_clock s) (map (mark p (st_clock s) 0 (st_listeners s)) (st_chans s))) as S.
  rewrite map_map in S. rewrite (map_ext _ c_fd (mark_fd p (st_clock s) 0 (st_listeners s))) in S. lia.
Qed.

Lemma step_wf : forall p s e, wf s -> wf (step p s e).
Proof.
  intros p s e H f. destruct (H f) as [H1 H2]. destruct (event_kinds e) as [[i ->]|[->|[NC NP]]].
  - destruct (connect_fds p s i f) as [->|[A B]]; [auto|]. rewrite A, B, step_chan_fds by discriminate.
    destruct (H (st_nextfd s)) as [_ H3]. specialize (H3 (Z.le_refl _)).
    unfold cnt in *. cbn [count_occ]. destruct (Z.eq_dec (st_nextfd s) f) as [<-|NE].
    + split; intros; lia.
    + split; [lia|]. intros L. specialize (H2 ltac:(lia)). lia.
  - cbn [step]. pose proof (poll_cnt f p s) as C.
    replace (st_nextfd (poll p s)) with (st_nextfd s) by (rewrite poll_eq; reflexivity).
    split; [lia|]. intros L. specialize (H2 L). lia.
  - destruct (step_backlog_fds p s e NC NP) as [A B]. rewrite A, B, step_chan_fds by assumption. auto.
Qed.

Theorem wf_reachable : forall p nl t0 fd0 s, reachable p nl t0 fd0 s -> wf s.
Proof.
  intros p nl t0 fd0. apply reachable_ind.
  - intros f. unfold backlog_fds, chan_fds, init. cbn [st_listeners st_chans map].
    assert (E : forall n, flat_map bl_fds (repeat (mkListener true false 0 []) n) = []).
    { induction n; cbn; auto. }
    rewrite E. cbn. split; [lia|reflexivity].
  - intros s e H. apply step_wf. exact H.
Qed.

Lemma in_accepted_fd : forall p now mlen ls idx c,
  In c (accepted p now mlen idx ls) -> In (c_fd c) (flat_map bl_fds ls).
Proof.
  intros p now mlen ls idx c H. apply in_accepted in H. destruct H as (l & k & o & A & B & _ & ->).
  apply in_flat_map. exists l. split; [exact A|]. unfold bl_fds, c_fd. cbn. apply in_map. exact B.
Qed.

Lemma la_backlog_incl : forall p now mlen ls f,
  In f (flat_map bl_fds (map (la_listener p now mlen) ls)) -> In f (flat_map bl_fds ls).
Proof.
  intros p now mlen ls f H. rewrite flat_map_map in H. apply in_flat_map in H. destruct H as (l & A & B).
  apply in_flat_map. exists l. split; [exact A|]. unfold bl_fds, la_listener in *. cbn in B.
  destruct (acc_ok p mlen l); [|exact B]. destruct (l_backlog l); [exact B|]. cbn in *. right. exact B.
Qed.

Lemma chans_step : forall p s e f,
  In f (chan_fds (step p s e)) -> In f (chan_fds s) \/ In f (backlog_fds s).
Proof.
  intros p s e f. destruct (event_eq_poll e) as [->|NP]; [|rewrite step_chan_fds by assumption; auto].
  cbn [step]. rewrite poll_eq. unfold chan_fds at 1. cbn [st_chans]. intros I.
  apply in_map_iff in I. destruct I as (c & <- & I). apply in_poll_chans in I. destruct I as [(c0 & I0 & I1)|I].
  - left. rewrite (proj1 (in_poll_chans_old _ _ _ _ I1)). apply in_map. exact I0.
  - right. exact (in_accepted_fd _ _ _ _ _ _ I).
Qed.

(* a descriptor that is below nextfd and in no backlog never enters one again:
   only a connect adds to a backlog, and what it adds is nextfd *)
Lemma used_step : forall p s e f, ~ In f (backlog_fds s) -> f < st_nextfd s ->
  ~ In f (backlog_fds (step p s e)) /\ f < st_nextfd (step p s e).
Proof.
  intros p s e f NB LT. destruct (event_kinds e) as [[i ->]|[->|[NC NP]]].
  - destruct (connect_fds p s i f) as [->|[A ->]]; [auto|]. split; [|lia].
    intros I. apply cnt_in in I. rewrite A in I. unfold cnt at 2 in I. cbn [count_occ] in I.
    destruct (Z.eq_dec (st_nextfd s) f); [lia|]. apply NB, cnt_in. lia.
  - cbn [step]. rewrite poll_eq. unfold backlog_fds. cbn [st_listeners st_nextfd]. split; [|exact LT].
    intros B. exact (NB (la_backlog_incl _ _ _ _ _ B)).
  - destruct (step_backlog_fds p s e NC NP) as [-> ->]. auto.
Qed.

(* no request queued or executing, nothing received that the server has not
   read, nothing the server could send now (no output, or the peer has stalled
   with a full send buffer), last activity older than channel_timeout *)
Definition quiet_chan (p : params) (o : nat) (clk : Z) (c : chan) : Prop :=
  c_owner c = o /\ c_requests c = [] /\ s_rx (c_sock c) = [] /\
  (c_pend c <= 0 \/ (s_reading (c_sock c) = false /\ s_room (c_sock c) <= 0)) /\
  c_last c + p_timeout p < clk.

(* events that are not activity of connection f: everything except the client
   of f sending data or reading *)
Definition quiet_ev (f : Z) (e : event) : Prop :=
  match e with ESend fd _ => fd <> f | EReads fd _ => fd <> f | _ => True end.

Definition evolves (c0 c' : chan) : Prop :=
  c_fd c' = c_fd c0 /\ c_owner c' = c_owner c0 /\ c_requests c' = c_requests c0 /\
  s_rx (c_sock c') = s_rx (c_sock c0) /\ c_pend c' = c_pend c0 /\ s_room (c_sock c') = s_room (c_sock c0) /\
  c_last c' = c_last c0 /\ (s_reading (c_sock c0) = false -> s_reading (c_sock c') = false) /\
  (c_wc c0 = true -> c_wc c' = true).

Lemma evolves_refl : forall c, evolves c c.
Proof. intros c. unfold evolves. repeat split; auto. Qed.

Lemma quiet_evolves : forall p o clk clk' c0 c', quiet_chan p o clk c0 -> evolves c0 c' -> clk <= clk' -> quiet_chan p o clk' c'.
Proof.
  intros p o clk clk' c0 c' (A & B & C & D & E) (E1 & E2 & E3 & E4 & E5 & E6 & E7 & E8 & _) L.
  unfold quiet_chan. rewrite E2, E3, E4, E5, E6, E7.
  split; [assumption|]. split; [assumption|]. split; [assumption|]. split; [|lia].
  destruct D as [D|[D1 D2]]; [left; assumption|right; split; auto].
Qed.

Lemma mark_evolves : forall p now idx ls c, evolves c (mark p now idx ls c).
Proof.
  intros. destruct (mark_fields p now idx ls c) as (M1 & M2 & M3 & _ & M5 & M6 & _).
  unfold evolves. rewrite mark_fd, M1, M2, M3, M5, M6. repeat split; auto.
  unfold mark. destruct (_ && _); cbn; auto.
Qed.

Lemma mark_quiet : forall p o now idx ls c, quiet_chan p o now c -> quiet_chan p o now (mark p now idx ls c).
Proof. intros. eapply quiet_evolves; [eassumption|apply mark_evolves|apply Z.le_refl]. Qed.

(* an event that is not activity of f leaves a channel of f with no request as it is, up to
   its client stalling or disconnecting *)
Lemma touch_quiet_evolves : forall p now e f c c',
  chan_touch p now e c c' -> quiet_ev f e -> c_fd c = f -> c_requests c = [] -> evolves c c'.
Proof.
  intros p now e f c c' T QE F R. destruct T as [|k K|ws].
  - apply evolves_refl.
  - rewrite F in K. destruct K; cbn [quiet_ev] in QE; try congruence;
      unfold evolves, c_fd; cbn; repeat split; auto.
  - unfold service. rewrite R. apply evolves_refl.
Qed.

(* handle_write on a quiet channel that select reports writable: there is nothing it
   can send (with output pending and the peer stalled, writable means the peer is
   gone), so the channel is closed or left as it is *)
Lemma handle_write_quiet : forall p o now c,
  quiet_chan p o now c -> sel_writable (c_sock c) = true ->
  handle_write p now c = None \/ (handle_write p now c = Some c /\ c_wc c = false).
Proof.
  intros p o now c (_ & R & _ & D & _) S.
  assert (G : 0 < c_pend c -> s_gone (c_sock c) = true).
  { intros GT. destruct D as [D|[D1 D2]]; [lia|]. unfold sel_writable in S. rewrite D1 in S.
    destruct (Z.ltb_spec 0 (s_room (c_sock c))); [lia|]. rewrite !orb_false_r in S. exact S. }
  clear D S. rewrite handle_write_spec. unfold hw_flushes, len_requests. rewrite R. cbn [length Z.of_nat Z.eqb orb].
  unfold flush_some. destruct (Z.leb_spec (c_pend c) 0) as [LE|GT]; [|rewrite (G GT); left; reflexivity].
  destruct (c_cwf c && (c_pend c =? 0)); [left; reflexivity|]. destruct (c_wc c); [left|right]; auto.
Qed.

Lemma chan_turn_quiet : forall p o now c, quiet_chan p o now c -> chan_turn p now c = [] \/ chan_turn p now c = [c].
Proof.
  intros p o now c Q. pose proof Q as (_ & _ & X & _). unfold chan_turn. rewrite chan_sel_spec.
  match goal with |- context [if ?r && sel_readable (c_sock c) then _ else _] => destruct (r && sel_readable (c_sock c)) end;
    [left; unfold handle_read; rewrite X; reflexivity|].
  match goal with |- context [?a && sel_writable (c_sock c)] => destruct (a && sel_writable (c_sock c)) eqn:WW end;
    [|right; reflexivity].
  apply andb_prop in WW. destruct (handle_write_quiet p o now c Q (proj2 WW)) as [->|[-> _]]; auto.
Qed.

Lemma chan_turn_reaped : forall p o now c,
  quiet_chan p o now c -> c_wc c = true -> sel_writable (c_sock c) = true -> chan_turn p now c = [].
Proof.
  intros p o now c Q W S. unfold chan_turn. rewrite chan_sel_spec, W, S.
  cbn [orb negb andb]. rewrite orb_true_r. cbn [andb].
  destruct (handle_write_quiet p o now c Q S) as [->|[_ W']]; [reflexivity|congruence].
Qed.

(* what is kept about connection f while its client is quiet: its channels are quiet, and f
   is a descriptor already used (in no backlog, below nextfd) *)
Definition FQ (p : params) (f : Z) (o : nat) (st : state) : Prop :=
  (forall c, In c (st_chans st) -> c_fd c = f -> quiet_chan p o (st_clock st) c) /\
  ~ In f (backlog_fds st) /\ f < st_nextfd st.

Lemma quiet_step : forall p f o st e,
  FQ p f o st -> quiet_ev f e ->
  forall c', In c' (st_chans (step p st e)) -> c_fd c' = f ->
  exists c0, In c0 (st_chans st) /\ c_fd c0 = f /\ evolves c0 c' /\
             (e = EPoll -> c' = mark p (st_clock st) 0 (st_listeners st) c0).
Proof.
  intros p f o st e (Q & NB & LT) QE c' I F.
  destruct (in_step_chans p st e c' I) as [(c0 & I0 & [[NP T]|[-> T]])|[_ A]].
  - destruct (touch_fd _ _ _ _ _ T) as [A _]. assert (F0 : c_fd c0 = f) by congruence.
    exists c0. split; [exact I0|]. split; [exact F0|]. split; [|congruence].
    destruct (Q c0 I0 F0) as (_ & R & _). exact (touch_quiet_evolves _ _ _ _ _ _ T QE F0 R).
  - pose proof (in_poll_chans_old _ _ _ _ T) as [A _]. assert (F0 : c_fd c0 = f) by congruence.
    pose proof (mark_quiet p o _ 0 (st_listeners st) c0 (Q c0 I0 F0)) as Q1.
    destruct (chan_turn_quiet p o _ _ Q1) as [E|E]; rewrite E in T; [contradiction|].
    destruct T as [<-|[]]. exists c0. split; [exact I0|]. split; [exact F0|]. split; [apply mark_evolves|auto].
  - apply in_accepted_fd in A. rewrite F in A. contradiction.
Qed.

Lemma FQ_step : forall p f o st e, FQ p f o st -> quiet_ev f e -> FQ p f o (step p st e).
Proof.
  intros p f o st e H QE. pose proof H as (Q & NB & LT). split; [|apply used_step; assumption].
  intros c' I F. destruct (quiet_step p f o st e H QE c' I F) as (c0 & I0 & F0 & EV & _).
  eapply quiet_evolves; [apply Q; eauto|exact EV|apply step_clock_mono].
Qed.

Lemma due_owner_nth : forall now ls idx i,
  due_owner now idx ls (idx + i) = match nth_error ls i with Some l => l_ncc l <=? now | None => false end.
Proof.
  induction ls as [|l r IH]; intros idx i; cbn [due_owner]; [destruct i; reflexivity|].
  destruct i as [|i].
  - rewrite Nat.add_0_r, Nat.eqb_refl. reflexivity.
  - destruct (Nat.eqb_spec (idx + S i) idx); [lia|]. replace (idx + S i)%nat with (S idx + i)%nat by lia.
    rewrite IH. reflexivity.
Qed.

Lemma step_ncc_nth : forall p st e o l,
  nth_error (st_listeners st) o = Some l ->
  exists l', nth_error (st_listeners (step p st e)) o = Some l' /\
             (l_ncc l' = l_ncc l \/ (e = EPoll /\ l_ncc l <= st_clock st)).
Proof.
  intros p st e o l N. destruct (event_eq_poll e) as [->|NP].
  - cbn [step]. rewrite poll_eq. cbn [st_listeners]. rewrite nth_error_map, N. cbn. eexists. split; [reflexivity|]. cbn.
    destruct (Z.leb_spec (l_ncc l) (st_clock st)); [right; auto|left; reflexivity].
  - pose proof (f_equal (fun x => nth_error x o) (step_nccs p st e NP)) as E. cbn in E.
    rewrite !nth_error_map, N in E. destruct (nth_error (st_listeners (step p st e)) o) as [l'|]; [|discriminate].
    exists l'. split; [reflexivity|]. left. inversion E. reflexivity.
Qed.

(* either already marked, or the owner's maintenance is due by ncc0 at the latest *)
Definition tracked (f : Z) (o : nat) (ncc0 : Z) (st : state) : Prop :=
  forall c, In c (st_chans st) -> c_fd c = f ->
    c_wc c = true \/ exists l, nth_error (st_listeners st) o = Some l /\ l_ncc l <= ncc0.

Lemma mark_sets : forall p now ls c l,
  nth_error ls (c_owner c) = Some l -> l_ncc l <= now -> c_requests c = [] -> c_last c + p_timeout p < now ->
  c_wc (mark p now 0 ls c) = true.
Proof.
  intros p now ls c l N D R E. unfold mark.
  pose proof (due_owner_nth now ls 0 (c_owner c)) as DN. cbn [Nat.add] in DN. rewrite DN, N.
  destruct (Z.leb_spec (l_ncc l) now); [|lia]. unfold expired, len_requests. rewrite R. cbn [length Z.of_nat Z.eqb andb].
  destruct (Z.ltb_spec (c_last c) (now - p_timeout p)); [reflexivity|lia].
Qed.

Lemma tracked_step : forall p f o ncc0 st e,
  FQ p f o st -> tracked f o ncc0 st -> quiet_ev f e -> tracked f o ncc0 (step p st e).
Proof.
  intros p f o ncc0 st e H T QE c' I F.
  destruct (quiet_step p f o st e H QE c' I F) as (c0 & I0 & F0 & EV & MK).
  destruct (T c0 I0 F0) as [W|(l & N & D)].
  - left. apply EV. exact W.
  - destruct (step_ncc_nth p st e o l N) as (l' & N' & [S|[-> DUE]]).
    + right. exists l'. split; [exact N'|lia].
    + left. rewrite (MK eq_refl). destruct H as (Q & _). destruct (Q c0 I0 F0) as (O & R & _ & _ & E).
      eapply mark_sets; eauto. rewrite O. exact N.
Qed.

Lemma quiet_run : forall p f o ncc0 es st,
  FQ p f o st -> tracked f o ncc0 st -> Forall (quiet_ev f) es ->
  FQ p f o (run p st es) /\ tracked f o ncc0 (run p st es).
Proof.
  induction es as [|e es IH]; intros st H T Q; cbn; [auto|].
  inversion Q; subst. apply IH; [apply FQ_step|apply tracked_step|]; assumption.
Qed.

Definition writable_when_polled (f : Z) (st : state) : Prop :=
  forall c, In c (st_chans st) -> c_fd c = f -> sel_writable (c_sock c) = true.

Lemma due_poll_closes : forall p f o ncc0 st,
  FQ p f o st -> tracked f o ncc0 st -> ncc0 <= st_clock st ->
  writable_when_polled f st ->
  ~ In f (chan_fds (poll p st)).
Proof.
  intros p f o ncc0 st H T D WR I. unfold chan_fds in I. apply in_map_iff in I. destruct I as (c' & F & I).
  pose proof H as (Q & NB & _).
  rewrite poll_eq in I. cbn [st_chans] in I. apply in_poll_chans in I. destruct I as [(c0 & I0 & I1)|I].
  - pose proof (in_poll_chans_old _ _ _ _ I1) as [A _]. assert (F0 : c_fd c0 = f) by congruence.
    pose proof (Q c0 I0 F0) as Q0. pose proof Q0 as (O & R & _ & _ & E).
    pose proof (mark_evolves p (st_clock st) 0 (st_listeners st) c0) as EV.
    pose proof (mark_quiet p o _ 0 (st_listeners st) c0 Q0) as Q1.
    assert (W1 : c_wc (mark p (st_clock st) 0 (st_listeners st) c0) = true).
    { destruct (T c0 I0 F0) as [W|(l & N & DL)]; [apply EV; exact W|].
      eapply mark_sets; eauto; [rewrite O; exact N|lia]. }
    rewrite (chan_turn_reaped p o _ _ Q1 W1) in I1; [contradiction|].
    rewrite (proj1 (mark_fields p (st_clock st) 0 (st_listeners st) c0)). apply WR; assumption.
  - apply in_accepted_fd in I. rewrite F in I. contradiction.
Qed.

Definition idle_expired (p : params) (f : Z) (o : nat) (s : state) : Prop :=
  In f (chan_fds s) /\ forall c, In c (st_chans s) -> c_fd c = f -> quiet_chan p o (st_clock s) c.

Lemma idle_FQ : forall p f o s, wf s -> idle_expired p f o s -> FQ p f o s.
Proof.
  intros p f o s W [I Q]. apply cnt_in in I. destruct (W f) as [H1 H2]. split; [exact Q|]. split.
  - intros B. apply cnt_in in B. lia.
  - destruct (Z.lt_ge_cases f (st_nextfd s)) as [L|L]; [exact L|]. specialize (H2 L). lia.
Qed.

(* once closed, a descriptor never comes back *)
Definition gone_for_good (f : Z) (st : state) : Prop :=
  ~ In f (chan_fds st) /\ ~ In f (backlog_fds st) /\ f < st_nextfd st.

Lemma gone_step : forall p f st e, gone_for_good f st -> gone_for_good f (step p st e).
Proof.
  intros p f st e (NC & NB & LT). split; [|apply used_step; assumption].
  intros I. apply chans_step in I. tauto.
Qed.

Lemma gone_run : forall p f es st, gone_for_good f st -> gone_for_good f (run p st es).
Proof. induction es as [|e es IH]; intros st H; cbn; [exact H|]. apply IH. apply gone_step. exact H. Qed.

(* the loop period: the clock never runs more than P past the last poll turn
   (lp) without another poll turn *)
Fixpoint period_ok (p : params) (P : Z) (st : state) (lp : Z) (es : list event) : Prop :=
  match es with
  | [] => True
  | e :: r =>
    match e with
    | EPoll => period_ok p P (step p st e) (st_clock st) r
    | _ => st_clock (step p st e) <= lp + P /\ period_ok p P (step p st e) lp r
    end
  end.

(* the explicit hypothesis: whenever a poll turn happens, the socket of f (if
   f is still open) is writable *)
Fixpoint writable_at_polls (p : params) (f : Z) (st : state) (es : list event) : Prop :=
  match es with
  | [] => True
  | e :: r => (e = EPoll -> writable_when_polled f st) /\ writable_at_polls p f (step p st e) r
  end.

(* [lp] is the clock at the last poll turn (initially [lp0]), [D] a time by which the owner's
   maintenance is due ([ncc0 <= D]); until a poll turn happens at or after [D] the frame
   of f is kept, that poll turn closes f, and the period hypothesis brings one before [D + P] *)
Lemma deadline_gen : forall p f o ncc0 P D lp0 es st lp,
  0 <= P -> ncc0 <= D -> lp0 <= D ->
  (gone_for_good f st \/ (FQ p f o st /\ tracked f o ncc0 st /\ (lp < D \/ lp = lp0))) ->
  st_clock st <= lp + P ->
  Forall (quiet_ev f) es -> period_ok p P st lp es -> writable_at_polls p f st es ->
  D + P < st_clock (run p st es) ->
  gone_for_good f (run p st es).
Proof.
  intros p f o ncc0 P D lp0 es. induction es as [|e es IH]; intros st lp HP HN HL INV CL QE PO WP FIN.
  - cbn in *. destruct INV as [G|(_ & _ & [L|L])]; [exact G|lia|lia].
  - inversion QE as [|? ? QE1 QE2]; subst. cbn [run fold_left] in *. fold (run p (step p st e) es) in *.
    destruct WP as [WP1 WP2].
    assert (NP : e <> EPoll -> st_clock (step p st e) <= lp + P /\ period_ok p P (step p st e) lp es).
    { intros NE. destruct e; try exact PO. congruence. }
    destruct (event_eq_poll e) as [->|NE].
    + cbn [period_ok] in PO. apply (IH (step p st EPoll) (st_clock st)); auto.
      * destruct INV as [G|(H & T & LP)]; [left; apply gone_step; exact G|].
        destruct (Z.lt_ge_cases (st_clock st) D) as [LT|GE].
        -- right. split; [apply FQ_step; assumption|]. split; [apply tracked_step; assumption|]. left. exact LT.
        -- left. pose proof (FQ_step p f o st EPoll H QE1) as (_ & NB & LTF). split; [|split; assumption].
           apply (due_poll_closes p f o ncc0 st H T); [lia|]. apply WP1. reflexivity.
      * cbn [step]. rewrite poll_eq. cbn. lia.
    + destruct (NP NE) as [C1 PO']. apply (IH (step p st e) lp); auto.
      destruct INV as [G|(H & T & LP)]; [left; apply gone_step; exact G|].
      right. split; [apply FQ_step; assumption|]. split; [apply tracked_step; assumption|exact LP].
Qed.

(* every channel's owner is one of the listeners *)
Definition owner_ok (s : state) : Prop :=
  Forall (fun c => (c_owner c < length (st_listeners s))%nat) (st_chans s).

Lemma step_owner_ok : forall p s e, owner_ok s -> owner_ok (step p s e).
Proof.
  intros p s e. unfold owner_ok. rewrite step_listeners_len. apply step_chans_forall.
  - intros c c' T H. rewrite (proj2 (touch_fd _ _ _ _ _ T)). exact H.
  - intros c c' H I. rewrite (proj2 (in_poll_chans_old _ _ _ _ I)). exact H.
  - intros c I. apply in_accepted in I. destruct I as (l & k & o & _ & _ & Ho & ->). cbn. lia.
Qed.

Theorem owner_ok_reachable : forall p nl t0 fd0 s, reachable p nl t0 fd0 s -> owner_ok s.
Proof.
  intros p nl t0 fd0. apply reachable_ind.
  - unfold owner_ok. cbn. constructor.
  - intros s e H. apply step_owner_ok. exact H.
Qed.

(* with the loop period P: closed by  st_clock s + cleanup_interval + P *)
Theorem reap_deadline : forall p nl t0 fd0 s f o es P,
  reachable p nl t0 fd0 s -> 0 <= t0 -> 0 <= p_interval p -> 0 <= P ->
  idle_expired p f o s ->
  Forall (quiet_ev f) es ->
  period_ok p P s (st_clock s) es ->
  writable_at_polls p f s es ->
  st_clock s + p_interval p + P < st_clock (run p s es) ->
  ~ In f (chan_fds (run p s es)).
Proof.
  intros p nl t0 fd0 s f o es P HR T0 I0 P0 IE QE PO WP FIN.
  pose proof (wf_reachable _ _ _ _ _ HR) as W.
  pose proof (idle_FQ p f o s W IE) as H.
  destruct IE as [IN Q].
  unfold chan_fds in IN. apply in_map_iff in IN. destruct IN as (c & F & IC).
  pose proof (owner_ok_reachable _ _ _ _ _ HR) as OK. unfold owner_ok in OK.
  eapply Forall_forall in OK; [|exact IC]. destruct (Q c IC F) as (O & _). rewrite O in OK.
  destruct (nth_error (st_listeners s) o) as [l|] eqn:N; [|apply nth_error_None in N; lia].
  pose proof (maintenance_period _ _ _ _ _ HR) as NC. unfold ncc_ok in NC.
  eapply Forall_forall in NC; [|eapply nth_error_In; exact N]. cbn in NC.
  pose proof (clock_reachable _ _ _ _ _ HR) as CK.
  assert (G : gone_for_good f (run p s es)).
  { apply (deadline_gen p f o (l_ncc l) P (st_clock s + p_interval p) (st_clock s) es s (st_clock s)); auto; try lia.
    right. split; [exact H|]. split; [|right; reflexivity].
    intros c1 _ _. right. exists l. split; [exact N|lia]. }
  exact (proj1 G).
Qed.

(* when the send buffer of f has room, the socket is writable whenever polled:
   the writability hypothesis is then discharged *)
Lemma room_writable_at_polls : forall p f o es st,
  FQ p f o st -> (forall c, In c (st_chans st) -> c_fd c = f -> 0 < s_room (c_sock c)) ->
  Forall (quiet_ev f) es -> writable_at_polls p f st es.
Proof.
  induction es as [|e es IH]; intros st H R QE; cbn; [exact I|].
  inversion QE; subst. split.
  - intros _ c IC F. unfold sel_writable. specialize (R c IC F). destruct (Z.ltb_spec 0 (s_room (c_sock c))); [|lia].
    rewrite !orb_true_r. reflexivity.
  - apply IH; [apply FQ_step; assumption| |assumption].
    intros c' IC F. destruct (quiet_step p f o st e H H2 c' IC F) as (c0 & I0 & F0 & EV & _).
    destruct EV as (_ & _ & _ & _ & _ & E6 & _). rewrite E6. apply R; assumption.
Qed.

(* F21: without the writability hypothesis the statement is false.  A marked
   connection whose peer has stalled with a full send buffer is never closed:
   will_close is honoured only in handle_write, and handle_write is only
   called when select reports the socket writable. *)

Definition silent_ev (f : Z) (e : event) : Prop := quiet_ev f e /\ e <> EDisconnect f.

Definition stalled (p : params) (o : nat) (f : Z) (st : state) : Prop :=
  exists c, In c (st_chans st) /\ c_fd c = f /\ quiet_chan p o (st_clock st) c /\
            s_gone (c_sock c) = false /\ s_reading (c_sock c) = false /\ s_room (c_sock c) <= 0.

Lemma chan_turn_stuck : forall p o now c,
  quiet_chan p o now c -> s_gone (c_sock c) = false -> s_reading (c_sock c) = false -> s_room (c_sock c) <= 0 ->
  chan_turn p now c = [c].
Proof.
  intros p o now c (_ & _ & X & _ & _) G R M. unfold chan_turn. rewrite chan_sel_spec.
  unfold sel_readable, sel_writable. rewrite X, G, R. cbn [is_nil negb orb].
  destruct (Z.ltb_spec 0 (s_room (c_sock c))); [lia|]. rewrite !andb_false_r. reflexivity.
Qed.

Lemma stalled_step : forall p o f st e, stalled p o f st -> silent_ev f e -> stalled p o f (step p st e).
Proof.
  intros p o f st e (c & IC & F & Q & G & R & M) [QE ND].
  pose proof (step_clock_mono p st e) as CL.
  assert (KEEP : forall c', evolves c c' -> s_gone (c_sock c') = false ->
            c_fd c' = f /\ quiet_chan p o (st_clock (step p st e)) c' /\
            s_gone (c_sock c') = false /\ s_reading (c_sock c') = false /\ s_room (c_sock c') <= 0).
  { intros c' EV G'. pose proof EV as (E1 & _ & _ & _ & _ & E6 & _ & E8 & _).
    split; [congruence|]. split; [eapply quiet_evolves; eauto|]. rewrite E6. auto. }
  destruct (event_eq_poll e) as [->|NP].
  - set (c1 := mark p (st_clock st) 0 (st_listeners st) c).
    pose proof (mark_evolves p (st_clock st) 0 (st_listeners st) c) as EV. fold c1 in EV.
    assert (S1 : c_sock c1 = c_sock c) by apply mark_fields.
    exists c1. split; [|apply KEEP; [exact EV|rewrite S1; exact G]].
    cbn [step]. rewrite poll_eq. cbn [st_chans]. unfold poll_chans. apply in_or_app. left.
    apply in_flat_map. exists c1. split; [apply in_map; exact IC|].
    rewrite (chan_turn_stuck p o (st_clock st) c1); [left; reflexivity| |rewrite S1; auto..].
    apply mark_quiet. exact Q.
  - destruct (step_chans_nonpoll p st e NP) as (g & E & Hg). exists (g c).
    split; [rewrite E; apply in_map; exact IC|]. pose proof Q as (_ & RQ & _). apply KEEP.
    + exact (touch_quiet_evolves _ _ _ _ _ _ (Hg c) QE F RQ).
    + (* the client of f does not disconnect either *)
      destruct (Hg c) as [|k K|ws]; [exact G| |unfold service; rewrite RQ; exact G].
      rewrite F in K. destruct K; cbn [quiet_ev] in QE; try congruence. exact G.
Qed.

Theorem stalled_never_closed : forall p o f es st,
  stalled p o f st -> Forall (silent_ev f) es -> In f (chan_fds (run p st es)).
Proof.
  induction es as [|e es IH]; intros st H Q; cbn.
  - destruct H as (c & IC & F & _). unfold chan_fds. rewrite <- F. apply in_map. exact IC.
  - inversion Q; subst. apply IH; [apply stalled_step|]; assumption.
Qed.

(* the witness: the response (122 + 3000 bytes) is larger than the room of the
   send buffer (100), the client has stalled, the timeout (5) passes *)
Definition p_f21 : params := mkParams 100 5 2 1 0 100 16777216.
Definition s_f21 : state :=
  run p_f21 (init 1 1000 1000)
    [EConnect 0; EPoll; ESend 1000 (TComplete false); EPoll; EStalls 1000;
     EAppFinish 1000 [122%N; 3000%N]; EPoll; EAdvance 8].
Definition es_f21 : list event := [EPoll; EAdvance 3; EPoll; EAdvance 3; EPoll].

Definition s_f21_nf : state := Eval vm_compute in s_f21.
Lemma s_f21_eq : s_f21 = s_f21_nf.
Proof. vm_compute. reflexivity. Qed.

Lemma f21_idle : idle_expired p_f21 1000 0 s_f21.
Proof.
  split; [vm_compute; left; reflexivity|]. rewrite s_f21_eq. unfold s_f21_nf. intros c IC _.
  cbn [st_chans In] in IC. destruct IC as [<-|[]]. unfold quiet_chan. cbn. repeat split; try reflexivity; lia.
Qed.

Lemma f21_stalled : stalled p_f21 0 1000 s_f21.
Proof.
  rewrite s_f21_eq. unfold s_f21_nf, stalled. cbn [st_chans st_clock].
  eexists. split; [left; reflexivity|]. unfold quiet_chan. cbn.
  repeat split; try reflexivity; lia.
Qed.

(* all hypotheses of reap_deadline except writable_at_polls hold, the conclusion fails *)
Theorem reap_refuted : exists p nl t0 fd0 s f o es P,
  reachable p nl t0 fd0 s /\ 0 <= t0 /\ 0 <= p_interval p /\ 0 <= P /\
  idle_expired p f o s /\ Forall (quiet_ev f) es /\ period_ok p P s (st_clock s) es /\
  st_clock s + p_interval p + P < st_clock (run p s es) /\
  In f (chan_fds (run p s es)).
Proof.
  exists p_f21, 1%nat, 1000, 1000, s_f21, 1000, 0%nat, es_f21, 3.
  split; [eexists; reflexivity|]. split; [lia|]. split; [cbn; lia|]. split; [lia|].
  split; [exact f21_idle|]. split; [repeat constructor|].
  split; [vm_compute; intuition discriminate|].
  split; [vm_compute; reflexivity|]. vm_compute. left. reflexivity.
Qed.

(* the full statement of the property's reaping clause (no writability hypothesis) *)
Definition reap_deadline_full : Prop :=
  forall p nl t0 fd0 s f o es P,
  reachable p nl t0 fd0 s -> 0 <= t0 -> 0 <= p_interval p -> 0 <= P ->
  idle_expired p f o s ->
  Forall (quiet_ev f) es ->
  period_ok p P s (st_clock s) es ->
  st_clock s + p_interval p + P < st_clock (run p s es) ->
  ~ In f (chan_fds (run p s es)).

(* and it stays open for ever, as long as its client neither reads nor disconnects *)
Theorem f21_never_closed : forall es, Forall (silent_ev 1000) es -> In 1000 (chan_fds (run p_f21 s_f21 es)).
Proof. intros es H. eapply stalled_never_closed; [exact f21_stalled|exact H]. Qed.

(* the hypotheses of the positive theorems are satisfiable: an idle keep-alive
   connection that has been served, its client still reading, is reaped *)
Definition p_ok : params := mkParams 100 5 2 1 0 65536 16777216.
Definition s_ok : state :=
  run p_ok (init 2 1000 1000)
    [EConnect 1; EPoll; ESend 1000 (TComplete false); EPoll; EAppFinish 1000 [122%N; 40%N]; EPoll; EAdvance 6].
Definition es_ok : list event := [EConnect 0; EPoll; EAdvance 3; EStalls 1000; EPoll; EAdvance 3; EPoll].

Definition s_ok_nf : state := Eval vm_compute in s_ok.
Lemma s_ok_eq : s_ok = s_ok_nf.
Proof. vm_compute. reflexivity. Qed.

Example reap_hypotheses_satisfiable :
  reachable p_ok 2 1000 1000 s_ok /\ idle_expired p_ok 1000 1 s_ok /\
  (forall c, In c (st_chans s_ok) -> c_fd c = 1000 -> 0 < s_room (c_sock c)) /\
  Forall (quiet_ev 1000) es_ok /\ period_ok p_ok 3 s_ok (st_clock s_ok) es_ok /\
  st_clock s_ok + p_interval p_ok + 3 < st_clock (run p_ok s_ok es_ok) /\
  In 1000 (chan_fds s_ok) /\ ~ In 1000 (chan_fds (run p_ok s_ok es_ok)).
Proof.
  assert (Q : forall c, In c (st_chans s_ok) -> c_fd c = 1000 ->
              quiet_chan p_ok 1 (st_clock s_ok) c /\ 0 < s_room (c_sock c)).
  { rewrite s_ok_eq. unfold s_ok_nf. intros c IC _. cbn [st_chans In] in IC. destruct IC as [<-|[]].
    unfold quiet_chan. cbn. repeat split; try reflexivity; try lia. }
  split; [eexists; reflexivity|].
  split; [split; [vm_compute; left; reflexivity|intros c IC F; apply Q; assumption]|].
  split; [intros c IC F; apply Q; assumption|].
  split; [repeat constructor|].
  split; [vm_compute; intuition discriminate|].
  split; [vm_compute; reflexivity|].
  split; [vm_compute; left; reflexivity|]. vm_compute. intuition discriminate.
Qed.

(* the boundary of the reaping test is strict: idle for exactly channel_timeout is not yet expired *)
Example reap_boundary :
  map c_wc (st_chans (run p_ok (init 1 1000 1000) [EConnect 0; EPoll; EAdvance 5; EPoll])) = [false] /\
  st_chans (run p_ok (init 1 1000 1000) [EConnect 0; EPoll; EAdvance 6; EPoll]) = [].
Proof. vm_compute. split; reflexivity. Qed.
