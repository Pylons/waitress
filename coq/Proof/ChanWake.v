(* Proof/ChanWake.v -- C05: the combined invariant holds in every reachable state, and in a
   quiescent state it leaves no room for undelivered output, an
   unserviced request, a producer parked with space, or an unfinished close. *)
From Coq Require Import List ZArith Bool Arith Lia.
From WV Require Import Lib.Conc Model.ChanWake Proof.ChanWakeInv Proof.ChanWakeBase Proof.ChanWakeL1 Proof.ChanWakeL1b
  Proof.ChanWakeL2 Proof.ChanWakeL3 Proof.ChanWakeL4 Proof.ChanWakeL5 Proof.ChanWakeL6.
Import ListNotations.
Open Scope Z_scope.

Definition Inv (c : cfg) (s : state) : Prop :=
  Inv1 s /\ Inv2 s /\ Inv3 s /\ Inv4 c s /\ Inv5 c s /\ G6 c s /\ Inv1b s.

Definition runc (c : cfg) (nw : nat) (sched : list choice) : state := run (step c) (init nw) sched.

Lemma inv_init : forall c nw, (0 < nw)%nat -> Inv c (init nw).
Proof.
  intros. unfold Inv.
  split; [apply inv1_init|]. split; [apply inv2_init; auto|]. split; [apply inv3_init|].
  split; [apply inv4_init|]. split; [apply inv5_init|]. split; [apply g6_init|apply inv1b_init].
Qed.

Lemma inv_step : forall c s ch s' l,
  0 <= hw c -> Inv c s -> step c s ch = Some (s', l) -> Inv c s'.
Proof.
  intros c s ch s' l Hhw. revert s ch s' l. apply step_lift.
  - intros s ch s' l (H1 & H2 & H3 & H4 & H5 & H6 & H7) H.
    split; [eapply inv1_step_io; eauto|]. split; [eapply inv2_step_io; eauto|]. split; [eapply inv3_step_io; eauto|].
    split; [eapply inv4_step_io; eauto|]. split; [eapply inv5_step_io; eauto|].
    split; [eapply g6_step_io; eauto|eapply inv1b_step_io; eauto].
  - intros s i ch s' l (H1 & H2 & H3 & H4 & H5 & H6 & H7) H.
    split; [eapply inv1_step_w; eauto|]. split; [eapply inv2_step_w; eauto|]. split; [eapply inv3_step_w; eauto|].
    split; [eapply inv4_step_w; eauto|]. split; [eapply inv5_step_w; eauto|].
    split; [eapply g6_step_w; eauto|eapply inv1b_step_w; eauto].
  - (* no layer reads what the client writes *)
    intros s v ([] & [] & [] & H). repeat (split; [constructor; assumption|]). exact H.
  - intros s v ([] & [] & [] & H). repeat (split; [constructor; assumption|]). exact H.
Qed.

Lemma existsb_false_nth : forall A (f : A -> bool) l j p,
  existsb f l = false -> nth_error l j = Some p -> f p = false.
Proof.
  intros. destruct (f p) eqn:E; auto. rewrite (existsb_nth _ _ _ _ _ H0 E) in H. discriminate.
Qed.

(* the I/O thread sleeps in select: the trigger is not pulled, POLLOUT is not asked for, nothing is readable *)
Lemma asleep_select : forall s (P : wpc -> bool),
  match io s with IoSel r w => negb (sel_enabled s r w) | _ => false end && forallb P (ws s) = true ->
  exists r, io s = IoSel r false /\ pulled s = false /\ r && read_ready s = false /\ forallb P (ws s) = true.
Proof.
  intros s P Hq. destruct (io s); try discriminate.
  apply andb_true_iff in Hq. destruct Hq as [Hsel Hall]. apply negb_true_iff in Hsel.
  unfold sel_enabled in Hsel. apply orb_false_iff in Hsel. destruct Hsel as [Hsel Hrd].
  apply orb_false_iff in Hsel. destruct Hsel as [Hpull ->]. eauto.
Qed.

Lemma asleep_open : forall s r w, Inv3 s -> io s = IoSel r w -> closed s = false ->
  conn s = true /\ total s = pend s /\ 0 <= pend s.
Proof.
  intros s r w H3 Eio Ec.
  assert (Hcn : conn s = true).
  { destruct (conn s) eqn:E; auto. destruct (i3_c3 _ H3 E) as [Hx|Hx]; [congruence|].
    rewrite Eio in Hx. discriminate. }
  pose proof (i3_tot _ H3) as Htp. unfold tot_ok in Htp. rewrite Eio in Htp.
  repeat split; auto. apply (i3_pend _ H3).
Qed.

Lemma conn_open : forall s, Inv3 s -> conn s = true -> closed s = false.
Proof. intros s H3 Hcn. destruct (closed s) eqn:E; auto. rewrite (i3_c2 _ H3 E) in Hcn. discriminate. Qed.

(* the wake-up invariant read backwards *)
Lemma asleep_nothing_writable : forall s r,
  Jw s -> io s = IoSel r false -> pulled s = false -> existsb will_pull (ws s) = false -> closed s = false ->
  total s <= 0 /\ wc s = false /\ cwf s = false.
Proof.
  intros s r HJw Eio Hpull Hwp Hc. unfold Jw in HJw. rewrite Eio, Hpull, Hwp in HJw. simpl in HJw.
  assert (Hno : ~ (0 < total s \/ wc s = true \/ cwf s = true)).
  { intros Hx. destruct (HJw Hc Hx) as [?|[[[_ ?]|[[_ ?]|[_ ?]]]|?]]; discriminate. }
  destruct (wc s), (cwf s); repeat split; auto; try lia; exfalso; apply Hno; auto.
Qed.

Lemma parked_wants : forall c s r j p,
  0 <= hw c -> Inv3 s -> Inv4 c s -> io s = IoSel r false -> nth_error (ws s) j = Some p -> parked_o p = true ->
  closed s = false /\ (0 < total s \/ wc s = true).
Proof.
  intros c s r j p Hhw H3 H4 Eio Hj Pp. pose proof (H4 _ _ Hj) as Hp4.
  destruct p; try discriminate Pp; simpl in Hp4; unfold notif_soon in Hp4; rewrite Eio in Hp4; simpl in Hp4.
  - destruct Hp4 as (Hwc & _ & [Hcn|Hx]); [|discriminate]. split; auto. apply conn_open; auto.
  - destruct Hp4 as ([Hns|[Hns|Hns]] & [Hcn|Hx]); try discriminate. split; [apply conn_open; auto|left; lia].
Qed.

Lemma quiescent_ok : forall c s,
  0 <= hw c -> Inv c s -> quiescent_parked s = true -> c05_ok s = true.
Proof.
  intros c s Hhw (H1 & H2 & H3 & H4 & (HJw & HJr) & _) Hq.
  destruct (asleep_select _ _ Hq) as (r & Eio & Hpull & Hrd & Hall).
  assert (Hwp : existsb will_pull (ws s) = false).
  { apply existsb_intro_false. intros j p Hj. pose proof (forallb_nth _ _ _ _ _ Hall Hj) as Hp.
    destruct p; simpl in Hp; try discriminate; reflexivity. }
  pose proof (asleep_nothing_writable s r HJw Eio Hpull Hwp) as HnoW.
  assert (Hnp : forall j p, nth_error (ws s) j = Some p -> parked_o p = false).
  { intros j p Hj. destruct (parked_o p) eqn:Pp; auto. exfalso.
    destruct (parked_wants c s r j p Hhw H3 H4 Eio Hj Pp) as (Hc & Hwr).
    destruct (HnoW Hc) as (? & ? & _). destruct Hwr; [lia|congruence]. }
  assert (Hidle : forall j p, nth_error (ws s) j = Some p -> w_idle p = true).
  { intros j p Hj. pose proof (forallb_nth _ _ _ _ _ Hall Hj) as Hp. simpl in Hp. rewrite (Hnp _ _ Hj) in Hp.
    rewrite orb_false_r in Hp. exact Hp. }
  unfold c05_ok. repeat (apply andb_true_iff; split).
  - unfold no_pending_output. destruct (closed s) eqn:Ec; auto. simpl.
    destruct (HnoW eq_refl) as (Ht0 & _ & _). destruct (asleep_open _ _ _ H3 Eio Ec) as (_ & Htp & Hpe).
    apply andb_true_iff. split; apply Z.eqb_eq; lia.
  - unfold no_unserved_request. destruct (closed s) eqn:Ec; auto. simpl.
    destruct (HnoW eq_refl) as (Ht0 & Hwc & Hcwf). destruct (asleep_open _ _ _ H3 Eio Ec) as (Hcn & Htp & Hpe).
    assert (Hq0 : queue s = 0%nat).
    { destruct (queue s) eqn:E; auto. exfalso.
      destruct (i2_q1 _ H2) as (j & p & Hj & Hp); [lia|]. rewrite (Hidle _ _ Hj) in Hp. discriminate. }
    assert (Hnb : existsb w_busy (ws s) = false).
    { apply existsb_intro_false. intros j p Hj. pose proof (Hidle _ _ Hj). destruct p; try discriminate; reflexivity. }
    assert (Hn0 : nreq s = 0%nat).
    { destruct (nreq s) eqn:E; auto. exfalso.
      destruct (i2_s1 _ H2) as [Hx|[Hx|[Hx|Hx]]]; try lia; try congruence.
      unfold pendadd in Hx. rewrite Eio in Hx. discriminate. }
    rewrite Hn0, Hq0. simpl.
    assert (Htot0 : total s = 0) by lia.
    unfold Jr in HJr. rewrite Eio, Hpull, Hwp in HJr. simpl in HJr.
    assert (Hrdy : wc s = false /\ cwf s = false /\ (nreq s <= lookahead c)%nat /\ total s = 0)
      by (repeat split; auto; rewrite Hn0; lia).
    destruct (HJr Ec Hrdy) as [Hx|[Hx|Hx]]; try discriminate.
    destruct r; [|discriminate]. simpl in Hrd. unfold read_ready in Hrd. destruct (rx s); auto.
  - unfold no_producer_parked. apply forallb_intro. intros j p Hj. rewrite (Hnp _ _ Hj). reflexivity.
  - unfold closing_closed. destruct (closed s) eqn:Ec; [apply orb_true_r|].
    destruct (HnoW eq_refl) as (_ & Hwc & Hcwf). rewrite Hwc, Hcwf. reflexivity.
Qed.

Lemma io_holder_enabled : forall s, io_holds_o (io s) = true -> io_enabled s = true.
Proof. intros s H. unfold io_enabled. destruct (io s); simpl in *; try discriminate; auto. Qed.
Lemma w_holder_enabled : forall s p, w_holds_o p = true -> w_enabled s p = true.
Proof. intros s p H. destruct p; simpl in *; try discriminate; auto. Qed.
Lemma io_rholder_enabled : forall s, olock s = None -> io_holds_r (io s) = true -> io_enabled s = true.
Proof. intros s Ho H. unfold io_enabled. destruct (io s); simpl in *; try discriminate; auto; rewrite Ho; reflexivity. Qed.
Lemma w_rholder_enabled : forall s p, olock s = None -> w_holds_r p = true -> w_enabled s p = true.
Proof. intros s p Ho H. destruct p; simpl in *; try discriminate; auto; rewrite Ho; reflexivity. Qed.

(* no deadlock: if no thread of the server can move then every worker is parked on a
   condition and the I/O thread sleeps in select (nobody is stuck on a lock) *)
Lemma quiescent_is_parked : forall c s, Inv c s -> quiescent s = true -> quiescent_parked s = true.
Proof.
  intros c s (_ & _ & _ & _ & _ & _ & (Ho & Hr)) Hq. unfold quiescent in Hq.
  apply andb_true_iff in Hq. destruct Hq as [Hio Hws]. apply negb_true_iff in Hio.
  assert (Hwd : forall j p, nth_error (ws s) j = Some p -> w_enabled s p = false).
  { intros j p Hj. pose proof (forallb_nth _ _ _ _ _ Hws Hj) as Hx. simpl in Hx. apply negb_true_iff in Hx. exact Hx. }
  assert (Hol : olock s = None).
  { destruct (olock s) as [[|j]|] eqn:E; auto; simpl in Ho.
    - rewrite (io_holder_enabled s Ho) in Hio. discriminate.
    - destruct Ho as (p & Hj & Hh). pose proof (Hwd _ _ Hj) as Hx. rewrite (w_holder_enabled s p Hh) in Hx. discriminate. }
  assert (Hrl : rlock s = None).
  { destruct (rlock s) as [[|j]|] eqn:E; auto; simpl in Hr.
    - rewrite (io_rholder_enabled s Hol Hr) in Hio. discriminate.
    - destruct Hr as (p & Hj & Hh). pose proof (Hwd _ _ Hj) as Hx. rewrite (w_rholder_enabled s p Hol Hh) in Hx. discriminate. }
  unfold quiescent_parked. apply andb_true_iff. split.
  - unfold io_enabled in Hio. destruct (io s); try discriminate; try (rewrite ?Hol, ?Hrl in Hio; discriminate).
    rewrite Hio. reflexivity.
  - apply forallb_intro. intros j p Hj. specialize (Hwd _ _ Hj).
    destruct p; simpl in *; try discriminate; try reflexivity; rewrite ?Hol, ?Hrl in Hwd; discriminate.
Qed.

Lemma quiescent_app_ok : forall c s,
  0 <= hw c -> Inv c s -> quiescent_app s = true -> app_ok c s = true.
Proof.
  intros c s Hhw (H1 & H2 & H3 & H4 & (HJw & _) & H6 & _) Hq.
  destruct (asleep_select _ _ Hq) as (r & Eio & Hpull & Hrd & Hall).
  assert (Hact : existsb act_tot (ws s) = false /\ existsb act_wc (ws s) = false /\ existsb act_cwf (ws s) = false).
  { repeat split; apply existsb_intro_false; intros j p Hj; pose proof (forallb_nth _ _ _ _ _ Hall Hj) as Hp;
      destruct p; simpl in Hp; try discriminate; reflexivity. }
  destruct Hact as (A1 & A2 & A3).
  assert (HnoW : closed s = false -> ~ (0 < total s /\ sb c <= total s) /\ wc s = false /\ cwf s = false).
  { intros Hc. destruct (H6 Hc) as (G1 & G2 & G3). rewrite Eio, Hpull in *. simpl in *. rewrite A1 in G1. rewrite A2 in G2. rewrite A3 in G3.
    repeat split.
    - intros Hx. destruct (G1 Hx) as [?|[?|?]]; discriminate.
    - destruct (wc s); auto. destruct (G2 eq_refl) as [?|[?|?]]; discriminate.
    - destruct (cwf s); auto. destruct (G3 eq_refl) as [?|[?|?]]; discriminate. }
  (* a parked producer serves requests[0], so nobody else is inside the application; then the
     wake-up invariant of layer 5 applies as in the narrow case *)
  assert (Hnp : forall j p, nth_error (ws s) j = Some p -> parked_o p = false).
  { intros j p Hj. destruct (parked_o p) eqn:Pp; auto. exfalso.
    assert (Hb : w_busy p = true) by (destruct p; simpl in Pp; try discriminate; reflexivity).
    destruct (busy_exclusive s j p (i2_tok _ H2) Hj Hb) as (_ & _ & _ & Hoth).
    assert (Hwp : existsb will_pull (ws s) = false).
    { apply existsb_intro_false. intros k q Hk. destruct (Nat.eq_dec k j) as [->|Hne].
      - rewrite Hj in Hk. inversion Hk; subst. destruct q; simpl in Pp; try discriminate; reflexivity.
      - pose proof (Hoth _ _ Hne Hk) as Hnb. pose proof (forallb_nth _ _ _ _ _ Hall Hk) as Hqk.
        destruct q; simpl in Hqk, Hnb; try discriminate; reflexivity. }
    destruct (parked_wants c s r j p Hhw H3 H4 Eio Hj Pp) as (Hc & Hwr).
    destruct (asleep_nothing_writable s r HJw Eio Hpull Hwp Hc) as (? & ? & _). destruct Hwr; [lia|congruence]. }
  unfold app_ok. repeat (apply andb_true_iff; split).
  - destruct (closed s) eqn:Ec; auto. simpl.
    destruct (HnoW eq_refl) as (Ht0 & _ & _). destruct (asleep_open _ _ _ H3 Eio Ec) as (_ & Htp & _).
    apply negb_true_iff. apply andb_false_iff.
    destruct (Z.ltb_spec 0 (pend s)); auto. destruct (Z.leb_spec (sb c) (pend s)); auto.
    exfalso. apply Ht0. lia.
  - unfold no_producer_parked. apply forallb_intro. intros j p Hj. rewrite (Hnp _ _ Hj). reflexivity.
  - unfold closing_closed. destruct (closed s) eqn:Ec; [apply orb_true_r|].
    destruct (HnoW eq_refl) as (_ & Hwc & Hcwf). rewrite Hwc, Hcwf. reflexivity.
Qed.
