(* Proof/DispatcherLib.v -- facts about the list helpers of Model/Dispatcher.v, and its
   critical sections in relational form *)
From Coq Require Import List Arith ZArith Bool Lia.
From WV Require Import Model.Dispatcher.
Import ListNotations.

Definition b2n (b : bool) : nat := if b then 1 else 0.

Lemma upd_length : forall A (f : A -> A) l n, length (upd n f l) = length l.
Proof. induction l; destruct n; simpl; auto. Qed.

Lemma upd_nth_same : forall A (f : A -> A) d l n, n < length l -> nth n (upd n f l) d = f (nth n l d).
Proof. induction l; destruct n; simpl; intros; try lia; auto. apply IHl; lia. Qed.

Lemma upd_nth_other : forall A (f : A -> A) d l n m, m <> n -> nth m (upd n f l) d = nth m l d.
Proof. induction l; destruct n; destruct m; simpl; intros; try lia; auto. Qed.

Lemma In_discard : forall w l x, In x (discard w l) <-> x <> w /\ In x l.
Proof.
  intros. unfold discard. rewrite filter_In. rewrite negb_true_iff, Nat.eqb_neq. tauto.
Qed.

Lemma discard_notin : forall w l, ~ In w l -> discard w l = l.
Proof.
  induction l; simpl; intros; auto.
  destruct (a =? w) eqn:E; simpl.
  - apply Nat.eqb_eq in E. tauto.
  - f_equal. apply IHl. tauto.
Qed.

Lemma discard_length : forall w l, NoDup l -> In w l -> S (length (discard w l)) = length l.
Proof.
  induction l; simpl; intros; try tauto. inversion H; subst.
  destruct (a =? w) eqn:E; simpl.
  - apply Nat.eqb_eq in E. subst. rewrite discard_notin; auto.
  - apply Nat.eqb_neq in E. f_equal. apply IHl; auto. destruct H0; tauto.
Qed.

Lemma In_remove_nth : forall (l : list nat) k w x,
  NoDup l -> nth_error l k = Some w -> (In x (remove_nth k l) <-> x <> w /\ In x l).
Proof.
  induction l; destruct k; simpl; intros; try discriminate.
  - inversion H0; subst. inversion H; subst. split.
    + intros. split; auto. intro; subst; tauto.
    + intros [? [?|?]]; auto. congruence.
  - inversion H; subst. rewrite (IHl k w x H4 H0). split.
    + intros [?|[? ?]]; subst; auto. split; auto. intro; subst.
      apply H3. eapply nth_error_In; eauto.
    + intros [? [?|?]]; auto.
Qed.

Lemma remove_nth_incl : forall A (l : list A) k x, In x (remove_nth k l) -> In x l.
Proof. induction l; destruct k; simpl; intros x H; auto. destruct H; eauto. Qed.

Lemma NoDup_remove_nth : forall (l : list nat) k, NoDup l -> NoDup (remove_nth k l).
Proof.
  induction l; destruct k; simpl; intros; auto; inversion H; subst; auto.
  constructor; auto. intro Hc. apply H2. eapply remove_nth_incl; eauto.
Qed.

Lemma remove_nth_nil_inv : forall (l : list nat) k, remove_nth k l <> [] -> l <> [].
Proof. destruct l; simpl; intros; auto. destruct k; auto. discriminate. Qed.

Lemma get_pc_In : forall (ws : list (nat * wpc)) w pc, NoDup (map fst ws) -> (get_pc w ws = Some pc <-> In (w, pc) ws).
Proof.
  induction ws as [|[v p] ws IH]; simpl; intros w pc Hnd.
  - split; intros H; [discriminate | tauto].
  - inversion Hnd as [|? ? Hnotin Hnd']; subst. destruct (v =? w) eqn:E.
    + apply Nat.eqb_eq in E. subst. split.
      * intros H. inversion H; auto.
      * intros [H|H]. inversion H; auto.
        exfalso. apply Hnotin. apply in_map_iff. exists (w, pc); auto.
    + apply Nat.eqb_neq in E. rewrite IH; auto. split; auto.
      intros [H|H]; auto. inversion H; congruence.
Qed.

Lemma In_fst : forall (ws : list (nat * wpc)) w pc, In (w, pc) ws -> In w (map fst ws).
Proof. intros. apply in_map_iff. exists (w, pc); auto. Qed.

Lemma In_unique : forall (ws : list (nat * wpc)) w p1 p2, NoDup (map fst ws) -> In (w, p1) ws -> In (w, p2) ws -> p1 = p2.
Proof.
  intros ws w p1 p2 Hnd Ha Hb.
  apply (get_pc_In ws w p1 Hnd) in Ha. apply (get_pc_In ws w p2 Hnd) in Hb. congruence.
Qed.

Lemma map_fst_set_pc : forall w pc ws, map fst (set_pc w pc ws) = map fst ws.
Proof.
  induction ws as [|[v p] ws]; simpl; auto.
  destruct (v =? w) eqn:E; simpl; f_equal; auto. apply Nat.eqb_eq in E; auto.
Qed.

Lemma In_set_pc : forall w pc ws v p,
  In (v, p) (set_pc w pc ws) <-> (v = w /\ p = pc /\ In w (map fst ws)) \/ (v <> w /\ In (v, p) ws).
Proof.
  intros. unfold set_pc. rewrite in_map_iff. split.
  - intros [[u q] [Hf Hin]]. simpl in Hf. destruct (u =? w) eqn:E.
    + apply Nat.eqb_eq in E. subst u. inversion Hf; subst. left. repeat split; auto.
      eapply In_fst; eauto.
    + apply Nat.eqb_neq in E. inversion Hf; subst. right. split; auto.
  - intros [[Hv [Hp Hin]]|[Hne Hin]].
    + subst. apply in_map_iff in Hin. destruct Hin as [[u q] [Hu Hin]]. simpl in Hu. subst u.
      exists (w, q). simpl. rewrite Nat.eqb_refl. auto.
    + exists (v, p). simpl. destruct (v =? w) eqn:E; auto. apply Nat.eqb_eq in E. congruence.
Qed.

Lemma map_fst_del_w : forall w ws, map fst (del_w w ws) = discard w (map fst ws).
Proof.
  induction ws as [|[v p] ws]; simpl; auto.
  destruct (v =? w); simpl; f_equal; auto.
Qed.

Lemma In_del_w : forall w ws v p, In (v, p) (del_w w ws) <-> v <> w /\ In (v, p) ws.
Proof.
  intros. unfold del_w. rewrite filter_In. simpl. rewrite negb_true_iff, Nat.eqb_neq. tauto.
Qed.

Lemma map_fst_wake_all : forall ws, map fst (wake_all ws) = map fst ws.
Proof.
  induction ws as [|[v p] ws]; simpl; auto. f_equal; auto. unfold wake1; simpl. destruct p; auto.
Qed.

Lemma In_wake_all : forall ws v p,
  In (v, p) (wake_all ws) <-> (p = WNotified /\ In (v, WWait) ws) \/ (p <> WWait /\ In (v, p) ws).
Proof.
  intros. unfold wake_all. rewrite in_map_iff. split.
  - intros [[u q] [Hf Hin]]. unfold wake1 in Hf; simpl in Hf.
    destruct q; inversion Hf; subst; try (right; split; [discriminate|assumption]). left; auto.
  - intros [[Hp Hin]|[Hne Hin]].
    + subst. exists (v, WWait). auto.
    + exists (v, p). split; auto. unfold wake1; simpl. destruct p; auto. congruence.
Qed.

Lemma wake_all_no_wait : forall ws w, ~ In (w, WWait) (wake_all ws).
Proof. intros ws w. rewrite In_wake_all. intros [[Hd _]|[Hd _]]; [discriminate|congruence]. Qed.

Lemma cnt_cons : forall p v q ws, cnt p ((v, q) :: ws) = b2n (p q) + cnt p ws.
Proof. intros. unfold cnt. simpl. destruct (p q); auto. Qed.

Lemma cnt_app : forall p ws ws', cnt p (ws ++ ws') = cnt p ws + cnt p ws'.
Proof. intros. unfold cnt. rewrite filter_app, app_length. auto. Qed.

Lemma cnt_new : forall p (new : list nat),
  cnt p (map (fun x => (x, WAcq)) new) = if p WAcq then length new else 0.
Proof.
  induction new; simpl. destruct (p WAcq); auto.
  rewrite cnt_cons. rewrite IHnew. destruct (p WAcq); simpl; auto.
Qed.

Lemma set_pc_notin : forall w pc ws, ~ In w (map fst ws) -> set_pc w pc ws = ws.
Proof.
  induction ws as [|[v q] ws]; simpl; intros; auto.
  destruct (v =? w) eqn:E.
  - apply Nat.eqb_eq in E. tauto.
  - f_equal. apply IHws. tauto.
Qed.

Lemma del_w_notin : forall w ws, ~ In w (map fst ws) -> del_w w ws = ws.
Proof.
  induction ws as [|[v q] ws]; simpl; intros; auto.
  destruct (v =? w) eqn:E; simpl.
  - apply Nat.eqb_eq in E. tauto.
  - f_equal. apply IHws. tauto.
Qed.

(* with distinct thread numbers, the entry of w splits the worker list *)
Lemma workers_split : forall (ws : list (nat * wpc)) w old, NoDup (map fst ws) -> In (w, old) ws ->
  exists a b, ws = a ++ (w, old) :: b /\
    (forall pc, set_pc w pc ws = a ++ (w, pc) :: b) /\ del_w w ws = a ++ b.
Proof.
  intros ws w old Hnd Hin. destruct (in_split _ _ Hin) as (a & b & ->). exists a, b.
  rewrite map_app in Hnd. simpl in Hnd. pose proof (NoDup_remove_2 _ _ _ Hnd) as Hn. rewrite in_app_iff in Hn.
  split; [reflexivity|]. split.
  - intros pc. unfold set_pc. rewrite map_app. simpl. rewrite Nat.eqb_refl.
    fold (set_pc w pc a) (set_pc w pc b). rewrite !set_pc_notin; tauto.
  - unfold del_w. rewrite filter_app. simpl. rewrite Nat.eqb_refl. simpl.
    fold (del_w w a) (del_w w b). rewrite !del_w_notin; tauto.
Qed.

Lemma cnt_set_pc : forall p w pc old ws, NoDup (map fst ws) -> In (w, old) ws ->
  cnt p (set_pc w pc ws) + b2n (p old) = cnt p ws + b2n (p pc).
Proof.
  intros p w pc old ws Hnd Hin. destruct (workers_split ws w old Hnd Hin) as (a & b & -> & E & _).
  rewrite E, !cnt_app, !cnt_cons. lia.
Qed.

Lemma cnt_del_w : forall p w old ws, NoDup (map fst ws) -> In (w, old) ws ->
  cnt p (del_w w ws) + b2n (p old) = cnt p ws.
Proof.
  intros p w old ws Hnd Hin. destruct (workers_split ws w old Hnd Hin) as (a & b & -> & _ & E).
  rewrite E, !cnt_app, cnt_cons. lia.
Qed.

Lemma cnt_wake_all_active : forall ws, cnt is_active (wake_all ws) = cnt is_active ws.
Proof.
  induction ws as [|[v q] ws]; simpl; auto.
  unfold wake1; simpl. destruct q; rewrite !cnt_cons; simpl; auto.
Qed.

Lemma cnt_zero : forall p ws, (forall v q, In (v, q) ws -> p q = false) -> cnt p ws = 0.
Proof.
  induction ws as [|[v q] ws]; simpl; intros; auto.
  rewrite cnt_cons. rewrite (H v q); auto. simpl. apply IHws. intros. eapply H; eauto.
Qed.

Lemma mem_In : forall n l, mem n l = true <-> In n l.
Proof.
  intros. unfold mem. rewrite existsb_exists. split.
  - intros [x [? E]]. apply Nat.eqb_eq in E. subst; auto.
  - intros. exists n. split; auto. apply Nat.eqb_refl.
Qed.

(* first_free returns a member of ths only when it has run out of fuel on a run of
   members, which is then longer than ths *)
Lemma first_free_run : forall fuel n ths,
  In (first_free fuel n ths) ths -> incl (seq n (S fuel)) ths.
Proof.
  induction fuel; simpl; intros n ths H.
  - intros x [<-|[]]. exact H.
  - destruct (mem n ths) eqn:E.
    + apply mem_In in E. intros x [<-|Hx]; auto. apply (IHfuel (S n) ths H x Hx).
    + apply mem_In in H. congruence.
Qed.

Lemma first_free_notin : forall n ths, ~ In (first_free (S (length ths)) n ths) ths.
Proof.
  intros n ths H. apply first_free_run in H.
  apply NoDup_incl_length in H; [|apply seq_NoDup]. rewrite seq_length in H. lia.
Qed.

Lemma NoDup_snoc : forall (l : list nat) x, NoDup l -> ~ In x l -> NoDup (l ++ [x]).
Proof.
  induction l; simpl; intros x Hnd Hx.
  - constructor; auto.
  - inversion Hnd; subst. constructor.
    + rewrite in_app_iff. simpl. intros [?|[?|?]]; subst; tauto.
    + apply IHl; auto.
Qed.

Lemma spawn_spec : forall n no ths ws act ls ths' ws' act' ls',
  spawn n no ths ws act ls = (ths', ws', act', ls') ->
  NoDup ths ->
  exists new, ths' = ths ++ new /\ ws' = ws ++ map (fun x => (x, WAcq)) new /\
              length new = n /\ NoDup (ths ++ new) /\ act' = (act + Z.of_nat n)%Z /\
              ls' = ls ++ map LStart new.
Proof.
  induction n; intros no ths ws act ls ths' ws' act' ls' H Hnd.
  - simpl in H. inversion H; subst. exists []. simpl. rewrite !app_nil_r. repeat split; auto. lia.
  - cbn [spawn] in H.
    remember (first_free (S (length ths)) no ths) as x.
    assert (Hx : ~ In x ths).
    { subst x. apply first_free_notin. }
    apply IHn in H; [|apply NoDup_snoc; auto].
    destruct H as [new [H1 [H2 [H3 [H4 [H5 H6]]]]]]. exists (x :: new).
    rewrite <- app_assoc in H1, H2, H4, H6. simpl in H1, H2, H4, H6.
    repeat split; auto.
    + simpl. lia.
    + rewrite H5. rewrite Nat2Z.inj_succ. lia.
Qed.

(* The critical sections of Model/Dispatcher.v, case by case: one inversion lemma per
   section says which branch was taken and writes out the new state and the labels.
   What a section leaves alone is then read off by [simpl]; the three frame lemmas at the
   end collect what several callers need. *)

Ltac inv H := inversion H; subst; clear H.

Inductive notify_case (k : nat) (s : state) : state -> list label -> Prop :=
| N_none : qwait s = [] -> notify_case k s s []
| N_wake w : nth_error (qwait s) k = Some w ->
    notify_case k s
      (mkState (queue s) (threads s) (stop_count s) (active_count s) (lock s)
         (remove_nth k (qwait s)) (xwait s) (set_pc w WNotified (workers s))
         (sd s) (sd_cancel s) (ledger s) (requested s) (taken s) (sd_snap s))
      [LNotifyQ w].

Lemma notify_q_cases : forall k s s' l, notify_q k s = Some (s', l) -> notify_case k s s' l.
Proof.
  intros k s s' l H. unfold notify_q in H. destruct (qwait s) as [|q0 qr] eqn:Eq.
  - inv H. apply N_none; auto.
  - rewrite <- Eq in *. destruct (nth_error (qwait s) k) as [w|] eqn:En; inv H. apply N_wake; auto.
Qed.

Definition add_state (s : state) : state :=
  mkState (queue s ++ [length (ledger s)]) (threads s) (stop_count s) (active_count s) (lock s)
    (qwait s) (xwait s) (workers s) (sd s) (sd_cancel s)
    (ledger s ++ [ti0]) (requested s) (taken s) (sd_snap s).

Lemma do_add_cases : forall b k s s' l, do_add b k s = Some (s', l) ->
  exists l2, notify_case k (add_state s) s' l2 /\ l = LSubmit b (length (ledger s)) :: l2.
Proof.
  intros b k s s' l H. change (do_add b k s) with
    (match notify_q k (add_state s) with
     | None => None | Some (s2, l2) => Some (s2, LSubmit b (length (ledger s)) :: l2) end) in H.
  destruct (notify_q k (add_state s)) as [[s2 l2]|] eqn:E; inv H.
  exists l2. split; auto. apply notify_q_cases; auto.
Qed.

Inductive resize_case (n : nat) (s : state) : state -> list label -> Prop :=
| R_grow new : NoDup (threads s ++ new) -> length (threads s) - stop_count s + length new = n ->
    resize_case n s
      (mkState (queue s) (threads s ++ new) (stop_count s) (active_count s + Z.of_nat (length new))%Z
         (lock s) (qwait s) (xwait s) (workers s ++ map (fun x => (x, WAcq)) new)
         (sd s) (sd_cancel s) (ledger s) n (taken s) (sd_snap s))
      (map LStart new)
| R_shrink : n < length (threads s) - stop_count s ->
    resize_case n s
      (mkState (queue s) (threads s) (stop_count s + (length (threads s) - stop_count s - n))
         (active_count s) (lock s) [] (xwait s) (wake_all (workers s))
         (sd s) (sd_cancel s) (ledger s) n (taken s) (sd_snap s))
      [LStopReq (length (threads s) - stop_count s - n); LNotifyAllQ (qwait s)]
| R_same : n = length (threads s) - stop_count s ->
    resize_case n s
      (mkState (queue s) (threads s) (stop_count s) (active_count s) (lock s) (qwait s) (xwait s)
         (workers s) (sd s) (sd_cancel s) (ledger s) n (taken s) (sd_snap s))
      [].

Lemma do_resize_cases : forall n s s' l, NoDup (threads s) -> do_resize n s = (s', l) ->
  resize_case n s s' l.
Proof.
  intros n s s' l Hnd H. unfold do_resize in H.
  destruct (length (threads s) - stop_count s <? n) eqn:E1.
  - destruct (spawn (n - (length (threads s) - stop_count s)) 0 (threads s) (workers s) (active_count s) [])
      as [[[ths ws] act] ls] eqn:Es.
    inv H. apply spawn_spec in Es; auto.
    destruct Es as [new [H1 [H2 [H3 [H4 [H5 H6]]]]]]. subst. rewrite <- H3. apply R_grow; auto.
    apply Nat.ltb_lt in E1. lia.
  - apply Nat.ltb_ge in E1.
    destruct (n <? length (threads s) - stop_count s) eqn:E2; inv H.
    + apply Nat.ltb_lt in E2. apply R_shrink; auto.
    + apply Nat.ltb_ge in E2. apply R_same. lia.
Qed.

Definition act_of (pc : wpc) (s : state) : Z :=
  match pc with WNotified => (active_count s + 1)%Z | _ => active_count s end.

Inductive work_case (w : nat) (pc : wpc) (s : state) : state -> list label -> Prop :=
| W_park : queue s = [] -> stop_count s = 0 ->
    work_case w pc s
      (mkState (queue s) (threads s) (stop_count s) (act_of pc s - 1)%Z (lock s)
         (qwait s ++ [w]) (xwait s) (set_pc w WWait (workers s))
         (sd s) (sd_cancel s) (ledger s) (requested s) (taken s) (sd_snap s))
      [LPark w]
| W_pop t q : queue s = t :: q -> stop_count s = 0 ->
    work_case w pc s
      (mkState q (threads s) (stop_count s) (act_of pc s) (lock s)
         (qwait s) (xwait s) (set_pc w (WRun t) (workers s)) (sd s) (sd_cancel s)
         (upd t (fun i => mkTi (Running w) (S (ti_svc i)) (ti_cnc i)) (ledger s))
         (requested s) (S (taken s)) (sd_snap s))
      [LPop w t; LService w t]
| W_exit st : stop_count s = S st ->
    work_case w pc s
      (mkState (queue s) (discard w (threads s)) st (act_of pc s - 1)%Z (lock s)
         (qwait s) false (del_w w (workers s))
         (if xwait s then SdAcq else sd s) (sd_cancel s) (ledger s) (requested s) (taken s) (sd_snap s))
      (LExit w :: if xwait s then [LNotifyX] else []).

Lemma do_work_cases : forall w pc s s' l, do_work w pc s = Some (s', l) -> work_case w pc s s' l.
Proof.
  intros w pc s s' l H. unfold do_work in H. fold (act_of pc s) in H.
  destruct (stop_count s) as [|st] eqn:Est.
  - destruct (queue s) as [|t q] eqn:Eq; inv H.
    + rewrite <- Eq, <- Est. apply W_park; auto.
    + rewrite <- Est. apply W_pop; auto.
  - assert (E : Some (s', l) = Some
        (mkState (queue s) (discard w (threads s)) st (act_of pc s - 1)%Z (lock s)
           (qwait s) false (del_w w (workers s))
           (if xwait s then SdAcq else sd s) (sd_cancel s) (ledger s) (requested s) (taken s) (sd_snap s),
         LExit w :: if xwait s then [LNotifyX] else [])).
    { rewrite <- H. destruct (queue s); reflexivity. }
    inv E. apply W_exit; auto.
Qed.

Inductive sd_case (s : state) : state -> list label -> Prop :=
| Sd_cancel ls : sd s = SdAcq -> lock s = None -> sd_cancel s = true -> ls = [] \/ ls = [LSdExpired] ->
    sd_case s (set_sd s SdCancel (Some OShutdown) false (queue s)) ls
| Sd_false ls : sd s = SdAcq -> lock s = None -> sd_cancel s = false -> ls = [] \/ ls = [LSdExpired] ->
    sd_case s (set_sd s (SdDone false) None false (sd_snap s)) (ls ++ [LSdReturn false])
| Sd_wait : sd s = SdAcq -> lock s = None ->
    sd_case s (set_sd s SdWaiting None true (sd_snap s)) [LSdWait]
| Sd_timeout : sd s = SdWaiting ->
    sd_case s (set_sd s SdAcq (lock s) false (sd_snap s)) [LSdTimeout]
| Sd_cancel1 t q : sd s = SdCancel -> queue s = t :: q ->
    sd_case s
      (mkState q (threads s) (stop_count s) (active_count s) (lock s)
         (qwait s) (xwait s) (workers s) SdCancel (sd_cancel s)
         (upd t (fun i => mkTi Cancelled (ti_svc i) (S (ti_cnc i))) (ledger s))
         (requested s) (S (taken s)) (sd_snap s))
      [LCancel t]
| Sd_true : sd s = SdCancel -> queue s = [] ->
    sd_case s
      (mkState [] (threads s) (stop_count s) (active_count s) None
         [] (xwait s) (wake_all (workers s)) (SdDone true) (sd_cancel s)
         (ledger s) (requested s) (taken s) (sd_snap s))
      [LNotifyAllQ (qwait s); LSdReturn true].

Lemma free_true : forall s, free s = true -> lock s = None.
Proof. unfold free. intros s. destruct (lock s); auto; discriminate. Qed.

Lemma do_sd_cases : forall e s s' l, do_sd e s = Some (s', l) -> sd_case s s' l.
Proof.
  intros e s s' l H. unfold do_sd in H. destruct (sd s) eqn:Esd; try discriminate.
  - destruct (free s) eqn:Ef; [|discriminate]. apply free_true in Ef.
    assert (L : forall ls, ls = [] \/ ls = [LSdExpired] ->
              (if sd_cancel s
               then Some (set_sd s SdCancel (Some OShutdown) false (queue s), ls)
               else Some (set_sd s (SdDone false) None false (sd_snap s), ls ++ [LSdReturn false]))
              = Some (s', l) -> sd_case s s' l).
    { intros ls Hls Hr. destruct (sd_cancel s) eqn:Ec; inv Hr; [apply Sd_cancel | apply Sd_false]; auto. }
    destruct (threads s); [apply (L []); auto|]. destruct e; [apply (L [LSdExpired]); auto|].
    inv H. apply Sd_wait; auto.
  - inv H. apply Sd_timeout; auto.
  - destruct (queue s) eqn:Eq; inv H; [apply Sd_true | apply Sd_cancel1]; auto.
Qed.

Definition finish_state (w : nat) (t : task) (s : state) : state :=
  mkState (queue s) (threads s) (stop_count s) (active_count s) (lock s)
    (qwait s) (xwait s) (set_pc w WAcq (workers s)) (sd s) (sd_cancel s)
    (upd t (fun i => mkTi Done (ti_svc i) (ti_cnc i)) (ledger s))
    (requested s) (taken s) (sd_snap s).

Definition sdcall_state (cp : bool) (s1 : state) : state :=
  mkState (queue s1) (threads s1) (stop_count s1) (active_count s1) (lock s1)
    (qwait s1) (xwait s1) (workers s1) SdAcq cp (ledger s1) (requested s1) (taken s1) (sd_snap s1).

(* the step: which section runs, by whom *)
Inductive step_case (s s' : state) (l : list label) : choice -> Prop :=
| St_submit k : lock s = None -> do_add None k s = Some (s', l) -> step_case s s' l (CSubmit k)
| St_resize n : lock s = None -> do_resize n s = (s', l) -> step_case s s' l (CResize n)
| St_work w pc : lock s = None -> In (w, pc) (workers s) -> pc = WAcq \/ pc = WNotified ->
    do_work w pc s = Some (s', l) -> step_case s s' l (CWork w)
| St_follow w k t : lock s = None -> In (w, WRun t) (workers s) ->
    do_add (Some w) k s = Some (s', l) -> step_case s s' l (CFollow w k)
| St_finish w t r : In (w, WRun t) (workers s) -> s' = finish_state w t s -> l = [LFinish w t r] ->
    step_case s s' l (CFinish w r)
| St_sdcall cp s1 ls : lock s = None -> sd s = SdIdle -> do_resize 0 s = (s1, ls) ->
    s' = sdcall_state cp s1 -> l = LSdCall cp :: ls -> step_case s s' l (CSdCall cp)
| St_sd e : do_sd e s = Some (s', l) -> step_case s s' l (CSd e).

Lemma step_cases : forall s c s' l, NoDup (map fst (workers s)) -> step s c = Some (s', l) ->
  step_case s s' l c.
Proof.
  intros s c s' l Hnd H. destruct c; simpl in H;
    try (destruct (free s) eqn:Ef; [apply free_true in Ef|discriminate]).
  - apply St_submit; auto.
  - inv H. apply St_resize; auto.
  - destruct (get_pc w (workers s)) as [pc|] eqn:Eg; [|discriminate]. apply get_pc_In in Eg; auto.
    destruct pc; try discriminate; eapply St_work; eauto.
  - destruct (get_pc w (workers s)) as [[]|] eqn:Eg; try discriminate. apply get_pc_In in Eg; auto.
    eapply St_follow; eauto.
  - destruct (get_pc w (workers s)) as [[]|] eqn:Eg; try discriminate. apply get_pc_In in Eg; auto.
    inv H. eapply St_finish; eauto.
  - destruct (sd s) eqn:Esd; try discriminate. destruct (do_resize 0 s) as [s1 ls] eqn:Er. inv H.
    eapply St_sdcall; eauto.
  - apply St_sd; auto.
Qed.

(* what the callers need of what a section leaves alone *)
Lemma do_add_frame : forall b k s s' l, do_add b k s = Some (s', l) ->
  ledger s' = ledger s ++ [ti0] /\ taken s' = taken s /\ queue s' = queue s ++ [length (ledger s)] /\
  sd s' = sd s /\ sd_snap s' = sd_snap s.
Proof.
  intros b k s s' l H. destruct (do_add_cases _ _ _ _ _ H) as [l2 [[Eq | w En] _]]; simpl; auto.
Qed.

Lemma do_resize_frame : forall n s s' l, NoDup (threads s) -> do_resize n s = (s', l) ->
  sd s' = sd s /\ queue s' = queue s /\ ledger s' = ledger s /\ taken s' = taken s /\
  sd_snap s' = sd_snap s.
Proof.
  intros n s s' l Hnd H. destruct (do_resize_cases _ _ _ _ Hnd H); simpl; repeat split; auto.
Qed.

Lemma do_work_frame : forall w pc s s' l, do_work w pc s = Some (s', l) ->
  sd_snap s' = sd_snap s /\ (sd s' = sd s \/ sd s' = SdAcq).
Proof.
  intros w pc s s' l H. destruct (do_work_cases _ _ _ _ _ H); simpl; split; auto.
  destruct (xwait s); auto.
Qed.
