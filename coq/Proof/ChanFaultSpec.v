(* Proof/ChanFaultSpec.v -- what C13 demands, stated over the states and label
   traces of Model/ChanFault.v independently of how it is proved.  Every
   statement has a Prop form (used by the theorems) and a bool form (run by the
   model explorer and by the monitor on the traces of the real code). *)
From Coq Require Import List Arith Bool.
From WV Require Import Model.ChanFault.
Import ListNotations.

(* C13_loop: no step of the I/O thread ends in an escaped exception other than the three
   that wasyncore re-raises on purpose *)
Definition loop_ok (tr : list label) : Prop :=
  forall x, In (LLoopDied x) tr -> is_reraised x = true.
Definition loop_okb (tr : list label) : bool :=
  forallb (fun l => match l with LLoopDied x => is_reraised x | _ => true end) tr.

(* C13_workers: no worker thread is killed *)
Definition workers_ok (tr : list label) : Prop := forall c, ~ In (LWorkerDied c) tr.
Definition workers_okb (tr : list label) : bool :=
  forallb (fun l => match l with LWorkerDied _ => false | _ => true end) tr.

(* C13_listener: the listening socket and its trigger stay polled *)
Definition listener_ok (s : state) : Prop :=
  lst_in_map s = true /\ trg_in_map s = true /\ lst_open s = true /\ trg_open s = true.
Definition listener_okb (s : state) : bool :=
  lst_in_map s && trg_in_map s && lst_open s && trg_open s.

(* C13_once: torn down once, by the I/O thread only *)
Definition is_close_of (c : chan) (l : label) : bool :=
  match l with LClose _ d => chan_eqb c d | _ => false end.
Definition closes (c : chan) (tr : list label) : nat := length (filter (is_close_of c) tr).

(* a label that tears something down or alters the polled set names its thread *)
Definition teardown_thread (l : label) : option tid :=
  match l with
  | LClose t _ | LMapDel t _ | LActDel t _ | LBufsClosed t _ => Some t
  | _ => None
  end.
Definition io_only (tr : list label) : Prop :=
  forall l t, In l tr -> teardown_thread l = Some t -> t = IO.
Definition io_onlyb (tr : list label) : bool :=
  forallb (fun l => match teardown_thread l with Some (W _) => false | _ => true end) tr.

(* after the close the descriptor is out of the socket map and of
   active_channels and every output buffer has been closed *)
Definition released (s : state) (c : chan) : Prop :=
  nclose (getc s c) <> 0 ->
  in_map (getc s c) = false /\ in_act (getc s c) = false /\ bufc (getc s c) = true.
Definition releasedb (s : state) (c : chan) : bool :=
  (nclose (getc s c) =? 0) || (negb (in_map (getc s c)) && negb (in_act (getc s c)) && bufc (getc s c)).

Definition once_ok (s : state) (tr : list label) : Prop :=
  io_only tr /\ forall c, closes c tr <= 1 /\ released s c.
Definition once_okb (s : state) (tr : list label) : bool :=
  io_onlyb tr && (closes A tr <=? 1) && (closes B tr <=? 1) && releasedb s A && releasedb s B.

(* F18: executions in which a worker reaches send_continue() at the end of service() *)
Definition no_wcont (tr : list label) : Prop := forall c, ~ In (LWCont c) tr.
Definition no_wcontb (tr : list label) : bool :=
  forallb (fun l => match l with LWCont _ => false | _ => true end) tr.
(* F17: executions in which getsockopt(SO_SNDBUF) or setblocking fails in HTTPChannel.__init__ *)
Definition no_setup_fault (tr : list label) : Prop := forall c, ~ In (LSetupFault c) tr.
Definition no_setup_faultb (tr : list label) : bool :=
  forallb (fun l => match l with LSetupFault _ => false | _ => true end) tr.

Lemma loop_okb_spec : forall tr, loop_okb tr = true <-> loop_ok tr.
Proof.
  intro tr. unfold loop_okb, loop_ok. rewrite forallb_forall. split.
  - intros H x Hin. exact (H _ Hin).
  - intros H l Hin. destruct l; auto.
Qed.

(* the three demands "no label of kind K c": K is LWorkerDied, LWCont, LSetupFault *)
Lemma absent_spec : forall (K : chan -> label) (q : label -> bool),
  (forall l, q l = false <-> exists c, l = K c) ->
  forall tr, forallb q tr = true <-> forall c, ~ In (K c) tr.
Proof.
  intros K q Hq tr. rewrite forallb_forall. split.
  - intros H c Hin. specialize (H _ Hin). assert (E : q (K c) = false) by (apply Hq; eauto). congruence.
  - intros H l Hin. destruct (q l) eqn:E; auto. apply Hq in E. destruct E as [c ->]. destruct (H c Hin).
Qed.

Lemma workers_okb_spec : forall tr, workers_okb tr = true <-> workers_ok tr.
Proof.
  apply (absent_spec LWorkerDied). intro l. split; [destruct l; try discriminate; eauto|intros [c ->]; reflexivity].
Qed.

Lemma no_wcontb_spec : forall tr, no_wcontb tr = true <-> no_wcont tr.
Proof.
  apply (absent_spec LWCont). intro l. split; [destruct l; try discriminate; eauto|intros [c ->]; reflexivity].
Qed.

Lemma no_setup_faultb_spec : forall tr, no_setup_faultb tr = true <-> no_setup_fault tr.
Proof.
  apply (absent_spec LSetupFault). intro l. split; [destruct l; try discriminate; eauto|intros [c ->]; reflexivity].
Qed.

Lemma io_onlyb_spec : forall tr, io_onlyb tr = true <-> io_only tr.
Proof.
  intro tr. unfold io_onlyb, io_only. rewrite forallb_forall. split.
  - intros H l t Hin E. specialize (H _ Hin). rewrite E in H. destruct t; auto. discriminate.
  - intros H l Hin. destruct (teardown_thread l) as [[|c]|] eqn:E; auto.
    specialize (H _ _ Hin E). discriminate.
Qed.

(* a demand on traces whose bool form is a forallb holds of a concatenation iff it holds of both parts *)
Lemma spec_app : forall (q : label -> bool) (X : list label -> Prop),
  (forall tr, forallb q tr = true <-> X tr) -> forall a b, X (a ++ b) <-> X a /\ X b.
Proof. intros q X H a b. rewrite <- !H, forallb_app, andb_true_iff. reflexivity. Qed.

Definition no_wcont_app := spec_app _ _ no_wcontb_spec.
Definition no_setup_fault_app := spec_app _ _ no_setup_faultb_spec.
Definition workers_ok_app := spec_app _ _ workers_okb_spec.
Definition io_only_app := spec_app _ _ io_onlyb_spec.
