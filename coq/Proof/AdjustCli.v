(* C20, the command line: the two ways of writing an option (opt_eq, opt_plain), why
   getopt's fuel suffices for every argv and every option list, and the boolean
   tests through which the facts about the generated tables are decided in
   Proof/AdjustCliAll.v and Proof/AdjustCliKw.v. *)
From Coq Require Import List NArith ZArith Bool Lia.
From WV Require Import Lib.PyBytes Gen.GenAdjust Model.Adjust Proof.AdjustSpec Proof.AdjustChecks.
Import ListNotations.
Local Open Scope N_scope.

Definition opt_eq (name v : str) : str := dashdash ++ name ++ 61 :: v.   (* --name=v *)
Definition opt_plain (name : str) : str := dashdash ++ name.             (* --name *)

Lemma long_has_args_exn : forall opt lo e, long_has_args opt lo = Exn e -> e = GetoptError.
Proof.
  intros opt lo e. unfold long_has_args. cbv zeta.
  match goal with |- context [filter ?f lo] => destruct (filter f lo) as [|u [|u2 l]] end; intro H.
  - injection H; auto.
  - destruct (memstr _ _); [discriminate|]. destruct (memstr _ _); [discriminate|].
    destruct (endswith _ _); discriminate.
  - destruct (memstr _ _); [discriminate|]. destruct (memstr _ _); [discriminate|].
    injection H; auto.
Qed.

Lemma do_longs_shape : forall body lo args,
  match do_longs body lo args with
  | Exn e => e = GetoptError
  | Ok (_, args') => (length args' <= length args)%nat
  end.
Proof.
  intros body lo args. unfold do_longs.
  destruct (find body [61]) as [i|].
  - destruct (long_has_args _ lo) as [[[] o]|e] eqn:E; cbn; try lia; try reflexivity.
    eapply long_has_args_exn; eassumption.
  - destruct (long_has_args _ lo) as [[[] o]|e] eqn:E; cbn; try lia; try reflexivity.
    + destruct args; cbn; [reflexivity|lia].
    + eapply long_has_args_exn; eassumption.
Qed.

Lemma getopt_go_fuel : forall fuel args lo opts, (length args < fuel)%nat ->
  getopt_go fuel args lo opts <> Exn OutOfFuel.
Proof.
  induction fuel as [|f IH]; intros args lo opts H; [lia|].
  cbn [getopt_go]. destruct args as [|a rest]; [discriminate|].
  destruct (startswith a [45] && negb (beqb a [45])); [|discriminate].
  destruct (beqb a dashdash); [discriminate|].
  destruct (startswith a dashdash); [|discriminate].
  pose proof (do_longs_shape (skipn 2 a) lo rest) as S.
  destruct (do_longs (skipn 2 a) lo rest) as [[o args']|e].
  - apply IH. cbn [length] in H. lia.
  - subst e. discriminate.
Qed.

Theorem getopt_fuel_enough : forall args lo, getopt args lo <> Exn OutOfFuel.
Proof. intros. unfold getopt. apply getopt_go_fuel. lia. Qed.

Definition true_s : str := [116;114;117;101].
Definition false_s : str := [102;97;108;115;101].

Definition lha_is (r : outcome (bool * str)) (b : bool) (o : str) : bool :=
  match r with Ok (b', o') => Bool.eqb b b' && beqb o o' | Exn _ => false end.
Lemma lha_is_eq : forall r b o, lha_is r b o = true -> r = Ok (b, o).
Proof.
  intros [[b' o']|e] b o H; [|discriminate]. cbn in H. apply andb_true_iff in H as [H1 H2].
  apply Bool.eqb_prop in H1. apply beqb_eq in H2. subst. reflexivity.
Qed.

Definition action_eqb (a b : cli_action) : bool :=
  match a, b with
  | ActAccum s d, ActAccum s' d' => beqb s s' && beqb d d'
  | ActStripPrefix n v, ActStripPrefix n' v' => Nat.eqb n n' && beqb v v'
  | ActSetTrue, ActSetTrue | ActApp, ActApp | ActValue, ActValue => true
  | ActConst v, ActConst v' => beqb v v'
  | _, _ => false
  end.
Lemma action_eqb_eq : forall a b, action_eqb a b = true -> a = b.
Proof.
  intros [] []; cbn; intro H; try discriminate; try reflexivity.
  - apply andb_true_iff in H as [H1 H2]. apply beqb_eq in H1, H2. subst. reflexivity.
  - apply andb_true_iff in H as [H1 H2]. apply Nat.eqb_eq in H1. apply beqb_eq in H2. subst. reflexivity.
  - apply beqb_eq in H. subst. reflexivity.
Qed.
Lemma cast_eqb_eq : forall a b, cast_eqb a b = true -> a = b.
Proof. intros [] []; intro H; try discriminate; reflexivity. Qed.

(* [r] is [Some a], decided through a boolean equality that implies equality *)
Definition option_is {A} (eqb : A -> A -> bool) (r : option A) (a : A) : bool :=
  match r with Some a' => eqb a' a | None => false end.
Lemma option_is_eq : forall {A} (eqb : A -> A -> bool), (forall x y, eqb x y = true -> x = y) ->
  forall r a, option_is eqb r a = true -> r = Some a.
Proof. intros A eqb E [a'|] a H; [|discriminate]. apply E in H. now subst. Qed.

Lemma cast_list_str : forall s, cast_value CList (VStr s) = Ok (SList (aslist_str s)).
Proof. reflexivity. Qed.

Lemma castof_listen : castof k_listen = Some CList.
Proof. vm_compute. reflexivity. Qed.

Lemma memb_app : forall x (a b : str), memb x (a ++ b) = memb x a || memb x b.
Proof. intros. unfold memb. apply existsb_app. Qed.

Example cli_value_example :
  cli_construct {| has_ipv6 := true; has_af_unix := true |}
    [[45;45;112;111;114;116;61;56;48]; [97]]                      (* --port=80 a *)
  = lift Some (construct {| has_ipv6 := true; has_af_unix := true |} [(k_port, VInt 80)]).
Proof. vm_compute. reflexivity. Qed.
