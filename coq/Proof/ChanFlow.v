(* Proof/ChanFlow.v -- what the proofs about Model/ChanFlow.v share (the tactics that take a step
   apart on a state kept as a variable), and the first layer of its invariants, L0: who holds
   outbuf_lock.  The other layers: L1 ChanFlowReq.v (request queue), L2 ChanFlowFlags.v (close
   flags), L3 ChanFlowAcct.v (byte accounting, the C12 bound), L4 ChanFlowLive.v (release / abort). *)
From Coq Require Import List ZArith Bool Arith Lia.
From WV Require Import Lib.Conc Model.ChanFlow.
Import ListNotations.
Local Open Scope Z_scope.

Local Arguments Nat.ltb : simpl never.


(* L0: who holds outbuf_lock, and how deep (handle_close re-enters) *)
Definition io_holds (pc : iopc) : bool :=
  match pc with
  | IoFlush | IoSubL _ | IoRelX | IoNotify | IoRelL => true
  | IoHcTot _ | IoHcConn _ | IoHcNotify _ | IoHcRel _ => true
  | IoHcClose KFlush => true
  | _ => false
  end.

Definition io_cnt (pc : iopc) : nat :=
  match pc with
  | IoHcTot KFlush | IoHcConn KFlush | IoHcNotify KFlush => 2
  | _ => if io_holds pc then 1 else 0
  end.

Definition io_ok (pc : iopc) : bool :=
  match pc with
  | IoHcAcq KFlush | IoHcRel KFlush => false
  | _ => true
  end.

Definition w_holds (pc : wpc) : bool :=
  match pc with
  | WFlush _ _ | WSub _ _ | WFlushExn _ | WFbPullE _ | WFbWaitE _ | WFbPull _ | WFbWait _
  | WAdd _ | WPull | WRel | WRelRaise | WFbRel => true
  | _ => false
  end.

Definition w_cnt (pc : wpc) : nat :=
  match pc with
  | WFlush FW _ | WSub FW _ | WFlushExn FW | WFbPullE FW | WFbWaitE FW | WFbPull FW | WFbWait FW => 2
  | _ => if w_holds pc then 1 else 0
  end.

(* flush_below program points never carry the "after append" context *)
Definition w_ok (pc : wpc) : bool :=
  match pc with
  | WFbPullE FA | WFbWaitE FA | WFbParkedE FA _ | WFbPull FA | WFbWait FA | WFbParked FA _ => false
  | _ => true
  end.

Definition L0 (s : state) : Prop :=
  olock s = (if io_holds (io s) then Some TIo else if w_holds (wk s) then Some TW else None)
  /\ ocount s = (if io_holds (io s) then io_cnt (io s) else w_cnt (wk s))
  /\ io_holds (io s) && w_holds (wk s) = false
  /\ io_ok (io s) = true /\ w_ok (wk s) = true.

Ltac split_ifs H :=
  repeat match type of H with
  | context [if ?b then _ else _] => let E := fresh "E" in destruct b eqn:E
  | context [match ?x with _ => _ end] => let E := fresh "E" in destruct x eqn:E
  end.

Ltac b2p := repeat match goal with
  | H : (_ <? _) = true |- _ => apply Z.ltb_lt in H
  | H : (_ <? _) = false |- _ => apply Z.ltb_ge in H
  | H : (_ <=? _) = true |- _ => apply Z.leb_le in H
  | H : (_ <=? _) = false |- _ => apply Z.leb_gt in H
  | H : (_ =? _) = true |- _ => apply Z.eqb_eq in H
  | H : (_ =? _) = false |- _ => apply Z.eqb_neq in H
  | H : (_ <? _)%nat = true |- _ => apply Nat.ltb_lt in H
  | H : (_ <? _)%nat = false |- _ => apply Nat.ltb_ge in H
  | H : (_ =? _)%nat = true |- _ => apply Nat.eqb_eq in H
  | H : (_ =? _)%nat = false |- _ => apply Nat.eqb_neq in H
  | H : _ && _ = true |- _ => apply andb_true_iff in H; destruct H
  | H : negb _ = true |- _ => apply negb_true_iff in H
  end.

Ltac ds s := destruct s as [total0 pending0 connected0 will_close0 cwf0 nreq0 olock0 ocount0 rlock0 pulled0 in_map0 sock_closed0 closed_bufs0 reading0 gone0 pending_in0 io0 wk0 wq0 wclose0 cur0 queued0 tlc0 trel0 tailsA0 tailsB0 appended0 wire0 last_write0].

Ltac unf := unfold enter_fb, hand_over, enter_flush, w_flush_done, fb_loop, fb_exit, goto_append, next_write, end_service, enter_io_flush, io_flush_done, enter_hc, to_top, acq, rel, send_ok, rdy_r, rdy_w in *.
Ltac dk := repeat match goal with k : hck |- _ => destruct k | c : fctx |- _ => destruct c end.

(* Condition.notify(): nobody parked, or a producer parked in the loop / after an exception *)
Lemma wake_w_ind (P : state -> Prop) s :
  (w_parked s = false -> P s) -> (forall c, wk s = WFbParked c false -> P (set_wk (WFbParked c true) s)) ->
  (forall c, wk s = WFbParkedE c false -> P (set_wk (WFbParkedE c true) s)) -> P (wake_w s).
Proof. unfold wake_w, w_parked. destruct (wk s); try destruct nt; auto. Qed.
Ltac wake_cases s := try (match goal with |- context [wake_w s] =>
  pattern (wake_w s); apply wake_w_ind; [intros Ew|intros ? Ew|intros ? Ew] end).

(* How the step lemmas of the layers go.  The state stays a variable: [step_io] / [step_w] is
   unfolded, the program point and every test are case-split ([split_ifs]), and the new state is a
   chain of setters over [s] whose fields compute.  A conjunct of the layer that reads nothing the
   step changed is then the hypothesis again, up to computation ([frame]); the proof treats what
   is left: the few program points that matter to the layer. *)

(* [split_ifs] has replaced the tests by their outcome in the hypotheses; the new state mentions
   [s] afresh, so the outcome is put into the goal as well *)
Ltac known s := repeat match goal with E : ?f s = ?v |- _ =>
  lazymatch v with true => idtac | false => idtac | None => idtac | Some _ => idtac | nil => idtac | _ :: _ => idtac
  | TNone => idtac | TAcq => idtac | TPop => idtac | TConn => idtac end; rewrite E end.
(* the conjuncts of an invariant that read nothing the step changed *)
Ltac frame s := cbn; known s; repeat apply conj; try assumption; try (intros; discriminate).

(* [at_pc (IoSubL _)] succeeds in the cases where the moving thread is at that program point *)
Tactic Notation "at_pc" open_constr(t) := match goal with E : _ = ?pc |- _ => unify pc t end.

(* use up implications whose premise is known; split conjunctions *)
Ltac spec := repeat match goal with
  | H : ?A -> _, H' : ?A |- _ => specialize (H H')
  | H : true = true -> _ |- _ => specialize (H eq_refl)
  | H : false = false -> _ |- _ => specialize (H eq_refl)
  | H : false = true -> _ |- _ => clear H
  end.
Ltac split_hyps := repeat match goal with H : _ /\ _ |- _ => destruct H end.

Lemma L0_init : L0 init.
Proof. unfold L0, init; cbn; repeat split; reflexivity. Qed.

Lemma w_cnt0 pc : w_holds pc = false -> w_cnt pc = 0%nat.
Proof. destruct pc; cbn; try discriminate; try reflexivity; destruct c; cbn; congruence. Qed.

Lemma L0_io_out s : L0 s -> olock s = None \/ w_holds (wk s) = true -> io_holds (io s) = false.
Proof.
  intros (Ho & _ & Hx & _) [F|F]; destruct (io_holds (io s)); trivial.
  - rewrite F in Ho; discriminate Ho.
  - rewrite F in Hx; discriminate Hx.
Qed.

Lemma L0_w_out s : L0 s -> io_holds (io s) = true -> w_holds (wk s) = false.
Proof. intros (_ & _ & Hx & _) F. rewrite F in Hx. exact Hx. Qed.

(* What a step leaves to show of L0 are the acquire, re-enter and release steps; there the model
   has tested [olock s] or the thread holds the lock, and with L0 either says that the other
   thread does not hold it. *)
Lemma L0_step_io p s r res s' l : L0 s -> step_io p s r res = Some (s', l) -> L0 s'.
Proof.
  intros (Ho & Hc & Hx & Hio & Hw) E. unfold step_io in E.
  destruct (io s) eqn:Eio; cbn in Hio; try discriminate Hio; unf; dk.
  all: split_ifs E; try discriminate E; injection E as <- <-.
  all: wake_cases s; try rewrite Ew in *.
  all: unfold L0; frame s.
  (* acquire (IoTry, IoHcAcq), re-enter (IoRecv, IoFlush, IoHw7 calling handle_close), release
     (IoRelX, IoRelL, IoHcNotify, IoHcRel) *)
  all: first [at_pc IoTry | at_pc (IoHcAcq _) | at_pc (IoRecv _) | at_pc IoFlush | at_pc IoHw7
             | at_pc IoRelX | at_pc IoRelL | at_pc (IoHcNotify _) | at_pc (IoHcRel _)];
    cbn in *; destruct (w_holds (wk s)) eqn:Fw; try discriminate; trivial.
  all: rewrite ?Hc, ?(w_cnt0 _ Fw); trivial; b2p; first [lia | exfalso; lia].
Qed.

Lemma L0_step_w p s r s' l : L0 s -> step_w p s r = Some (s', l) -> L0 s'.
Proof.
  intros (Ho & Hc & Hx & Hio & Hw) E. unfold step_w in E.
  destruct (wk s) eqn:Ewk; cbn in Hw; try discriminate Hw; unf; dk.
  all: split_ifs E; try discriminate E; injection E as <- <-.
  all: unfold L0; frame s.
  (* acquire (WWrAcq, WFbAcq, waking at WFbParked / WFbParkedE), release (WFbWait, WFbWaitE, WRel,
     WRelRaise, WFbRel); the flush inside write_soon ends (WFlush FW, WSub FW): depth 2 to 1 *)
  all: first [at_pc WWrAcq | at_pc WFbAcq | at_pc (WFbParked _ _) | at_pc (WFbParkedE _ _)
             | at_pc (WFbWait _) | at_pc (WFbWaitE _) | at_pc WRel | at_pc WRelRaise | at_pc WFbRel
             | at_pc (WFlush _ _) | at_pc (WSub _ _)];
    rewrite ?andb_true_r in *; destruct (io_holds (io s)); cbn in *; try discriminate; trivial.
Qed.

Lemma L0_step p s c s' l : L0 s -> step p s c = Some (s', l) -> L0 s'.
Proof.
  destruct c as [r res|r|n|a]; cbn [step].
  - apply L0_step_io.
  - apply L0_step_w.
  - intros H E. unfold step_tail in E.
    split_ifs E; try discriminate E; injection E as <- <-; exact H.
  - intros H E. destruct a; cbn in E; split_ifs E; try discriminate E; injection E as <- <-;
      exact H.
Qed.

Theorem L0_all p sched : L0 (run p sched).
Proof. unfold run. apply invariant_rule. apply L0_init. intros; eapply L0_step; eauto. Qed.
