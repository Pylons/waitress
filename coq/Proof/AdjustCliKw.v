(* C20, command lines of any length, from the scanned occurrences on: parse_args' option
   loop and epilogue, runner.run's clean-up, and the keyword form; the main theorem
   cli_construct_spec : forall e argv, cli_construct e argv = cli_spec e argv. *)
From Coq Require Import List NArith ZArith Bool Lia.
From WV Require Import Lib.PyBytes Gen.GenAdjust Model.Adjust Proof.AdjustSpec Proof.AdjustChecks
  Proof.AdjustLists Proof.AdjustCli Spec.AdjustCli Proof.AdjustCliAll.
Import ListNotations.
Local Open Scope N_scope.

(* the state of parse_args' loop: the three runner entries first, in the order of the
   initial dictionary, then the settings stored so far, all as strings *)
Definition hdr (h c : bool) : kwargs := [(k_help, VBool h); (k_call, VBool c); (k_app, VNone)].
Definition vstrs (rt : list (str * str)) : kwargs := map (fun ks => (fst ks, VStr (snd ks))) rt.

Lemma initial_hdr : initial_kw = hdr false false.
Proof. vm_compute. reflexivity. Qed.

(* p is none of help / call / app *)
Definition fresh (p : str) : bool := negb (beqb p k_help) && negb (beqb p k_call) && negb (beqb p k_app).

Lemma fresh_facts : forall p, fresh p = true ->
  beqb p k_help = false /\ beqb p k_call = false /\ beqb p k_app = false.
Proof.
  intros p H. unfold fresh in H.
  apply andb_true_iff in H as [H H3]. apply andb_true_iff in H as [H1 H2].
  apply negb_true_iff in H1, H2, H3. auto.
Qed.

Lemma fresh_get : forall p h c t, fresh p = true -> dict_get p (hdr h c ++ t) = dict_get p t.
Proof.
  intros p h c t H. destruct (fresh_facts p H) as (H1 & H2 & H3).
  unfold hdr. cbn [app dict_get]. rewrite H1, H2, H3. reflexivity.
Qed.

Lemma fresh_set : forall p v h c t, fresh p = true ->
  dict_set p v (hdr h c ++ t) = hdr h c ++ dict_set p v t.
Proof.
  intros p v h c t H. destruct (fresh_facts p H) as (H1 & H2 & H3).
  unfold hdr. cbn [app dict_set]. rewrite H1, H2, H3. reflexivity.
Qed.

Lemma vstrs_get : forall k rt, dict_get k (vstrs rt) = option_map VStr (dict_get k rt).
Proof.
  induction rt as [|[k' s] rt IH]; [reflexivity|].
  cbn [vstrs map dict_get fst snd]. destruct (beqb k k'); [reflexivity|]. exact IH.
Qed.

Lemma vstrs_set : forall k s rt, dict_set k (VStr s) (vstrs rt) = vstrs (dict_set k s rt).
Proof.
  induction rt as [|[k' s'] rt IH]; [reflexivity|].
  cbn [vstrs map dict_set fst snd]. destruct (beqb k k'); [reflexivity|].
  cbn [map fst snd]. f_equal. exact IH.
Qed.

(* the raw strings parse_args stores, per setting *)
Definition old_of (p : str) (rt : list (str * str)) : str :=
  match dict_get p rt with None => [] | Some s => s end.
Definition sstep (kv : str * value) (rt : list (str * str)) : list (str * str) :=
  if beqb (fst kv) k_listen
  then dict_set (fst kv) (old_of (fst kv) rt ++ [32] ++ text_of (snd kv)) rt
  else dict_set (fst kv) (text_of (snd kv)) rt.
Definition sfold (l : list (str * value)) (rt : list (str * str)) : list (str * str) :=
  fold_left (fun rt kv => sstep kv rt) l rt.

Definition app_fold (occs : list occ) (app : option str) : option str :=
  fold_left (fun acc o => match occ_kind o with KApp => Some (occ_value o) | _ => acc end) occs app.

(* the parameter name parse_args derives from the option, what it then does, and whether the key it
   assigns is none of help / call / app *)
Definition param_of (k : okind) : str :=
  match k with
  | KHelp => k_help | KCall => k_call | KApp => k_app
  | KFlag p true | KVal p => p
  | KFlag p false => no_underscore_prefix ++ p
  end.
Definition action_of (k : okind) : cli_action :=
  match k with
  | KHelp | KCall => ActSetTrue
  | KApp => ActApp
  | KFlag _ true => ActConst true_s
  | KFlag _ false => ActStripPrefix 3 false_s
  | KVal p => if beqb p k_listen then ActAccum [32] [] else ActValue
  end.
Definition key_ok (k : okind) : bool :=
  match k with KFlag p _ => fresh p && option_is cast_eqb (castof p) CBool | KVal p => fresh p | _ => true end.

Definition action_ok (o : str * okind) : bool :=
  beqb (cli_unmangle (dashdash ++ fst o)) (param_of (snd o))
  && option_is action_eqb (cli_classify castof (param_of (snd o))) (action_of (snd o)) && key_ok (snd o).

Lemma table_actions_ok : forallb action_ok option_table = true.
Proof. vm_compute. reflexivity. Qed.

Lemma action_facts : forall n k, In (n, k) option_table ->
  cli_unmangle (dashdash ++ n) = param_of k /\ cli_classify castof (param_of k) = Some (action_of k)
  /\ match k with
     | KFlag p _ => fresh p = true /\ castof p = Some CBool
     | KVal p => fresh p = true
     | _ => True
     end.
Proof.
  intros n k H. pose proof (forallb_In _ _ table_actions_ok (n, k) H) as K.
  unfold action_ok in K. cbn [fst snd] in K.
  apply andb_true_iff in K as [K K3]. apply andb_true_iff in K as [K1 K2].
  apply beqb_eq in K1. apply (option_is_eq _ action_eqb_eq) in K2. repeat split; auto.
  destruct k as [| | |p b|p]; cbn [key_ok] in K3; auto.
  apply andb_true_iff in K3 as [F C]. apply (option_is_eq _ cast_eqb_eq) in C. auto.
Qed.

Lemma set_help : forall h c t, dict_set k_help (VBool true) (hdr h c ++ t) = hdr true c ++ t.
Proof. reflexivity. Qed.
Lemma set_call : forall h c t, dict_set k_call (VBool true) (hdr h c ++ t) = hdr h true ++ t.
Proof. reflexivity. Qed.

Lemma bool_not_listen : forall p, castof p = Some CBool -> beqb p k_listen = false.
Proof.
  intros p H. destruct (beqb p k_listen) eqn:E; [|reflexivity]. apply beqb_eq in E. subst p.
  rewrite castof_listen in H. discriminate.
Qed.

Lemma has_help_cons : forall n k v occs, has_help ((n, k, v) :: occs) = is_help k || has_help occs.
Proof. reflexivity. Qed.
Lemma has_call_cons : forall n k v occs, has_call ((n, k, v) :: occs) = is_call k || has_call occs.
Proof. reflexivity. Qed.
Lemma app_fold_cons : forall n k v occs app,
  app_fold ((n, k, v) :: occs) app = app_fold occs (match k with KApp => Some v | _ => app end).
Proof. reflexivity. Qed.
Lemma sfold_cons : forall n k v occs rt,
  sfold (settings_of ((n, k, v) :: occs)) rt
  = sfold (settings_of occs) (match k with
                              | KFlag p b => sstep (p, VBool b) rt
                              | KVal p => sstep (p, VStr v) rt
                              | _ => rt
                              end).
Proof. intros n k v occs rt. destruct k; reflexivity. Qed.

Lemma sstep_plain : forall p v rt, beqb p k_listen = false -> sstep (p, v) rt = dict_set p (text_of v) rt.
Proof. intros p v rt H. unfold sstep. cbn [fst snd]. rewrite H. reflexivity. Qed.
Lemma sstep_listen : forall p v rt, beqb p k_listen = true ->
  sstep (p, v) rt = dict_set p (old_of p rt ++ [32] ++ text_of v) rt.
Proof. intros p v rt H. unfold sstep. cbn [fst snd]. rewrite H. reflexivity. Qed.

Lemma pa_loop_occs : forall occs h c rt app,
  Forall (fun o : occ => In (fst o) option_table) occs ->
  pa_loop (map opt_of occs) (hdr h c ++ vstrs rt) app
  = Ok (hdr (h || has_help occs) (c || has_call occs) ++ vstrs (sfold (settings_of occs) rt),
        app_fold occs app).
Proof.
  induction occs as [|[[n k] v] occs IH]; intros h c rt app HF.
  - cbn. rewrite !orb_false_r. reflexivity.
  - inversion HF as [|? ? Hin HF']; subst. cbn [fst] in Hin.
    destruct (action_facts n k Hin) as (P & A & K).
    rewrite has_help_cons, has_call_cons, app_fold_cons, sfold_cons.
    cbn [map]. unfold opt_of at 1. cbn [fst snd]. cbn [pa_loop]. rewrite P, A.
    destruct k as [| | |p [|]|p]; cbn [param_of action_of is_help is_call orb].
    + rewrite set_help, IH by exact HF'. rewrite orb_true_r. reflexivity.
    + rewrite set_call, IH by exact HF'. rewrite orb_true_r. reflexivity.
    + rewrite IH by exact HF'. reflexivity.
    + destruct K as [Fr Cb]. rewrite (fresh_set p _ h c _ Fr), vstrs_set.
      rewrite IH by exact HF'. rewrite (sstep_plain _ _ _ (bool_not_listen p Cb)). reflexivity.
    + destruct K as [Fr Cb]. change (skipn 3 (no_underscore_prefix ++ p)) with p.
      rewrite (fresh_set p _ h c _ Fr), vstrs_set.
      rewrite IH by exact HF'. rewrite (sstep_plain _ _ _ (bool_not_listen p Cb)). reflexivity.
    + destruct (beqb p k_listen) eqn:EL.
      * rewrite (fresh_get p h c _ K), vstrs_get. rewrite (sstep_listen _ _ _ EL). unfold old_of.
        destruct (dict_get p rt) as [s|]; cbn [option_map py_str];
          rewrite (fresh_set p _ h c _ K), vstrs_set, IH by exact HF'; reflexivity.
      * rewrite (fresh_set p _ h c _ K), vstrs_set, IH by exact HF'.
        rewrite (sstep_plain _ _ _ EL). reflexivity.
Qed.

Lemma sstep_keys : forall kv rt,
  map fst (sstep kv rt) = if memstr (fst kv) (map fst rt) then map fst rt else map fst rt ++ [fst kv].
Proof. intros kv rt. unfold sstep. destruct (beqb (fst kv) k_listen); apply keys_set. Qed.

Lemma sfold_keys : forall l rt,
  map fst (sfold l rt) = map fst rt ++ first_occ (map fst rt) (map fst l).
Proof.
  induction l as [|kv l IH]; intro rt.
  - cbn. rewrite app_nil_r. reflexivity.
  - change (sfold (kv :: l) rt) with (sfold l (sstep kv rt)). rewrite IH, sstep_keys.
    cbn [map first_occ]. destruct (memstr (fst kv) (map fst rt)); [reflexivity|].
    rewrite <- app_assoc. reflexivity.
Qed.

Lemma values_of_cons : forall p k v l,
  values_of p ((k, v) :: l) = if beqb k p then v :: values_of p l else values_of p l.
Proof. intros. unfold values_of. cbn [filter fst]. destruct (beqb k p); reflexivity. Qed.

Lemma sstep_get : forall p k v rt,
  dict_get p (sstep (k, v) rt) =
  if beqb p k then Some (if beqb k k_listen then old_of k rt ++ [32] ++ text_of v else text_of v)
  else dict_get p rt.
Proof. intros. unfold sstep. cbn [fst snd]. destruct (beqb k k_listen); apply get_set. Qed.

(* of several occurrences of a setting the last one wins, except that --listen accumulates *)
Lemma sfold_get : forall p l rt,
  dict_get p (sfold l rt) =
  match values_of p l with
  | [] => dict_get p rt
  | vs => Some (if beqb p k_listen then fold_left (fun a v => a ++ [32] ++ text_of v) vs (old_of p rt)
                else text_of (last vs VNone))
  end.
Proof.
  intros p l. induction l as [|[k v] l IH]; intro rt; [reflexivity|].
  change (sfold ((k, v) :: l) rt) with (sfold l (sstep (k, v) rt)).
  rewrite IH, values_of_cons, (beqb_sym k p). unfold old_of. rewrite sstep_get.
  destruct (beqb p k) eqn:E.
  - apply beqb_eq in E. subst k.
    destruct (values_of p l) as [|w ws]; destruct (beqb p k_listen); reflexivity.
  - destruct (values_of p l) as [|w ws]; reflexivity.
Qed.

Lemma nodup_snoc : forall (l : list str) k, NoDup l -> ~ In k l -> NoDup (l ++ [k]).
Proof.
  induction l as [|x l IH]; intros k ND NI; cbn [app].
  - constructor; [intros []|constructor].
  - inversion ND as [|? ? Hx ND']; subst. constructor.
    + intro H. apply in_app_or in H as [H|[H|[]]]; [exact (Hx H)|]. subst. apply NI. left. reflexivity.
    + apply IH; [exact ND'|]. intro H. apply NI. right. exact H.
Qed.

Lemma first_occ_nodup : forall l seen, NoDup seen -> NoDup (seen ++ first_occ seen l).
Proof.
  induction l as [|k l IH]; intros seen ND; cbn [first_occ].
  - rewrite app_nil_r. exact ND.
  - destruct (memstr k seen) eqn:E.
    + apply IH. exact ND.
    + change (k :: first_occ (seen ++ [k]) l) with ([k] ++ first_occ (seen ++ [k]) l).
      rewrite app_assoc. apply IH. apply nodup_snoc; [exact ND|].
      intro H. apply memstr_In in H. rewrite H in E. discriminate.
Qed.

Lemma sfold_nodup : forall l, NoDup (map fst (sfold l [])).
Proof. intro l. rewrite sfold_keys. cbn [map app]. apply (first_occ_nodup (map fst l) [] (NoDup_nil _)). Qed.

Lemma assign_loop_map : forall (rt : list (str * str)) (f g : str * str -> value) acc,
  (forall ks c, In ks rt -> castof (fst ks) = Some c -> cast_value c (f ks) = cast_value c (g ks)) ->
  assign_loop (map (fun ks => (fst ks, f ks)) rt) acc = assign_loop (map (fun ks => (fst ks, g ks)) rt) acc.
Proof.
  induction rt as [|ks rt IH]; intros f g acc H; [reflexivity|].
  cbn [map assign_loop]. destruct (castof (fst ks)) as [c|] eqn:C; [|reflexivity].
  rewrite (H ks c (or_introl eq_refl) C). destruct (cast_value c (g ks)); [|reflexivity].
  apply IH. intros ks' c' Hin. apply H. right. exact Hin.
Qed.

Lemma construct_ext : forall e kw kw', map fst kw = map fst kw' ->
  assign_loop kw [] = assign_loop kw' [] -> construct e kw = construct e kw'.
Proof. intros e kw kw' H1 H2. unfold construct. rewrite H1, H2. reflexivity. Qed.

Lemma fold_left_text : forall vs acc,
  fold_left (fun a v => a ++ [32] ++ text_of v) vs acc
  = fold_left (fun a v => a ++ [32] ++ v) (map text_of vs) acc.
Proof. induction vs as [|v vs IH]; intro acc; [reflexivity|]. cbn [fold_left map]. apply IH. Qed.

(* every setting read off the command line is a string, or a boolean for a boolean adjustment *)
Definition setting_ok (kv : str * value) : Prop :=
  match snd kv with
  | VStr _ => True
  | VBool _ => castof (fst kv) = Some CBool
  | _ => False
  end.

Lemma settings_ok : forall occs, Forall (fun o : occ => In (fst o) option_table) occs ->
  Forall setting_ok (settings_of occs).
Proof.
  induction occs as [|[[n k] v] occs IH]; intro HF; [constructor|].
  inversion HF as [|? ? Hin HF']; subst. cbn [fst] in Hin.
  destruct (action_facts n k Hin) as (_ & _ & K).
  unfold settings_of. cbn [flat_map]. fold (settings_of occs).
  unfold setting_of, occ_kind, occ_value. cbn [fst snd].
  destruct k as [| | |p [|]|p]; cbn [app]; try (apply IH; exact HF').
  - constructor; [|apply IH; exact HF']. unfold setting_ok. cbn [fst snd]. tauto.
  - constructor; [|apply IH; exact HF']. unfold setting_ok. cbn [fst snd]. tauto.
  - constructor; [|apply IH; exact HF']. exact I.
Qed.

Lemma values_of_in : forall p l v, In v (values_of p l) -> In (p, v) l.
Proof.
  intros p l v H. unfold values_of in H. apply in_map_iff in H as [[k w] [E H]].
  apply filter_In in H as [H B]. cbn [fst snd] in *. apply beqb_eq in B. subst. exact H.
Qed.

Lemma last_in : forall {A} (l : list A) d, l <> [] -> In (last l d) l.
Proof.
  induction l as [|x l IH]; intros d H; [contradiction H; reflexivity|].
  destruct l as [|y l]; [left; reflexivity|]. right. apply IH. discriminate.
Qed.

Lemma cast_text : forall c kv, setting_ok kv -> castof (fst kv) = Some c ->
  cast_value c (VStr (text_of (snd kv))) = cast_value c (snd kv).
Proof.
  intros c [k v] H C. unfold setting_ok in H. cbn [fst snd] in *.
  destruct v as [|b|z|s|l|l|a cl]; try contradiction; [|reflexivity].
  rewrite H in C. injection C as <-. destruct b; reflexivity.
Qed.

(* the strings parse_args stores and the keyword form denote the same Adjustments *)
Theorem raw_keyword_equiv : forall e occs, Forall (fun o : occ => In (fst o) option_table) occs ->
  construct e (vstrs (sfold (settings_of occs) [])) = construct e (keyword_form occs).
Proof.
  intros e occs HF. pose proof (settings_ok occs HF) as SO.
  set (l := settings_of occs) in *.
  assert (KF : keyword_form occs = map (fun ks : str * str => (fst ks, keyword_value (fst ks) l)) (sfold l [])).
  { unfold keyword_form. fold l. cbv zeta.
    pose proof (sfold_keys l []) as K. cbn [map app] in K. rewrite <- K, map_map. reflexivity. }
  rewrite KF. unfold vstrs. apply construct_ext.
  - rewrite !map_map. reflexivity.
  - apply (assign_loop_map (sfold l []) (fun ks => VStr (snd ks)) (fun ks => keyword_value (fst ks) l)).
    intros [k s] c Hin C. cbn [fst snd] in *.
    pose proof (dict_In_get k s _ (sfold_nodup l) Hin) as G.
    rewrite sfold_get in G. unfold keyword_value.
    destruct (values_of k l) as [|w ws] eqn:EV; [discriminate|]. injection G as <-.
    destruct (beqb k k_listen) eqn:EL.
    + apply beqb_eq in EL. subst k. rewrite castof_listen in C. injection C as <-.
      rewrite fold_left_text. unfold old_of. cbn [dict_get]. rewrite !cast_list_str.
      change (fold_left (fun a v : list N => a ++ [32] ++ v) (map text_of ws) (32 :: text_of w))
        with (accumulated (map text_of (w :: ws))).
      rewrite aslist_accumulated_joined. reflexivity.
    + assert (Hl : In (k, last (w :: ws) VNone) l).
      { apply values_of_in. rewrite EV. apply last_in. discriminate. }
      pose proof (proj1 (Forall_forall _ _) SO _ Hl) as OK.
      exact (cast_text c (k, last (w :: ws) VNone) OK C).
Qed.

Lemma app_option_fold : forall occs, app_option occs = app_fold occs None.
Proof. reflexivity. Qed.

(* the first two steps of parse_args on a command line the scanner accepts *)
Lemma parse_args_start : forall argv occs pos, scan argv = Scanned occs pos ->
  getopt argv cli_long_opts = Ok (map opt_of occs, pos) /\
  pa_loop (map opt_of occs) initial_kw None
  = Ok (hdr (has_help occs) (has_call occs) ++ vstrs (sfold (settings_of occs) []), app_fold occs None).
Proof.
  intros argv occs pos SC. split; [rewrite getopt_scan, SC; reflexivity|].
  rewrite initial_hdr. change (hdr false false) with (hdr false false ++ vstrs []).
  exact (pa_loop_occs occs false false [] None (scan_in_table _ _ _ SC)).
Qed.

Theorem cli_construct_spec : forall e argv, cli_construct e argv = cli_spec e argv.
Proof.
  intros e argv. unfold cli_construct, cli_spec, parse_args.
  destruct (scan argv) as [w|occs pos] eqn:SC; [rewrite getopt_scan, SC; reflexivity|].
  destruct (parse_args_start _ _ _ SC) as [G P]. rewrite G, P.
  rewrite <- (raw_keyword_equiv e occs (scan_in_table _ _ _ SC)).
  generalize (vstrs (sfold (settings_of occs) [])) as t. intro t.
  unfold choose_app. rewrite app_option_fold.
  destruct (has_help occs).
  - reflexivity.
  - destruct (app_fold occs None) as [a|]; destruct pos as [|p1 [|p2 pos]]; reflexivity.
Qed.

(* refused iff: a word is refused by the grammar, or (no --help and) the application count is wrong,
   or (no --help and) the keyword form is refused by Adjustments *)
Definition cli_refusal (e : env) (argv : list str) : Prop :=
  match scan argv with
  | Refused _ => True
  | Scanned occs pos =>
    has_help occs = false /\
    match choose_app occs pos with
    | AppIs _ => exists x, construct e (keyword_form occs) = Exn x
    | _ => True
    end
  end.

Example resolve_examples :
  resolve [104] = Ambiguous                                               (* --h : help / host *)
  /\ resolve [104; 101] = Found k_help KHelp                              (* --he *)
  /\ resolve [104; 111] = Found k_host (KVal k_host)                      (* --ho *)
  /\ resolve [108] = Ambiguous                                            (* --l : listen / log-... *)
  /\ resolve [108; 105] = Found k_listen (KVal k_listen)                  (* --li *)
  /\ resolve [110; 111; 45; 105; 112; 118] = Ambiguous                    (* --no-ipv *)
  /\ resolve [110; 111; 45; 104; 111; 115; 116] = Unknown                 (* --no-host *)
  /\ resolve [104; 111; 115; 116; 95] = Unknown                           (* --host_ *)
  /\ resolve [] = Ambiguous                                               (* -- followed by =... *)
  /\ resolve [97] = Ambiguous /\ resolve [97; 112] = Found k_app KApp.    (* --a, --ap *)
Proof. vm_compute. repeat split; reflexivity. Qed.

(* --li=a:1 --no-ipv6 --listen b:2 --thr 3 --threads=5 --ipv6 --no-ipv6 m:app
   == listen="a:1 b:2", ipv6=False, threads="5" *)
Definition example_argv : list str :=
  [ [45;45;108;105;61;97;58;49]; [45;45;110;111;45;105;112;118;54]; [45;45;108;105;115;116;101;110]; [98;58;50];
    [45;45;116;104;114]; [51]; [45;45;116;104;114;101;97;100;115;61;53]; [45;45;105;112;118;54];
    [45;45;110;111;45;105;112;118;54]; [109;58;97;112;112] ].
Example example_scan :
  match scan example_argv with
  | Scanned occs pos =>
    keyword_form occs = [(k_listen, VStr [97;58;49;32;98;58;50]); (k_ipv6, VBool false);
                         ([116;104;114;101;97;100;115], VStr [53])]
    /\ pos = [[109;58;97;112;112]] /\ length occs = 7%nat
  | Refused _ => False
  end.
Proof. vm_compute. repeat split; reflexivity. Qed.
Example example_cli :
  exists a, cli_construct {| has_ipv6 := true; has_af_unix := true |} example_argv = Ok (Some a)
    /\ dict_get k_listen a = Some (SAddrs [(false, [97], 1); (false, [98], 2)])
    /\ dict_get k_ipv6 a = Some (SBool false).
Proof. eexists. vm_compute. repeat split; reflexivity. Qed.

(* refusals, one of each kind *)
Example example_refusals :
  scan [[45;45;98;111;103;117;115]] = Refused RUnknown                         (* --bogus *)
  /\ scan [[45;45;108;61;120]] = Refused RAmbiguous                            (* --l=x *)
  /\ scan [[45;45;112;111;114;116]] = Refused RMissingValue                    (* --port *)
  /\ scan [[45;45;105;112;118;52;61;49]] = Refused RUnexpectedValue            (* --ipv4=1 *)
  /\ scan [[45;120]] = Refused RShortOption                                    (* -x *)
  /\ scan [[45;45;112;111;114;116]; [45;45;104;111;115;116]] =                 (* --port --host : the value is --host *)
       Scanned [(k_port, KVal k_port, [45;45;104;111;115;116])] []
  /\ scan [[45;45]; [45;45;112;111;114;116]] = Scanned [] [[45;45;112;111;114;116]]   (* -- --port *)
  /\ scan [[45]; [120]] = Scanned [] [[45]; [120]].                            (* - x *)
Proof. vm_compute. repeat split; reflexivity. Qed.
