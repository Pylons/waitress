(* Proof/ChanFaultStep.v -- how one step of Model/ChanFault.v is taken apart.  A thread that moves dies, is
   handed its channel, or does something with the instruction it has reached -- the head of its stack or,
   while it unwinds, the first frame: [does] gives the new state, what is pushed in the instruction's place,
   the labels and the exception in flight afterwards, with `frame` and `exec` as its two cases; [step_does]
   is `step` in these terms, [stepped] the inversion.  A thread's step changes no other thread; what the
   instructions on a worker's stack all do, the worker's steps do ([worker_lift]).
   From here on (and in every file that imports this one) the accessors getc / setc / getth / setth / set_srv /
   set_dead and maint, asked_r, asked_w, map_empty are opaque: proofs go through the lemmas of ChanFaultBase.v;
   the few that need a definition open it for their own length. *)
From Coq Require Import List Arith Bool Lia.
From WV Require Import Lib.Conc Model.ChanFault Proof.ChanFaultSpec Proof.ChanFaultBase.
Import ListNotations.

(* destruct the innermost scrutinee of the goal *)
Ltac split_innermost :=
  match goal with
  | |- context [match ?x with _ => _ end] =>
    lazymatch x with
    | context [match _ with _ => _ end] => fail
    | _ => destruct x eqn:?
    end
  end.

(* the same for a hypothesis *)
Ltac split_innermost_in H :=
  match type of H with
  | context [match ?x with _ => _ end] =>
    lazymatch x with
    | context [match _ with _ => _ end] => fail
    | _ => destruct x eqn:?
    end
  end.

Global Opaque setc setth getc getth set_srv set_dead maint asked_r asked_w map_empty.

(* exec leaves the stack and the raising flag of the running thread alone (step rewrites them afterwards) *)
Lemma exec_own_stack : forall g t i a s,
  match exec g t i a s with
  | Blocked => True
  | Norm s' _ _ => stk (getth s' t) = stk (getth s t) /\ raising (getth s' t) = raising (getth s t)
  | Raise s' _ _ => stk (getth s' t) = stk (getth s t) /\ raising (getth s' t) = raising (getth s t)
  end.
Proof.
  intros. destruct i; cbn [exec]; repeat split_innermost; auto;
  rewrite ?getth_setth_same, ?getth_setc, ?getth_set_srv; auto.
Qed.

(* The instruction a thread has reached -- while it unwinds: the frame -- and what the thread does with
   it: the state, what is pushed in its place, the labels, the exception still (or newly) in flight. *)
Record micro := mkMicro { m_st : state; m_push : list instr; m_ls : list label; m_rais : option exn }.

Definition reached (th : thread_st) : list instr :=
  match raising th with Some _ => drop_to_frame (stk th) | None => stk th end.

Definition does (g : cfg) (t : tid) (r : option exn) (k : instr) (a : answer) (s : state) : option micro :=
  match r with
  | Some x => Some match frame t k x s with
                   | FCatch s1 push ls => mkMicro s1 push ls None
                   | FPass s1 => mkMicro s1 [] [] (Some x)
                   end
  | None => match exec g t k a s with
            | Blocked => None
            | Norm s1 push ls => Some (mkMicro s1 push ls None)
            | Raise s1 x ls => Some (mkMicro s1 [] ls (Some x))
            end
  end.

Lemma does_nonframe : forall g t x k a s,
  is_frame k = false -> does g t (Some x) k a s = Some (mkMicro s [] [] (Some x)).
Proof. intros g t x k a s F. destruct k; try discriminate F; reflexivity. Qed.

Lemma does_other_thread : forall g t r k a s u,
  t <> u -> match does g t r k a s with None => True | Some m => getth (m_st m) u = getth s u end.
Proof.
  intros g t r k a s u Htu.
  destruct r; unfold does; destruct k; cbn [frame exec]; repeat split_innermost; auto; cbn [m_st];
  rewrite ?getth_setth_other, ?getth_setc, ?getth_set_srv by auto; auto.
Qed.

Variant stepped (g : cfg) (s : state) (t : tid) (a : answer) : state -> list label -> Prop :=
| ms_die : forall x,
    raising (getth s t) = Some x -> reached (getth s t) = [] ->
    stepped g s t a
      (let s1 := setth s t (set_raising (getth s t) [] None) in match t with IO => set_dead s1 | W _ => s1 end)
      [match t with IO => LLoopDied x | W c => LWorkerDied c end]
| ms_start : forall c,
    t = W c -> raising (getth s t) = None -> stk (getth s t) = [] -> queued (getc s c) = true ->
    stepped g s t a
      (setth (setc s c (upd_req (getc s c) (nreq (getc s c)) (pexp (getc s c)) (sentc (getc s c)) false)) t
             (set_stk (getth s t) [ISvcStart c; KWorkerTop c])) []
| ms_does : forall k rest m,
    reached (getth s t) = k :: rest -> does g t (raising (getth s t)) k a s = Some m ->
    stepped g s t a (setth (m_st m) t (set_raising (getth (m_st m) t) (m_push m ++ rest) (m_rais m))) (m_ls m).

(* [step] in these terms *)
Lemma step_does : forall g s t a,
  step g s (t, a) =
  match reached (getth s t) with
  | k :: rest =>
      match does g t (raising (getth s t)) k a s with
      | Some m => Some (setth (m_st m) t (set_raising (getth (m_st m) t) (m_push m ++ rest) (m_rais m)), m_ls m)
      | None => None
      end
  | [] =>
      match raising (getth s t), t with
      | Some x, IO => Some (set_dead (setth s t (set_raising (getth s t) [] None)), [LLoopDied x])
      | Some x, W c => Some (setth s t (set_raising (getth s t) [] None), [LWorkerDied c])
      | None, IO => None
      | None, W c =>
          if queued (getc s c)
          then Some (setth (setc s c (upd_req (getc s c) (nreq (getc s c)) (pexp (getc s c)) (sentc (getc s c)) false)) t
                           (set_stk (getth s t) [ISvcStart c; KWorkerTop c]), [])
          else None
      end
  end.
Proof.
  intros g s t a. unfold step, reached, does.
  destruct (raising (getth s t)) as [x|] eqn:R.
  - destruct (drop_to_frame (stk (getth s t))) as [|k rest]; [destruct t; reflexivity|].
    destruct (frame t k x s); reflexivity.
  - destruct (stk (getth s t)) as [|i rest]; [destruct t; reflexivity|].
    pose proof (exec_own_stack g t i a s) as O.
    destruct (exec g t i a s) as [|s1 push ls|s1 y ls]; try reflexivity.
    destruct O as [_ O]. unfold set_stk, set_raising. rewrite O, R. reflexivity.
Qed.

Lemma step_micro : forall g s t a s' l, step g s (t, a) = Some (s', l) -> stepped g s t a s' l.
Proof.
  intros g s t a s' l H. rewrite step_does in H.
  destruct (reached (getth s t)) as [|k rest] eqn:E.
  - destruct (raising (getth s t)) as [x|] eqn:R.
    + destruct t; injection H as <- <-; exact (ms_die g s _ a x R E).
    + destruct t as [|c]; [discriminate|]. destruct (queued (getc s c)) eqn:Q; [|discriminate].
      injection H as <- <-. unfold reached in E. rewrite R in E. exact (ms_start g s _ a c eq_refl R E Q).
  - destruct (does g t (raising (getth s t)) k a s) as [m|] eqn:D; [|discriminate].
    injection H as <- <-. exact (ms_does g s t a k rest m E D).
Qed.

Lemma step_other_thread : forall g s t a s' l u,
  step g s (t, a) = Some (s', l) -> t <> u -> getth s' u = getth s u.
Proof.
  intros g s t a s' l u H Htu.
  destruct (step_micro _ _ _ _ _ _ H) as [x R E|c -> R S Q|k rest m E D]; cbv zeta.
  - destruct t; rewrite ?getth_set_dead, getth_setth_other; auto.
  - rewrite getth_setth_other, getth_setc by auto. reflexivity.
  - rewrite getth_setth_other by auto. generalize (does_other_thread g t (raising (getth s t)) k a s u Htu).
    rewrite D. auto.
Qed.

(* A worker whose stack holds only instructions of a set [P] that exec and frame only push members of:
   its stack stays in [P], and what every such instruction does to the rest of the state and to the
   trace ([R]: anything that does not look at the worker itself) its steps do.  [Q] is what is known
   about the labels of the step. *)
Section WorkerLift.
  Variables (g : cfg) (c : chan) (P : instr -> bool) (Q : list label -> Prop)
            (R : state -> state -> list label -> Prop).
  Hypothesis Rth : forall s s1 v ls, R s s1 ls -> R s (setth s1 (W c) v) ls.
  Hypothesis Rdie : forall s, R s s [LWorkerDied c].
  Hypothesis Rstart : forall s n pe sc, R s (setc s c (upd_req (getc s c) n pe sc false)) [].
  Hypothesis Pstart : P (ISvcStart c) && P (KWorkerTop c) = true.
  Hypothesis Rdoes : forall r k a s, P k = true ->
    match does g (W c) r k a s with
    | None => True
    | Some m => R s (m_st m) (m_ls m) /\ (Q (m_ls m) -> forallb P (m_push m) = true)
    end.

  Lemma worker_lift : forall s a s' l,
    forallb P (stk (getth s (W c))) = true -> step g s (W c, a) = Some (s', l) -> Q l ->
    R s s' l /\ forallb P (stk (getth s' (W c))) = true.
  Proof.
    intros s a s' l Hs H Hq.
    assert (Hr : forallb P (reached (getth s (W c))) = true).
    { unfold reached. destruct (raising _); [apply forallb_drop_to_frame|]; exact Hs. }
    destruct (step_micro _ _ _ _ _ _ H) as [x _ _|c' Ec _ _ _|k rest m E D]; cbv zeta; rewrite getth_setth_same; simpl.
    - split; [apply Rth, Rdie|reflexivity].
    - injection Ec as <-. rewrite andb_true_r. split; [apply Rth, Rstart|exact Pstart].
    - rewrite E in Hr. simpl in Hr. apply andb_true_iff in Hr.
      pose proof (Rdoes (raising (getth s (W c))) k a s (proj1 Hr)) as X. rewrite D in X.
      rewrite forallb_app, (proj2 Hr), (proj2 X Hq). split; [apply Rth, X|reflexivity].
  Qed.
End WorkerLift.
