(* C03: what HTTPChannel.service writes and decides for the
   applications of class [wapp] (start_response, write() calls, iterable). *)
From Coq Require Import String.
From Coq Require Import List NArith ZArith Bool Lia Arith.
From WV Require Import Lib.PyBytes Gen.GenTables Model.Task Spec.ClientParse
  Proof.TaskLines Proof.TaskHead Proof.TaskStart Proof.TaskRun Proof.TaskChunk Proof.TaskLadder Proof.TaskC09
  Proof.TaskBody Proof.TaskSimple Proof.TaskFrame2Sem.
Import ListNotations.
Local Open Scope N_scope.

Section Run2.
Variable cap : str -> str.
Variable lower : str -> str.
Variable c : cfg.
Variable r : req.

Lemma run_actions_cons disc s a l :
  run_actions cap lower c r disc s (a :: l) =
  match run_action cap lower c r disc s a with
  | (s1, Exn e) => (s1, Exn e)
  | (s1, Ok _) => run_actions cap lower c r disc s1 l
  end.
Proof. reflexivity. Qed.

Lemma scof_wrote_eq t : t_wrote_header t = true -> set_close_on_finish cap lower t = set_cof true t.
Proof. intro H. unfold set_close_on_finish. rewrite H. reflexivity. Qed.

Lemma toofew_adj_wrote t : t_wrote_header t = true ->
  t_cof (toofew_adj cap lower r t) = t_cof t || toofew r t
  /\ t_chunked (toofew_adj cap lower r t) = t_chunked t
  /\ t_wrote_header (toofew_adj cap lower r t) = true.
Proof.
  intro H. rewrite toofew_adj_spec. destruct (toofew r t).
  - rewrite scof_wrote_eq by auto. cbn. rewrite orb_true_r. auto.
  - rewrite orb_false_r. auto.
Qed.

Lemma toofew_adj_fresh t : t_complete t = true -> t_wrote_header t = false ->
  t_complete (toofew_adj cap lower r t) = true /\ t_wrote_header (toofew_adj cap lower r t) = false.
Proof.
  intros Hc Hw. rewrite toofew_adj_spec. destruct (toofew r t); auto.
  destruct (keeps_scof cap lower t) as [(K1 & _) _]. rewrite (scof_wrote cap lower). split; congruence.
Qed.

(* the iterable is iterated: by its kind / a write() before it, or because the accepted
   status has no body (then not even a seekable file wrapper is handed over: fix d117733).
   Also: the task closes the iterable (if it has close()), nothing is handed over. *)
Theorem wapp_wire_gen status hs ws kind chunks hc :
  r_error r = None ->
  (no_handover kind ws \/
   forall t1, start_response lower (new_task (r_version r) false) (PStr status) hs None = (t1, Ok tt) ->
              has_body t1 = false) ->
  (forall t1, start_response lower (new_task (r_version r) false) (PStr status) hs None = (t1, Ok tt) ->
              len1 kind && match t_clen t1 with None => true | Some _ => false end = false) ->
  let res := channel_service cap lower c r (wapp status hs ws kind chunks hc) None in
  o_raw res = None ->
  exists t1, start_response lower (new_task (r_version r) false) (PStr status) hs None = (t1, Ok tt) /\
    let ds := ws ++ eff kind chunks in
    (ds = [] ->
       exists tp head, build_response_header cap lower c r (toofew_adj cap lower r t1) = (tp, Ok head)
         /\ wire (o_writes res) = head ++ (if t_chunked tp && negb (r_head r) then chunk_terminator else [])
         /\ o_close res = t_cof tp /\ o_next res = negb (t_cof tp))
    /\ (ds <> [] ->
       exists tp head, build_response_header cap lower c r t1 = (tp, Ok head)
         /\ wire (o_writes res) = head ++ snd (ws_sem (set_wrote true tp) ds)
                                  ++ (if t_chunked tp && negb (r_head r) then chunk_terminator else [])
         /\ o_close res = t_cof tp || toofew r (fst (ws_sem (set_wrote true tp) ds))
         /\ o_next res = negb (t_cof tp || toofew r (fst (ws_sem (set_wrote true tp) ds))))
    /\ o_handover res = false /\ o_closes res = (if hc then 1 else 0)%nat.
Proof.
  intros He Hnh Hl1. cbn zeta. intro Hraw.
  destruct (service_quiet cap lower c r None _ eq_refl Hraw) as [Eraw ->]. clear Hraw.
  cbn [wound_up o_writes o_close o_next o_escaped o_handover o_closes].
  revert Eraw. unfold job_of, start_state. rewrite He. set (t0 := new_task (r_version r) false).
  unfold task_run, wsgi_execute.
  change (a_call (wapp status hs ws kind chunks hc)) with (AStart (PStr status) hs None :: map AWrite ws).
  rewrite run_actions_cons. cbn [run_action fst snd].
  destruct (start_response lower t0 (PStr status) hs None) as [t1 [[]|e1]] eqn:Esr; cbn [fst snd];
    [|cbn; intro X; discriminate X].
  destruct (start_response_ok lower _ _ _ _ _ Esr) as (_ & _ & _ & Hc1 & Hw1 & _).
  cbn [t_wrote_header new_task t0] in Hw1.
  specialize (Hl1 t1 Esr).
  rewrite run_actions_writes.
  destruct (tw_seq cap lower c r (t1, mkChan [] 0) ws) as [[t1w ch1w] [[]|e]] eqn:Ews; [|cbn; intro X; discriminate X].
  assert (Hwh : ws <> [] -> t_wrote_header t1w = true).
  { intro Hne. destruct ws as [|w ws']; [congruence|].
    destruct (tw_seq_fresh cap lower c r w ws' t1 (mkChan [] 0) _ Hc1 Hw1 Ews) as (tp & head & _ & Ef & _).
    cbn [fst] in Ef. rewrite Ef.
    destruct (ws_sem_same (w :: ws') (set_wrote true tp)) as (_ & _ & _ & A4 & _). rewrite A4. reflexivity. }
  assert (Hcl : t_clen t1w = t_clen t1) by (apply (tw_seq_clen cap lower c r _ _ _ _ Ews)).
  rewrite (execute_body_iterated cap lower c r kind chunks t1w ch1w (wapp status hs ws kind chunks hc) eq_refl eq_refl).
  2: { destruct Hnh as [[H|[H|H]]|H]; auto.
       destruct ws as [|w ws']; [|right; right; left; apply Hwh; discriminate].
       cbn [tw_seq] in Ews. injection Ews as <- _. right. right. right. apply H. exact Esr. }
  2: { rewrite Hcl. exact Hl1. }
  destruct (tw_seq cap lower c r (t1w, ch1w) (eff kind chunks)) as [[t2 ch2] [[]|e]] eqn:Eit.
  2: { change (a_has_close (wapp status hs ws kind chunks hc)) with hc. destruct (true && hc); cbn; intro X; discriminate X. }
  change (a_has_close (wapp status hs ws kind chunks hc)) with hc.
  change (a_close_exn (wapp status hs ws kind chunks hc)) with (@None exn).
  assert (Eall : tw_seq cap lower c r (t1, mkChan [] 0) (ws ++ eff kind chunks) = ((t2, ch2), Ok tt))
    by (rewrite tw_seq_app, Ews; exact Eit).
  set (tf := toofew_adj cap lower r t2).
  assert (Ex : (if true && hc then mkExec (tf, ch2) (Ok tt) 1 false true else mkExec (tf, ch2) (Ok tt) 0 (negb true) true)
               = mkExec (tf, ch2) (Ok tt) (if hc then 1 else 0)%nat false true) by (destruct hc; reflexivity).
  cbv iota. rewrite Ex. clear Ex. cbn [x_out x_st x_handover x_closes].
  destruct (task_finish cap lower c r None (tf, ch2)) as [s3 [[]|e3]] eqn:Efin; cbn [x_out x_st x_handover x_closes];
    [|intro X; discriminate X].
  intros _. exists t1. split; [reflexivity|]. cbn zeta.
  match goal with |- ?A /\ ?B /\ ?R =>
    refine ((fun (pq : A /\ B) (r0 : R) => conj (proj1 pq) (conj (proj2 pq) r0)) _ _); [|split; reflexivity] end.
  destruct (ws ++ eff kind chunks) as [|d ds] eqn:Eds.
  - (* no Task.write at all: finish() sends the head *)
    cbn [tw_seq] in Eall. inversion Eall; subst t2 ch2. clear Eall.
    destruct (toofew_adj_fresh t1 Hc1 Hw1) as [Hcf Hwf]. fold tf in Hcf, Hwf.
    split; [|intro X; congruence]. intros _.
    destruct (finish_fresh cap lower c r tf (mkChan [] 0) s3 (Ok tt) Hcf Hwf Efin eq_refl) as (tp & head & Eb & Ht & W).
    exists tp, head. split; [exact Eb|]. fold (chan_wire (snd s3)). rewrite W, Ht.
    cbn [t_cof set_wrote chan_wire ch_writes rev wire flat_map List.app]. auto.
  - (* the first Task.write sent the head *)
    destruct (tw_seq_fresh cap lower c r d ds t1 (mkChan [] 0) _ Hc1 Hw1 Eall) as (tp & head & Eb & Ef & W2).
    cbn [fst snd] in Ef, W2.
    pose proof (ws_sem_same (d :: ds) (set_wrote true tp)) as (A1 & A2 & A3 & A4 & A5 & A6 & A7 & A8).
    rewrite <- Ef in A1, A2, A3, A4, A5, A6, A7, A8.
    cbn [t_status t_chunked t_cof t_wrote_header t_complete t_clen t_rh t_v11 set_wrote] in *.
    destruct (toofew_adj_wrote t2 A4) as (T1 & T2 & T3). fold tf in T1, T2, T3.
    destruct (finish_after_head cap lower c r tf ch2 T3) as (ch3 & Ef3 & W3). rewrite Ef3 in Efin.
    inversion Efin; subst s3. clear Efin. cbn [fst snd].
    split; [intro X; discriminate X|]. intros _.
    exists tp, head. split; [exact Eb|]. fold (chan_wire ch3). rewrite W3, W2, T1, T2, A2, A3, <- Ef.
    cbn [chan_wire ch_writes rev wire flat_map List.app]. rewrite <- !app_assoc. auto.
Qed.

Theorem wapp_wire status hs ws kind chunks hc :
  r_error r = None ->
  no_handover kind ws ->
  (forall t1, start_response lower (new_task (r_version r) false) (PStr status) hs None = (t1, Ok tt) ->
              len1 kind && match t_clen t1 with None => true | Some _ => false end = false) ->
  let res := channel_service cap lower c r (wapp status hs ws kind chunks hc) None in
  o_raw res = None ->
  exists t1, start_response lower (new_task (r_version r) false) (PStr status) hs None = (t1, Ok tt) /\
    let ds := ws ++ eff kind chunks in
    (ds = [] ->
       exists tp head, build_response_header cap lower c r (toofew_adj cap lower r t1) = (tp, Ok head)
         /\ wire (o_writes res) = head ++ (if t_chunked tp && negb (r_head r) then chunk_terminator else [])
         /\ o_close res = t_cof tp /\ o_next res = negb (t_cof tp))
    /\ (ds <> [] ->
       exists tp head, build_response_header cap lower c r t1 = (tp, Ok head)
         /\ wire (o_writes res) = head ++ snd (ws_sem (set_wrote true tp) ds)
                                  ++ (if t_chunked tp && negb (r_head r) then chunk_terminator else [])
         /\ o_close res = t_cof tp || toofew r (fst (ws_sem (set_wrote true tp) ds))
         /\ o_next res = negb (t_cof tp || toofew r (fst (ws_sem (set_wrote true tp) ds)))).
Proof.
  intros He Hnh Hl1. cbn zeta. intro Hraw.
  destruct (wapp_wire_gen status hs ws kind chunks hc He (or_introl Hnh) Hl1 Hraw) as (t1 & Esr & H0 & H1 & _).
  exists t1. auto.
Qed.

End Run2.
