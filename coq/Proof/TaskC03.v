(* C03: closed instances and the refutation witnesses. *)
From Coq Require Import String.
From Coq Require Import List NArith ZArith Bool Lia Arith Permutation.
From WV Require Import Lib.PyBytes Gen.GenTables Model.Task Spec.ClientParse
  Proof.TaskHead Proof.TaskStart Proof.TaskRun Proof.TaskChunk Proof.TaskClient Proof.TaskOracle
  Proof.TaskC08 Proof.TaskC09 Proof.TaskFrame Proof.TaskBody Proof.TaskSimple Proof.TaskFrameClient Proof.TaskFrameEnd.
Import ListNotations.
Local Open Scope N_scope.

Lemma py_cap_connection : py_cap (lit "Connection") = lit "Connection".
Proof. reflexivity. Qed.
Lemma py_cap_te : beqb (py_cap (lit "Transfer-Encoding")) (lit "Connection") = false.
Proof. reflexivity. Qed.

(* typical application header names are plain *)
Example plain_examples :
  plain_fields py_cap [(lit "content-type", lit "text/plain"); (lit "X-Custom-header", lit "1");
                       (lit "Set-Cookie", lit "a=b"); (lit "ETag", lit "W/x"); (lit "Server", lit "app")].
Proof. unfold plain_fields, plain_name. repeat constructor. Qed.

(* HEAD on HTTP/1.1 without Content-Length: nothing follows the head
   (before b49920f: "0\r\n\r\n") *)
Definition head_req : req := mkReq (lit "1.1") None true false None.
Definition empty_app : app :=
  mkApp [AStart (PStr (lit "200 OK")) [] None] (KSized 0) [] false None.

(* error responses to HTTP/1.0 keep-alive requests: Connection: close only
   (before 766d449 also Connection: Keep-Alive) *)
Definition ka10_req : req := mkReq (lit "1.0") (Some (lit "Keep-Alive")) false false None.
Definition failing_app : app := mkApp [ARaise AppException] KGen [] false None.

(* write() and then a file wrapper: the file is iterated and framed like any
   other iterable (before 5ee3173 it was handed over raw after the head) *)
Definition write_then_file_app : app :=
  mkApp [AStart (PStr (lit "200 OK")) [] None; AWrite (lit "x")] (KFile true)
        [mkStep [] (SYield (lit "abcdef"))] true None.

(* the decision table's hypotheses are satisfiable: a kept-alive HTTP/1.1 response *)
Definition cl_app : app :=
  mkApp [AStart (PStr (lit "200 OK")) [(PStr (lit "Content-Length"), PStr (lit "5"))] None] KGen
        [mkStep [] (SYield (lit "hello"))] true None.

Example kept_alive_example :
  let res := run_task sample_cfg sample_req cl_app None in
  o_next res = true /\ o_close res = false
  /\ exists resp, parse_stream [false] (wire (o_writes res)) = ([resp], [])
                  /\ rs_body resp = lit "hello" /\ rs_framing resp = FLength 5.
Proof. vm_compute. repeat split; try reflexivity. eexists. repeat split; reflexivity. Qed.

Lemma py_cap_cl : beqb (py_cap (lit "Content-Length")) (lit "Connection") = false.
Proof. reflexivity. Qed.

(* the hypotheses of the declared-length frame theorem are satisfiable *)
Example frame_len_hypotheses :
  beqb (py_lower (lit "Content-Length")) (lit "content-length") = true
  /\ py_int (lit "5") = Some 5%Z /\ all_digits (lit "5") = true /\ Z.of_N (dec_value (lit "5")) = 5%Z
  /\ norm_name py_cap (lit "content-LENGTH") = lit "Content-Length"
  /\ Z.of_nat (length (concat [lit "he"; []; lit "llo"])) = 5%Z.
Proof. repeat split; reflexivity. Qed.
