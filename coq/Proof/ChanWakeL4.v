(* Proof/ChanWakeL4.v -- layer 4 of the C05 invariant: what holds at the program points
   around the two waits of _flush_outbufs_below_high_watermark (the trigger is pulled
   before each wait and the I/O thread cannot have committed to a stale interest set;
   a parked producer is above the watermark, or about to be notified, and connected). *)
From Coq Require Import List ZArith Bool Arith Lia.
From WV Require Import Model.ChanWake Proof.ChanWakeInv Proof.ChanWakeBase Proof.ChanWakeL1 Proof.ChanWakeL2
  Proof.ChanWakeL3.
Import ListNotations.
Open Scope Z_scope.

Definition is_hcd (p : iopc) : bool := match p with IoHCd _ => true | _ => false end.

Definition notif_soon (c : cfg) (s : state) : Prop :=
  hw c < total s \/ io_will_notify (io s) = true \/ io_close_notify (io s) (wc s) = true.

Definition WInv4 (c : cfg) (s : state) (p : wpc) : Prop :=
  match p with
  | WHwF _ => conn s = true
  | WHwEN _ => wc s = true
  | WHwEP _ => wc s = true /\ conn s = true
  | WHwEW _ => wc s = true /\ conn s = true /\ (closed s = true \/ pulled s = true \/ cov_wc (io s) = true)
  | WHwEPk _ cap => wc s = true /\ cap = true /\ (conn s = true \/ is_hcd (io s) = true)
  | WHwL2 _ => conn s = true
  | WHwLP _ => conn s = true /\ hw c < total s
  | WHwLW _ => conn s = true /\ hw c < total s /\
               (closed s = true \/ pulled s = true \/ cov_tot (io s) = true)
  | WHwLPk _ => notif_soon c s /\ (conn s = true \/ is_hcd (io s) = true)
  | _ => True
  end.

Definition Inv4 (c : cfg) (s : state) : Prop :=
  forall j p, nth_error (ws s) j = Some p -> WInv4 c s p.

Lemma inv4_init : forall c nw, Inv4 c (init nw).
Proof.
  intros c nw j p H. simpl in H. apply nth_error_In in H. apply repeat_spec in H. subst. exact I.
Qed.

Lemma winv4_nonmain : forall c s p, w_main p = false -> WInv4 c s p.
Proof. intros c s p H. destruct p; simpl in H; try discriminate; exact I. Qed.

Lemma winv4_notified : forall c s p, WInv4 c s p -> WInv4 c s (notified p).
Proof. intros c s p H. destruct p; simpl in *; auto; tauto. Qed.

Lemma winv4_mono : forall c s s' p,
  WInv4 c s p ->
  (wc s = true -> wc s' = true) -> total s' = total s -> closed s' = closed s ->
  (pulled s = true -> pulled s' = true) -> io s' = io s -> conn s' = conn s -> WInv4 c s' p.
Proof.
  intros c s s' p H Hwc Ht Hc Hp Hio Hcn. destruct p; simpl in *; auto; unfold notif_soon in *;
    rewrite ?Ht, ?Hc, ?Hio, ?Hcn; try tauto.
  destruct H as [[H|[H|H]] H2]; split; auto.
  right; right. destruct (io s); simpl in *; auto; try discriminate.
Qed.

(* at most one worker is parked on outbuf_lock: parked workers serve requests[0] *)
Lemma parked_unique : forall s,
  Inv2 s -> forall i j p q, nth_error (ws s) i = Some p -> nth_error (ws s) j = Some q ->
  parked_o p = true -> parked_o q = true -> i = j.
Proof.
  intros s HI i j p q Hi Hj Pp Pq. destruct (Nat.eq_dec i j); auto. exfalso.
  assert (w_busy p = true) by (destruct p; simpl in Pp; try discriminate; reflexivity).
  assert (w_busy q = true) by (destruct q; simpl in Pq; try discriminate; reflexivity).
  pose proof (count_busy_two _ _ _ _ _ n Hi Hj) as H2. rewrite H, H0 in H2. simpl in H2.
  pose proof (i2_tok _ HI). lia.
Qed.

(* until the notify that wakes it a parked producer stays connected and, outside received()'s send_continue,
   promised a notify: output above the watermark, or the I/O thread on its way to a notify *)
Lemma step_io_parked : forall c s ch s' l,
  step_io c s ch = Some (s', l) ->
  ws s' = notify_o (ws s) \/
  ((conn s = true \/ is_hcd (io s) = true -> conn s' = true \/ is_hcd (io s') = true) /\
   (io_sc (io s) = false -> notif_soon c s -> notif_soon c s')).
Proof.
  intros c s ch s' l H. unfold notif_soon. step_io_cases H.
  all: try (left; reflexivity).
  all: right; try rewrite (add_task_eta s); simpl; try match goal with E : io _ = _ |- _ => rewrite !E end; simpl.
  all: z_hyps; split; intros; try discriminate; auto; try tauto.
Qed.

Lemma inv4_step_io : forall c s ch s' l,
  0 <= hw c -> Inv1 s -> Inv2 s -> Inv4 c s ->
  step_io c s ch = Some (s', l) -> Inv4 c s'.
Proof.
  intros c s ch s' l Hhw HI1 HI2 HI4 H j q Hj.
  destruct (step_io_frame _ _ _ _ _ H) as (Hwc & Hcl & Hlock & _).
  destruct (step_io_nth _ _ _ _ _ _ _ H Hj) as [->|(p & Hp & Hq)]; [exact I|].
  pose proof (HI4 _ _ Hp) as H4.
  destruct Hq as [->|[Pp ->]].
  2: { destruct p; try discriminate Pp; simpl in *; tauto. }
  pose proof (proj1 (i1_w _ HI1 _ _ Hp)) as Hlk. pose proof (proj1 (i2_w _ HI2 _ _ Hp)) as Hmn.
  (* a worker that holds outbuf_lock keeps the I/O thread away from total and connected *)
  assert (Hheld : w_holds_o p = true -> total s' = total s /\ conn s' = conn s).
  { intros Hh. destruct (io_holds_o (io s)) eqn:E; [|tauto].
    rewrite (i1_io_o _ HI1 E) in Hlk. discriminate (Hlk Hh). }
  (* the trigger's pull is consumed, and coverage lost, only with all attributes still to be read *)
  assert (Hcov : (wc s = true -> closed s = true \/ pulled s = true \/ cov_wc (io s) = true ->
                  closed s' = true \/ pulled s' = true \/ cov_wc (io s') = true) /\
                 (0 < total s -> closed s = true \/ pulled s = true \/ cov_tot (io s) = true ->
                  closed s' = true \/ pulled s' = true \/ cov_tot (io s') = true)).
  { destruct (step_io_cov _ _ _ _ _ H) as [[Ct _]|[Cc|(p' & -> & Mt & Mw & _)]].
    - destruct (cov_tot_all _ Ct). tauto.
    - tauto.
    - simpl. destruct (cov_wc p'), (cov_tot p'); intuition (try congruence; try lia). }
  assert (Hpk : parked_o p = true -> w_main p = true /\
                (conn s = true \/ is_hcd (io s) = true -> conn s' = true \/ is_hcd (io s') = true) /\
                (notif_soon c s -> notif_soon c s')).
  { intros Pp. assert (Hm : w_main p = true) by (destruct p; try discriminate Pp; reflexivity).
    destruct (step_io_parked c _ _ _ _ H) as [E|[Hc Hn]].
    - rewrite E in Hj. rewrite (notify_o_none_parked _ (parked_unique s HI2) _ _ Hj) in Pp. discriminate.
    - repeat split; auto. apply Hn. destruct (io_sc (io s)) eqn:E; auto.
      specialize (Hmn Hm). rewrite (i2_fl _ HI2 E) in Hmn. inversion Hmn. }
  destruct Hcov as (Hcw & Hct).
  destruct p; try exact I; simpl in H4, Hheld, Hpk |- *;
    try (destruct (Hheld eq_refl) as (Et & Ec); rewrite ?Et, ?Ec); try destruct (Hpk eq_refl) as (_ & Hc & Hn);
    try tauto.
  assert (0 < total s) by lia. tauto.
Qed.

Lemma holds_o_busy : forall p, w_holds_o p = true -> w_busy p = true \/ w_sc p = true.
Proof. destruct p; simpl; auto; destruct st; auto. Qed.

Lemma inv4_step_w : forall c s i ch s' l,
  0 <= hw c -> Inv1 s -> Inv2 s -> Inv4 c s ->
  step_w c s i ch = Some (s', l) -> Inv4 c s'.
Proof.
  intros c s i ch s' l Hhw HI1 HI2 HI4 H. pose proof H as Hs. unfold step_w in H.
  destruct (getw s i) as [pc|] eqn:Hg; [|discriminate]. unfold getw in Hg.
  destruct (step_w_frame _ _ _ _ _ _ _ Hg Hs) as (Eio & Ec & Ecl & Hwc & _ & Hpl & Htot & _). clear Hs.
  pose proof (HI4 _ _ Hg) as Hi4.
  pose proof (proj1 (i1_w _ HI1 _ _ Hg)) as Hlk. pose proof (proj1 (i2_w _ HI2 _ _ Hg)) as Hmn.
  (* the other workers: a writer owns the channel or sends a deferred 100 Continue with requests empty, so
     nobody else serves requests[0]; otherwise what they look at is only raised *)
  assert (Hoth : forall j p, j <> i -> nth_error (ws s) j = Some p -> WInv4 c s' p).
  { intros j p Hn Hj. destruct (w_main p) eqn:Em; [|apply winv4_nonmain; exact Em].
    apply (winv4_mono c s s' p (HI4 _ _ Hj)); auto.
    apply Htot. destruct (w_holds_o pc) eqn:Eh; auto. exfalso.
    destruct (holds_o_busy _ Eh) as [Hb|Hb].
    - destruct (busy_exclusive s i pc (i2_tok _ HI2) Hg Hb) as (_ & _ & _ & Hx).
      specialize (Hx _ _ Hn Hj). unfold w_busy in Hx. rewrite Em in Hx. discriminate.
    - destruct (i2_sc _ HI2 _ _ Hg) as (Hn0 & _). destruct (i2_w _ HI2 _ _ Hj) as (Hm & _).
      specialize (Hn0 Hb). specialize (Hm Em). lia. }
  clear Eio Ec Ecl Hwc Hpl Htot.
  step_w_cases H.
  all: z_hyps; nat_hyps; unfold Inv4; simpl.
  all: first [ apply upd_forall;
               [ first [ exact Hoth
                       | intros j p Hn Hj; apply ws_add_task_inv in Hj; destruct Hj as [->|Hj]; [exact I|exact (Hoth _ _ Hn Hj)] ] | ]
             | intros j q Hj; destruct (Nat.eq_dec j i) as [->|Hne];
               [rewrite Hg in Hj; inversion Hj; subst q | exact (Hoth _ _ Hne Hj)] ].
  (* The worker's own program point.  What the layer says is established where the code establishes it:
     connected is read at WHwC and WHwL1; will_close is set on the way to WHwEP; hw < total is read at WHwL2;
     the trigger is pulled at WHwEP and WHwLP (hence the third clause at WHwEW, WHwLW); WHwEW parks recording
     connected, which is True there; WHwLW parks above the watermark.  The flush in WHwF stays in WHwF. *)
  all: simpl; try exact I.
  all: simpl in Hi4, Hlk, Hmn; unfold notif_soon in *.
  all: try tauto.
  all: try (intuition (try lia; try congruence); fail).
Qed.
