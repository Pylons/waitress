(* The wire of a channel, and the steps every frame proof of C03 goes through
   with the client connected: Task.write after the head, the head written
   from a fresh task, Task.finish. *)
From Coq Require Import String.
From Coq Require Import List NArith ZArith Bool Lia Arith.
From WV Require Import Lib.PyBytes Gen.GenTables Model.Task Spec.ClientParse
  Proof.TaskLines Proof.TaskHead Proof.TaskStart Proof.TaskRun Proof.TaskChunk Proof.TaskC09.
Import ListNotations.
Local Open Scope N_scope.

Definition plain_steps (chunks : list bytes) : list istep := map (fun b => mkStep [] (SYield b)) chunks.

Definition chan_wire (ch : chan) : bytes := wire (rev (ch_writes ch)).

Lemma wire_app a b : wire (a ++ b) = wire a ++ wire b.
Proof. unfold wire. apply flat_map_app. Qed.

Lemma write_soon_connected ch x b :
  write_soon None ch (WBytes (x :: b)) = (mkChan (WBytes (x :: b) :: ch_writes ch) (S (ch_nws ch)), Ok tt).
Proof. reflexivity. Qed.

Lemma chan_wire_push ws n b : chan_wire (mkChan (WBytes b :: ws) n) = wire (rev ws) ++ b.
Proof. unfold chan_wire. cbn [ch_writes rev]. rewrite wire_app. cbn. rewrite app_nil_r. reflexivity. Qed.

Section Body.
Variable cap : str -> str.
Variable lower : str -> str.
Variable c : cfg.
Variable r : req.

(* fields of the task that the body phase does not touch *)
Definition same_head (t t' : task) : Prop :=
  t_status t' = t_status t /\ t_chunked t' = t_chunked t /\ t_cof t' = t_cof t
  /\ t_wrote_header t' = t_wrote_header t /\ t_complete t' = t_complete t /\ t_clen t' = t_clen t
  /\ t_rh t' = t_rh t /\ t_v11 t' = t_v11 t.

Lemma same_head_refl t : same_head t t.
Proof. unfold same_head; tauto. Qed.
Lemma same_head_trans a b d : same_head a b -> same_head b d -> same_head a d.
Proof. unfold same_head. intuition congruence. Qed.
Lemma same_head_has_body t t' : same_head t t' -> has_body t' = has_body t.
Proof. intros (H & _). unfold has_body. rewrite H. reflexivity. Qed.

Lemma task_write_body t ch data : t_complete t = true -> t_wrote_header t = true ->
  task_write cap lower c r None (t, ch) data = write_body None (t, ch) data.
Proof. intros Hc Hw. unfold task_write, write_header. cbn [fst]. rewrite Hc, Hw. reflexivity. Qed.

Lemma write_header_fresh t ch s' o : t_wrote_header t = false ->
  write_header cap lower c r None (t, ch) = (s', o) ->
  match build_response_header cap lower c r t with
  | (tp, Ok head) => o = Ok tt /\ fst s' = set_wrote true tp /\ chan_wire (snd s') = chan_wire ch ++ head
  | (tp, Exn e) => o = Exn e
  end.
Proof.
  intros Hw. unfold write_header. rewrite Hw. cbn [negb].
  destruct (build_response_header cap lower c r t) as [tp [head|e]] eqn:Eb.
  - assert (Hne : exists x b', head = x :: b').
    { unfold build_response_header, head_text in Eb. injection Eb as _ Hrh. eapply encode_nonempty; eauto. }
    destruct Hne as (x & b' & ->). rewrite write_soon_connected.
    intro H; inversion H; subst. cbn [fst snd]. repeat split; auto.
    destruct ch as [ws n]. apply chan_wire_push.
  - intro H; inversion H; subst. reflexivity.
Qed.

Definition all_empty (chunks : list bytes) : Prop := Forall (fun d => d = []) chunks.

Lemma finish_after_head t ch : t_wrote_header t = true ->
  exists ch', task_finish cap lower c r None (t, ch) = ((t, ch'), Ok tt)
    /\ chan_wire ch' = chan_wire ch ++ (if t_chunked t && negb (r_head r) then chunk_terminator else []).
Proof.
  intro Hw. unfold task_finish. cbn [fst]. rewrite Hw. cbn [negb].
  destruct (t_chunked t && negb (r_head r)).
  - unfold chunk_terminator. rewrite write_soon_connected. eexists. split; [reflexivity|].
    destruct ch as [ws n]. apply chan_wire_push.
  - exists ch. rewrite app_nil_r. auto.
Qed.

Lemma finish_fresh t ch s' o : t_complete t = true -> t_wrote_header t = false ->
  task_finish cap lower c r None (t, ch) = (s', o) -> o = Ok tt ->
  exists tp head, build_response_header cap lower c r t = (tp, Ok head)
    /\ fst s' = set_wrote true tp
    /\ chan_wire (snd s') = chan_wire ch ++ head ++ (if t_chunked tp && negb (r_head r) then chunk_terminator else []).
Proof.
  intros Hc Hw H Ho. unfold task_finish in H. cbn [fst] in H. rewrite Hw in H. cbn [negb] in H.
  unfold task_write in H. cbn [fst] in H. rewrite Hc in H. cbn [negb] in H.
  destruct (write_header cap lower c r None (t, ch)) as [s1 o1] eqn:Eh.
  pose proof (write_header_fresh t ch s1 o1 Hw Eh) as Hh.
  destruct (build_response_header cap lower c r t) as [tp [head|e]] eqn:Eb.
  2: { subst o1. destruct s1. injection H as _ H2. rewrite <- H2 in Ho. discriminate Ho. }
  destruct Hh as (-> & Ht & Hwire). destruct s1 as [t1 ch1]. cbn [fst snd write_body] in *. subst t1.
  cbn [t_chunked set_wrote] in H.
  exists tp, head. split; auto.
  destruct (t_chunked tp && negb (r_head r)).
  - unfold chunk_terminator in *. rewrite write_soon_connected in H. inversion H; subst. cbn [fst snd].
    split; auto. destruct ch1 as [ws n]. rewrite chan_wire_push. unfold chan_wire in Hwire at 1. cbn [ch_writes] in Hwire.
    cbn [ch_writes]. rewrite Hwire, <- app_assoc. reflexivity.
  - inversion H; subst. cbn [fst snd]. split; auto. rewrite Hwire, app_nil_r. reflexivity.
Qed.

End Body.

Lemma py_slice_all d k : (Z.of_nat (length d) <= k)%Z -> py_slice_to d k = d.
Proof.
  intro H. unfold py_slice_to. destruct (k <? 0)%Z eqn:E; [lia|].
  apply firstn_all2. lia.
Qed.

Lemma all_empty_concat chunks : all_empty chunks -> concat chunks = [].
Proof. induction 1 as [|d l -> Hl IH]; cbn; auto. Qed.
