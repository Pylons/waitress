(* Proof/ChanPipeQuiet.v -- layer L4: no lost task.  When every worker is parked (and not
   notified) and the I/O thread is not in the middle of add_task, the dispatcher queue is empty;
   with L1/L2: on an open, not closing connection every request that arrived has been executed. *)
From Coq Require Import List Arith Bool ZArith Lia Permutation.
From WV Require Import Model.ChanPipe Proof.ChanPipeBase Proof.ChanPipeOwn Proof.ChanPipeLog.
Import ListNotations.

Definition is_wwait (pc : wkpc) : bool := match pc with WWait => true | _ => false end.
Definition is_parked (pc : wkpc) : bool := match pc with WParked => true | _ => false end.
Definition awake (pc : wkpc) : bool := match pc with WWait | WParked => false | _ => true end.
Definition io_at_notify (pc : iopc) : bool := match pc with IoRcAt AtNotify => true | _ => false end.

Lemma notify_perm : forall (w : nat) r n, Permutation ((w :: r) ++ n) (r ++ n ++ [w]).
Proof.
  intros. simpl. rewrite app_assoc. apply Permutation_cons_append.
Qed.

Lemma In_filter_ne : forall me l j, In j (filter (fun k => negb (Nat.eqb me k)) l) <-> In j l /\ j <> me.
Proof.
  intros. rewrite filter_In. split; intros [A B]; split; auto.
  - apply negb_true_iff in B. apply Nat.eqb_neq in B. auto.
  - apply negb_true_iff. apply Nat.eqb_neq. auto.
Qed.

Lemma NoDup_app_filter : forall me (a b : list nat), NoDup (a ++ b) ->
  NoDup (a ++ filter (fun k => negb (Nat.eqb me k)) b).
Proof.
  intros me a b H. induction a as [|x a IH]; simpl in *.
  - apply NoDup_filter. auto.
  - inversion H; subst. constructor; auto.
    intro X. apply H2. apply in_app_or in X. apply in_or_app. destruct X as [X|X]; auto.
    apply In_filter_ne in X. tauto.
Qed.

Lemma existsb_In : forall me l, existsb (Nat.eqb me) l = true -> In me l.
Proof. intros. apply existsb_exists in H. destruct H as [x [A B]]. apply Nat.eqb_eq in B. subst. auto. Qed.

Lemma NoDup_app_both : forall (a b : list nat) x, NoDup (a ++ b) -> In x a -> In x b -> False.
Proof.
  induction a as [|y a IH]; simpl; intros b x H Ha Hb; [contradiction|].
  inversion H; subst. destruct Ha as [->|Ha].
  - apply H2. apply in_or_app. auto.
  - eapply IH; eauto.
Qed.

(* l lists the parked workers, each once *)
Definition parked_list (w : nat -> wkst) (l : list nat) : Prop :=
  NoDup l /\ forall j, In j l <-> is_parked (wpc (w j)) = true.

Lemma parked_perm : forall w l l', Permutation l l' -> parked_list w l -> parked_list w l'.
Proof.
  intros w l l' Hp [N I]. split; [eapply Permutation_NoDup; eauto|].
  intro j. rewrite <- I. split; apply Permutation_in; auto using Permutation_sym.
Qed.

Lemma parked_same : forall w w' l, (forall j, is_parked (wpc (w' j)) = is_parked (wpc (w j))) ->
  parked_list w l -> parked_list w' l.
Proof. intros w w' l H [N I]. split; auto. intro j. rewrite H. apply I. Qed.

(* queue_cv.wait(): the worker joins the waiters *)
Lemma parked_park : forall w me x a b, parked_list w (a ++ b) ->
  is_parked (wpc (w me)) = false -> is_parked (wpc x) = true ->
  parked_list (upd w me x) ((a ++ [me]) ++ b).
Proof.
  intros w me x a b [N I] Hme Hx.
  assert (Hnin : ~ In me (a ++ b)) by (rewrite I; congruence).
  apply (parked_perm _ (me :: a ++ b)).
  { rewrite <- app_assoc. apply Permutation_middle. }
  split; [constructor; auto|]. intro j. simpl. rewrite I. unfold upd.
  destruct (Nat.eqb_spec j me); [subst j; tauto|]. split; [intros [X|X]; congruence | auto].
Qed.

(* the wake-up of a notified worker *)
Lemma parked_wake : forall w me x a b, parked_list w (a ++ b) -> In me b ->
  is_parked (wpc x) = false ->
  parked_list (upd w me x) (a ++ filter (fun k => negb (Nat.eqb me k)) b).
Proof.
  intros w me x a b [N I] Hme Hx. split; [apply NoDup_app_filter; exact N|].
  intro j. unfold upd. destruct (Nat.eqb_spec j me).
  - subst j. rewrite Hx. split; [|discriminate]. intro X. exfalso. apply in_app_or in X. destruct X as [X|X].
    + eapply NoDup_app_both; eauto.
    + apply In_filter_ne in X. tauto.
  - rewrite <- I, !in_app_iff, In_filter_ne. tauto.
Qed.

Section L4.
Variable P : params.

Record L4 (st : state) : Prop := {
  q_out : forall j, p_nw P <= j -> wk st j = wk0;
  q_wait : forall j, is_wwait (wpc (wk st j)) = true -> queue (sh st) = 0;
  q_list : parked_list (wk st) (qwait (sh st) ++ qnotified (sh st));
  q_live : 1 <= p_nw P -> 1 <= queue (sh st) ->
           (exists j, j < p_nw P /\ awake (wpc (wk st j)) = true) \/ qnotified (sh st) <> [] \/
           io_at_notify (ipc (io st)) = true
}.

Lemma L4_init : L4 init.
Proof.
  split; simpl; intros; auto; try discriminate; try lia.
  split; [constructor|]. intro j. simpl. split; [contradiction | discriminate].
Qed.

Definition wa4 (pc : wkpc) := (is_wwait pc, is_parked pc, awake pc).

Lemma L4_frame : forall st st',
  queue (sh st') = queue (sh st) -> qwait (sh st') = qwait (sh st) -> qnotified (sh st') = qnotified (sh st) ->
  io_at_notify (ipc (io st')) = io_at_notify (ipc (io st)) ->
  (forall j, wa4 (wpc (wk st' j)) = wa4 (wpc (wk st j))) ->
  (forall j, p_nw P <= j -> wk st' j = wk st j) ->
  L4 st -> L4 st'.
Proof.
  intros st st' Hq Hw Hn Hi Ha Ho [A B C F].
  split; rewrite ?Hq, ?Hw, ?Hn, ?Hi; intros.
  - rewrite Ho; auto.
  - apply (B j). specialize (Ha j). unfold wa4 in Ha. congruence.
  - apply (parked_same (wk st)); auto. intro j. specialize (Ha j). unfold wa4 in Ha. congruence.
  - destruct (F H H0) as [[j [J1 J2]]|X]; auto. left. exists j. specialize (Ha j). unfold wa4 in Ha. split; congruence.
Qed.
End L4.
