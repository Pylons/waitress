(* Proof/ChanWakeL1.v -- layer 1 of the C05 invariant: lock ownership follows the
   program points. *)
From Coq Require Import List ZArith Bool Arith Lia.
From WV Require Import Model.ChanWake Proof.ChanWakeInv Proof.ChanWakeBase.
Import ListNotations.
Open Scope Z_scope.

Definition WInv1 (s : state) (j : nat) (p : wpc) : Prop :=
  (w_holds_o p = true -> olock s = Some (TW j)) /\
  (w_holds_r p = true -> rlock s = Some (TW j)) /\
  True.

Record Inv1 (s : state) : Prop := {
  i1_io_o : io_holds_o (io s) = true -> olock s = Some TIO;
  i1_io_r : io_holds_r (io s) = true -> rlock s = Some TIO;
  i1_w : forall j p, nth_error (ws s) j = Some p -> WInv1 s j p;
  i1_hce : match io s with IoHCe k => hc_locked k = false | _ => True end
}.

Lemma inv1_init : forall nw, Inv1 (init nw).
Proof.
  intros. constructor; simpl; intros; try discriminate; auto.
  apply nth_error_In in H. apply repeat_spec in H. subst. repeat split; simpl; intros; try discriminate; auto.
Qed.


Lemma winv1_free : forall s j p, w_holds_o p = false -> w_holds_r p = false -> WInv1 s j p.
Proof. intros s j p Ho Hr. unfold WInv1. rewrite Ho, Hr. repeat split; discriminate. Qed.

Lemma inv1_lock : forall t h h' v v' u hu,
  lock_step t h h' v v' -> (h = true -> v = Some t) -> (hu = true -> v = Some u) -> u <> t ->
  (h' = true -> v' = Some t) /\ (hu = true -> v' = Some u).
Proof.
  intros t h h' v v' u hu [[-> ->]|[(-> & -> & ->)|(-> & -> & ->)]] Ht Hu Hne; split; auto; intros E; try discriminate.
  - discriminate (Hu E).
  - rewrite (Ht eq_refl) in Hu. specialize (Hu E). congruence.
Qed.

Lemma inv1_step_io : forall c s ch s' l,
  Inv1 s -> step_io c s ch = Some (s', l) -> Inv1 s'.
Proof.
  intros c s ch s' l [Ho Hr Hw He] H.
  destruct (step_io_locks _ _ _ _ _ He H) as (He' & Lo & Lr).
  assert (Hno : forall j, TW j <> TIO) by discriminate.
  constructor; auto.
  - eapply (inv1_lock _ _ _ _ _ (TW 0) false Lo); auto; discriminate.
  - eapply (inv1_lock _ _ _ _ _ (TW 0) false Lr); auto; discriminate.
  - intros j q Hj. destruct (step_io_nth _ _ _ _ _ _ _ H Hj) as [->|(p & Hp & [->|[Pp ->]])].
    + apply winv1_free; reflexivity.
    + destruct (Hw _ _ Hp) as (A & B & _).
      repeat split; [eapply (inv1_lock _ _ _ _ _ _ _ Lo) | eapply (inv1_lock _ _ _ _ _ _ _ Lr)]; eauto.
    + destruct p; try discriminate Pp; apply winv1_free; reflexivity.
Qed.

Lemma inv1_step_w : forall c s i ch s' l,
  Inv1 s -> step_w c s i ch = Some (s', l) -> Inv1 s'.
Proof.
  intros c s i ch s' l [Ho Hr Hw He] H.
  destruct (getw s i) as [pc|] eqn:Hg; [|unfold step_w in H; rewrite Hg in H; discriminate]. unfold getw in Hg.
  destruct (step_w_frame _ _ _ _ _ _ _ Hg H) as (Eio & _ & _ & _ & _ & _ & _ & p' & Ews & Lo & Lr).
  destruct (Hw _ _ Hg) as (A & B & _).
  assert (Hno : TIO <> TW i) by discriminate.
  constructor; rewrite ?Eio; auto.
  - eapply (inv1_lock _ _ _ _ _ _ _ Lo); eauto.
  - eapply (inv1_lock _ _ _ _ _ _ _ Lr); eauto.
  - assert (Hoth : forall j p, j <> i -> nth_error (ws s) j = Some p -> WInv1 s' j p).
    { intros j p Hn Hj. destruct (Hw _ _ Hj) as (A' & B' & _). assert (TW j <> TW i) by congruence.
      repeat split; [eapply (inv1_lock _ _ _ _ _ _ _ Lo) | eapply (inv1_lock _ _ _ _ _ _ _ Lr)]; eauto. }
    assert (Hown : WInv1 s' i p').
    { repeat split; [eapply (inv1_lock _ _ _ _ _ TIO false Lo) | eapply (inv1_lock _ _ _ _ _ TIO false Lr)];
        eauto; discriminate. }
    destruct Ews as [E|E]; rewrite E; apply upd_forall; auto.
    intros j p Hn Hj. apply ws_add_task_inv in Hj. destruct Hj as [->|Hj]; [apply winv1_free; reflexivity|auto].
Qed.
