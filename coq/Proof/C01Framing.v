(* T3 -- the framing decision.  [model_framing] is the choice that
   Parser.parse_header makes among {no body, Content-Length n, chunked, refuse}
   as a function of the header dict and the version (characterised by
   C01ParseHeader.ph_mid_framing); it is proved equal to the RFC 9112 section
   6.3 choice of the reference, [Ref9112.framing_of], for ALL dicts and
   versions. *)
From Coq Require Import List NArith ZArith Bool Lia Arith.
From RecordUpdate Require Import RecordUpdate.
From WV Require Import Lib.PyBytes Lib.Regex Gen.GenRegex Spec.Grammar Proof.C10Gates.
From WV Require Import Model.Receiver Model.UrlSplit Model.Parser Spec.Ref9112 Proof.C01Lib Proof.C01Dict.
Import ListNotations.
Local Open Scope N_scope.

Inductive choice := MNone | MLen (n : N) | MChunked | MRefuse (e : perr).

(* the version 1.1 branch: resulting dict, chunked flag, error *)
Definition model_te_stage (h : hdict) (ver : bytes) : hdict * bool * option perr :=
  if beqb ver s_1_1 then
    let encs := te_encodings (hget_default h s_TRANSFER_ENCODING []) in
    let h1 := hpop h s_TRANSFER_ENCODING in
    if negb (forallb (fun e => beqb e s_chunked) encs) then (h1, false, Some ETENotSupported)
    else match encs with
         | [] => (h1, false, None)
         | _ => if negb (length encs =? 1)%nat then (h1, false, Some ETEMultipleChunked)
                else (hpop h1 s_CONTENT_LENGTH, true, None)
         end
  else (h, false, None).

Definition model_cl_stage (h2 : hdict) : choice :=
  let cl := hget_default h2 s_CONTENT_LENGTH s_0 in
  if negb (matches gate_content_length cl) then MRefuse EContentLengthInvalid
  else if int_max_str_digits <? lenN cl then MRefuse EContentLengthInvalid
  else let n := dec_value cl in if 0 <? n then MLen n else MNone.

Definition model_framing (h : hdict) (ver : bytes) : choice :=
  match model_te_stage h ver with
  | (_, _, Some e) => MRefuse e
  | (_, true, None) => MChunked
  | (h2, false, None) => model_cl_stage h2
  end.

Definition choice_framing (c : choice) : framing :=
  match c with
  | MNone => FrNone
  | MLen n => FrLength n
  | MChunked => FrChunked
  | MRefuse e => FrRefuse (perr_code e)
  end.

Definition present (h : hdict) (k : bytes) : bool :=
  match hget h k with Some _ => true | None => false end.

(* parser.connection_close as parse_header leaves it *)
Definition model_cc (h1 : hdict) (ver : bytes) : bool :=
  (beqb ver s_1_0 && negb (beqb (lower_latin1 (hget_default h1 s_CONNECTION [])) s_keep_alive))
  || (if beqb ver s_1_1 then
        (match model_framing h1 ver with MChunked => present h1 s_CONTENT_LENGTH | _ => false end)
        || existsb (fun t => beqb (strip_by is_sp_htab t) s_close)
                   (split (lower_latin1 (hget_default h1 s_CONNECTION [])) [44])
      else present h1 s_TRANSFER_ENCODING).

Lemma hget_lookup h k : hget h k = lookup h k.
Proof. induction h as [|[k' v] h IH]; cbn; auto. Qed.

Lemma K_TE_eq : K_TE = s_TRANSFER_ENCODING. Proof. reflexivity. Qed.
Lemma K_CL_eq : K_CL = s_CONTENT_LENGTH. Proof. reflexivity. Qed.
Lemma K_CONN_eq : K_CONN = s_CONNECTION. Proof. reflexivity. Qed.

Definition te_keep (e : bytes) : bool := nonempty (trim is_ows e).

Lemma te_encodings_elems te :
  te_encodings te = map (fun e => lower_latin1 (trim is_ows e)) (filter te_keep (split_on 44 te [])).
Proof.
  unfold te_encodings. rewrite split_one.
  rewrite (filter_ext (fun e => negb (beqb (strip_by is_sp_htab e) [])) te_keep).
  - apply map_ext. intro e. rewrite strip_sp_htab. reflexivity.
  - intro e. unfold te_keep. rewrite strip_sp_htab. destruct (trim is_ows e); reflexivity.
Qed.

Lemma to_lower_nonempty e : nonempty (to_lower e) = nonempty e.
Proof. destruct e; reflexivity. Qed.

Lemma list_elems_keep v :
  list_elems v = map (fun e => to_lower (trim is_ows e)) (filter te_keep (split_on 44 v [])).
Proof.
  unfold list_elems. induction (split_on 44 v []) as [|e l IH]; cbn [map filter]; auto.
  rewrite to_lower_nonempty. unfold te_keep at 1. destruct (nonempty (trim is_ows e)); cbn [map]; rewrite IH; reflexivity.
Qed.

Definition te_verdict_model (encs : list bytes) : option (option perr) :=
  (* None = no coding: go on to Content-Length; Some None = chunked; Some (Some e) = refuse *)
  if negb (forallb (fun e => beqb e s_chunked) encs) then Some (Some ETENotSupported)
  else match encs with
       | [] => None
       | _ => if negb (length encs =? 1)%nat then Some (Some ETEMultipleChunked) else Some None
       end.

Lemma te_verdict_agree (L : list bytes) :
  match te_verdict_model (map (fun e => lower_latin1 (trim is_ows e)) L),
        map (fun e => to_lower (trim is_ows e)) L with
  | None, [] => True
  | Some None, [e] => beqb e w_chunked = true
  | Some (Some err), [e] => beqb e w_chunked = false /\ perr_code err = 501
  | Some (Some err), _ :: _ :: _ => perr_code err = 501
  | _, _ => False
  end.
Proof.
  unfold te_verdict_model.
  destruct L as [|x [|y L]]; cbn [map forallb length].
  - exact I.
  - rewrite andb_true_r.
    change s_chunked with w_chunked. rewrite (lower_word_agree _ chunked_ascii).
    destruct (beqb (to_lower (trim is_ows x)) w_chunked) eqn:E; cbn; auto.
  - destruct (beqb (lower_latin1 (trim is_ows x)) s_chunked &&
              (beqb (lower_latin1 (trim is_ows y)) s_chunked &&
               forallb (fun e => beqb e s_chunked) (map (fun e => lower_latin1 (trim is_ows e)) L)));
      cbn; auto.
Qed.

Lemma gate_content_length_digits v : clean v = true ->
  matches gate_content_length v = nonempty v && forallb is_dig v.
Proof.
  intro Hc. apply iff_bool.
  rewrite matches_correct, (content_length_exact v (clean_bytes_ok v Hc) (clean_no_crlf v Hc)).
  unfold spec_content_length, DIGIT.
  rewrite Lang_plus_forallb, (forallb_ext_in _ is_dig) by (intros; apply is_dig_ranges).
  rewrite <- nonempty_ne, andb_true_iff. tauto.
Qed.

Lemma clean_s0 : clean s_0 = true. Proof. reflexivity. Qed.

Lemma cl_stage_agree h :
  (forall v, hget h s_CONTENT_LENGTH = Some v -> clean v = true) ->
  choice_framing (model_cl_stage h) =
  match lookup h K_CL with
  | None => FrNone
  | Some v => match content_length_of v with
              | Some 0 => FrNone
              | Some n => FrLength n
              | None => FrRefuse 400
              end
  end.
Proof.
  intro Hclean. unfold model_cl_stage, hget_default. change lookup with hget. change K_CL with s_CONTENT_LENGTH.
  destruct (hget h s_CONTENT_LENGTH) as [v|] eqn:E.
  - rewrite (gate_content_length_digits v (Hclean v eq_refl)).
    unfold content_length_of, max_cl_digits, int_max_str_digits.
    destruct (nonempty v && forallb is_dig v); cbn [negb andb]; [|reflexivity].
    rewrite N.ltb_antisym.
    destruct (lenN v <=? 4300); cbn [negb]; [|reflexivity].
    destruct (dec_value v); reflexivity.
  - reflexivity.
Qed.

Theorem framing_decision : forall h ver,
  (forall v, hget h s_CONTENT_LENGTH = Some v -> clean v = true) ->
  choice_framing (model_framing h ver) = framing_of ver h.
Proof.
  intros h ver Hclean. unfold model_framing, model_te_stage, framing_of.
  change v11 with s_1_1.
  destruct (beqb ver s_1_1).
  - change lookup with hget. change K_TE with s_TRANSFER_ENCODING.
    assert (Ete : match hget h s_TRANSFER_ENCODING with Some v => list_elems v | None => [] end
                  = map (fun e => to_lower (trim is_ows e))
                        (filter te_keep (split_on 44 (hget_default h s_TRANSFER_ENCODING []) []))).
    { unfold hget_default. destruct (hget h s_TRANSFER_ENCODING); [apply list_elems_keep|reflexivity]. }
    rewrite Ete, te_encodings_elems.
    pose proof (te_verdict_agree (filter te_keep (split_on 44 (hget_default h s_TRANSFER_ENCODING []) []))) as V.
    unfold te_verdict_model in V.
    set (L := filter te_keep (split_on 44 (hget_default h s_TRANSFER_ENCODING []) [])) in *.
    set (EM := map (fun e => lower_latin1 (trim is_ows e)) L) in *.
    set (ER := map (fun e => to_lower (trim is_ows e)) L) in *.
    destruct (negb (forallb (fun e => beqb e s_chunked) EM)).
    + destruct ER as [|e [|e2 ER']]; try contradiction.
      * destruct V as [V1 V2]. rewrite V1. reflexivity.
      * reflexivity.
    + destruct EM as [|m EM'].
      * destruct ER as [|e [|e2 ER']]; try contradiction.
        rewrite cl_stage_agree.
        -- change lookup with hget. change K_CL with s_CONTENT_LENGTH. rewrite hget_hpop_other by reflexivity. reflexivity.
        -- intros v Hv. rewrite hget_hpop_other in Hv by reflexivity. auto.
      * destruct (negb (length (m :: EM') =? 1)%nat).
        -- destruct ER as [|e [|e2 ER']]; try contradiction.
           ++ destruct V as [V1 V2]. rewrite V1. reflexivity.
           ++ reflexivity.
        -- destruct ER as [|e [|e2 ER']]; try contradiction.
           rewrite V. reflexivity.
  - apply cl_stage_agree. exact Hclean.
Qed.

(* a second, empty Transfer-Encoding line is ignored (repaired by 96bc60d) *)
Example framing_ws_element :
  model_framing [(s_TRANSFER_ENCODING, s_chunked ++ [44; 32])] s_1_1 = MChunked.
Proof. vm_compute. reflexivity. Qed.

Example framing_decision_nontrivial :
  model_framing [(s_HOST, [104]); (s_TRANSFER_ENCODING, [32; 67; 104; 117; 110; 107; 101; 100; 44])] s_1_1 = MChunked
  /\ model_framing [(s_CONTENT_LENGTH, [48; 49; 55])] s_1_0 = MLen 17.
Proof. split; vm_compute; reflexivity. Qed.
