(* C20, documentation: every default that docs/arguments.rst, runner.HELP and
   docs/runner.rst state (Gen/GenAdjust.v docs_defaults / help_defaults /
   runner_rst_defaults, regenerated on every run) against the EFFECTIVE default:
   the attribute value of Adjustments() constructed without arguments, as the
   model computes it (class default, or what __init__ derives: trusted_proxy_count
   1).  A documented literal other than None / True / False / [] is read the way
   a user would pass it: through the cast of its parameter ('600' is 0o600).
   And the header kinds the three documents name against the implemented set. *)
From Coq Require Import List NArith ZArith Bool.
From WV Require Import Lib.PyBytes Gen.GenAdjust Model.Adjust Proof.AdjustSpec Proof.AdjustChecks.
Import ListNotations.
Local Open Scope N_scope.

(* a class-level default as the attribute it is.  [] is the default of sockets only (SSocks),
   and the f-string default of listen never reaches a comparison: construct always assigns
   listen, so effective_default finds it in the attributes (SList [] is a placeholder).
   setting_eqb below compares the kinds documented defaults have; on lists, sets and
   addresses other than the empty socket list it answers false. *)
Definition setting_of_dval (d : dval) : setting :=
  match d with
  | DNone => SNone | DBool b => SBool b | DInt z => SInt z | DStr s => SStr s
  | DEmptyList => SSocks [] | DEmptySet => SSet [] | DHostPort => SList []
  end.

Definition effective_default (e : env) (name : str) : option setting :=
  match construct e [] with
  | Exn _ => None
  | Ok a => match dict_get name a with
            | Some s => Some s
            | None => option_map setting_of_dval (dict_get name class_defaults)
            end
  end.

Definition setting_eqb (a b : setting) : bool :=
  match a, b with
  | SNone, SNone => true
  | SBool x, SBool y => Bool.eqb x y
  | SInt x, SInt y => Z.eqb x y
  | SStr x, SStr y => beqb x y
  | SSocks [], SSocks [] => true
  | _, _ => false
  end.

Definition doc_agrees (c : cast) (doc : dval) (eff : setting) : bool :=
  match doc with
  | DNone => setting_eqb eff SNone
  | DBool b => setting_eqb eff (SBool b)
  | DEmptyList => setting_eqb eff (SSocks [])
  | DStr text => match cast_value c (VStr text) with Ok s => setting_eqb s eff | Exn _ => false end
  | _ => false
  end.

Definition doc_row_ok (e : env) (row : str * dval) : bool :=
  match castof (fst row), effective_default e (fst row) with
  | Some c, Some eff => doc_agrees c (snd row) eff
  | _, _ => false
  end.

(* regression witness: until /repo fix fd812c0 runner.HELP said `--send-bytes ... Default is 18000` *)
Definition s_send_bytes : str := [115;101;110;100;95;98;121;116;101;115].
Definition old_help_send_bytes_row : str * dval := (s_send_bytes, DStr [49;56;48;48;48]).

(* Adjustments() without arguments never looks at the platform: both address families are
   enabled by default and there are no sockets to check *)
Definition env0 : env := {| has_ipv6 := true; has_af_unix := true |}.

Lemma doc_row_env : forall e r, doc_row_ok e r = doc_row_ok env0 r.
Proof.
  intros e r. unfold doc_row_ok, effective_default.
  replace (construct e []) with (construct env0 []) by (vm_compute; reflexivity). reflexivity.
Qed.

Lemma docs_defaults_bool :
  forallb (doc_row_ok env0) docs_defaults && forallb (doc_row_ok env0) runner_rst_defaults
  && forallb (doc_row_ok env0) help_defaults = true.
Proof. vm_compute. reflexivity. Qed.

(* how many rows the three documents give, so that C20_docs_defaults is not vacuous *)
Lemma docs_defaults_counted :
  (30 <=? N.of_nat (length docs_defaults)) && (25 <=? N.of_nat (length help_defaults))
  && (25 <=? N.of_nat (length runner_rst_defaults)) = true.
Proof. vm_compute. reflexivity. Qed.

Definition same_set (a b : list str) : bool :=
  forallb (fun x => memstr x b) a && forallb (fun x => memstr x a) b.

Lemma header_kinds_bool :
  same_set known_proxy_headers spec_known_headers && same_set docs_proxy_headers spec_known_headers
  && same_set help_proxy_headers spec_known_headers && same_set runner_rst_proxy_headers spec_known_headers = true.
Proof. vm_compute. reflexivity. Qed.

Lemma same_set_in : forall a b, same_set a b = true -> forall h, In h a <-> In h b.
Proof.
  intros a b H h. unfold same_set in H. apply andb_true_iff in H as [H1 H2].
  split; intro Hh.
  - apply memstr_In. exact (forallb_In _ _ H1 h Hh).
  - apply memstr_In. exact (forallb_In _ _ H2 h Hh).
Qed.
