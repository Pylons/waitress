(* C03, the end-to-end frame theorems: applications that use the
   write() callable (with or without also returning chunks), any iterable that
   is not handed over (sized, generator, non-seekable file wrapper, any file
   wrapper after write()), a declared Content-Length that is exact, smaller or
   larger than the bytes produced, statuses without a body, HEAD. *)
From Coq Require Import String.
From Coq Require Import List NArith ZArith Bool Lia Arith Permutation.
From WV Require Import Lib.PyBytes Gen.GenTables Model.Task Spec.ClientParse
  Proof.TaskSort Proof.TaskLines Proof.TaskHead Proof.TaskStart Proof.TaskRun Proof.TaskChunk Proof.TaskClient
  Proof.TaskC08 Proof.TaskC09 Proof.TaskFrame Proof.TaskBody Proof.TaskSimple Proof.TaskFrameClient
  Proof.TaskFrameEnd Proof.TaskFrame2Sem Proof.TaskFrame2Run Proof.TaskFrame2Head.
Import ListNotations.
Local Open Scope N_scope.

Theorem parse_length_short tp v body :
  task_clean tp -> Forall (fun h => no_colon (fst h)) (t_rh tp) ->
  has_body tp = true -> te_fields tp = [] ->
  cl_fields tp = [(lit "Content-Length", v)] -> all_digits v = true ->
  lenN body < dec_value v ->
  parse_one false (head_text tp ++ body) = None.
Proof.
  intros Hcl Hnc Hb Hte Hcf Hd Hlen. rewrite (parse_declared tp v) by assumption.
  apply N.ltb_lt in Hlen. rewrite Hlen. reflexivity.
Qed.

Lemma concat_nil_encode ds : concat ds = [] -> flat_map encode_chunk ds = [].
Proof.
  induction ds as [|d ds IH]; cbn [concat flat_map]; auto. intro H.
  apply app_eq_nil in H as [-> H]. rewrite IH by auto. reflexivity.
Qed.

Section End2.
Variable cap : str -> str.
Variable lower : str -> str.
Hypothesis Hcap : forall s, clean s -> clean (cap s).
Hypothesis Hcap_conn : cap (lit "Connection") = lit "Connection".
Hypothesis Hcap_te : beqb (cap (lit "Transfer-Encoding")) (lit "Connection") = false.
Hypothesis Hcap_cl : beqb (cap (lit "Content-Length")) (lit "Connection") = false.
Variable c : cfg.
Hypothesis Hc : cfg_clean c.
Variable r : req.

Definition sl_of (status : str) : bytes :=
  lit "HTTP/" ++ (if beqb (r_version r) (lit "1.1") then lit "1.1" else lit "1.0") ++ [32] ++ status.

Definition no_body_st (status : str) : bool :=
  startswith status (lit "1") || startswith status (lit "204") || startswith status (lit "304").

Lemma brh_ok t tp head : build_response_header cap lower c r t = (tp, Ok head) ->
  tp = bh_prepare cap lower c r t /\ head = head_text tp.
Proof.
  intro Eb. unfold build_response_header in Eb. injection Eb as E1 E2.
  apply encode_latin1_ok in E2. subst. auto.
Qed.

Lemma toofew_prepared t : toofew r (set_wrote true (bh_prepare cap lower c r t)) = toofew r t.
Proof.
  destruct (keeps_bh_prepare cap lower c r t) as (_ & _ & K3 & K4 & _).
  unfold toofew. cbn [t_clen t_cbw set_wrote]. rewrite K3, K4. reflexivity.
Qed.

(* [wapp_wire_gen] in one piece, outside the corner "a positive length declared,
   nothing at all written" (where the head is built after the decision to close) *)
Lemma wapp_wire_u status hs ws kind chunks hc :
  r_error r = None ->
  (no_handover kind ws \/
   forall t1, start_response lower (new_task (r_version r) false) (PStr status) hs None = (t1, Ok tt) ->
              has_body t1 = false) ->
  (forall t1, start_response lower (new_task (r_version r) false) (PStr status) hs None = (t1, Ok tt) ->
              len1 kind && match t_clen t1 with None => true | Some _ => false end = false) ->
  let res := channel_service cap lower c r (wapp status hs ws kind chunks hc) None in
  o_raw res = None ->
  exists t1, start_response lower (new_task (r_version r) false) (PStr status) hs None = (t1, Ok tt) /\
    let ds := ws ++ eff kind chunks in
    ((ds = [] -> toofew r t1 = false) ->
     exists tp head, build_response_header cap lower c r t1 = (tp, Ok head)
       /\ wire (o_writes res) = head ++ snd (ws_sem (set_wrote true tp) ds)
                                ++ (if t_chunked tp && negb (r_head r) then chunk_terminator else [])
       /\ o_close res = t_cof tp || toofew r (fst (ws_sem (set_wrote true tp) ds))
       /\ o_next res = negb (t_cof tp || toofew r (fst (ws_sem (set_wrote true tp) ds)))
       /\ o_handover res = false /\ o_closes res = (if hc then 1 else 0)%nat).
Proof.
  intros He Hnh Hl1. cbn zeta. intro Hraw.
  destruct (wapp_wire_gen cap lower c r status hs ws kind chunks hc He Hnh Hl1 Hraw) as (t1 & Esr & H0 & H1 & Hho & Hcs).
  exists t1. split; [exact Esr|]. intro Htf.
  destruct (ws ++ eff kind chunks) as [|d ds] eqn:Eds.
  - destruct (H0 eq_refl) as (tp & head & Eb & Ew & Ec & En).
    rewrite toofew_adj_spec, (Htf eq_refl) in Eb.
    destruct (brh_ok _ _ _ Eb) as [Etp _].
    assert (T : toofew r (set_wrote true tp) = false) by (rewrite Etp, toofew_prepared; auto).
    exists tp, head. split; [exact Eb|]. cbn [ws_sem fst snd List.app]. rewrite T, orb_false_r. repeat split; auto.
  - destruct H1 as (tp & head & Eb & Ew & Ec & En); [discriminate|]. exists tp, head. repeat split; auto.
Qed.

Lemma nolen_start_facts status hs t1 :
  start_response lower (new_task (r_version r) false) (PStr status) hs None = (t1, Ok tt) ->
  Forall (not_cl lower) hs ->
  task_clean t1 /\ t_status t1 = status /\ t_rh t1 = strs_of hs /\ t_complete t1 = true
  /\ t_wrote_header t1 = false /\ t_cof t1 = false /\ t_chunked t1 = false /\ t_cbw t1 = 0%Z
  /\ t_v11 t1 = beqb (r_version r) (lit "1.1") /\ t_clen t1 = None.
Proof.
  intros Esr Hcl.
  destruct (start_response_ok lower _ _ _ _ _ Esr) as (_ & S2 & S3 & S4 & S5 & S6 & S7 & S8 & S9 & _).
  cbn [new_task t_rh t_wrote_header t_cof t_chunked t_cbw t_v11 str_of List.app] in *.
  pose proof (start_response_no_cl lower (new_task (r_version r) false) (PStr status) hs None eq_refl Hcl) as Hclen.
  rewrite Esr in Hclen. cbn [fst new_task t_clen] in Hclen.
  pose proof (start_response_clean lower (new_task (r_version r) false) (PStr status) hs None) as G.
  rewrite Esr in G. cbn [fst] in G.
  split; [apply G; split; [reflexivity|constructor]|]. repeat split; auto.
Qed.

Lemma len_start_facts status pre clname v post cl t1 :
  start_response lower (new_task (r_version r) false) (PStr status) (pre ++ (PStr clname, PStr v) :: post) None = (t1, Ok tt) ->
  Forall (not_cl lower) post -> beqb (lower clname) (lit "content-length") = true -> py_int v = Some cl ->
  task_clean t1 /\ t_status t1 = status /\ t_rh t1 = strs_of pre ++ (clname, v) :: strs_of post
  /\ t_complete t1 = true
  /\ t_wrote_header t1 = false /\ t_cof t1 = false /\ t_chunked t1 = false /\ t_cbw t1 = 0%Z
  /\ t_v11 t1 = beqb (r_version r) (lit "1.1") /\ t_clen t1 = Some cl.
Proof.
  intros Esr Hpost Hn Hv.
  destruct (start_response_ok lower _ _ _ _ _ Esr) as (_ & S2 & S3 & S4 & S5 & S6 & S7 & S8 & S9 & _).
  cbn [new_task t_rh t_wrote_header t_cof t_chunked t_cbw t_v11 str_of List.app] in *.
  pose proof (start_response_cl lower _ clname v cl pre post status t1 Hpost Hn Hv Esr) as Hcl1.
  pose proof (start_response_clean lower (new_task (r_version r) false) (PStr status)
                                   (pre ++ (PStr clname, PStr v) :: post) None) as G.
  rewrite Esr in G. cbn [fst] in G.
  split; [apply G; split; [reflexivity|constructor]|].
  rewrite strs_of_app in S3. repeat split; auto.
Qed.

Lemma concat_ds ws kind chunks : concat (ws ++ eff kind chunks) = concat ws ++ produced kind chunks.
Proof. rewrite concat_app, concat_eff. reflexivity. Qed.

Lemma has_body_status t status : t_status t = status -> has_body t = negb (no_body_st status).
Proof. intros <-. reflexivity. Qed.

Lemma first_line_sl tp t1 status :
  t_status tp = t_status t1 -> t_v11 tp = t_v11 t1 -> t_status t1 = status ->
  t_v11 t1 = beqb (r_version r) (lit "1.1") -> first_line tp = sl_of status.
Proof. intros E1 E2 E3 E4. unfold first_line, version_str, sl_of. rewrite E1, E2, E3, E4. reflexivity. Qed.

(* no declared length: the prepared task and its head as the client reads it, the
   wire as head ++ body of the Task.write sequence ++ terminator, always closing *)
Lemma nolen_common status hs ws kind chunks hc :
  r_error r = None -> no_handover kind ws \/ no_body_st status = true -> len1 kind = false ->
  Forall (not_cl lower) hs -> plain_fields cap (strs_of hs) ->
  let res := channel_service cap lower c r (wapp status hs ws kind chunks hc) None in
  o_raw res = None ->
  let v11 := beqb (r_version r) (lit "1.1") in
  exists tp,
    task_clean tp /\ nocolon_rh tp /\ has_body tp = negb (no_body_st status) /\ t_clen tp = None
    /\ t_chunked tp = v11 && has_body tp
    /\ te_fields tp = (if v11 && has_body tp then [client_field f_chunked] else [])
    /\ cl_fields tp = []
    /\ first_line tp = sl_of status
    /\ (forall h, In h (strs_of hs) -> In (client_field (norm_field cap h)) (cfields tp))
    /\ In (client_field f_close) (cfields tp)
    /\ wire (o_writes res) = head_text tp ++ snd (ws_sem (set_wrote true tp) (ws ++ eff kind chunks))
                              ++ (if t_chunked tp && negb (r_head r) then chunk_terminator else [])
    /\ o_close res = true /\ o_next res = false
    /\ o_handover res = false /\ o_closes res = (if hc then 1 else 0)%nat.
Proof.
  intros He Hnh Hl Hcl Hpl. cbn zeta. intro Hraw.
  destruct (wapp_wire_u status hs ws kind chunks hc He) with (3 := Hraw) as (t1 & Esr & U).
  { destruct Hnh as [Hnh|Hst]; [left; exact Hnh|right].
    intros t1 Esr. destruct (start_response_ok lower _ _ _ _ _ Esr) as (_ & S2 & _).
    cbn [str_of] in S2. rewrite (has_body_status t1 status S2), Hst. reflexivity. }
  { intros t1 _. rewrite Hl. reflexivity. }
  destruct (nolen_start_facts status hs t1 Esr Hcl) as (Hclean1 & S2 & S3 & S4 & S5 & S6 & S7 & S8 & S9 & Hclen).
  cbn zeta in U. destruct U as (tp & head & Eb & Ew & Ec & En & Eho & Ecs).
  { intros _. unfold toofew. rewrite Hclen. reflexivity. }
  destruct (brh_ok _ _ _ Eb) as [Etp Ehead].
  rewrite <- S3 in Hpl.
  pose proof (nolen_head_facts cap lower Hcap Hcap_te c Hc r t1 Hclean1 S6 S5 S7 Hclen Hpl) as F.
  cbn zeta in F. rewrite <- Etp in F.
  destruct F as (Hcleanp & Hnc & Pst & Pv & Pcof & Pchk & Pte & Pcl & Pin & Pclose).
  assert (Hbp : has_body tp = has_body t1) by (unfold has_body; rewrite Pst; reflexivity).
  assert (Hclp : t_clen tp = None).
  { rewrite Etp. destruct (keeps_bh_prepare cap lower c r t1) as (_ & _ & K3 & _). congruence. }
  (* without a declared length no write() can leave too few bytes *)
  assert (Htf : toofew r (fst (ws_sem (set_wrote true tp) (ws ++ eff kind chunks))) = false).
  { unfold toofew. destruct (ws_sem_same (ws ++ eff kind chunks) (set_wrote true tp)) as (_ & _ & _ & _ & _ & A6 & _).
    rewrite A6. cbn [t_clen set_wrote]. rewrite Hclp. reflexivity. }
  rewrite Htf, Pcof in Ec, En. rewrite <- Hbp, S9 in Pchk, Pte.
  exists tp. split; [exact Hcleanp|]. split; [exact Hnc|].
  split; [rewrite Hbp; apply has_body_status; exact S2|]. split; [exact Hclp|].
  split; [exact Pchk|]. split; [exact Pte|]. split; [exact Pcl|].
  split; [exact (first_line_sl tp t1 status Pst Pv S2 S9)|].
  split; [intros h Hh; apply in_cfields, Pin; rewrite S3; exact Hh|].
  split; [apply in_cfields; exact Pclose|].
  rewrite Ew, Ehead. auto.
Qed.

Theorem frame_nolen_w status hs ws kind chunks hc :
  r_error r = None -> no_handover kind ws -> len1 kind = false -> Forall (not_cl lower) hs ->
  plain_fields cap (strs_of hs) ->
  r_head r = false -> no_body_st status = false ->
  let res := channel_service cap lower c r (wapp status hs ws kind chunks hc) None in
  o_raw res = None ->
  exists fields,
    parse_one false (wire (o_writes res))
    = Some (mkResponse (sl_of status) fields
                       (if beqb (r_version r) (lit "1.1") then FChunked else FEof)
                       (concat ws ++ produced kind chunks), [])
    /\ (forall h, In h (strs_of hs) -> In (client_field (norm_field cap h)) fields)
    /\ In (client_field f_close) fields
    /\ o_close res = true /\ o_next res = false.
Proof.
  intros He Hnh Hl Hcl Hpl Hhead Hst. cbn zeta. intro Hraw.
  destruct (nolen_common status hs ws kind chunks hc He (or_introl Hnh) Hl Hcl Hpl Hraw)
    as (tp & Hcleanp & Hnc & Hbp & Hclp & Pchk & Pte & Pcl & Psl & Pin & Pclose & Ew & Ec & En & _).
  rewrite Hst in Hbp. cbn [negb] in Hbp. rewrite Hbp, andb_true_r in Pchk, Pte.
  rewrite Ew, Hhead, Pchk, <- concat_ds. cbn [negb]. rewrite andb_true_r.
  exists (cfields tp). split; [|auto].
  destruct (beqb (r_version r) (lit "1.1")).
  - rewrite ws_sem_chunked by (cbn [t_chunked set_wrote]; auto). cbn [snd].
    fold (encode_chunked (ws ++ eff kind chunks)). rewrite <- (app_nil_r (encode_chunked _)).
    rewrite (parse_chunked tp _ [] Hcleanp Hnc Hbp Pte), Psl. reflexivity.
  - rewrite ws_sem_eof by (cbn [t_chunked t_clen set_wrote]; auto). cbn [snd]. rewrite app_nil_r.
    rewrite (parse_eof tp _ Hcleanp Hnc Hbp Pte Pcl), Psl. reflexivity.
Qed.

Theorem frame_head_nolen_w status hs ws kind chunks hc :
  r_error r = None -> no_handover kind ws -> len1 kind = false -> Forall (not_cl lower) hs ->
  plain_fields cap (strs_of hs) ->
  r_head r = true -> concat ws ++ produced kind chunks = [] ->
  let res := channel_service cap lower c r (wapp status hs ws kind chunks hc) None in
  o_raw res = None ->
  exists fields,
    parse_one true (wire (o_writes res)) = Some (mkResponse (sl_of status) fields FNoBody [], [])
    /\ (forall h, In h (strs_of hs) -> In (client_field (norm_field cap h)) fields)
    /\ In (client_field f_close) fields
    /\ o_close res = true /\ o_next res = false.
Proof.
  intros He Hnh Hl Hcl Hpl Hhead Hall. cbn zeta. intro Hraw.
  destruct (nolen_common status hs ws kind chunks hc He (or_introl Hnh) Hl Hcl Hpl Hraw)
    as (tp & Hcleanp & Hnc & _ & Hclp & _ & _ & _ & Psl & Pin & Pclose & Ew & Ec & En & _).
  rewrite <- concat_ds in Hall.
  assert (Hbody : snd (ws_sem (set_wrote true tp) (ws ++ eff kind chunks)) = []).
  { destruct (has_body tp) eqn:Hbp.
    - destruct (t_chunked tp) eqn:Ek.
      + rewrite ws_sem_chunked by auto. cbn [snd]. apply concat_nil_encode. exact Hall.
      + rewrite ws_sem_eof by auto. exact Hall.
    - apply ws_sem_nobody. exact Hbp. }
  rewrite Ew, Hhead, Hbody. cbn [negb]. rewrite andb_false_r.
  exists (cfields tp).
  pose proof (parse_nobody tp true [] Hcleanp Hnc (or_introl eq_refl)) as PN. rewrite app_nil_r in *. rewrite PN, Psl.
  auto.
Qed.

Theorem frame_nobody_any status hs ws kind chunks hc :
  r_error r = None -> len1 kind = false -> Forall (not_cl lower) hs ->
  plain_fields cap (strs_of hs) ->
  no_body_st status = true ->
  let res := channel_service cap lower c r (wapp status hs ws kind chunks hc) None in
  o_raw res = None ->
  exists fields,
    parse_one (r_head r) (wire (o_writes res)) = Some (mkResponse (sl_of status) fields FNoBody [], [])
    /\ (forall h, In h (strs_of hs) -> In (client_field (norm_field cap h)) fields)
    /\ In (client_field f_close) fields
    /\ filter (field_is te_name) fields = [] /\ filter (field_is cl_name) fields = []
    /\ o_close res = true /\ o_next res = false
    /\ o_handover res = false /\ o_closes res = (if hc then 1 else 0)%nat.
Proof.
  intros He Hl Hcl Hpl Hst. cbn zeta. intro Hraw.
  destruct (nolen_common status hs ws kind chunks hc He (or_intror Hst) Hl Hcl Hpl Hraw)
    as (tp & Hcleanp & Hnc & Hbp & _ & Pchk & Pte & Pcl & Psl & Pin & Pclose & Ew & Ec & En & Eho & Ecs).
  rewrite Hst in Hbp. cbn [negb] in Hbp. rewrite Hbp, andb_false_r in Pchk, Pte.
  destruct (ws_sem_nobody (ws ++ eff kind chunks) (set_wrote true tp) Hbp) as [Hbody _].
  rewrite Ew, Hbody, Pchk. cbn [andb List.app].
  exists (cfields tp).
  pose proof (parse_nobody tp (r_head r) [] Hcleanp Hnc (or_intror Hbp)) as PN. rewrite app_nil_r in *. rewrite PN, Psl.
  split; [reflexivity|]. split; [exact Pin|]. split; [exact Pclose|].
  split; [apply cfields_filter_nil; exact Pte|]. split; [apply cfields_filter_nil; exact Pcl|]. auto.
Qed.

Section Declared.
Variables (status : str) (pre post : list (pyobj * pyobj)) (clname v : str) (cl : Z).
Variables (ws : list bytes) (kind : ikind) (chunks : list bytes) (hc : bool).
Hypothesis He : r_error r = None.
Hypothesis Hnh : no_handover kind ws.
Hypothesis Hpost : Forall (not_cl lower) post.
Hypothesis Hn : beqb (lower clname) (lit "content-length") = true.
Hypothesis Hv : py_int v = Some cl.
Hypothesis Hdig : all_digits v = true.
Hypothesis Hdv : Z.of_N (dec_value v) = cl.
Hypothesis Ppre : plain_fields cap (strs_of pre).
Hypothesis Ppost : plain_fields cap (strs_of post).
Hypothesis Hnorm : norm_name cap clname = lit "Content-Length".
Hypothesis Hst : no_body_st status = false.

Let hs := pre ++ (PStr clname, PStr v) :: post.
Let all := concat ws ++ produced kind chunks.
Let res := channel_service cap lower c r (wapp status hs ws kind chunks hc) None.

(* one declared length: the prepared task and its head as the client reads it, the
   wire as head ++ the first cl bytes produced, and the decision (keep_of, or too few) *)
Lemma declared_common :
  o_raw res = None ->
  (ws ++ eff kind chunks = [] -> cl = 0%Z \/ r_head r = true) ->
  exists tp,
    task_clean tp /\ nocolon_rh tp /\ has_body tp = true
    /\ te_fields tp = [] /\ cl_fields tp = [(lit "Content-Length", v)]
    /\ first_line tp = sl_of status
    /\ (forall h, In h (strs_of hs) -> In (client_field (norm_field cap h)) (cfields tp))
    /\ (keep_of r = false -> In (client_field f_close) (cfields tp))
    /\ (keep_of r = true -> ~ In (client_field f_close) (cfields tp))
    /\ wire (o_writes res) = head_text tp ++ firstn (Z.to_nat cl) all
    /\ o_close res = negb (keep_of r) || (negb (Z.min cl (Z.of_nat (length all)) =? cl)%Z && negb (r_head r))
    /\ o_next res = negb (o_close res).
Proof.
  intros Hraw Hempty.
  destruct (wapp_wire_u status hs ws kind chunks hc He (or_introl Hnh)) with (2 := Hraw) as (t1 & Esr & U).
  { intros t1 Esr. rewrite (start_response_cl lower _ clname v cl pre post status t1 Hpost Hn Hv Esr). apply andb_false_r. }
  destruct (len_start_facts status pre clname v post cl t1 Esr Hpost Hn Hv)
    as (Hclean1 & S2 & S3 & S4 & S5 & S6 & S7 & S8 & S9 & Hclen).
  cbn zeta in U. destruct U as (tp & head & Eb & Ew & Ec & En & _).
  { intros Hds. unfold toofew. rewrite Hclen, S8. destruct (Hempty Hds) as [->| ->]; [reflexivity|apply andb_false_r]. }
  destruct (brh_ok _ _ _ Eb) as [Etp Ehead].
  assert (Hb1 : has_body t1 = true) by (rewrite (has_body_status t1 status S2), Hst; reflexivity).
  pose proof (len_head_facts cap lower Hcap Hcap_conn Hcap_te Hcap_cl c Hc r t1 (strs_of pre) clname v (strs_of post)
                             Hclean1 S6 S5 S7 S9 S3 Ppre Ppost Hnorm Hb1 Hdig) as F.
  cbn zeta in F. rewrite <- Etp in F.
  destruct F as (Hcleanp & Hnc & Pst & Pv & Pcof & Pchk & Pte & Pcl & Pin & Pc1 & Pc2).
  assert (Hbp : has_body tp = true) by (unfold has_body in *; rewrite Pst; exact Hb1).
  destruct (keeps_bh_prepare cap lower c r t1) as (_ & _ & K3 & K4 & _). rewrite <- Etp in K3, K4.
  assert (Hcl0 : (0 <= cl)%Z) by (rewrite <- Hdv; apply N2Z.is_nonneg).
  destruct (ws_sem_len (ws ++ eff kind chunks) (set_wrote true tp) cl) as [B1 B2];
    try (cbn [t_chunked t_clen t_cbw set_wrote]; congruence); auto.
  { cbn [t_cbw set_wrote]. rewrite K4, S8. clear - Hcl0. lia. }
  cbn [t_cbw set_wrote] in B1, B2. rewrite K4, S8, Z.sub_0_r, concat_ds in B1. rewrite K4, S8, Z.add_0_l, concat_ds in B2.
  fold all in B1, B2.
  assert (Htf : toofew r (fst (ws_sem (set_wrote true tp) (ws ++ eff kind chunks)))
                = negb (Z.min cl (Z.of_nat (length all)) =? cl)%Z && negb (r_head r)).
  { unfold toofew. destruct (ws_sem_same (ws ++ eff kind chunks) (set_wrote true tp)) as (_ & _ & _ & _ & _ & A6 & _).
    rewrite A6. cbn [t_clen set_wrote]. rewrite K3, Hclen, B2. reflexivity. }
  exists tp. split; [exact Hcleanp|]. split; [exact Hnc|]. split; [exact Hbp|]. split; [exact Pte|]. split; [exact Pcl|].
  split; [apply (first_line_sl tp t1 status Pst Pv S2 S9)|].
  split; [intros h Hh; apply in_cfields; apply Pin; rewrite S3; unfold hs in Hh; rewrite strs_of_app in Hh; exact Hh|].
  split; [intro Hk; apply in_cfields; apply Pc1; exact Hk|]. split; [exact Pc2|].
  unfold res. rewrite Ew, En, Ec, Ehead, B1, Pchk, Htf, Pcof. cbn [andb]. rewrite app_nil_r. auto.
Qed.

Theorem frame_len_cut_w :
  r_head r = false -> (cl <= Z.of_nat (length all))%Z ->
  o_raw res = None ->
  exists fields,
    parse_one false (wire (o_writes res))
    = Some (mkResponse (sl_of status) fields (FLength (dec_value v)) (firstn (N.to_nat (dec_value v)) all), [])
    /\ (forall h, In h (strs_of hs) -> In (client_field (norm_field cap h)) fields)
    /\ o_next res = keep_of r /\ o_close res = negb (keep_of r)
    /\ (keep_of r = false -> In (client_field f_close) fields)
    /\ (keep_of r = true -> ~ In (client_field f_close) fields).
Proof.
  intros Hhead Hlen Hraw.
  destruct (declared_common Hraw) as (tp & Hcleanp & Hnc & Hbp & Pte & Pcl & Psl & Pin & Pc1 & Pc2 & Ew & Ec & En).
  { intro Hds. left. pose proof (concat_ds ws kind chunks) as E. rewrite Hds in E. cbn [concat] in E. fold all in E.
    rewrite <- E in Hlen. cbn [length] in Hlen. assert (0 <= cl)%Z by (rewrite <- Hdv; apply N2Z.is_nonneg).
    clear - Hlen H. lia. }
  assert (Hn2 : Z.to_nat cl = N.to_nat (dec_value v)) by (rewrite <- Hdv; rewrite <- Z_N_nat, N2Z.id; reflexivity).
  assert (Hmin : Z.min cl (Z.of_nat (length all)) = cl) by (clear - Hlen; lia).
  rewrite En, Ec, Ew, Hmin, Z.eqb_refl, Hn2. cbn [negb andb]. rewrite orb_false_r, negb_involutive.
  exists (cfields tp).
  assert (Hbl : lenN (firstn (N.to_nat (dec_value v)) all) = dec_value v).
  { unfold lenN. rewrite firstn_length, <- Hn2. rewrite Nat.min_l by (clear - Hlen; lia). rewrite Z_nat_N, <- Hdv. apply N2Z.id. }
  pose proof (parse_length tp v _ [] Hcleanp Hnc Hbp Pte Pcl Hdig Hbl) as PL. rewrite app_nil_r in PL.
  rewrite PL, Psl. repeat split; auto.
Qed.

Theorem frame_len_short_w :
  r_head r = false -> (Z.of_nat (length all) < cl)%Z -> ws ++ eff kind chunks <> [] ->
  o_raw res = None ->
  exists fields,
    parse_one false (wire (o_writes res)) = None
    /\ (forall pad, lenN (all ++ pad) = dec_value v ->
          parse_one false (wire (o_writes res) ++ pad)
          = Some (mkResponse (sl_of status) fields (FLength (dec_value v)) (all ++ pad), []))
    /\ (forall h, In h (strs_of hs) -> In (client_field (norm_field cap h)) fields)
    /\ o_close res = true /\ o_next res = false.
Proof.
  intros Hhead Hlen Hds Hraw.
  destruct (declared_common Hraw) as (tp & Hcleanp & Hnc & Hbp & Pte & Pcl & Psl & Pin & Pc1 & Pc2 & Ew & Ec & En).
  { intro X. contradiction. }
  assert (Hmin : Z.min cl (Z.of_nat (length all)) = Z.of_nat (length all)) by (clear - Hlen; lia).
  assert (Hne : (Z.of_nat (length all) =? cl)%Z = false) by (apply Z.eqb_neq; clear - Hlen; lia).
  rewrite En, Ec, Ew, Hmin, Hne, Hhead. cbn [negb andb]. rewrite orb_true_r.
  rewrite firstn_all2 by (clear - Hlen; lia).
  exists (cfields tp). split; [|split; [|split; [exact Pin|auto]]].
  - apply (parse_length_short tp v all Hcleanp Hnc Hbp Pte Pcl Hdig).
    unfold lenN. apply N2Z.inj_lt. rewrite Hdv, nat_N_Z. exact Hlen.
  - intros pad Hpad. rewrite <- app_assoc.
    pose proof (parse_length tp v (all ++ pad) [] Hcleanp Hnc Hbp Pte Pcl Hdig Hpad) as PL. rewrite app_nil_r in PL.
    rewrite PL, Psl. reflexivity.
Qed.

Theorem frame_head_len_w :
  r_head r = true -> all = [] ->
  o_raw res = None ->
  exists fields,
    parse_one true (wire (o_writes res)) = Some (mkResponse (sl_of status) fields FNoBody [], [])
    /\ (forall h, In h (strs_of hs) -> In (client_field (norm_field cap h)) fields)
    /\ o_next res = keep_of r /\ o_close res = negb (keep_of r)
    /\ (keep_of r = false -> In (client_field f_close) fields)
    /\ (keep_of r = true -> ~ In (client_field f_close) fields).
Proof.
  intros Hhead Hall Hraw.
  destruct (declared_common Hraw) as (tp & Hcleanp & Hnc & Hbp & Pte & Pcl & Psl & Pin & Pc1 & Pc2 & Ew & Ec & En).
  { intro Hds. right. exact Hhead. }
  rewrite En, Ec, Ew, Hall, Hhead, firstn_nil. cbn [negb]. rewrite andb_false_r, orb_false_r, negb_involutive.
  exists (cfields tp).
  pose proof (parse_nobody tp true [] Hcleanp Hnc (or_introl eq_refl)) as PN. rewrite PN, Psl.
  repeat split; auto.
Qed.

End Declared.

End End2.
