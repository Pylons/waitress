(* C10, call-site layer: the verdict the CODE AROUND each gate computes on the
   bytes of a line (Model/Receiver.v, Model/Parser.v -- transliterations of
   receiver.py / parser.py, tied to the code by the K-recv / K-parse
   correspondences) equals membership in the RFC grammar of the whole line. *)
From Coq Require Import List NArith Bool Lia.
From WV Require Import Lib.Regex Lib.RegexDec Lib.PyBytes Gen.GenRegex Spec.Grammar
  Proof.C10Gates Proof.RegexFacts Model.Receiver Model.Parser.
Import ListNotations.
Local Open Scope N_scope.

Definition no_semi : re := all_but 59.
Definition starts_semi : re := Cat (Sym 59) any_bytes.
(* what the code computes, written as a language: split at the first ';' *)
Definition site_chunk_line : re :=
  Alt (And no_semi gate_chunk_size)
      (Cat (And no_semi gate_chunk_size) (And starts_semi gate_chunk_ext)).
(* chunk-size [ chunk-ext ]   (RFC 9112 7.1, extensions as stated in C10) *)
Definition spec_chunk_line : re := Cat spec_chunk_size spec_chunk_ext.

Lemma site_chunk_line_is_grammar : forall s, bytes_ok s ->
  (Lang site_chunk_line s <-> Lang spec_chunk_line s).
Proof. apply equiv_check_sound. vm_compute. reflexivity. Qed.

Definition chunk_line_accepts (line : bytes) : bool :=
  match control_line_verdict line with LVSize _ => true | _ => false end.

Lemma Lang_no_semi s : bytes_ok s -> (Lang no_semi s <-> Forall (fun x => x <> 59) s).
Proof. apply Lang_all_but. lia. Qed.

Lemma Lang_starts_semi s : bytes_ok s -> (Lang starts_semi s <-> exists t, s = 59 :: t).
Proof.
  intro Hs. unfold starts_semi. rewrite Lang_Cat. split.
  - intros (u & v & -> & Hu & _). apply Lang_Sym in Hu. subst. simpl. eauto.
  - intros (t & ->). exists [59], t. repeat split; auto.
    + apply Lang_Sym; auto.
    + apply Lang_any_bytes. inversion Hs; auto.
Qed.

Lemma chunk_line_accepts_site line : bytes_ok line ->
  (chunk_line_accepts line = true <-> Lang site_chunk_line line).
Proof.
  intro Hl. unfold chunk_line_accepts, control_line_verdict, site_chunk_line.
  rewrite Lang_Alt, Lang_And, Lang_Cat.
  pose proof (find_char line 59) as F.
  destruct (find line [59]) as [j|].
  - destruct F as (a & b & -> & Ha & ->).
    rewrite firstn_app_exact, skipn_app_exact.
    apply bytes_ok_app in Hl as [Hla Hlb].
    assert (NS : ~ Lang no_semi (a ++ 59 :: b)).
    { rewrite Lang_no_semi by (apply bytes_ok_app; auto). rewrite Forall_forall.
      intro H. apply (H 59); auto. apply in_or_app; right; left; auto. }
    split.
    + intro H. right. exists a, (59 :: b).
      destruct (matches gate_chunk_ext (59 :: b)) eqn:E1; simpl in H; [|discriminate].
      destruct (matches gate_chunk_size a) eqn:E2; simpl in H; [|discriminate].
      rewrite Lang_And, Lang_And. repeat split; auto.
      * apply Lang_no_semi; auto.
      * apply matches_correct; auto.
      * apply Lang_starts_semi; eauto.
      * apply matches_correct; auto.
    + intros [[H _]|(u & v & E & Hu & Hv)]; [contradiction|].
      apply Lang_And in Hu as [Hu1 Hu2]. apply Lang_And in Hv as [Hv1 Hv2].
      assert (Huv : bytes_ok (u ++ v)) by (rewrite <- E; apply bytes_ok_app; auto).
      apply bytes_ok_app in Huv as [Hbu Hbv].
      apply Lang_starts_semi in Hv1 as (t & ->); auto.
      apply Lang_no_semi in Hu1; auto.
      destruct (first_char_unique 59 a b u t Ha Hu1 E) as [<- <-].
      apply matches_correct in Hu2, Hv2. rewrite Hu2, Hv2. reflexivity.
  - assert (NR : forall u v, line = u ++ v -> ~ (exists t, v = 59 :: t)).
    { intros u v -> (t & ->). rewrite Forall_forall in F. apply (F 59); auto.
      apply in_or_app; right; left; auto. }
    split.
    + intro H. left. destruct (matches gate_chunk_size line) eqn:E; simpl in H; [|discriminate].
      split; [apply Lang_no_semi; auto | apply matches_correct; auto].
    + intros [[_ H]|(u & v & E & _ & Hv)].
      * apply matches_correct in H. rewrite H. reflexivity.
      * exfalso. apply Lang_And in Hv as [Hv1 _].
        assert (Huv : bytes_ok (u ++ v)) by (rewrite <- E; auto).
        apply bytes_ok_app in Huv as [_ Hbv].
        apply Lang_starts_semi in Hv1; auto. eapply NR; eauto.
Qed.

(* the numeric value used after the gate is the positional hexadecimal value *)
Lemma hex_value_acc_app s x acc :
  hex_value_acc (s ++ [x]) acc =
  16 * hex_value_acc s acc + match hexval x with Some v => v | None => 0 end.
Proof. revert acc; induction s as [|y s IH]; intro acc; cbn [hex_value_acc app]; [reflexivity | apply IH]. Qed.

Lemma dec_value_acc_app s x acc :
  dec_value_acc (s ++ [x]) acc = 10 * dec_value_acc s acc + (x - 48).
Proof. revert acc; induction s as [|y s IH]; intro acc; cbn [dec_value_acc app]; [reflexivity | apply IH]. Qed.

Lemma has_cr_or_lf_false s : bytes_ok s -> has_cr_or_lf s = false -> Lang no_crlf s.
Proof.
  intros Hs H. unfold has_cr_or_lf in H. apply orb_false_iff in H as [H1 H2].
  apply memb_false_forall in H1, H2. unfold no_crlf. apply Lang_star_cls.
  unfold bytes_ok in Hs. rewrite Forall_forall in *. intros x Hx.
  specialize (Hs x Hx). specialize (H1 x Hx). specialize (H2 x Hx). simpl.
  rewrite orb_false_r, !orb_true_iff, !andb_true_iff, !N.leb_le. lia.
Qed.

Lemma has_cr_or_lf_app a b : has_cr_or_lf (a ++ b) = has_cr_or_lf a || has_cr_or_lf b.
Proof.
  unfold has_cr_or_lf, memb. rewrite !existsb_app.
  destruct (existsb (N.eqb 13) a), (existsb (N.eqb 13) b), (existsb (N.eqb 10) a), (existsb (N.eqb 10) b); reflexivity.
Qed.

Lemma header_lines_go_clean lines r out :
  Forall (fun l => has_cr_or_lf l = false) r ->
  header_lines_go lines r = inr out ->
  Forall (fun l => has_cr_or_lf l = false) out.
Proof.
  revert r; induction lines as [|line rest IH]; intros r Hr H; simpl in H.
  - injection H as <-. apply Forall_rev; auto.
  - destruct line as [|c line']; [eauto|].
    destruct (has_cr_or_lf (c :: line')) eqn:E; [discriminate|].
    destruct ((c =? 32) || (c =? 9)).
    + destruct r as [|last r']; [discriminate|].
      inversion Hr; subst. eapply IH; [|exact H]. constructor; auto.
      rewrite has_cr_or_lf_app. rewrite E. rewrite H2. reflexivity.
    + eapply IH; [|exact H]. constructor; auto.
Qed.

Lemma get_header_lines_clean header lines :
  get_header_lines header = inr lines -> Forall (fun l => has_cr_or_lf l = false) lines.
Proof. unfold get_header_lines. apply header_lines_go_clean. constructor. Qed.

Definition header_line_accepts (line : bytes) : bool := matches gate_header_field line.

Lemma add_header_line_verdict h line :
  (exists e, add_header_line h line = inl e /\ e = EInvalidHeader) <-> header_line_accepts line = false.
Proof.
  unfold add_header_line, header_line_accepts. destruct (matches gate_header_field line); simpl.
  - split; [|discriminate]. intros (e & H & ->).
    destruct (partition line [58]) as [[name sep] rest].
    destruct (memb 95 name); [discriminate|].
    destruct (hget h (header_key name)); [|discriminate].
    destruct (is_singleton (header_key name)); discriminate.
  - split; auto. intros _. eauto.
Qed.

(* C10 for header lines as the parser applies the gate: every (unfolded) line
   handed to the gate is free of CR and LF, and for those the gate is
   token ":" OWS field-value OWS *)
Theorem header_line_callsite header lines :
  get_header_lines header = inr lines ->
  forall line, In line lines -> bytes_ok line ->
  (header_line_accepts line = true <-> Lang spec_header_field line).
Proof.
  intros H line Hin Hb. apply get_header_lines_clean in H.
  rewrite Forall_forall in H. specialize (H line Hin).
  unfold header_line_accepts. rewrite matches_correct.
  apply header_field_exact; auto. apply has_cr_or_lf_false; auto.
Qed.

(* non-vacuity *)
Example chunk_line_ok : chunk_line_accepts [49; 97; 59; 120; 61; 34; 121; 34] = true.   (* 1a;x="y" *)
Proof. vm_compute. reflexivity. Qed.
Example chunk_line_lf : chunk_line_accepts [53; 10] = false.
Proof. vm_compute. reflexivity. Qed.
Example chunk_line_sp : chunk_line_accepts [53; 32; 59; 97] = false.                  (* "5 ;a" *)
Proof. vm_compute. reflexivity. Qed.
