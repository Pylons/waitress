(* The channel's output queue at byte level (Model/ChanOut.v) is a FIFO byte
   queue across buffer rotation, file-wrapper hand-over, partial sends, socket
   errors and the pop-and-close of drained buffers -- composed from the buffer
   refinements of C17 (Proof/BuffersRefine.v, Proof/BuffersRo.v). *)
From Coq Require Import List NArith ZArith Bool Lia ZifyBool Arith.
From WV Require Import Lib.PyBytes Model.Buffers Spec.Fifo Proof.Buffers Proof.BuffersRefine Proof.BuffersRo
  Model.ChanOut.
Import ListNotations.
Local Open Scope Z_scope.

Lemma match_app_one {A B} (l : list A) (x : A) (a b : B) :
  match l ++ [x] with [] => a | _ :: _ => b end = b.
Proof. destruct l; reflexivity. Qed.

Lemma q_len_app (a b : list N) : q_len (a ++ b) = q_len a + q_len b.
Proof. unfold q_len. rewrite app_length. lia. Qed.

Lemma q_len_nil_iff (q : list N) : q_len q <= 0 -> q = [].
Proof. unfold q_len. destruct q; cbn; [auto | lia]. Qed.

Lemma firstn_prefix_eq (n : nat) (chunk q : list N) :
  is_prefix chunk q -> (n <= length chunk)%nat -> firstn n chunk = firstn n q.
Proof.
  intros (rest & ->) Hn. rewrite firstn_app. replace (n - length chunk)%nat with 0%nat by lia.
  cbn [firstn]. now rewrite app_nil_r.
Qed.

Lemma prefix_len (b q : list N) : is_prefix b q -> (length b <= length q)%nat.
Proof. intros (rest & ->). rewrite app_length. lia. Qed.

Definition bok (b : outbuf) : Prop :=
  match b with
  | OB o => inv o
  | RO r => exists c p0 P, ro_inv c p0 P r
  end.

Definition babs (b : outbuf) : queue :=
  match b with OB o => abs o | RO r => ro_abs r end.

Definition is_ob (b : outbuf) : bool := match b with OB _ => true | RO _ => false end.

Definition cfg_ok (c : cfg) : Prop := 0 < c_sendbuf_len c.

Lemma b_len_abs b : bok b -> b_len b = q_len (babs b).
Proof.
  destruct b as [o | r]; cbn [bok b_len babs].
  - apply abs_len.
  - intros (c & p0 & P & Hi). unfold fb_len. symmetry. now apply ro_abs_len with (c := c) (p0 := p0) (P := P).
Qed.

Lemma q_peek_nonempty n q : 0 < n -> q <> [] -> q_peek n q <> [].
Proof.
  intros Hn Hq. unfold q_peek. destruct (n <? 0) eqn:E; [lia|].
  destruct q as [|x q]; [congruence|].
  destruct (Z.to_nat n) eqn:En; [lia|]. cbn. discriminate.
Qed.

(* outbuf.get(sendbuf_len): the buffer is untouched, the chunk is a prefix of what
   is queued, non-empty when anything is queued *)
Lemma b_get_spec c b : cfg_ok c -> bok b ->
  exists chunk, b_get c b = (b, Ok chunk) /\ is_prefix chunk (babs b) /\ (babs b <> [] -> chunk <> []).
Proof.
  intros Hc Hb. destruct b as [o | r]; cbn [bok b_get babs] in *.
  - destruct (get_noskip_spec (c_overflow c) o (c_sendbuf_len c) Hb) as (ch & H1 & H2).
    rewrite H1. exists ch. split; [reflexivity|]. destruct H2 as [-> | ->].
    + split; [apply q_peek_prefix | now apply q_peek_nonempty].
    + split; [apply is_prefix_refl | auto].
  - destruct Hb as (cc & p0 & P & Hi).
    assert (Hv : ro_valid (ROGet (c_sendbuf_len c) false)) by (cbn; unfold cfg_ok in Hc; lia).
    destruct (ro_step_refines cc p0 P r _ Hi Hv) as (_ & _ & Ho & Hs).
    cbn [ro_step ro_spec_of q_step snd fst] in Ho, Hs.
    destruct (ro_get r (c_sendbuf_len c) false) as [[r' res] | e] eqn:E; cbn [fst snd ro_out_ok] in Ho, Hs.
    + subst r' res. exists (q_peek (c_sendbuf_len c) (ro_abs r)). split; [reflexivity|].
      split; [apply q_peek_prefix | now apply q_peek_nonempty].
    + now elim Ho.
Qed.

(* outbuf.skip(n, True) with n no more than what is queued *)
Lemma b_skip_spec c b n : bok b -> Z.of_N n <= q_len (babs b) ->
  exists b', b_skip c b n = (b', Ok tt) /\ bok b' /\ babs b' = skipn (N.to_nat n) (babs b) /\ is_ob b' = is_ob b.
Proof.
  intros Hb Hn. destruct b as [o | r]; cbn [bok b_skip babs] in *.
  - destruct (skip_ok_spec (c_overflow c) o n true Hb Hn) as (o' & H1 & H2 & H3).
    rewrite H1. exists (OB o'). auto.
  - destruct Hb as (cc & p0 & P & Hi).
    destruct (ro_step_refines cc p0 P r (ROSkip n) Hi I) as (Hi' & Ha & Ho & _).
    cbn [ro_step ro_spec_of] in *. unfold q_next, q_step in *.
    destruct (Z.of_N n <=? q_len (ro_abs r)) eqn:E; [|lia].
    cbn [fst snd] in *. destruct (fb_skip r n) as [r' | e]; cbn [fst snd ro_out_ok] in *; [|now elim Ho].
    exists (RO r'). split; [reflexivity|]. split; [cbn [bok]; eauto|]. split; [exact Ha | reflexivity].
Qed.

Definition cabs (ch : chan) : bytes := concat (map babs (outbufs ch)).

Fixpoint lastw (l : list outbuf) : bool :=
  match l with
  | [] => false
  | [b] => is_ob b
  | _ :: t => lastw t
  end.

Definition cinv (ch : chan) : Prop :=
  Forall bok (outbufs ch) /\ lastw (outbufs ch) = true /\ total_outbufs_len ch = q_len (cabs ch).

Lemma cinv_new : cinv chan_new.
Proof.
  unfold cinv, chan_new, cabs; cbn. repeat split; auto. constructor; [apply inv_new | constructor].
Qed.

Lemma lastw_split l : lastw l = true -> exists l' o, l = l' ++ [OB o].
Proof.
  induction l as [|b l IH]; cbn [lastw]; [discriminate|].
  destruct l as [|b2 l2].
  - destruct b as [o | r]; cbn; [|discriminate]. intros _. exists [], o. reflexivity.
  - intro H. destruct (IH H) as (l' & o & E). exists (b :: l'), o. now rewrite E.
Qed.

Lemma lastw_app l b : lastw (l ++ [b]) = is_ob b.
Proof.
  induction l as [|x l IH]; [reflexivity|]. cbn [app lastw].
  destruct (l ++ [b]) eqn:E; [destruct l; discriminate | exact IH].
Qed.

Lemma lastw_app2 l a b : lastw (l ++ [a; b]) = is_ob b.
Proof. change [a; b] with ([a] ++ [b]). rewrite app_assoc. apply lastw_app. Qed.

Lemma set_last_app l x b : set_last (l ++ [x]) b = l ++ [b].
Proof.
  induction l as [|y l IH]; [reflexivity|]. cbn [app set_last].
  destruct (l ++ [x]) eqn:E; [destruct l; discriminate|]. now rewrite IH.
Qed.

Lemma cabs_app ch l : cabs (mkchan (outbufs ch ++ l) (total_outbufs_len ch) (current_outbuf_count ch)) =
  cabs ch ++ concat (map babs l).
Proof. unfold cabs; cbn [outbufs]. now rewrite map_app, concat_app. Qed.

(* appending to the writable last buffer, as write_soon and send_continue do *)
Lemma append_last c bufs data : Forall bok bufs -> lastw bufs = true ->
  exists l o o', bufs = l ++ [OB o] /\
    o_append FNone (c_strbuf_limit c) (c_overflow c) o data = (o', Ok tt) /\
    Forall bok (l ++ [OB o']) /\ abs o' = abs o ++ data.
Proof.
  intros Hf Hl. destruct (lastw_split bufs Hl) as (l & o & ->).
  apply Forall_app in Hf as (Hf1 & Hf2). inversion Hf2 as [|? ? Ho _]; subst. cbn [bok] in Ho.
  destruct (append_spec (c_strbuf_limit c) (c_overflow c) o data Ho) as (o' & H1 & H2 & H3).
  exists l, o, o'. repeat split; auto.
  apply Forall_app; split; [exact Hf1 | constructor; [exact H2 | constructor]].
Qed.

Lemma cabs_last l o o' data : abs o' = abs o ++ data ->
  concat (map babs (l ++ [OB o'])) = concat (map babs (l ++ [OB o])) ++ data.
Proof. intro H. rewrite !map_app, !concat_app. cbn. rewrite H, !app_nil_r, app_assoc. reflexivity. Qed.

(* what write_soon(bytes) leaves: after the rotation, if any, the data is appended to the last buffer *)
Lemma write_bytes_shape c ch data : cinv ch ->
  let rot := current_outbuf_count ch >=? c_high_watermark c in
  exists l o o',
    (if rot then outbufs ch ++ [OB o_new] else outbufs ch) = l ++ [OB o] /\
    Forall bok (l ++ [OB o']) /\ abs o' = abs o ++ data /\
    write_bytes_buf c ch data =
      (mkchan (l ++ [OB o']) (total_outbufs_len ch + lenZ data)
              ((if rot then 0 else current_outbuf_count ch) + lenZ data), Done).
Proof.
  intros (Hf & Hl & _). cbv zeta. unfold write_bytes_buf.
  set (rot := current_outbuf_count ch >=? c_high_watermark c).
  assert (Hx : Forall bok (if rot then outbufs ch ++ [OB o_new] else outbufs ch) /\
               lastw (if rot then outbufs ch ++ [OB o_new] else outbufs ch) = true).
  { destruct rot; [|auto]. split; [|apply lastw_app].
    apply Forall_app; split; [exact Hf | constructor; [apply inv_new | constructor]]. }
  destruct (append_last c _ data (proj1 Hx) (proj2 Hx)) as (l & o & o' & E & H1 & Hf' & H3).
  exists l, o, o'. repeat split; auto.
  destruct rot; cbv beta iota; rewrite E, (match_app_one l (OB o)), last_last, H1, set_last_app; reflexivity.
Qed.

Lemma write_bytes_spec c ch data : cinv ch ->
  exists ch', write_bytes_buf c ch data = (ch', Done) /\ cinv ch' /\ cabs ch' = cabs ch ++ data.
Proof.
  intros Hi. destruct (write_bytes_shape c ch data Hi) as (l & o & o' & E & Hf' & H3 & ->).
  destruct Hi as (_ & _ & Ht). eexists; split; [reflexivity|].
  match goal with |- cinv ?x /\ _ => assert (Hc : cabs x = cabs ch ++ data) end.
  { unfold cabs at 1; cbn [outbufs]. rewrite (cabs_last _ _ _ _ H3), <- E. f_equal.
    destruct (_ >=? _); [|reflexivity]. rewrite map_app, concat_app. cbn. now rewrite !app_nil_r. }
  split; [|exact Hc]. split; [exact Hf' | split; [apply lastw_app|]].
  rewrite Hc, q_len_app. cbn [total_outbufs_len]. rewrite Ht. unfold q_len, lenZ. lia.
Qed.

Lemma write_file_spec ch rb : cinv ch -> bok (RO rb) ->
  cinv (write_file_buf ch rb) /\ cabs (write_file_buf ch rb) = cabs ch ++ ro_abs rb.
Proof.
  intros (Hf & Hl & Ht) Hb. unfold write_file_buf.
  assert (Hc : cabs (mkchan (outbufs ch ++ [RO rb; OB o_new]) (total_outbufs_len ch + fb_len rb) 0) = cabs ch ++ ro_abs rb).
  { unfold cabs; cbn [outbufs]. rewrite map_app, concat_app. cbn. now rewrite !app_nil_r. }
  split; [|exact Hc]. unfold cinv; cbn [outbufs total_outbufs_len]. split; [|split].
  - apply Forall_app; split; [exact Hf|]. constructor; [exact Hb|]. constructor; [apply inv_new | constructor].
  - now rewrite lastw_app2.
  - rewrite Hc, q_len_app, Ht. f_equal. exact (b_len_abs (RO rb) Hb).
Qed.

Definition phase_ok (ch : chan) (ph : phase) : Prop :=
  match ph, outbufs ch with
  | PInner l, b :: _ => l = q_len (babs b)
  | _, _ => True
  end.

Definition flush_measure (ch : chan) (ph : phase) (ans : list answer) : nat :=
  (length ans + 2 * length (outbufs ch) + match ph with PHead => 1 | PInner _ => 0 end)%nat.

Definition nonempty (s : bytes) : Prop := s <> [].
Definition drained (b : outbuf) : Prop := babs b = [].

Record flush_ok (ch : chan) (wire : bytes) (sent : Z) (chunks : list bytes) (closed : list outbuf) (f : flushed) : Prop := {
  fo_stop : f_stop f = Done \/ f_stop f = SockRaised;
  fo_inv : cinv (f_chan f);
  fo_fifo : wire ++ cabs ch = f_wire f ++ cabs (f_chan f);
  fo_sent : f_sent f - sent = lenZ (f_wire f) - lenZ wire;
  fo_grow : is_prefix wire (f_wire f);
  fo_chunks : Forall nonempty chunks -> Forall nonempty (f_chunks f);
  fo_closed : Forall drained closed -> Forall drained (f_closed f);
  fo_count : current_outbuf_count (f_chan f) = current_outbuf_count ch;
  (* what is left is a suffix of what was queued, its head possibly shorter *)
  fo_suffix : exists pre b0 b rest, outbufs ch = pre ++ b0 :: rest /\ outbufs (f_chan f) = b :: rest /\
                 q_len (babs b) <= q_len (babs b0) /\ is_ob b = is_ob b0
}.

Lemma flush_ok_stop ch ans wire sent chunks chunks' closed st : cinv ch ->
  st = Done \/ st = SockRaised -> (Forall nonempty chunks -> Forall nonempty chunks') ->
  flush_ok ch wire sent chunks closed (mkflushed ch ans wire sent chunks' closed st).
Proof.
  intros Hi Hs Hch. constructor; cbn [f_stop f_chan f_wire f_sent f_chunks f_closed]; auto; try lia.
  - apply is_prefix_refl.
  - destruct Hi as (_ & Hl & _). destruct (outbufs ch) as [|ob rest]; [discriminate Hl|].
    exists [], ob, ob, rest. repeat split. lia.
Qed.

Lemma flush_go_spec c : cfg_ok c -> forall fuel ch ph ans wire sent chunks closed,
  cinv ch -> phase_ok ch ph -> (flush_measure ch ph ans < fuel)%nat ->
  flush_ok ch wire sent chunks closed (flush_go fuel c ch ph ans wire sent chunks closed).
Proof.
  intros Hc. induction fuel as [|fuel IH]; intros ch ph ans wire sent chunks closed Hi Hp Hm; [lia|].
  pose proof Hi as (Hf & Hl & Ht).
  cbn [flush_go]. destruct (outbufs ch) as [|ob rest] eqn:Eo; [discriminate|].
  inversion Hf as [|? ? Hob Hrest]; subst.
  destruct ph as [|l].
  - apply IH.
    + exact Hi.
    + unfold phase_ok. rewrite Eo. apply b_len_abs; exact Hob.
    + unfold flush_measure in *. rewrite Eo in *. cbn [length] in *. lia.
  - unfold phase_ok in Hp. rewrite Eo in Hp. subst l.
    destruct (q_len (babs ob) >? 0) eqn:El.
    + (* a chunk is offered *)
      destruct (b_get_spec c ob Hc Hob) as (chunk & Hg & Hpre & Hne). rewrite Hg.
      assert (Hq : babs ob <> []) by (intro E; rewrite E in El; cbn in El; discriminate).
      specialize (Hne Hq).
      assert (Hsame : set_head ch ob (total_outbufs_len ch) = ch).
      { unfold set_head. rewrite Eo. cbn [tl]. destruct ch; cbn in *; now subst. }
      rewrite Hsame.
      assert (Hch : Forall nonempty chunks -> Forall nonempty (chunks ++ [chunk])).
      { intro H. apply Forall_app; split; [exact H | constructor; [exact Hne | constructor]]. }
      destruct ans as [|a ans'].
      * (* no answer left: Sent 0 *)
        rewrite N.min_0_l. cbn [N.eqb]. apply flush_ok_stop; auto.
      * destruct a as [k|].
        2:{ apply flush_ok_stop; auto. }
        set (n := N.min k (N.of_nat (length chunk))).
        destruct (n =? 0)%N eqn:En.
        -- apply flush_ok_stop; auto.
        -- assert (Hn1 : (N.to_nat n <= length chunk)%nat) by lia.
           assert (Hn2 : Z.of_N n <= q_len (babs ob)).
           { pose proof (prefix_len _ _ Hpre). unfold q_len. lia. }
           destruct (b_skip_spec c ob n Hob Hn2) as (ob2 & Hs & Hob2 & Habs2 & Hisob).
           rewrite Hs. unfold set_head at 1. rewrite Eo. cbn [tl outbufs total_outbufs_len current_outbuf_count].
           set (ch2 := mkchan (ob2 :: rest) (total_outbufs_len ch - Z.of_N n) (current_outbuf_count ch)).
           assert (Hc2 : cabs ch = firstn (N.to_nat n) chunk ++ cabs ch2).
           { unfold cabs. rewrite Eo. cbn [outbufs ch2 map concat]. rewrite Habs2, app_assoc.
             rewrite (firstn_prefix_eq _ _ _ Hpre Hn1), firstn_skipn. reflexivity. }
           assert (Hi2 : cinv ch2).
           { unfold cinv. cbn [outbufs ch2 total_outbufs_len]. split; [|split].
             - constructor; assumption.
             - cbn [lastw] in *. destruct rest; [now rewrite Hisob | exact Hl].
             - rewrite Ht, Hc2, q_len_app. unfold q_len. rewrite firstn_length_le by lia. lia. }
           assert (Hp2 : phase_ok ch2 (PInner (q_len (babs ob) - Z.of_N n))).
           { unfold phase_ok. cbn [outbufs ch2]. rewrite Habs2. unfold q_len. rewrite skipn_length.
             pose proof (prefix_len _ _ Hpre). lia. }
           assert (Hm2 : (flush_measure ch2 (PInner (q_len (babs ob) - Z.of_N n)) ans' < fuel)%nat).
           { unfold flush_measure in *. rewrite Eo in Hm. cbn [outbufs ch2 length] in *. lia. }
           specialize (IH ch2 (PInner (q_len (babs ob) - Z.of_N n)) ans'
                          (wire ++ firstn (N.to_nat n) chunk) (sent + Z.of_N n) (chunks ++ [chunk]) closed Hi2 Hp2 Hm2).
           destruct IH as [S1 S2 S3 S4 S5 S6 S7 S8 S9].
           constructor; auto.
           ++ rewrite Hc2, app_assoc. exact S3.
           ++ unfold lenZ in *. rewrite app_length, firstn_length_le in S4 by lia. lia.
           ++ destruct S5 as (r & S5). exists (firstn (N.to_nat n) chunk ++ r). rewrite S5. symmetry. apply app_assoc.
           ++ destruct S9 as (pre & b0 & b & r & E1 & E2 & L0 & I0). cbn [outbufs ch2] in E1. rewrite Eo.
              destruct pre as [|p pre]; injection E1 as E3 E4.
              ** exists [], ob, b, rest. subst b0 r. rewrite Habs2 in L0. unfold q_len in *.
                 rewrite skipn_length in L0. repeat split; [exact E2 | lia | congruence].
              ** exists (ob :: pre), b0, b, r. rewrite E4. auto.
    + (* the head is drained *)
      assert (Hd : babs ob = []) by (apply q_len_nil_iff; lia).
      destruct rest as [|b2 rest'].
      * apply flush_ok_stop; auto.
      * set (ch2 := mkchan (b2 :: rest') (total_outbufs_len ch) (current_outbuf_count ch)).
        assert (Hc2 : cabs ch = cabs ch2).
        { unfold cabs. rewrite Eo. cbn [outbufs ch2 map concat]. rewrite Hd. reflexivity. }
        assert (Hi2 : cinv ch2).
        { unfold cinv. cbn [outbufs ch2 total_outbufs_len]. split; [exact Hrest | split; [exact Hl | now rewrite <- Hc2]]. }
        assert (Hm2 : (flush_measure ch2 PHead ans < fuel)%nat).
        { unfold flush_measure in *. rewrite Eo in Hm. cbn [outbufs ch2 length] in *. lia. }
        specialize (IH ch2 PHead ans wire sent chunks (closed ++ [ob]) Hi2 I Hm2).
        destruct IH as [S1 S2 S3 S4 S5 S6 S7 S8 S9].
        constructor; auto.
        -- now rewrite Hc2.
        -- intro H. apply S7. apply Forall_app; split; [exact H | constructor; [exact Hd | constructor]].
        -- destruct S9 as (pre & b0 & b & r & E1 & E2 & L0 & I0). cbn [outbufs ch2] in E1.
           exists (ob :: pre), b0, b, r. rewrite Eo. repeat split; auto. cbn [app]. now f_equal.
Qed.

Theorem flush_some_spec c ch ans : cfg_ok c -> cinv ch ->
  flush_ok ch [] 0 [] [] (flush_some c ch ans).
Proof.
  intros Hc Hi. apply flush_go_spec; auto; [exact I|].
  unfold flush_measure, flush_fuel. lia.
Qed.

Lemma send_continue_spec c ch ans : cfg_ok c -> cinv ch ->
  let w := send_continue c ch ans in
  cinv (w_chan w) /\
  cabs ch ++ continue_payload = (match w_flush w with Some f => f_wire f | None => [] end) ++ cabs (w_chan w) /\
  w_stop w = Done.
Proof.
  intros Hc (Hf & Hl & Ht). cbv zeta. unfold send_continue.
  destruct (append_last c _ continue_payload Hf Hl) as (l' & o & o' & El & H1 & Hf' & H3). rewrite El.
  rewrite (match_app_one l' (OB o)), last_last, H1, set_last_app.
  set (ch1 := mkchan (l' ++ [OB o']) (total_outbufs_len ch + lenZ continue_payload)
                     (current_outbuf_count ch + lenZ continue_payload)).
  assert (Hc1 : cabs ch1 = cabs ch ++ continue_payload).
  { unfold cabs. cbn [outbufs ch1]. rewrite El. apply cabs_last, H3. }
  assert (Hi1 : cinv ch1).
  { split; [exact Hf' | split; [apply lastw_app|]].
    rewrite Hc1, q_len_app. cbn [total_outbufs_len ch1]. rewrite Ht. unfold q_len, lenZ. lia. }
  destruct (flush_some_spec c ch1 ans Hc Hi1) as [S1 S2 S3 S4 S5 S6 S7 S8 S9].
  cbn [w_chan w_flush w_stop]. split; [exact S2|]. split.
  - rewrite <- Hc1. exact S3.
  - destruct S1 as [-> | ->]; reflexivity.
Qed.

Definition wdata_ok (d : wdata) : Prop :=
  match d with WBytes _ => True | WFile rb => bok (RO rb) end.

Definition cop_ok (p : cop) : Prop :=
  match p with CWrite d _ => wdata_ok d | CFlush _ | CContinue _ => True end.

Lemma written_by_file rb ans : written_by (CWrite (WFile rb) ans) = ro_abs rb.
Proof. reflexivity. Qed.

Lemma cstep_spec c ch p : cfg_ok c -> cinv ch -> cop_ok p ->
  let r := cstep c ch p in
  cinv (fst r) /\
  cabs ch ++ written_by p = s_wire (snd r) ++ cabs (fst r) /\
  (s_stop (snd r) = Done \/ s_stop (snd r) = SockRaised).
Proof.
  intros Hc Hi Hp. destruct p as [d ans | ans | ans]; cbn [cstep].
  3:{ destruct (send_continue_spec c ch ans Hc Hi) as (H1 & H2 & H3). cbv zeta in H1, H2, H3.
      cbn [fst snd s_wire s_stop written_by]. rewrite H3. auto. }
  - unfold write_soon. destruct (w_truthy d) eqn:Et; cbn [negb].
    2:{ destruct d as [[|x data] | rb]; try discriminate. cbn. rewrite !app_nil_r. auto. }
    assert (Hw : exists ch1, (match d with
                              | WBytes data => write_bytes_buf c ch data
                              | WFile rb => (write_file_buf ch rb, Done)
                              end) = (ch1, Done) /\ cinv ch1 /\ cabs ch1 = cabs ch ++ written_by (CWrite d ans)).
    { destruct d as [data | rb].
      - destruct (write_bytes_spec c ch data Hi) as (ch1 & H1 & H2 & H3). eauto.
      - destruct (write_file_spec ch rb Hi Hp) as (H1 & H2). eexists; split; [reflexivity|]. auto. }
    destruct Hw as (ch1 & -> & Hi1 & Ha1).
    destruct (total_outbufs_len ch1 >=? c_send_bytes c).
    + destruct (flush_some_spec c ch1 ans Hc Hi1) as [S1 S2 S3 S4 S5 S6 S7 S8 S9].
      cbn [w_chan w_flush w_stop fst snd s_wire s_stop]. split; [exact S2|]. split.
      * rewrite <- Ha1. exact S3.
      * destruct S1 as [-> | ->]; auto.
    + cbn. rewrite Ha1. auto.
  - destruct (flush_some_spec c ch ans Hc Hi) as [S1 S2 S3 S4 S5 S6 S7 S8 S9].
    cbn [fst snd s_wire s_stop written_by]. rewrite app_nil_r. auto.
Qed.

(* every history: what went to the socket followed by what is still queued is
   exactly what the application wrote, in order; the bookkeeping is exact *)
Theorem out_fifo c ps : cfg_ok c -> forall ch, cinv ch -> Forall cop_ok ps ->
  let r := crun c ch ps in
  cinv (fst r) /\
  cabs ch ++ concat (map written_by ps) = snd r ++ cabs (fst r).
Proof.
  intro Hc. induction ps as [|p ps IH]; intros ch Hi Hp; cbn [crun map concat].
  - cbn. now rewrite app_nil_r.
  - inversion Hp as [|? ? Hp1 Hp2]; subst.
    destruct (cstep_spec c ch p Hc Hi Hp1) as (H1 & H2 & _). cbv zeta in H1, H2.
    destruct (cstep c ch p) as [ch1 o] eqn:E1. cbn [fst snd] in *.
    specialize (IH ch1 H1 Hp2). cbv zeta in IH.
    destruct (crun c ch1 ps) as [ch2 w] eqn:E2. cbn [fst snd] in *.
    destruct IH as (H3 & H4). split; [exact H3|].
    rewrite app_assoc, H2, <- app_assoc, H4, app_assoc. reflexivity.
Qed.

Corollary out_fifo_new c ps : cfg_ok c -> Forall cop_ok ps ->
  let r := crun c chan_new ps in
  concat (map written_by ps) = snd r ++ cabs (fst r) /\
  total_outbufs_len (fst r) = q_len (cabs (fst r)) /\
  lastw (outbufs (fst r)) = true.
Proof.
  intros Hc Hp. destruct (out_fifo c ps Hc chan_new cinv_new Hp) as (H1 & H2). cbv zeta in *.
  split; [exact H2|]. destruct H1 as (_ & Hl & Ht). auto.
Qed.

(* the hypotheses are met by a history that rotates buffers (high watermark 4),
   hands over a file buffer, migrates a buffer to a file representation
   (STRBUF_LIMIT 3, overflow 6), sends partially (2 bytes per send call, chunks
   of at most 3), hits a socket error, and pops drained buffers *)
Definition ex_cfg : cfg := mkcfg 3 6 4 100 3.
Definition ex_file : fbuf := mkfbuf KRo (mkfile [9;8;7;6;5;4]%N 1 false) 4.
Definition ex_ops : list cop :=
  [CWrite (WBytes [1;2;3]%N) []; CWrite (WBytes [4;5]%N) []; CWrite (WBytes [6;7;8;9]%N) [];
   CFlush [Sent 2; Sent 2; Raise; Sent 9];
   CWrite (WFile ex_file) []; CWrite (WBytes [10;11]%N) [];
   CFlush [Sent 2; Sent 2; Sent 2; Sent 2; Sent 2; Sent 0; Sent 5]].

Example ex_ops_ok : cfg_ok ex_cfg /\ Forall cop_ok ex_ops.
Proof.
  split; [reflexivity|]. repeat constructor. cbn [cop_ok wdata_ok bok].
  exists [9;8;7;6;5;4]%N, 1%nat, 4. unfold ro_inv, ex_file; cbn. repeat split; lia.
Qed.

Example ex_run :
  let r := crun ex_cfg chan_new ex_ops in
  snd r = [1;2;3;4;5;6;7;8;9;8;7;6;5]%N /\ cabs (fst r) = [10;11]%N /\
  length (outbufs (fst r)) = 1%nat /\ total_outbufs_len (fst r) = 2.
Proof. vm_compute. repeat split. Qed.

(* flush_some_spec for the call as _flush_some is entered (nothing sent yet): the local counter
   [sent] is the number of bytes the socket took, and the return value says whether that is positive *)
Theorem flush_some_explicit c ch ans : cfg_ok c -> cinv ch ->
  let f := flush_some c ch ans in
  (f_stop f = Done \/ f_stop f = SockRaised) /\
  cinv (f_chan f) /\
  cabs ch = f_wire f ++ cabs (f_chan f) /\
  f_sent f = lenZ (f_wire f) /\
  flush_result f = negb (lenZ (f_wire f) =? 0) /\
  Forall nonempty (f_chunks f) /\
  Forall drained (f_closed f) /\
  current_outbuf_count (f_chan f) = current_outbuf_count ch.
Proof.
  intros Hc Hi. destruct (flush_some_spec c ch ans Hc Hi) as [S1 S2 S3 S4 S5 S6 S7 S8 S9]. cbv zeta.
  cbn [app] in S3. change (lenZ []) with 0 in S4.
  assert (Hs : f_sent (flush_some c ch ans) = lenZ (f_wire (flush_some c ch ans))) by lia.
  split; [exact S1|]. split; [exact S2|]. split; [exact S3|]. split; [exact Hs|].
  split; [|split; [apply S6; constructor | split; [apply S7; constructor | exact S8]]].
  unfold flush_result. rewrite Hs. unfold lenZ. destruct (f_wire (flush_some c ch ans)); cbn [length]; lia.
Qed.

(* An interim response is placed once, after everything written before send_continue() and before
   everything written after it -- whatever buffers are queued (a file-wrapper buffer of the previous
   response included), however the socket behaves. *)
Theorem continue_in_order c ps1 ps2 ans : cfg_ok c -> Forall cop_ok ps1 -> Forall cop_ok ps2 ->
  let r := crun c chan_new (ps1 ++ CContinue ans :: ps2) in
  snd r ++ cabs (fst r) = concat (map written_by ps1) ++ continue_payload ++ concat (map written_by ps2).
Proof.
  intros Hc H1 H2.
  assert (Hok : Forall cop_ok (ps1 ++ CContinue ans :: ps2)).
  { apply Forall_app; split; [exact H1 | constructor; [exact I | exact H2]]. }
  destruct (out_fifo_new c _ Hc Hok) as (E & _). cbv zeta in *. rewrite <- E.
  rewrite map_app, concat_app. cbn [map concat written_by]. reflexivity.
Qed.

(* a deferred interim response while a file-wrapper response is still queued: it goes behind the file *)
Example ex_continue_behind_file :
  let r := crun ex_cfg chan_new [CWrite (WBytes [1;2]%N) []; CWrite (WFile ex_file) []; CContinue (Sent 1 :: repeat (Sent 100) 20)] in
  snd r = [1;2;8;7;6;5]%N ++ continue_payload /\ cabs (fst r) = [].
Proof. vm_compute. split; reflexivity. Qed.
