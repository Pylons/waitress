(* C20, command lines with a single setting: --name=v, --name v, --name, --no-name,
   and --listen given several times, each followed by the application, denote the
   keyword form of that setting.  Instances of cli_construct_spec (every argv):
   what the specification's scanner does with one option word, and the keyword
   form of occurrences that all set the same name. *)
From Coq Require Import List NArith ZArith Bool Lia.
From WV Require Import Lib.PyBytes Gen.GenAdjust Model.Adjust Proof.AdjustSpec Proof.AdjustChecks
  Proof.AdjustLists Proof.AdjustCli Spec.AdjustCli Proof.AdjustCliAll Proof.AdjustCliKw.
Import ListNotations.
Local Open Scope N_scope.

(* the names of the option table are distinct and none is empty ([--] alone ends the options) *)
Lemma table_names : NoDup ([] :: map fst option_table).
Proof. apply nodupb_NoDup. vm_compute. reflexivity. Qed.

Lemma find_own {A} n (k : A) l : NoDup (map fst l) -> In (n, k) l ->
  List.find (fun o => beqb (fst o) n) l = Some (n, k).
Proof.
  induction l as [|[n' k'] l IH]; intros ND H; [contradiction|].
  cbn [map fst] in ND. inversion ND as [|? ? N ND']; subst. cbn [List.find fst]. destruct H as [H|H].
  - injection H as -> ->. rewrite beqb_refl. reflexivity.
  - destruct (beqb n' n) eqn:E; [|auto]. apply beqb_eq in E. subst n'.
    exfalso. apply N. exact (in_map fst _ _ H).
Qed.

Lemma cut_eq_app n s : memb 61 n = false -> cut_eq (n ++ s) = (n ++ fst (cut_eq s), snd (cut_eq s)).
Proof.
  induction n as [|x n IH]; intro H; [cbn [app]; destruct (cut_eq s); reflexivity|].
  cbn [memb existsb] in H. apply orb_false_iff in H as [Hx H].
  cbn [app cut_eq]. rewrite N.eqb_sym, Hx, IH by exact H. reflexivity.
Qed.

Lemma classify_long body : nonempty body = true ->
  classify_word (dashdash ++ body) = WLong (fst (cut_eq body)) (snd (cut_eq body)).
Proof. destruct body; [discriminate|reflexivity]. Qed.

Lemma classify_positional a : startswith a [45] = false -> classify_word a = WPositional.
Proof.
  intro H. unfold classify_word. destruct a as [|x a]; [reflexivity|].
  cbn [startswith beqb] in *. rewrite !(N.eqb_sym x 45). destruct (45 =? x); [|reflexivity].
  destruct a; discriminate H.
Qed.

Lemma scan_app a : startswith a [45] = false -> scan [a] = Scanned [] [a].
Proof. intro H. cbn [scan]. rewrite classify_positional by exact H. reflexivity. Qed.

Section OneOption.
  Variables (n : str) (k : okind).
  Hypothesis Hin : In (n, k) option_table.

  Lemma resolve_own : resolve n = Found n k.
  Proof.
    pose proof table_names as T. inversion T as [|? ? _ ND]; subst.
    unfold resolve. rewrite (find_own n k option_table ND Hin). reflexivity.
  Qed.

  Lemma classify_option inline :
    classify_word (dashdash ++ n ++ match inline with Some v => 61 :: v | None => [] end) = WLong n inline.
  Proof.
    destruct (entry_facts _ Hin) as [E _]. cbn [fst] in E.
    assert (NE : n <> []).
    { intros ->. pose proof table_names as T. inversion T as [|? ? N _]. apply N. exact (in_map fst _ _ Hin). }
    rewrite classify_long by (destruct n; [contradiction|reflexivity]). rewrite cut_eq_app by exact E.
    destruct inline; cbn [cut_eq N.eqb Pos.eqb fst snd]; rewrite ?app_nil_r; reflexivity.
  Qed.

  Lemma scan_inline v rest : takes_value k = true -> scan (opt_eq n v :: rest) = push (n, k, v) (scan rest).
  Proof. intro T. cbn [scan]. unfold opt_eq. rewrite (classify_option (Some v)), resolve_own, T. reflexivity. Qed.

  Lemma scan_sep v rest : takes_value k = true -> scan (opt_plain n :: v :: rest) = push (n, k, v) (scan rest).
  Proof.
    intro T. cbn [scan]. unfold opt_plain. rewrite <- (app_nil_r n) at 1.
    rewrite (classify_option None), resolve_own, T. reflexivity.
  Qed.

  Lemma scan_flag rest : takes_value k = false -> scan (opt_plain n :: rest) = push (n, k, []) (scan rest).
  Proof.
    intro T. cbn [scan]. unfold opt_plain. rewrite <- (app_nil_r n) at 1.
    rewrite (classify_option None), resolve_own, T. reflexivity.
  Qed.
End OneOption.

Definition is_setting (o : occ) : bool := match occ_kind o with KVal _ | KFlag _ _ => true | _ => false end.

Lemma cli_spec_settings e argv occs app : scan argv = Scanned occs [app] -> forallb is_setting occs = true ->
  cli_spec e argv = lift Some (construct e (keyword_form occs)).
Proof.
  intros SC S. unfold cli_spec, choose_app. rewrite SC.
  assert (H : has_help occs = false /\ forall acc, app_fold occs acc = acc).
  { clear SC. induction occs as [|[[n k] v] occs IH]; [auto|].
    cbn [forallb] in S. apply andb_true_iff in S as [S1 S2]. destruct (IH S2) as [IH1 IH2].
    rewrite has_help_cons, IH1. split; [|intro acc; rewrite app_fold_cons, IH2]; destruct k; try discriminate S1; reflexivity. }
  destruct H as [-> H]. rewrite app_option_fold, H. reflexivity.
Qed.

Lemma values_of_same p (xs : list value) : values_of p (map (pair p) xs) = xs.
Proof.
  unfold values_of. induction xs as [|y ys IH]; [reflexivity|].
  cbn [map filter fst]. rewrite beqb_refl. cbn [map snd]. f_equal. exact IH.
Qed.

Lemma keyword_value_same p xs : keyword_value p (map (pair p) xs) =
  if beqb p k_listen then VStr (join [32] (map text_of xs)) else last xs VNone.
Proof. unfold keyword_value. rewrite values_of_same. reflexivity. Qed.

Lemma first_occ_same p (x : value) xs : first_occ [] (map fst (map (pair p) (x :: xs))) = [p].
Proof.
  cbn [map fst first_occ memstr existsb app]. f_equal.
  induction xs as [|y ys IH]; [reflexivity|].
  cbn [map fst first_occ memstr existsb]. rewrite beqb_refl. exact IH.
Qed.

Lemma keyword_form_one_name occs p x xs : settings_of occs = map (pair p) (x :: xs) ->
  keyword_form occs =
  [(p, if beqb p k_listen then VStr (join [32] (map text_of (x :: xs))) else last (x :: xs) VNone)].
Proof.
  intro S. unfold keyword_form. rewrite S, first_occ_same.
  exact (f_equal (fun v => [(p, v)]) (keyword_value_same p (x :: xs))).
Qed.

Lemma one_setting p e argv n k v app x : scan argv = Scanned [(n, k, v)] [app] ->
  setting_of (n, k, v) = [(p, x)] -> beqb p k_listen = false \/ x = VStr v ->
  cli_spec e argv = lift Some (construct e [(p, x)]).
Proof.
  intros SC S L. rewrite (cli_spec_settings e _ _ _ SC) by (destruct k; try discriminate S; reflexivity).
  rewrite (keyword_form_one_name _ p x []) by (unfold settings_of; cbn [flat_map]; rewrite S; reflexivity).
  destruct L as [-> | ->]; [reflexivity|]. destruct (beqb p k_listen); reflexivity.
Qed.

Section PerParam.
  Variables (p : str) (c : cast).
  Hypothesis Hin : In (p, c) params.

  (* the table is written with dashed p and s_no_dash, the theorems with cli_mangle p and
     no_dash_prefix: the same terms (cli_mangle_dashed) *)
  Lemma value_option : cast_eqb c CBool = false -> In (cli_mangle p, KVal p) option_table.
  Proof.
    intro Hc. apply (options_in_table (p, c) _ Hin). destruct c; try discriminate Hc; left; reflexivity.
  Qed.

  Lemma flag_options : cast_eqb c CBool = true ->
    In (cli_mangle p, KFlag p true) option_table /\ In (no_dash_prefix ++ cli_mangle p, KFlag p false) option_table.
  Proof.
    intro Hc. apply cast_eqb_eq in Hc. subst c.
    split; apply (options_in_table _ _ Hin); [left|right; left]; reflexivity.
  Qed.

  Lemma flag_not_listen : cast_eqb c CBool = true -> beqb p k_listen = false.
  Proof.
    intro Hc. destruct (flag_options Hc) as [H _]. apply action_facts in H. apply bool_not_listen, H.
  Qed.

End PerParam.

Theorem cli_listen_repeated : forall e vs app, vs <> [] -> startswith app [45] = false ->
  cli_construct e (map (opt_eq (cli_mangle k_listen)) vs ++ [app])
  = lift Some (construct e [(k_listen, VStr (join [32] vs))]).
Proof.
  intros e vs a Hvs Ha. rewrite cli_construct_spec.
  set (occs := map (fun v => (cli_mangle k_listen, KVal k_listen, v)) vs).
  assert (T : In (cli_mangle k_listen, KVal k_listen) option_table)
    by (apply (value_option k_listen CList); [apply dict_get_In, castof_listen|reflexivity]).
  assert (SC : scan (map (opt_eq (cli_mangle k_listen)) vs ++ [a]) = Scanned occs [a]).
  { subst occs. clear Hvs. induction vs as [|v vs IH]; cbn [map app]; [apply scan_app, Ha|].
    rewrite (scan_inline _ _ T), IH by reflexivity. reflexivity. }
  assert (S : settings_of occs = map (pair k_listen) (map VStr vs)).
  { subst occs. clear. induction vs as [|v vs IH]; [reflexivity|]. cbn [map]. rewrite <- IH. reflexivity. }
  rewrite (cli_spec_settings e _ occs a SC).
  - destruct vs as [|v vs]; [contradiction|].
    rewrite (keyword_form_one_name occs k_listen (VStr v) (map VStr vs) S).
    change (map text_of (VStr v :: map VStr vs)) with (map text_of (map VStr (v :: vs))).
    rewrite map_map, map_id. reflexivity.
  - subst occs. clear. induction vs as [|v vs IH]; [reflexivity|exact IH].
Qed.
