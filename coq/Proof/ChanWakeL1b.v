(* Proof/ChanWakeL1b.v -- the converse of layer 1: a held lock is held by a thread that is at a
   program point inside the corresponding critical section (so it can move).  It follows from the lock
   discipline like layer 1, but needs layer 2 as well: add_task must not move the holder, and it wakes only
   workers that wait on queue_cv.  ChanWake.quiescent_is_parked draws the conclusion: no deadlock on
   outbuf_lock / requests_lock. *)
From Coq Require Import List ZArith Bool Arith Lia.
From WV Require Import Model.ChanWake Proof.ChanWakeInv Proof.ChanWakeBase Proof.ChanWakeL1 Proof.ChanWakeL2.
Import ListNotations.
Open Scope Z_scope.

Definition owner_ok (hio : iopc -> bool) (hw : wpc -> bool) (s : state) (l : option tid) : Prop :=
  match l with
  | None => True
  | Some TIO => hio (io s) = true
  | Some (TW j) => exists p, nth_error (ws s) j = Some p /\ hw p = true
  end.

Definition Inv1b (s : state) : Prop :=
  owner_ok io_holds_o w_holds_o s (olock s) /\ owner_ok io_holds_r w_holds_r s (rlock s).

Lemma inv1b_init : forall nw, Inv1b (init nw).
Proof. intros. split; simpl; auto. Qed.

Lemma holds_notified : forall p, w_holds_o p = true -> parked_o p = false.
Proof. destruct p; simpl; intros; auto; discriminate. Qed.
Lemma holds_r_notified : forall p, w_holds_r p = true -> parked_o p = false.
Proof. destruct p; simpl; intros; auto; discriminate. Qed.

Lemma owner_notify : forall hio hw s s' l,
  (forall p, hw p = true -> parked_o p = false) ->
  io s' = io s -> ws s' = notify_o (ws s) -> owner_ok hio hw s l -> owner_ok hio hw s' l.
Proof.
  intros hio hw s s' l Hp Eio Ews H. destruct l as [[|j]|]; simpl in *; auto.
  - rewrite Eio. auto.
  - destruct H as (p & Hj & Hh). exists p. split; auto. rewrite Ews.
    destruct (notify_o_fwd _ _ _ Hj) as [H1|[Pp _]]; auto. rewrite (Hp _ Hh) in Pp. discriminate.
Qed.

(* a thread that keeps the lock discipline moves no other thread, except by waking a worker that holds nothing *)
Lemma owner_step_io : forall hio hw c s ch s' l v v',
  (forall p, hw p = true -> parked_o p = false) -> hw WIdle = false ->
  Inv2 s -> step_io c s ch = Some (s', l) ->
  lock_step TIO (hio (io s)) (hio (io s')) v v' ->
  owner_ok hio hw s v -> owner_ok hio hw s' v'.
Proof.
  intros hio hw c s ch s' l v v' Hp Hi HI2 H [[-> E]|[(-> & -> & E)|(_ & -> & _)]] Hown; simpl; auto.
  destruct v as [[|j]|]; simpl in *; [congruence | | exact I].
  destruct Hown as (p & Hj & Hh). exists p. split; auto.
  destruct (step_io_frame _ _ _ _ _ H) as (_ & _ & _ & [Ews|[Ews|Ews]]); rewrite Ews; auto.
  - apply add_task_nth_keep; auto. destruct p; try reflexivity. congruence.
  - destruct (notify_o_fwd _ _ _ Hj) as [H1|[Pp _]]; auto. rewrite (Hp _ Hh) in Pp. discriminate.
Qed.

Lemma owner_step_w : forall hio hw s s' i pc p' v v',
  hw WIdle = false -> Inv2 s -> nth_error (ws s) i = Some pc -> io s' = io s ->
  ws s' = upd i p' (ws s) \/ ws s' = upd i p' (ws (add_task s)) ->
  lock_step (TW i) (hw pc) (hw p') v v' ->
  owner_ok hio hw s v -> owner_ok hio hw s' v'.
Proof.
  intros hio hw s s' i pc p' v v' Hi HI2 Hg Eio Ews Lk Hown.
  assert (Hlen : (i < length (ws s))%nat) by (apply nth_error_Some; congruence).
  assert (Hat : nth_error (ws s') i = Some p').
  { destruct Ews as [-> | ->]; apply nth_error_upd_len; rewrite ?length_ws_add_task; auto. }
  destruct Lk as [[-> E]|[(-> & -> & E)|(_ & -> & _)]]; simpl; eauto.
  destruct v as [[|j]|]; simpl in *; [congruence | | exact I].
  destruct Hown as (p & Hj & Hh). destruct (Nat.eq_dec j i) as [->|Hn].
  - exists p'. split; auto. congruence.
  - exists p. split; auto. destruct Ews as [-> | ->]; rewrite nth_error_upd_other by auto; auto.
    apply add_task_nth_keep; auto. destruct p; try reflexivity. congruence.
Qed.

Lemma inv1b_step_io : forall c s ch s' l,
  Inv1 s -> Inv2 s -> Inv1b s -> step_io c s ch = Some (s', l) -> Inv1b s'.
Proof.
  intros c s ch s' l HI1 HI2 [Ho Hr] H.
  destruct (step_io_locks _ _ _ _ _ (i1_hce _ HI1) H) as (_ & Lo & Lr).
  split; eapply owner_step_io; eauto using holds_notified, holds_r_notified.
Qed.

Lemma inv1b_step_w : forall c s i ch s' l,
  Inv2 s -> Inv1b s -> step_w c s i ch = Some (s', l) -> Inv1b s'.
Proof.
  intros c s i ch s' l HI2 [Ho Hr] H.
  destruct (getw s i) as [pc|] eqn:Hg; [|unfold step_w in H; rewrite Hg in H; discriminate]. unfold getw in Hg.
  destruct (step_w_frame _ _ _ _ _ _ _ Hg H) as (Eio & _ & _ & _ & _ & _ & _ & p' & Ews & Lo & Lr).
  split; eapply owner_step_w; eauto.
Qed.
