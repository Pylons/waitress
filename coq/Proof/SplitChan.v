(* C02 at the channel level: HTTPChannel.received (sequential model) produces the
   same events -- "100 Continue sent", "request completed with this observation" --
   up to and including the first refused request, however the byte stream is
   divided into reads.  Proof: (1) the loop on b :: s is, up to the cut, the loop
   on [b] followed by the loop on s (from the parser-level split lemma);
   (2) states that differ only in dead carry fields behave alike; (3) hence every
   read is equivalent to its byte-wise delivery, and so is every list of reads. *)
From Coq Require Import List NArith ZArith Bool Lia Arith.
From RecordUpdate Require Import RecordUpdate.
From WV Require Import Lib.PyBytes Lib.Regex Gen.GenRegex Model.Receiver Model.UrlSplit Model.Parser Model.ChanSeq
  Proof.PyBytesFacts Proof.ReceiverTotal Proof.ReceiverSplit Proof.ParserTotal Proof.ParserTotalChan
  Proof.ParserTotalLimits Proof.SplitParser.
Import ListNotations.
Local Open Scope N_scope.

(* the observable events of the I/O side *)
Inductive event :=
| EvContinue                 (* b"HTTP/1.1 100 Continue\r\n\r\n" appended to the output *)
| EvDone (o : parser).       (* a request completed (queued unless empty); o = its observation *)

Definition send_cond (c : chan) (r1 : parser) : bool :=
  expect_continue r1 && headers_finished r1
  && (match requests c with [] => true | _ => false end) && negb (sent_continue c).

Definition post_ev (ab : bool) (c : chan) (r1 : parser) : list event :=
  (if send_cond c r1 then [EvContinue] else []) ++
  (if completed r1
   then [EvDone (obs ab (if send_cond c r1 then r1 <| expect_continue := false |> else r1))]
   else []).

Fixpoint loop_tr (ab : bool) (fuel : nat) (a : adj) (c : chan) (data : bytes) : chan_res * list event :=
  match fuel with
  | O => (COutOfFuel, [])
  | S f =>
    let r0 := match request c with Some r => r | None => parser_init end in
    match Parser.received a r0 data with
    | REscapes => (CEscapes, [])
    | ROutOfFuel => (COutOfFuel, [])
    | RUnmodelled => (CUnmodelled, [])
    | ROk r1 n =>
      if (Z.of_nat (length data) <=? n)%Z then (COk (post c r1), post_ev ab c r1)
      else let '(res, t) := loop_tr ab f a (post c r1) (skipn (Z.to_nat n) data) in
           (res, post_ev ab c r1 ++ t)
    end
  end.

Lemma loop_tr_fst ab fuel : forall a c data, fst (loop_tr ab fuel a c data) = received_loop fuel a c data.
Proof.
  induction fuel as [|f IH]; intros a c data; [reflexivity|].
  rewrite received_loop_eq. cbn [loop_tr]. cbv zeta.
  destruct (received a _ data) as [r1 n| | |]; try reflexivity.
  destruct (_ <=? _)%Z; [reflexivity|].
  specialize (IH a (post c r1) (skipn (Z.to_nat n) data)).
  destruct (loop_tr ab f a (post c r1) (skipn (Z.to_nat n) data)). exact IH.
Qed.

(* ChanSeq.chan_received, returning the events as well *)
Definition chan_tr (ab : bool) (a : adj) (c : chan) (data : bytes) : chan_res * list event :=
  match data with
  | [] => (COk c, [])
  | _ => if will_close c || close_when_flushed c then (COk c, [])
         else loop_tr ab (S (length data)) a c data
  end.

Lemma chan_tr_fst ab a c data : fst (chan_tr ab a c data) = chan_received a c data.
Proof.
  unfold chan_tr, chan_received. destruct data; [reflexivity|].
  destruct (_ || _); [reflexivity|]. apply loop_tr_fst.
Qed.

Definition bind (x : chan_res * list event) (k : chan -> chan_res * list event) : chan_res * list event :=
  match x with
  | (COk c1, t1) => let '(r2, t2) := k c1 in (r2, t1 ++ t2)
  | other => other
  end.

Fixpoint feed_tr (ab : bool) (a : adj) (c : chan) (reads : list bytes) : chan_res * list event :=
  match reads with
  | [] => (COk c, [])
  | d :: rest => bind (chan_tr ab a c d) (fun c1 => feed_tr ab a c1 rest)
  end.

Lemma feed_tr_fst ab a : forall reads c, fst (feed_tr ab a c reads) = feed a c reads.
Proof.
  induction reads as [|d rest IH]; intros c; [reflexivity|].
  cbn [feed_tr feed]. rewrite <- (chan_tr_fst ab).
  destruct (chan_tr ab a c d) as [[c1| | |] t1]; cbn [bind fst]; try reflexivity.
  specialize (IH c1). destruct (feed_tr ab a c1 rest). exact IH.
Qed.

(* cutting the trace after the first refused request *)
Definition poison (e : event) : bool :=
  match e with
  | EvDone o => match error o with Some _ => true | None => false end
  | EvContinue => false
  end.

Fixpoint cut (t : list event) : list event :=
  match t with
  | [] => []
  | e :: t' => if poison e then [e] else e :: cut t'
  end.

Definition clean (t : list event) : bool := forallb (fun e => negb (poison e)) t.

Lemma cut_app t1 t2 : cut (t1 ++ t2) = if clean t1 then t1 ++ cut t2 else cut t1.
Proof.
  induction t1 as [|e t1 IH]; [reflexivity|]. cbn [app cut clean forallb].
  destruct (poison e); cbn [negb andb]; [reflexivity|]. fold (clean t1). rewrite IH.
  destruct (clean t1); reflexivity.
Qed.

Lemma clean_app t1 t2 : clean (t1 ++ t2) = clean t1 && clean t2.
Proof. unfold clean. apply forallb_app. Qed.

Lemma cut_clean t : clean t = true -> cut t = t.
Proof.
  induction t as [|e t IH]; [reflexivity|]. cbn [clean forallb cut].
  destruct (poison e); cbn [negb andb]; [discriminate|]. intros H. now rewrite IH.
Qed.

Lemma clean_cut t : clean (cut t) = clean t.
Proof.
  induction t as [|e t IH]; [reflexivity|]. cbn [cut]. destruct (poison e) eqn:P.
  - cbn [clean forallb]. rewrite P. reflexivity.
  - cbn [clean forallb]. rewrite P. cbn [negb andb]. exact IH.
Qed.

Lemma cut_eq_clean t t' : cut t = cut t' -> clean t' = true -> t = t'.
Proof.
  intros H C. assert (C2 : clean t = true) by (rewrite <- clean_cut, H, clean_cut; exact C).
  rewrite <- (cut_clean t C2), <- (cut_clean t' C). exact H.
Qed.

Definition cur (c : chan) : parser := match request c with Some r => r | None => parser_init end.

Definition ichan (c : chan) : Prop :=
  match request c with
  | None => sent_continue c = false
  | Some r => (headers_finished r = false -> sent_continue c = false) /\
              (headers_finished r = true -> expect_continue r = true -> requests c <> [])
  end.

Definition inv (a : adj) (c : chan) : Prop :=
  wf_chan a c /\ ichan c /\ will_close c = false /\ close_when_flushed c = false.

Lemma inv_init a : inv a chan_init.
Proof. repeat split. Qed.

Lemma wf_cur a c : wf_chan a c -> wf_p a (cur c).
Proof. unfold wf_chan, cur. destruct (request c); [auto | intros _; apply wf_p_init]. Qed.

Lemma wf_hf a p : wf_p a p -> (body p = None <-> headers_finished p = false).
Proof.
  intros (_ & _ & Wb & _). unfold wf_body in Wb. destruct (body p) as [[f|c]|].
  - destruct Wb as (H & _). split; [discriminate | congruence].
  - destruct Wb as (H & _). split; [discriminate | congruence].
  - destruct Wb as (hp & -> & _). split; reflexivity.
Qed.

Lemma body_fin_keeps a p br' n e d q m : body_fin a p br' n e d = ROk q m ->
  headers_finished q = headers_finished p /\ expect_continue q = expect_continue p.
Proof.
  unfold body_fin. cbv zeta. destruct (_ <=? _)%Z; [intros H; injection H as <- <-; split; reflexivity|].
  destruct e; [intros H; injection H as <- <-; split; reflexivity|].
  destruct d; [|intros H; injection H as <- <-; split; reflexivity].
  psimpl. destruct (chunked p); intros H; injection H as <- <-; split; reflexivity.
Qed.

Lemma received_body_keeps a p br d q m : completed p = false -> body p = Some br ->
  received a p d = ROk q m ->
  headers_finished q = headers_finished p /\ expect_continue q = expect_continue p.
Proof.
  intros Hc Hb. rewrite (received_body_eq a p br d Hc Hb). destruct br as [f|c].
  - destruct (fixed_received f d). apply body_fin_keeps.
  - destruct (chunked_received c d) as [[c' n]|]; [apply body_fin_keeps | discriminate].
Qed.

(* post with the case split made once: whether 100-continue is sent, then whether
   the request is complete, instead of the nested let-bindings of the source order *)
Definition post' (c : chan) (r1 : parser) : chan :=
  let sc := send_cond c r1 in
  let r2 := if sc then r1 <| expect_continue := false |> else r1 in
  let c1 := if sc then c <| outlog := outlog c ++ continue_bytes |> <| sent_continue := true |> else c in
  if completed r1 then
    let c2 := c1 <| sent_continue := false |> in
    let c3 := if negb (empty r1)
              then (let c4 := c2 <| requests := requests c ++ [r2] |> in
                    if (length (requests c ++ [r2]) =? 1)%nat
                    then c4 <| add_task_calls := S (add_task_calls c) |> else c4)
              else c2 in
    c3 <| request := None |>
  else c1 <| request := Some r2 |>.

Lemma post_eq c r1 : post c r1 = post' c r1.
Proof.
  unfold post, post', send_cond, send_continue. csimpl.
  destruct (expect_continue r1 && headers_finished r1 && _ && _); cbv beta iota zeta; psimpl; csimpl;
    destruct (completed r1); [destruct (negb (empty r1)); [destruct (_ =? _)%nat|]| |
                              destruct (negb (empty r1)); [destruct (_ =? _)%nat|]|]; reflexivity.
Qed.

Lemma post_request c x r : post (c <| request := x |>) r = post c r.
Proof. reflexivity. Qed.

(* what one iteration leaves in each field; [r2] is the request as queued *)
Lemma post_fields c r :
  let sc := send_cond c r in
  let r2 := if sc then r <| expect_continue := false |> else r in
  post c r =
  {| request := if completed r then None else Some r2;
     requests := if completed r && negb (empty r) then requests c ++ [r2] else requests c;
     sent_continue := if completed r then false else sc || sent_continue c;
     will_close := will_close c;
     close_when_flushed := close_when_flushed c;
     outlog := if sc then outlog c ++ continue_bytes else outlog c;
     add_task_calls := if completed r && negb (empty r) && (length (requests c ++ [r2]) =? 1)%nat
                       then S (add_task_calls c) else add_task_calls c |}.
Proof.
  rewrite post_eq. unfold post'. cbv zeta.
  destruct (send_cond c r), (completed r), (negb (empty r)); try destruct (_ =? 1)%nat; reflexivity.
Qed.

Lemma post_inv a c d r1 n : inv a c -> received a (cur c) d = ROk r1 n ->
  (completed r1 = true \/ wf_p a r1) -> inv a (post c r1).
Proof.
  intros (W & I & F1 & F2) E Hr.
  split; [apply post_wf; exact Hr|]. split; [|rewrite post_fields; split; assumption].
  pose proof (wf_cur a c W) as W0.
  assert (K : headers_finished (cur c) = true ->
              headers_finished r1 = true /\ expect_continue r1 = expect_continue (cur c)).
  { intros Hhf. destruct (body (cur c)) as [br|] eqn:Hb.
    - destruct W0 as (Wc & _). destruct (received_body_keeps a (cur c) br d r1 n Wc Hb E) as (K1 & K2).
      split; congruence.
    - apply (wf_hf a _ W0) in Hb. congruence. }
  unfold ichan. rewrite post_fields. csimpl. destruct (completed r1) eqn:Hc1; [reflexivity|]. cbn [andb].
  destruct (send_cond c r1) eqn:Hs; cbn [orb].
  - psimpl. unfold send_cond in Hs. apply andb_true_iff in Hs as [Hs _]. apply andb_true_iff in Hs as [Hs _].
    apply andb_true_iff in Hs as [_ Hhf]. split; [congruence | discriminate].
  - unfold ichan, cur in *.
    split.
    + intros Hhf1. destruct (request c) as [r0|]; [|exact I].
      destruct I as (I1 & I2). destruct (headers_finished r0) eqn:Hhf0; [|auto].
      destruct (K eq_refl) as (K1 & _). congruence.
    + intros Hhf1 He1 Hreq. unfold send_cond in Hs. rewrite He1, Hhf1, Hreq in Hs. cbn in Hs.
      apply negb_false_iff in Hs.
      destruct (request c) as [r0|]; [|congruence].
      destruct I as (I1 & I2). destruct (headers_finished r0) eqn:Hhf0; [|rewrite I1 in Hs; auto; discriminate].
      destruct (K eq_refl) as (_ & K2). apply I2; auto. congruence.
Qed.

Lemma loop_tr_fuel ab a f1 : forall f2 c data, inv a c -> data <> [] ->
  (length data < f1)%nat -> (length data < f2)%nat ->
  loop_tr ab f1 a c data = loop_tr ab f2 a c data.
Proof.
  induction f1 as [|f1 IH]; intros f2 c data I Hd L1 L2; [lia|].
  destruct f2 as [|f2]; [lia|]. cbn [loop_tr]. fold (cur c).
  destruct I as (W & I).
  destruct (received_total a (cur c) data (wf_cur a c W) Hd) as [E|(r1 & n & E & Bn & Hr)]; rewrite E; [reflexivity|].
  destruct (Z.of_nat (length data) <=? n)%Z eqn:Hn; [reflexivity|]. apply Z.leb_gt in Hn.
  rewrite (IH f2 (post c r1) (skipn (Z.to_nat n) data)); [reflexivity| | | |].
  - eapply post_inv; eauto. split; auto.
  - apply skipn_nonempty. lia.
  - rewrite skipn_length. lia.
  - rewrite skipn_length. lia.
Qed.

Definition step (ab : bool) (a : adj) (c : chan) (data : bytes) : chan_res * list event :=
  loop_tr ab (S (length data)) a c data.

Definition step_body (ab : bool) (a : adj) (c : chan) (data : bytes) : chan_res * list event :=
    match Parser.received a (cur c) data with
    | REscapes => (CEscapes, [])
    | ROutOfFuel => (COutOfFuel, [])
    | RUnmodelled => (CUnmodelled, [])
    | ROk r1 n =>
      if (Z.of_nat (length data) <=? n)%Z then (COk (post c r1), post_ev ab c r1)
      else let '(res, t) := step ab a (post c r1) (skipn (Z.to_nat n) data) in
           (res, post_ev ab c r1 ++ t)
    end.

Lemma step_unfold ab a c data : inv a c -> data <> [] -> step ab a c data = step_body ab a c data.
Proof.
  intros I Hd. unfold step, step_body. cbn [loop_tr]. fold (cur c).
  destruct I as (W & I).
  destruct (received_total a (cur c) data (wf_cur a c W) Hd) as [E|(r1 & n & E & Bn & Hr)]; rewrite E; [reflexivity|].
  destruct (Z.of_nat (length data) <=? n)%Z eqn:Hn; [reflexivity|]. apply Z.leb_gt in Hn.
  unfold step. rewrite (loop_tr_fuel ab a (length data) (S (length (skipn (Z.to_nat n) data)))); [reflexivity| | | |].
  - eapply post_inv; eauto. split; auto.
  - apply skipn_nonempty. lia.
  - rewrite skipn_length. lia.
  - lia.
Qed.

(* channel states that differ only in dead carry fields behave alike *)
Lemma peq_refl r : peq r r.
Proof. left; reflexivity. Qed.

Lemma peq_sym r r' : peq r r' -> peq r' r.
Proof.
  intros [->|(H & x & ->)]; [left; reflexivity|].
  right. split; [exact H|]. exists (header_plus r'). destruct r'. reflexivity.
Qed.

Lemma peq_trans r1 r2 r3 : peq r1 r2 -> peq r2 r3 -> peq r1 r3.
Proof.
  intros [->|(H & x & ->)] [->|(H' & y & ->)]; try (left; reflexivity).
  - right. split; eauto.
  - right. split; eauto.
  - right. split; [exact H'|]. exists x. reflexivity.
Qed.

Definition prel (ab : bool) (r r' : parser) : Prop :=
  obs ab r = obs ab r' /\ (completed r = false -> peq r r').

Lemma obs_fields ab r r' : obs ab r = obs ab r' ->
  completed r = completed r' /\ empty r = empty r' /\ expect_continue r = expect_continue r' /\
  headers_finished r = headers_finished r' /\ (error r = None <-> error r' = None).
Proof.
  intros H.
  pose proof (f_equal completed H) as H1. pose proof (f_equal empty H) as H2.
  pose proof (f_equal expect_continue H) as H3. pose proof (f_equal headers_finished H) as H4.
  pose proof (f_equal error H) as H5. cbn in H1, H2, H3, H4, H5.
  repeat split; auto; destruct ab; destruct (error r), (error r'); cbn in H5; congruence.
Qed.

Definition sim (c c' : chan) : Prop :=
  match request c, request c' with
  | None, None => True
  | Some r, Some r' => peq r r'
  | _, _ => False
  end /\
  length (requests c) = length (requests c') /\
  sent_continue c = sent_continue c' /\ will_close c = will_close c' /\
  close_when_flushed c = close_when_flushed c' /\ outlog c = outlog c' /\
  add_task_calls c = add_task_calls c'.

Lemma sim_refl c : sim c c.
Proof. unfold sim. destruct (request c); repeat split; auto. apply peq_refl. Qed.

Lemma sim_sym c c' : sim c c' -> sim c' c.
Proof.
  unfold sim. intros (H & H1 & H2 & H3 & H4 & H5 & H6).
  split; [|repeat split; congruence].
  destruct (request c), (request c'); auto. apply peq_sym; auto.
Qed.

Lemma sim_trans c1 c2 c3 : sim c1 c2 -> sim c2 c3 -> sim c1 c3.
Proof.
  unfold sim. intros (H & H1 & H2 & H3 & H4 & H5 & H6) (K & K1 & K2 & K3 & K4 & K5 & K6).
  split; [|repeat split; congruence].
  destruct (request c1), (request c2), (request c3); try tauto. eapply peq_trans; eauto.
Qed.

Definition relres (r r' : chan_res) : Prop :=
  match r, r' with
  | COk c, COk c' => sim c c'
  | CEscapes, CEscapes | COutOfFuel, COutOfFuel | CUnmodelled, CUnmodelled => True
  | _, _ => False
  end.

Lemma relres_refl r : relres r r.
Proof. destruct r; cbn; auto. apply sim_refl. Qed.

Lemma relres_sym r r' : relres r r' -> relres r' r.
Proof. destruct r, r'; cbn; auto. apply sim_sym. Qed.

Lemma relres_trans r1 r2 r3 : relres r1 r2 -> relres r2 r3 -> relres r1 r3.
Proof. destruct r1, r2, r3; cbn; try tauto. apply sim_trans. Qed.

Lemma send_cond_sim c c' r r' : sim c c' -> expect_continue r = expect_continue r' ->
  headers_finished r = headers_finished r' -> send_cond c r = send_cond c' r'.
Proof.
  intros (_ & L & S & _) E H. unfold send_cond. rewrite E, H, S.
  destruct (requests c), (requests c'); cbn in L; try discriminate; reflexivity.
Qed.

Lemma post_sim ab c c' r r' : sim c c' -> prel ab r r' ->
  sim (post c r) (post c' r') /\ post_ev ab c r = post_ev ab c' r'.
Proof.
  intros S (O & P). destruct (obs_fields ab r r' O) as (Hc & Hem & Hex & Hhf & _).
  pose proof (send_cond_sim c c' r r' S Hex Hhf) as Hs.
  pose proof S as (Sr & Sl & Ss & Sw & Sf & So & Sa).
  split.
  - assert (L : length (requests c ++ [if send_cond c r then r <| expect_continue := false |> else r])
              = length (requests c' ++ [if send_cond c r then r' <| expect_continue := false |> else r']))
      by (rewrite !app_length, Sl; reflexivity).
    unfold sim. rewrite !post_fields. csimpl. rewrite <- Hs, <- Hc, <- Hem, L, Ss, So, Sa.
    split; [|split; [destruct (completed r && negb (empty r)); assumption | repeat split; auto]].
    destruct (completed r) eqn:Hcr; [exact I|]. specialize (P eq_refl).
    destruct (send_cond c r); [|exact P].
    destruct P as [->|(H & x & ->)]; [apply peq_refl|]. right. split; [exact H | exists x; reflexivity].
  - unfold post_ev. rewrite <- Hs, <- Hc. destruct (send_cond c r); destruct (completed r); try reflexivity.
    + f_equal. f_equal. f_equal.
      change (obs ab (r <| expect_continue := false |>)) with ((obs ab r) <| expect_continue := false |>).
      change (obs ab (r' <| expect_continue := false |>)) with ((obs ab r') <| expect_continue := false |>).
      now rewrite O.
    + cbn [app]. now rewrite O.
Qed.

Lemma body_fin_hp a x p br' n e d :
  body_fin a (hp_set x p) br' n e d = rmap (hp_set x) (body_fin a p br' n e d).
Proof.
  unfold body_fin. cbv zeta. unfold hp_set. psimpl.
  destruct (_ <=? _)%Z; [reflexivity|]. destruct e; [reflexivity|]. destruct d; [|reflexivity].
  destruct (chunked p); reflexivity.
Qed.

Lemma received_hp_body a x p br d : completed p = false -> body p = Some br ->
  received a (hp_set x p) d = rmap (hp_set x) (received a p d).
Proof.
  intros Hc Hb. rewrite (received_body_eq a (hp_set x p) br d Hc Hb), (received_body_eq a p br d Hc Hb).
  destruct br as [f|c].
  - destruct (fixed_received f d). apply body_fin_hp.
  - destruct (chunked_received c d) as [[c' n]|]; [apply body_fin_hp | reflexivity].
Qed.

Lemma received_peq ab a r r' d : wf_p a r' -> peq r r' ->
  match received a r d, received a r' d with
  | ROk q n, ROk q' n' => n = n' /\ prel ab q q'
  | REscapes, REscapes | ROutOfFuel, ROutOfFuel | RUnmodelled, RUnmodelled => True
  | _, _ => False
  end.
Proof.
  intros W [->|(Hhf & x & ->)].
  - destruct (received a r' d); auto. split; [reflexivity|]. split; [reflexivity | intros _; apply peq_refl].
  - destruct (body r') as [br|] eqn:Hb.
    + destruct W as (Wc & _). rewrite (received_hp_body a x r' br d Wc Hb).
      pose proof (received_body_keeps a r' br d) as K.
      destruct (received a r' d) as [q n| | |]; cbn [rmap]; auto.
      split; [reflexivity|]. split; [reflexivity|]. intros _. right.
      destruct (K q n Wc Hb eq_refl) as (K1 & _). split; [congruence | eexists; reflexivity].
    + apply (wf_hf a r' W) in Hb. congruence.
Qed.

Lemma sim_cur c c' : sim c c' -> peq (cur c) (cur c').
Proof.
  intros (H & _). unfold cur. destruct (request c), (request c'); try tauto. apply peq_refl.
Qed.

Lemma step_sim ab a : forall m c c' data, (length data <= m)%nat -> inv a c -> inv a c' -> sim c c' ->
  data <> [] ->
  snd (step ab a c data) = snd (step ab a c' data) /\
  relres (fst (step ab a c data)) (fst (step ab a c' data)).
Proof.
  induction m as [|m IH]; intros c c' data L I I' S Hd.
  { destruct data; [congruence | simpl in L; lia]. }
  rewrite (step_unfold ab a c data I Hd), (step_unfold ab a c' data I' Hd). unfold step_body.
  pose proof I as (W & _). pose proof I' as (W' & _).
  pose proof (received_peq ab a (cur c) (cur c') data (wf_cur a c' W') (sim_cur c c' S)) as R.
  destruct (received_total a (cur c) data (wf_cur a c W) Hd) as [E|(r1 & n & E & Bn & Hr)];
  destruct (received_total a (cur c') data (wf_cur a c' W') Hd) as [E'|(r1' & n' & E' & Bn' & Hr')];
    rewrite E, E' in *; try contradiction; [cbn; auto|].
  destruct R as (<- & P).
  destruct (post_sim ab c c' r1 r1' S P) as (S1 & Ev).
  rewrite <- Ev.
  destruct (Z.of_nat (length data) <=? n)%Z eqn:Hn; [cbn [fst snd relres]; auto|].
  apply Z.leb_gt in Hn.
  assert (Hd2 : skipn (Z.to_nat n) data <> []) by (apply skipn_nonempty; lia).
  destruct (IH (post c r1) (post c' r1') (skipn (Z.to_nat n) data)) as (T & Rr); auto.
  - rewrite skipn_length. lia.
  - eapply post_inv; eauto.
  - eapply post_inv; eauto.
  - destruct (step ab a (post c r1) _) as [res t]. destruct (step ab a (post c' r1') _) as [res' t'].
    cbn [fst snd] in *. subst t'. auto.
Qed.

(* runs compared up to the first refused request *)
Definition approx (x y : chan_res * list event) : Prop :=
  cut (snd x) = cut (snd y) /\ (clean (snd y) = true -> relres (fst x) (fst y)).

Lemma approx_refl x : approx x x.
Proof. split; [reflexivity | intros _; apply relres_refl]. Qed.

Lemma approx_trans x y z : approx x y -> approx y z -> approx x z.
Proof.
  intros (C1 & R1) (C2 & R2). split; [congruence|]. intros Cz.
  assert (Cy : clean (snd y) = true) by (rewrite <- clean_cut, C2, clean_cut; exact Cz).
  eapply relres_trans; eauto.
Qed.

Lemma approx_sym x y : approx x y -> approx y x.
Proof.
  intros (C1 & R1). split; [congruence|]. intros Cx. apply relres_sym. apply R1.
  rewrite <- clean_cut, <- C1, clean_cut. exact Cx.
Qed.

Definition good (a : adj) (x : chan_res * list event) : Prop :=
  match fst x with COk c => inv a c | _ => True end.

Lemma cut_unclean ev t : clean ev = false -> cut (ev ++ t) = cut ev.
Proof. intros H. rewrite cut_app, H. reflexivity. Qed.

Lemma clean_unclean ev t : clean ev = false -> clean (ev ++ t) = false.
Proof. intros H. rewrite clean_app, H. reflexivity. Qed.

Lemma bind_trace r t k : exists u, snd (bind (r, t) k) = t ++ u.
Proof.
  destruct r; cbn [bind snd]; try (exists []; now rewrite app_nil_r).
  destruct (k c) as [r2 t2]. now exists t2.
Qed.

Lemma bind_approx a x x' k k' :
  approx x x' -> good a x -> good a x' ->
  (forall c1 c1', sim c1 c1' -> inv a c1 -> inv a c1' -> approx (k c1) (k' c1')) ->
  approx (bind x k) (bind x' k').
Proof.
  intros (C & R) G G' K. destruct x as [r t], x' as [r' t']. cbn [fst snd] in *.
  destruct (clean t') eqn:Ct'.
  - pose proof (cut_eq_clean t t' C Ct') as ->. specialize (R eq_refl).
    destruct r as [c1| | |], r' as [c1'| | |]; cbn [relres] in R; try contradiction;
      cbn [bind]; try (split; [reflexivity | intros _; exact I]).
    unfold good in G, G'. cbn [fst] in G, G'.
    destruct (K c1 c1' R G G') as (C2 & R2).
    destruct (k c1) as [r2 t2], (k' c1') as [r2' t2']. unfold approx. cbn [fst snd] in *.
    split.
    + rewrite !cut_app, Ct'. now rewrite C2.
    + rewrite clean_app, Ct'. cbn [andb]. exact R2.
  - assert (Ct : clean t = false) by (rewrite <- clean_cut, C, clean_cut; exact Ct').
    unfold approx. destruct (bind_trace r t k) as (u & ->), (bind_trace r' t' k') as (u' & ->).
    split; [now rewrite !cut_unclean | intros H; rewrite clean_unclean in H by exact Ct'; discriminate].
Qed.

Lemma post_ev_poison c r : completed r = true -> error r <> None -> clean (post_ev true c r) = false.
Proof.
  intros Hc He. unfold post_ev. rewrite Hc. rewrite clean_app.
  destruct (error r) as [e|] eqn:E; [|congruence].
  destruct (send_cond c r); cbn [clean forallb poison]; unfold obs; psimpl; rewrite E; reflexivity.
Qed.

Lemma send_cond_request c x r : send_cond (c <| request := x |>) r = send_cond c r.
Proof. reflexivity. Qed.

Lemma post_ev_request ab c x r : post_ev ab (c <| request := x |>) r = post_ev ab c r.
Proof. reflexivity. Qed.

Lemma cur_request c r : cur (c <| request := Some r |>) = r.
Proof. reflexivity. Qed.

Lemma length_cons_le b (s : bytes) n : s <> [] -> (Z.of_nat (length (b :: s)) <=? 1 + n)%Z = (Z.of_nat (length s) <=? n)%Z.
Proof.
  intros _. cbn [length]. destruct (Z.of_nat (length s) <=? n)%Z eqn:E.
  - apply Z.leb_le in E. apply Z.leb_le. lia.
  - apply Z.leb_gt in E. apply Z.leb_gt. lia.
Qed.

Lemma unclean_if (cond : bool) ev (res1 : chan_res) (k : chan_res * list event) :
  clean ev = false ->
  cut (snd (if cond then (res1, ev) else let '(res, t) := k in (res, ev ++ t))) = cut ev /\
  clean (snd (if cond then (res1, ev) else let '(res, t) := k in (res, ev ++ t))) = false.
Proof.
  intros H. destruct cond; cbn [snd]; [auto|]. destruct k as [res t]. cbn [snd].
  split; [apply cut_unclean | apply clean_unclean]; exact H.
Qed.

Lemma bind_nil c1 k : bind (COk c1, []) k = k c1.
Proof. unfold bind. destruct (k c1). reflexivity. Qed.

(* HTTPChannel.received: one byte and then the rest versus everything at once *)
Lemma chan_one_byte a c b s : inv a c -> s <> [] ->
  approx (step true a c (b :: s)) (bind (step true a c [b]) (fun c1 => step true a c1 s)).
Proof.
  intros I Hs. pose proof I as (W & Ic & F1 & F2).
  rewrite (step_unfold true a c (b :: s) I ltac:(discriminate)).
  rewrite (step_unfold true a c [b] I ltac:(discriminate)). unfold step_body.
  assert (L1 : (Z.of_nat (length [b]) <=? 1)%Z = true) by reflexivity.
  assert (L2 : (Z.of_nat (length (b :: s)) <=? 1)%Z = false).
  { apply Z.leb_gt. destruct s; [congruence | cbn [length]; lia]. }
  destruct (parser_split a (cur c) b s (wf_cur a c W) Hs) as [U Uw | r1 E1 Ew | r1 E1 Hc1 W1 Q CR | r1 r1' n' E1 Hc1 He1 Ew Hc1' O].
  - rewrite U, Uw. apply approx_refl.
  - rewrite E1, Ew, L1, L2. cbn [bind]. change (Z.to_nat 1) with 1%nat. cbn [skipn]. apply approx_refl.
  - (* the byte does not end anything *)
    rewrite E1, L1.
    assert (Sc : send_cond c r1 = false).
    { unfold send_cond. destruct Q as [Q|(Q0 & Q1 & Q2)]; [rewrite Q, andb_false_r; reflexivity|].
      destruct (expect_continue r1) eqn:Ex; [|reflexivity]. rewrite Q1. cbn [andb].
      unfold ichan, cur in *. destruct (request c) as [r0|]; [|discriminate Q0].
      destruct Ic as (_ & I2). specialize (I2 Q0 ltac:(congruence)).
      destruct (requests c); [congruence | reflexivity]. }
    assert (Pc : post c r1 = c <| request := Some r1 |>).
    { rewrite post_eq. unfold post'. cbv zeta. rewrite Sc, Hc1. reflexivity. }
    assert (Pe : post_ev true c r1 = []).
    { unfold post_ev. rewrite Sc, Hc1. reflexivity. }
    rewrite Pe, Pc, bind_nil.
    assert (I1 : inv a (c <| request := Some r1 |>)).
    { rewrite <- Pc. eapply post_inv; eauto. }
    rewrite (step_unfold true a _ s I1 Hs). unfold step_body. rewrite cur_request.
    unfold cont_rel in CR.
    destruct (received_total a r1 s W1 Hs) as [E2|(r2 & n2 & E2 & Bn2 & Hr2)]; rewrite E2 in *.
    + rewrite CR. apply approx_refl.
    + destruct CR as (r2' & nw & Ew & Ot & Cc & Hnone). rewrite Ew.
      rewrite post_request, post_ev_request.
      assert (P : prel true r2 r2').
      { split; [exact Ot|]. intros Hnc. destruct Hr2 as [Hr2|Hr2]; [congruence|].
        destruct Hr2 as (_ & He2 & _). destruct (Hnone He2) as (_ & _ & Hp). auto. }
      destruct (post_sim true c c r2 r2' (sim_refl c) P) as (S2 & Ev).
      destruct (error r2) as [e|] eqn:He2.
      * (* refused: both traces are cut right after this request *)
        assert (Hc2 : completed r2 = true).
        { destruct Hr2 as [Hr2|Hr2]; [exact Hr2|]. destruct Hr2 as (_ & X & _). congruence. }
        assert (Un : clean (post_ev true c r2) = false) by (apply post_ev_poison; [exact Hc2 | congruence]).
        rewrite <- Ev.
        split.
        -- rewrite !(proj1 (unclean_if _ _ _ _ Un)). reflexivity.
        -- rewrite (proj2 (unclean_if _ _ _ _ Un)). discriminate.
      * destruct (Hnone eq_refl) as (-> & _ & _).
        rewrite (length_cons_le b s n2 Hs). rewrite <- Ev.
        destruct (Z.of_nat (length s) <=? n2)%Z eqn:Hn.
        -- split; [reflexivity|]. intros _. cbn [fst relres]. apply sim_sym. exact S2.
        -- apply Z.leb_gt in Hn.
           replace (Z.to_nat (1 + n2)) with (S (Z.to_nat n2)) by lia. cbn [skipn].
           assert (Hd2 : skipn (Z.to_nat n2) s <> []) by (apply skipn_nonempty; lia).
           assert (I2 : inv a (post c r2)).
           { rewrite <- (post_request c (Some r1) r2). eapply post_inv; [exact I1 | rewrite cur_request; exact E2 | exact Hr2]. }
           assert (I2' : inv a (post c r2')).
           { eapply post_inv; [exact I | exact Ew|].
             destruct Hr2 as [Hr2|Hr2]; [left; congruence|].
             destruct (received_total a (cur c) (b :: s) (wf_cur a c W) ltac:(discriminate)) as [X|(q & m & X & _ & Y)];
               [congruence|]. assert (q = r2') by congruence. subst q. exact Y. }
           destruct (step_sim true a (length s) (post c r2') (post c r2) (skipn (Z.to_nat n2) s)) as (T & Rr); auto.
           ++ rewrite skipn_length. lia.
           ++ apply sim_sym; exact S2.
           ++ destruct (step true a (post c r2') _) as [res' t']. destruct (step true a (post c r2) _) as [res t].
              cbn [fst snd] in *. subst t'. split; [reflexivity | intros _; exact Rr].
  - (* the byte completes the message with an error *)
    rewrite E1, Ew, L1. cbn [bind].
    assert (P : prel true r1 r1') by (split; [exact O | intros X; congruence]).
    destruct (post_sim true c c r1 r1' (sim_refl c) P) as (_ & Ev). rewrite <- Ev.
    assert (Un : clean (post_ev true c r1) = false) by (apply post_ev_poison; auto).
    split.
    + destruct (step true a (post c r1) s) as [res2 t2]. cbn [snd]. rewrite (cut_unclean _ t2 Un).
      exact (proj1 (unclean_if _ _ _ _ Un)).
    + intros Cl. exfalso. revert Cl. destruct (step true a (post c r1) s) as [res2 t2]. cbn [snd].
      rewrite (clean_unclean _ t2 Un). discriminate.
Qed.

(* BW a c d: the run in which every byte of d comes in a read of its own; every
   other division of d into reads is compared with this one *)
Fixpoint BW (a : adj) (c : chan) (d : bytes) : chan_res * list event :=
  match d with
  | [] => (COk c, [])
  | b :: s => bind (step true a c [b]) (fun c1 => BW a c1 s)
  end.

Lemma step_good ab a : forall m c data, (length data <= m)%nat -> inv a c -> data <> [] ->
  good a (step ab a c data).
Proof.
  induction m as [|m IH]; intros c data L I Hd.
  { destruct data; [congruence | simpl in L; lia]. }
  rewrite (step_unfold ab a c data I Hd). unfold step_body. pose proof I as (W & _).
  destruct (received_total a (cur c) data (wf_cur a c W) Hd) as [E|(r1 & n & E & Bn & Hr)]; rewrite E; [exact Logic.I|].
  pose proof (post_inv a c data r1 n I E Hr) as I1.
  destruct (Z.of_nat (length data) <=? n)%Z eqn:Hn; [exact I1|]. apply Z.leb_gt in Hn.
  assert (G : good a (step ab a (post c r1) (skipn (Z.to_nat n) data))).
  { apply IH; auto.
    - rewrite skipn_length. lia.
    - apply skipn_nonempty. lia. }
  destruct (step ab a (post c r1) _) as [res t]. exact G.
Qed.

Lemma bind_good a x k : good a x -> (forall c1, inv a c1 -> good a (k c1)) -> good a (bind x k).
Proof.
  destruct x as [[c1| | |] t1]; cbn [bind]; intros G K; try exact Logic.I.
  specialize (K c1 G). destruct (k c1) as [r2 t2]. exact K.
Qed.

Lemma BW_good a : forall d c, inv a c -> good a (BW a c d).
Proof.
  induction d as [|b s IH]; intros c I; [exact I|].
  cbn [BW]. apply bind_good; [eapply step_good; eauto; discriminate | intros c1 I1; apply IH; exact I1].
Qed.

Lemma bind_ret x : bind x (fun c1 => (COk c1, [])) = x.
Proof. destruct x as [[c1| | |] t1]; cbn [bind]; try reflexivity. now rewrite app_nil_r. Qed.

Lemma bind_assoc x k k' : bind (bind x k) k' = bind x (fun c => bind (k c) k').
Proof.
  destruct x as [[c1| | |] t1]; cbn [bind]; try reflexivity.
  destruct (k c1) as [[c2| | |] t2]; cbn [bind]; try reflexivity.
  destruct (k' c2) as [r3 t3]. now rewrite app_assoc.
Qed.

Lemma bind_ext x k k' : (forall c, k c = k' c) -> bind x k = bind x k'.
Proof. intros H. destruct x as [[c1| | |] t1]; cbn [bind]; try reflexivity. now rewrite H. Qed.

Lemma BW_app a : forall d1 d2 c, BW a c (d1 ++ d2) = bind (BW a c d1) (fun c1 => BW a c1 d2).
Proof.
  induction d1 as [|b s IH]; intros d2 c.
  - cbn [app BW]. now rewrite bind_nil.
  - cbn [app BW]. rewrite bind_assoc. apply bind_ext. intros c1. apply IH.
Qed.

(* the loop on a read is the byte-wise run of that read *)
Lemma step_BW a : forall d c, inv a c -> d <> [] -> approx (step true a c d) (BW a c d).
Proof.
  induction d as [|b s IH]; intros c Iv Hd; [congruence|].
  destruct s as [|b2 s'].
  - cbn [BW]. rewrite bind_ret. apply approx_refl.
  - eapply approx_trans; [apply chan_one_byte; [exact Iv | discriminate]|].
    cbn [BW]. apply (bind_approx a).
    + apply approx_refl.
    + eapply step_good; eauto; discriminate.
    + eapply step_good; eauto; discriminate.
    + intros c1 c1' S I1 I1'.
      eapply approx_trans; [|apply IH; [exact I1' | discriminate]].
      destruct (step_sim true a (length (b2 :: s')) c1 c1' (b2 :: s') (le_n _) I1 I1' S ltac:(discriminate)) as (T & R).
      split; [now rewrite T | intros _; exact R].
Qed.

Lemma BW_sim a : forall d c c', sim c c' -> inv a c -> inv a c' -> approx (BW a c d) (BW a c' d).
Proof.
  induction d as [|b s IH]; intros c c' S Iv Iv'.
  - split; [reflexivity | intros _; exact S].
  - cbn [BW]. apply (bind_approx a).
    + destruct (step_sim true a 1 c c' [b] (le_n _) Iv Iv' S ltac:(discriminate)) as (T & R).
      split; [now rewrite T | intros _; exact R].
    + eapply step_good; eauto; discriminate.
    + eapply step_good; eauto; discriminate.
    + intros c1 c1' S1 I1 I1'. apply IH; auto.
Qed.

Lemma chan_tr_step ab a c d : inv a c -> d <> [] -> chan_tr ab a c d = step ab a c d.
Proof.
  intros (_ & _ & F1 & F2) Hd. unfold chan_tr. destruct d; [congruence|]. now rewrite F1, F2.
Qed.

Lemma feed_good a : forall reads c, inv a c -> good a (feed_tr true a c reads).
Proof.
  induction reads as [|d rest IH]; intros c Iv; [exact Iv|].
  cbn [feed_tr]. apply bind_good; [|intros c1 I1; apply IH; exact I1].
  destruct d as [|x d']; [exact Iv|]. rewrite chan_tr_step by (auto; discriminate).
  eapply step_good; eauto; discriminate.
Qed.

(* any sequence of reads is, up to the cut, the byte-wise run of its concatenation *)
Theorem feed_BW a : forall reads c, inv a c ->
  approx (feed_tr true a c reads) (BW a c (concat reads)).
Proof.
  induction reads as [|d rest IH]; intros c Iv.
  - apply approx_refl.
  - cbn [feed_tr concat]. rewrite BW_app.
    destruct d as [|x d'].
    + cbn [chan_tr BW]. rewrite !bind_nil. apply IH; exact Iv.
    + rewrite chan_tr_step by (auto; discriminate).
      apply (bind_approx a).
      * apply step_BW; [exact Iv | discriminate].
      * eapply step_good; eauto; discriminate.
      * apply BW_good; exact Iv.
      * intros c1 c1' S I1 I1'. eapply approx_trans; [apply IH; exact I1 | apply BW_sim; auto].
Qed.

(* C02 for the sequential channel model: the events, cut after the first
   refused request, do not depend on how the stream was divided into reads *)
Theorem split_independent a reads1 reads2 : concat reads1 = concat reads2 ->
  cut (snd (feed_tr true a chan_init reads1)) = cut (snd (feed_tr true a chan_init reads2)).
Proof.
  intros E.
  destruct (feed_BW a reads1 chan_init (inv_init a)) as (C1 & _).
  destruct (feed_BW a reads2 chan_init (inv_init a)) as (C2 & _).
  rewrite C1, C2, E. reflexivity.
Qed.

Corollary split_vs_whole a reads :
  cut (snd (feed_tr true a chan_init reads)) = cut (snd (feed_tr true a chan_init [concat reads])).
Proof. apply split_independent. cbn [concat]. now rewrite app_nil_r. Qed.

(* the events are what the model's state records: the bytes the I/O side put
   on the wire and the requests it queued, in order *)
Definition ev_out (e : event) : bytes :=
  match e with EvContinue => continue_bytes | EvDone _ => [] end.
Definition ev_reqs (e : event) : list parser :=
  match e with EvDone o => if empty o then [] else [o] | EvContinue => [] end.

Definition tr_state (ab : bool) (c c' : chan) (t : list event) : Prop :=
  outlog c' = outlog c ++ flat_map ev_out t /\
  map (obs ab) (requests c') = map (obs ab) (requests c) ++ flat_map ev_reqs t.

Lemma tr_state_refl ab c : tr_state ab c c [].
Proof. split; cbn; now rewrite app_nil_r. Qed.

Lemma tr_state_trans ab c1 c2 c3 t1 t2 :
  tr_state ab c1 c2 t1 -> tr_state ab c2 c3 t2 -> tr_state ab c1 c3 (t1 ++ t2).
Proof.
  intros (A1 & A2) (B1 & B2). split; rewrite flat_map_app.
  - rewrite B1, A1. now rewrite app_assoc.
  - rewrite B2, A2. now rewrite app_assoc.
Qed.

Lemma post_trace ab c r1 : tr_state ab c (post c r1) (post_ev ab c r1).
Proof.
  unfold tr_state, post_ev. rewrite post_fields. csimpl. rewrite !flat_map_app.
  set (r2 := if send_cond c r1 then r1 <| expect_continue := false |> else r1).
  assert (E : empty (obs ab r2) = empty r1) by (subst r2; destruct (send_cond c r1); reflexivity).
  (* [obs ab r2] is kept folded: its unfolding is a long chain of record updates *)
  set (o := obs ab r2) in *. assert (Eo : map (obs ab) [r2] = [o]) by reflexivity. clearbody o r2.
  split.
  - destruct (send_cond c r1), (completed r1); cbn [flat_map ev_out app]; now rewrite ?app_nil_r.
  - replace (flat_map ev_reqs (if send_cond c r1 then [EvContinue] else [])) with (@nil parser)
      by (destruct (send_cond c r1); reflexivity).
    destruct (completed r1); cbn [andb flat_map ev_reqs app]; [|now rewrite app_nil_r].
    rewrite E. destruct (empty r1); cbn [negb]; [now rewrite app_nil_r|]. now rewrite map_app, Eo.
Qed.

Lemma loop_trace ab a fuel : forall c data c' t,
  loop_tr ab fuel a c data = (COk c', t) -> tr_state ab c c' t.
Proof.
  induction fuel as [|f IH]; intros c data c' t; [discriminate|].
  cbn [loop_tr]. destruct (received a _ data) as [r1 n| | |]; try discriminate.
  destruct (_ <=? _)%Z.
  - intros H; injection H as <- <-. apply post_trace.
  - destruct (loop_tr ab f a (post c r1) _) as [res t2] eqn:E. intros H; injection H as -> <-.
    eapply tr_state_trans; [apply post_trace | eapply IH; eauto].
Qed.

Lemma chan_trace ab a c data c' t : chan_tr ab a c data = (COk c', t) -> tr_state ab c c' t.
Proof.
  unfold chan_tr. destruct data; [intros H; injection H as <- <-; apply tr_state_refl|].
  destruct (_ || _); [intros H; injection H as <- <-; apply tr_state_refl|]. apply loop_trace.
Qed.

Theorem feed_trace ab a : forall reads c c' t,
  feed_tr ab a c reads = (COk c', t) -> tr_state ab c c' t.
Proof.
  induction reads as [|d rest IH]; intros c c' t.
  - intros H; injection H as <- <-. apply tr_state_refl.
  - cbn [feed_tr]. destruct (chan_tr ab a c d) as [[c1| | |] t1] eqn:E; cbn [bind]; try discriminate.
    destruct (feed_tr ab a c1 rest) as [r2 t2] eqn:E2. intros H; injection H as -> <-.
    eapply tr_state_trans; [eapply chan_trace; eauto | eapply IH; eauto].
Qed.
