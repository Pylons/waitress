(* Proof/ChanPipeRefute.v -- finding F18 (repaired by 8bcf05e) in the model: for the PREVIOUS shape of
   handle_write (p_unlocked = true: `if not self.requests: flush = self._flush_some`, without
   outbuf_lock) the wire statement is false.  The schedule (harness.chanpipe.F18_CHOICES): the worker's send_continue() and
   the I/O thread's unlocked _flush_some both fetch the same chunk (the response to request 0
   followed by the interim response for request 1) and both send it.  The same schedule on the
   current shape (p_unlocked = false) is harmless: the I/O thread's try-acquire fails. *)
From Coq Require Import List Arith Bool ZArith.
From WV Require Import Model.ChanPipe Proof.ChanPipeBase Proof.ChanPipeOwn Proof.ChanPipeLog
                       Proof.ChanPipeOut Proof.ChanPipeOutStep Proof.ChanPipeSpec.
Import ListNotations.

(* GET /a (one write_soon of 5 bytes) pipelined with the head of POST /b, Expect: 100-continue,
   body not yet sent; one worker; lookahead 0; send_bytes 1; "100 Continue" abbreviated to 2 bytes *)
Definition P18 : params :=
  {| p_look := 0; p_sb := 1%Z; p_clen := 2; p_nw := 1; p_unlocked := true;
     p_script := [ {| r_expect := false; r_nobody := false; r_writes := [5]; r_close := false |};
                   {| r_expect := true; r_nobody := false; r_writes := [3]; r_close := false |} ] |}.

Definition sched18 : list choice :=
  (* I/O: one poll turn, recv() delivers request 0 and the head of request 1, received() queues
     request 0 and submits the channel; request 1 waits in self.request (no 100 Continue yet:
     a request is queued) *)
  repeat (CIo ENone) 7 ++ [CIo (ESel true false); CIo ENone; CIo (ERecv 2 false)] ++ repeat (CIo ENone) 17 ++
  (* worker 0: takes the channel, serves request 0; the client accepts nothing yet (send -> 0);
     keep branch: pops request 0, requests == [], self.request expects: send_continue() --
     acquires outbuf_lock, appends the interim response, enters _flush_some and fetches the chunk *)
  repeat (CWk 0 ENone) 15 ++ [CWk 0 (ESend 5 0)] ++ repeat (CWk 0 ENone) 13 ++
  (* I/O: writable; handle_write reads requests == [] and runs _flush_some WITHOUT the lock:
     fetches the same chunk and sends all 7 bytes *)
  [CIo ENone; CIo (ESel false true); CIo ENone; CIo ENone; CIo ENone; CIo ENone; CIo (ESend 7 7)] ++
  (* worker 0: sends the chunk it had fetched: the same 7 bytes again *)
  [CWk 0 ENone; CWk 0 (ESend 7 7)].

Definition chunk18 : list tok := resp_toks 0 0 5 ++ cont_toks P18 1.

Lemma f18_wire : wire (sh (run P18 sched18)) = chunk18 ++ chunk18.
Proof. vm_compute. reflexivity. Qed.

Lemma f18_produced : produced (sh (run P18 sched18)) = chunk18.
Proof. vm_compute. reflexivity. Qed.

Lemma f18_class : wsc (sh (run P18 sched18)) = true.
Proof. vm_compute. reflexivity. Qed.

(* the other C04 statements hold in that state (they hold in every state) *)
Lemma f18_rest : once_ok (run P18 sched18) = true /\ one_ok P18 (run P18 sched18) = true /\
                 entry_ok P18 (run P18 sched18) = true.
Proof. vm_compute. auto. Qed.

(* the repaired shape under the same schedule: the try-acquire of the I/O thread fails (the worker
   holds outbuf_lock), nothing is sent twice *)
Definition P18_fixed : params :=
  {| p_look := 0; p_sb := 1%Z; p_clen := 2; p_nw := 1; p_unlocked := false; p_script := p_script P18 |}.

Lemma f18_fixed_wire : wire (sh (run P18_fixed sched18)) = chunk18.
Proof. vm_compute. reflexivity. Qed.
