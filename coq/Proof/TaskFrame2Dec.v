(* str(n) for a non-negative int, as the client's Content-Length parser sees it
   (the Content-Length the server itself adds: error responses, file wrappers). *)
From Coq Require Import List NArith ZArith Bool Lia ZifyBool.
From WV Require Import Lib.PyBytes Model.Task Spec.ClientParse Proof.PyBytesFacts.
Import ListNotations.
Local Open Scope N_scope.

Lemma to_dec_nonempty n : to_dec n <> [].
Proof. apply to_dec_shape. Qed.

Lemma to_dec_all_digits n : all_digits (to_dec n) = true.
Proof.
  destruct (to_dec_shape n) as [NE F]. unfold all_digits. destruct (to_dec n) as [|x l]; [congruence|].
  apply forallb_forall. intros y Hy. rewrite Forall_forall in F. specialize (F y Hy).
  unfold is_digit. apply andb_true_iff. split; apply N.leb_le; lia.
Qed.

Lemma z_to_dec_nonneg z : (0 <= z)%Z -> z_to_dec z = to_dec (Z.to_N z).
Proof. intro H. unfold z_to_dec. destruct z; auto. lia. Qed.

Lemma z_to_dec_truthy z : (0 <= z)%Z -> truthy (Some (z_to_dec z)) = true.
Proof.
  intro H. rewrite z_to_dec_nonneg by auto. pose proof (to_dec_nonempty (Z.to_N z)).
  cbn [truthy]. destruct (to_dec (Z.to_N z)); congruence.
Qed.
