(* Examples of refused shapes, and the induction behind C01_refuse_repeated_single_ref. *)
From Coq Require Import List NArith ZArith Bool Lia.
From WV Require Import Lib.PyBytes Lib.Regex Gen.GenRegex Spec.Grammar Proof.C10Gates.
From WV Require Import Model.Receiver Model.UrlSplit Model.Parser Spec.Ref9112.
From WV Require Import Proof.C01Lib Proof.C01Dict Proof.C01Framing Proof.C01Head.
Import ListNotations.
Local Open Scope N_scope.

Lemma no_colon_refused : forall l,
  forallb (fun x => negb (x =? 58)) l = true -> parse_field_line l = None.
Proof.
  intros l H. rewrite memb_forallb in H. apply negb_true_iff in H.
  unfold parse_field_line. rewrite split_colon_none by exact H. reflexivity.
Qed.

(* "Host :a" -- SP is not a tchar *)
Example ws_before_colon : parse_field_line [72;111;115;116;32;58;97] = None.
Proof. reflexivity. Qed.

Lemma seen_stays k : forall fs seen n v rest,
  is_single_key k = true -> norm_name n = k -> existsb (beqb k) seen = true ->
  no_repeated_single seen (fs ++ (n, v) :: rest) = false.
Proof.
  induction fs as [|[n0 v0] fs IH]; intros seen n v rest Hs Hn He; cbn [app no_repeated_single].
  - rewrite Hn, Hs, He. reflexivity.
  - destruct (is_single_key (norm_name n0) && existsb (beqb (norm_name n0)) seen); auto.
    apply IH; auto. cbn [existsb]. rewrite He. apply orb_true_r.
Qed.

(* signed, padded inside, empty, hex, a list, a trailing VT: none is 1*DIGIT *)
Example bad_content_length_examples :
  map (fun v => nonempty v && forallb is_dig v)
      [[43;53]; [45;49]; [53;32;53]; []; [48;120;53]; [53;44;53]; [53;11]] = [false;false;false;false;false;false;false].
Proof. reflexivity. Qed.

