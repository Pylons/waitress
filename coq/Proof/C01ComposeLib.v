(* C01, composition over the stream: substrings, the hypothesis on request-targets,
   the cut of the observation list, stripping. *)
From Coq Require Import List NArith ZArith Bool Lia Arith.
From RecordUpdate Require Import RecordUpdate.
From WV Require Import Lib.PyBytes Lib.Regex Model.Receiver Model.UrlSplit Model.Parser Model.ChanSeq Spec.Ref9112.
From WV Require Import Proof.RegexFacts Proof.EnvironParse Proof.C01Lib Proof.C01Dict Proof.C01Body Proof.C01Block Proof.C01Head Proof.C01Framing Proof.C01Observe.
Import ListNotations.
Local Open Scope N_scope.

Definition infix (t s : bytes) : Prop := exists pre post, s = pre ++ t ++ post.

Lemma infix_refl s : infix s s.
Proof. exists [], []. rewrite app_nil_r. reflexivity. Qed.

Lemma infix_trans a b c : infix a b -> infix b c -> infix a c.
Proof.
  intros (p1 & q1 & ->) (p2 & q2 & ->). exists (p2 ++ p1), (q1 ++ q2).
  rewrite <- !app_assoc. reflexivity.
Qed.

Lemma infix_app_l t a b : infix t a -> infix t (a ++ b).
Proof. intros (p & q & ->). exists p, (q ++ b). rewrite <- !app_assoc. reflexivity. Qed.

Lemma infix_app_r t a b : infix t b -> infix t (a ++ b).
Proof. intros (p & q & ->). exists (a ++ p), q. rewrite <- !app_assoc. reflexivity. Qed.

Lemma infix_mid t a b : infix t (a ++ t ++ b).
Proof. exists a, b. reflexivity. Qed.

Lemma infix_prefix t b : infix t (t ++ b).
Proof. exists [], b. reflexivity. Qed.

Lemma infix_skipn k s : infix (skipn k s) s.
Proof. exists (firstn k s), []. rewrite app_nil_r. symmetry. apply firstn_skipn. Qed.

Lemma infix_firstn k s : infix (firstn k s) s.
Proof. exists [], (skipn k s). symmetry. apply firstn_skipn. Qed.

Lemma infix_cons x s : infix s (x :: s).
Proof. exists [x], []. rewrite app_nil_r. reflexivity. Qed.

Lemma infix_drop_while f s : infix (drop_while f s) s.
Proof.
  induction s as [|x s IH]; cbn [drop_while]; [apply infix_refl|].
  destruct (f x); [|apply infix_refl]. eapply infix_trans; [exact IH | apply infix_cons].
Qed.

Lemma infix_rev a b : infix a b -> infix (rev a) (rev b).
Proof. intros (p & q & ->). exists (rev q), (rev p). rewrite !rev_app_distr, <- app_assoc. reflexivity. Qed.

Lemma infix_trim f s : infix (trim f s) s.
Proof.
  unfold trim. eapply infix_trans; [apply infix_rev, infix_drop_while|].
  rewrite rev_involutive. apply infix_drop_while.
Qed.

Lemma infix_memb x t s : infix t s -> memb x s = false -> memb x t = false.
Proof.
  intros (p & q & ->). unfold memb. rewrite !existsb_app. intro H.
  apply orb_false_iff in H as [_ H]. apply orb_false_iff in H as [H _]. exact H.
Qed.

Lemma infix_bytes_ok t s : infix t s -> bytes_ok s -> bytes_ok t.
Proof.
  intros (p & q & ->) H. apply bytes_ok_app in H as [_ H]. apply bytes_ok_app in H as [H _]. exact H.
Qed.

(* the hypothesis on request-targets: on every substring of the stream with the shape of a
   request-target, urlsplit as modelled is defined (no bracketed host handed to the ipaddress
   module) and refuses exactly what RFC 3986 (the reference's target_policy) refuses *)
Definition uri_ok (t : bytes) : Prop :=
  split_uri t <> SUnmodelled /\ (split_uri t = SBadURI <-> target_policy t = false).

Definition targets_ok (s : bytes) : Prop :=
  forall t, infix t s -> target_shape t = true -> uri_ok t.

Lemma targets_ok_infix s' s : infix s' s -> targets_ok s -> targets_ok s'.
Proof. intros Hi H t Ht. apply H. eapply infix_trans; eauto. Qed.

Lemma cut_app_open : forall l1 l2 L, cut l1 = (L, false) ->
  cut (l1 ++ l2) = (L ++ fst (cut l2), snd (cut l2)).
Proof.
  induction l1 as [|o l1 IH]; intros l2 L; cbn [cut app].
  - intro H. injection H as <-. destruct (cut l2); reflexivity.
  - destruct (closes o); [discriminate|].
    destruct (cut l1) as [r c] eqn:E. intro H. injection H as <- ->.
    rewrite (IH l2 r eq_refl). reflexivity.
Qed.

Lemma cut_app_closed : forall l1 l2 L, cut l1 = (L, true) -> cut (l1 ++ l2) = (L, true).
Proof.
  induction l1 as [|o l1 IH]; intros l2 L; cbn [cut app]; [discriminate|].
  destruct (closes o); [auto|].
  destruct (cut l1) as [r c] eqn:E. intro H. injection H as <- ->.
  rewrite (IH l2 r eq_refl). reflexivity.
Qed.

Lemma cut_closing o : closes o = true -> cut [o] = ([o], true).
Proof. intro H. cbn [cut]. rewrite H. reflexivity. Qed.

Lemma cut_open1 o : closes o = false -> cut [o] = ([o], false).
Proof. intro H. cbn [cut]. rewrite H. reflexivity. Qed.

Lemma uniq_fold_add : forall fs d, uniq d -> uniq (fold_add d fs).
Proof.
  induction fs as [|[n v] fs IH]; intros d H; cbn [fold_add fold_left]; auto.
  apply IH. apply uniq_combine_add. exact H.
Qed.

Lemma uniq_combined fs : uniq (combined fs).
Proof. apply (uniq_fold_add fs []). exact I. Qed.

Lemma strip_crlf_line f l X : l <> [] -> crlf_free l = true ->
  strip_leading_crlf f (l ++ CRLF ++ X) = l ++ CRLF ++ X.
Proof.
  intros Hne Hf. destruct f as [|f]; [reflexivity|]. rewrite strip_leading_crlf_step.
  destruct l as [|x [|y l']]; [congruence| |].
  - cbn [app CRLF]. replace ((x =? 13) && (13 =? 10)) with false by (rewrite andb_false_r; reflexivity).
    reflexivity.
  - cbn [app]. cbn [crlf_free] in Hf. apply andb_true_iff in Hf as [Hf _].
    apply negb_true_iff in Hf. rewrite Hf. reflexivity.
Qed.

Lemma infix_strip_crlf : forall f s, infix (strip_leading_crlf f s) s.
Proof.
  induction f as [|f IH]; intro s; [apply infix_refl|].
  rewrite strip_leading_crlf_step. destruct s as [|x [|y s']]; try apply infix_refl.
  destruct ((x =? 13) && (y =? 10)); [|apply infix_refl].
  eapply infix_trans; [apply IH|]. exists [x; y], []. rewrite app_nil_r. reflexivity.
Qed.

Lemma infix_rstrip f s : infix (rstrip_by f s) s.
Proof. destruct (rstrip_prefix f s) as [post E]. rewrite E at 2. apply infix_prefix. Qed.

Lemma crlf_free_app_l a b : crlf_free (a ++ b) = true -> crlf_free a = true.
Proof.
  induction a as [|x a IH]; cbn [app crlf_free]; auto.
  intro H. apply andb_true_iff in H as [H1 H2]. rewrite (IH H2), andb_true_r.
  destruct a as [|y a']; cbn [app] in *.
  - rewrite andb_false_r. reflexivity.
  - exact H1.
Qed.

Lemma crlf_free_app_r a b : crlf_free (a ++ b) = true -> crlf_free b = true.
Proof.
  induction a as [|x a IH]; cbn [app crlf_free]; auto.
  intro H. apply andb_true_iff in H as [_ H2]. auto.
Qed.

Lemma crlf_free_infix t s : infix t s -> crlf_free s = true -> crlf_free t = true.
Proof. intros (p & q & ->) H. apply crlf_free_app_r in H. apply crlf_free_app_l in H. exact H. Qed.

Lemma rstrip_nonempty f x s : f x = false -> rstrip_by f (x :: s) <> [].
Proof. intro H. destruct (rstrip_cons_keep f x s H) as (r & ->). discriminate. Qed.

Lemma nonempty_length {A} (s : list A) : s <> [] -> (1 <= length s)%nat.
Proof. destruct s; [congruence|cbn; lia]. Qed.
