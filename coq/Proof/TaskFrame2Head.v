(* C03: what the client finds in the head of a prepared task, for the classes
   of tasks the frame theorems need:
   - no Content-Length known (any status class),
   - a Content-Length header supplied by the application (status with a body). *)
From Coq Require Import String.
From Coq Require Import List NArith ZArith Bool Lia Arith Permutation.
From WV Require Import Lib.PyBytes Gen.GenTables Model.Task Spec.ClientParse
  Proof.TaskSort Proof.TaskLines Proof.TaskHead Proof.TaskStart Proof.TaskRun Proof.TaskChunk Proof.TaskClient
  Proof.TaskC08 Proof.TaskC09 Proof.TaskFrame Proof.TaskBody Proof.TaskSimple Proof.TaskFrameClient
  Proof.TaskFrameEnd.
Import ListNotations.
Local Open Scope N_scope.

Section Head2.
Variable cap : str -> str.
Variable lower : str -> str.
Hypothesis Hcap : forall s, clean s -> clean (cap s).
Hypothesis Hcap_conn : cap (lit "Connection") = lit "Connection".
Hypothesis Hcap_te : beqb (cap (lit "Transfer-Encoding")) (lit "Connection") = false.
Hypothesis Hcap_cl : beqb (cap (lit "Content-Length")) (lit "Connection") = false.
Variable c : cfg.
Hypothesis Hc : cfg_clean c.
Variable r : req.

Definition nocolon_rh (t : task) : Prop := Forall (fun h : str * str => no_colon (fst h)) (t_rh t).

(* the fields of the head as the client reads them *)
Definition cfields (t : task) : list (bytes * bytes) := map client_field (sort_hdrs (t_rh t)).

Lemma in_cfields t h : In h (t_rh t) -> In (client_field h) (cfields t).
Proof.
  intro H. unfold cfields. apply in_map. eapply Permutation_in; [apply Permutation_sym, sort_perm|exact H].
Qed.

Lemma cfields_in t x : In x (cfields t) -> exists h, In h (t_rh t) /\ client_field h = x.
Proof.
  unfold cfields. intro H. apply in_map_iff in H as (h & E & Hh). exists h. split; auto.
  eapply Permutation_in; [apply sort_perm|exact Hh].
Qed.

Lemma cfields_filter_nil t name :
  filter (field_is name) (map client_field (t_rh t)) = [] -> filter (field_is name) (cfields t) = [].
Proof. apply sorted_filter_nil. Qed.

(* the decision table without a known length: always close, chunked iff HTTP/1.1 with a body *)
Lemma table_nolen v11 conn fc hb :
  let '(add, cof, chk) := conn_table v11 conn fc false hb in
  cof = true /\ chk = v11 && hb
  /\ Forall (fun h : str * str => no_colon (fst h)) add
  /\ filter (field_is te_name) (map client_field add) = (if v11 && hb then [client_field f_chunked] else [])
  /\ filter (field_is cl_name) (map client_field add) = []
  /\ In f_close add.
Proof.
  unfold conn_table. destruct v11; [destruct (beqb conn (lit "close") || fc), hb|rewrite andb_false_r];
    cbn; repeat split; auto; repeat constructor.
Qed.

Lemma nolen_head_facts t1 :
  task_clean t1 ->
  t_cof t1 = false -> t_wrote_header t1 = false -> t_chunked t1 = false -> t_clen t1 = None ->
  plain_fields cap (t_rh t1) ->
  let tp := bh_prepare cap lower c r t1 in
  task_clean tp /\ nocolon_rh tp
  /\ t_status tp = t_status t1 /\ t_v11 tp = t_v11 t1
  /\ t_cof tp = true /\ t_chunked tp = t_v11 t1 && has_body t1
  /\ te_fields tp = (if t_v11 t1 && has_body t1 then [client_field f_chunked] else [])
  /\ cl_fields tp = []
  /\ (forall h, In h (t_rh t1) -> In (norm_field cap h) (t_rh tp))
  /\ In f_close (t_rh tp).
Proof.
  intros Hclean C W K L P. cbn zeta.
  pose proof (prepared_nolen cap lower Hcap_te c r t1 C W K L P) as Q. cbn zeta in Q.
  pose proof (table_nolen (t_v11 t1) (request_connection r) (r_connection_close r) (has_body t1)) as T.
  set (tp := bh_prepare cap lower c r t1) in *.
  destruct (conn_table (t_v11 t1) (request_connection r) (r_connection_close r) false (has_body t1)) as [[add cof] chk].
  destruct T as (-> & -> & Tnc & Tte & Tcl & Tclose).
  destruct Q as (tail & Prh & Ptail & Pcof & Pchk & Pst & Pv).
  split; [subst tp; apply bh_prepare_clean; auto|].
  split.
  { unfold nocolon_rh. rewrite Prh. apply Forall_app. split; [apply plain_no_colon; auto|].
    apply Forall_app. split; [exact Tnc|apply tail_no_colon; auto]. }
  split; [exact Pst|]. split; [exact Pv|]. split; [exact Pcof|]. split; [exact Pchk|].
  split.
  { unfold te_fields. rewrite Prh, !map_app, !filter_app, Tte.
    rewrite (plain_not_named _ _ te_name (or_introl eq_refl) P).
    rewrite (tail_not_named tail te_name eq_refl eq_refl eq_refl Ptail). apply app_nil_r. }
  split.
  { unfold cl_fields. rewrite Prh, !map_app, !filter_app, Tcl.
    rewrite (plain_not_named _ _ cl_name (or_intror eq_refl) P).
    apply (tail_not_named tail cl_name eq_refl eq_refl eq_refl Ptail). }
  split.
  { intros h Hh. rewrite Prh. apply in_or_app. left. apply in_map. exact Hh. }
  rewrite Prh. apply in_or_app. right. apply in_or_app. left. exact Tclose.
Qed.

(* the persistence decision announced in the head when the length is known *)
Definition keep_of : bool :=
  if beqb (r_version r) (lit "1.1")
  then negb (beqb (request_connection r) (lit "close") || r_connection_close r)
  else beqb (request_connection r) (lit "keep-alive") && negb (r_connection_close r).

(* the decision table when the length is known and the status has a body *)
Lemma table_len :
  conn_table (beqb (r_version r) (lit "1.1")) (request_connection r) (r_connection_close r) true true
  = ((if keep_of then (if beqb (r_version r) (lit "1.1") then [] else [f_keep]) else [f_close]), negb keep_of, false).
Proof.
  unfold conn_table, keep_of. destruct (beqb (r_version r) (lit "1.1")).
  - destruct (beqb (request_connection r) (lit "close") || r_connection_close r); reflexivity.
  - rewrite andb_true_r. destruct (_ && _); reflexivity.
Qed.

(* the head of a prepared task with a known length, wherever the Content-Length
   field sits among [body]: the fields before what the decision table and the
   server add *)
Lemma known_len_head tp body tail v :
  t_rh tp = body ++ (if keep_of then (if beqb (r_version r) (lit "1.1") then [] else [f_keep]) else [f_close]) ++ tail ->
  Forall tail_field tail ->
  Forall (fun h : str * str => no_colon (fst h)) body -> NoConn cap body ->
  filter (field_is te_name) (map client_field body) = [] ->
  filter (field_is cl_name) (map client_field body) = [(lit "Content-Length", v)] ->
  nocolon_rh tp /\ te_fields tp = [] /\ cl_fields tp = [(lit "Content-Length", v)]
  /\ (keep_of = false -> In f_close (t_rh tp))
  /\ (keep_of = true -> ~ In (client_field f_close) (cfields tp)).
Proof.
  intros Prh Ptail Bnc Bconn Bte Bcl.
  set (add := if keep_of then _ else _) in Prh.
  assert (Anc : Forall (fun h : str * str => no_colon (fst h)) add)
    by (subst add; destruct keep_of; [destruct (beqb (r_version r) _)|]; repeat constructor).
  assert (Ate : filter (field_is te_name) (map client_field add) = [])
    by (subst add; destruct keep_of; [destruct (beqb (r_version r) _)|]; reflexivity).
  assert (Acl : filter (field_is cl_name) (map client_field add) = [])
    by (subst add; destruct keep_of; [destruct (beqb (r_version r) _)|]; reflexivity).
  split.
  { unfold nocolon_rh. rewrite Prh. apply Forall_app. split; [exact Bnc|].
    apply Forall_app. split; [exact Anc|apply tail_no_colon; auto]. }
  split.
  { unfold te_fields. rewrite Prh, !map_app, !filter_app, Bte, Ate.
    apply (tail_not_named tail te_name eq_refl eq_refl eq_refl Ptail). }
  split.
  { unfold cl_fields. rewrite Prh, !map_app, !filter_app, Bcl, Acl.
    rewrite (tail_not_named tail cl_name eq_refl eq_refl eq_refl Ptail). reflexivity. }
  split.
  - intro Hk. rewrite Prh. apply in_or_app. right. apply in_or_app. left. subst add. rewrite Hk. left. reflexivity.
  - (* a field named Connection is neither in [body], nor Keep-Alive's, nor Server / Via / Date *)
    intros Hk Hin. apply cfields_in in Hin as (h & Hh & Eh). rewrite Prh in Hh.
    assert (Hcc : beqb (cap (fst h)) (lit "Connection") = true).
    { unfold client_field, f_close in Eh. injection Eh as E1 _. rewrite E1. rewrite Hcap_conn. reflexivity. }
    apply in_app_or in Hh as [Hh|Hh].
    + unfold NoConn in Bconn. rewrite Forall_forall in Bconn. rewrite (Bconn h Hh) in Hcc. discriminate.
    + apply in_app_or in Hh as [Hh|Hh].
      * subst add. rewrite Hk in Hh. destruct (beqb (r_version r) _); [destruct Hh|].
        destruct Hh as [<-|[]]. unfold client_field, f_keep, f_close in Eh. discriminate.
      * rewrite Forall_forall in Ptail. destruct (Ptail h Hh) as [E|[E|E]];
          unfold client_field, f_close in Eh; injection Eh as E1 _; rewrite E in E1; discriminate.
Qed.

Lemma len_head_facts t1 l1 clname v l2 :
  task_clean t1 ->
  t_cof t1 = false -> t_wrote_header t1 = false -> t_chunked t1 = false ->
  t_v11 t1 = beqb (r_version r) (lit "1.1") ->
  t_rh t1 = l1 ++ (clname, v) :: l2 -> plain_fields cap l1 -> plain_fields cap l2 ->
  norm_name cap clname = lit "Content-Length" -> has_body t1 = true -> all_digits v = true ->
  let tp := bh_prepare cap lower c r t1 in
  task_clean tp /\ nocolon_rh tp
  /\ t_status tp = t_status t1 /\ t_v11 tp = t_v11 t1
  /\ t_cof tp = negb keep_of /\ t_chunked tp = false
  /\ te_fields tp = [] /\ cl_fields tp = [(lit "Content-Length", v)]
  /\ (forall h, In h (t_rh t1) -> In (norm_field cap h) (t_rh tp))
  /\ (keep_of = false -> In f_close (t_rh tp))
  /\ (keep_of = true -> ~ In (client_field f_close) (cfields tp)).
Proof.
  intros Hclean S6 S5 S7 S9 Erh1 Ppre Ppost Hnorm Hb1 Hdig. cbn zeta.
  assert (Hvne : snd (clname, v) <> []).
  { cbn [snd]. unfold all_digits in Hdig. destruct v; [discriminate|discriminate]. }
  pose proof (prepared_len cap lower Hcap_te c r Hcap_cl t1 l1 (clname, v) l2 S6 S5 S7 Erh1
                (conj Ppre (conj Ppost Hnorm)) Hb1 Hvne) as P.
  cbn zeta in P. rewrite S9, table_len in P.
  destruct P as (tail & Prh & Ptail & Pcof & Pchk & Pst & Pv).
  set (tp := bh_prepare cap lower c r t1) in *.
  destruct (known_len_head tp _ tail v Prh Ptail) as (K1 & K2 & K3 & K4 & K5).
  { rewrite Erh1, map_app. cbn [map]. apply Forall_app. split; [apply plain_no_colon; auto|].
    constructor; [|apply plain_no_colon; auto]. unfold norm_field. cbn [fst]. rewrite Hnorm. reflexivity. }
  { rewrite Erh1. apply (noconn_cl cap Hcap_cl l1 (clname, v) l2 (conj Ppre (conj Ppost Hnorm))). }
  { rewrite Erh1, !map_app. cbn [map]. rewrite filter_app. cbn [filter].
    rewrite (plain_not_named _ _ te_name (or_introl eq_refl) Ppre), (plain_not_named _ _ te_name (or_introl eq_refl) Ppost).
    unfold field_is, client_field, norm_field. cbn [fst]. rewrite Hnorm. reflexivity. }
  { rewrite Erh1, !map_app. cbn [map]. rewrite filter_app. cbn [filter].
    rewrite (plain_not_named _ _ cl_name (or_intror eq_refl) Ppre), (plain_not_named _ _ cl_name (or_intror eq_refl) Ppost).
    unfold field_is, client_field, norm_field. cbn [fst snd]. rewrite Hnorm. cbn [List.app].
    rewrite (strip_digits v Hdig). reflexivity. }
  split; [subst tp; apply bh_prepare_clean; auto|].
  split; [exact K1|]. split; [exact Pst|]. split; [rewrite S9; exact Pv|]. split; [exact Pcof|]. split; [exact Pchk|].
  split; [exact K2|]. split; [exact K3|].
  split; [intros h Hh; rewrite Prh; apply in_or_app; left; apply in_map; exact Hh|].
  split; [exact K4|exact K5].
Qed.

End Head2.
