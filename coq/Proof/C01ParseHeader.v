(* T1 + T3 composed over the bytes of a head: what Parser.parse_header makes
   of a head block written as request-line CRLF *( field-line CRLF ) CRLF is
   what the reference makes of its lines -- same refusals, same method,
   target, version, same field dict, same framing decision.  parse_header is
   read through its stages (ParserTotal.parse_header_eq): the HTTP/1.1 stage
   computes C01Framing.model_te_stage, the Content-Length stage model_cl_stage. *)
From Coq Require Import List NArith ZArith Bool Lia Arith.
From RecordUpdate Require Import RecordUpdate.
From WV Require Import Lib.PyBytes Lib.Regex Gen.GenRegex Spec.Grammar.
From WV Require Import Model.Receiver Model.UrlSplit Model.Parser Spec.Ref9112 Proof.ParserTotal.
From WV Require Import Proof.C01Lib Proof.C01Dict Proof.C01Framing Proof.C01Head Proof.C01Body Proof.C01ReqLine Proof.C01Block.
Import ListNotations.
Local Open Scope N_scope.

Definition close_listed (conn : bytes) : bool :=
  existsb (fun t => beqb (strip_by is_sp_htab t) s_close) (split (lower_latin1 conn) [44]).

Definition same_line (p q : parser) : Prop :=
  command q = command p /\ request_uri q = request_uri p /\ version q = version p.

Lemma same_line_trans p q r : same_line p q -> same_line q r -> same_line p r.
Proof. unfold same_line. intuition congruence. Qed.

Lemma te_stage_dict h ver h2 ch : model_te_stage h ver = (h2, ch, None) ->
  h2 = if ch then hpop (hpop h s_TRANSFER_ENCODING) s_CONTENT_LENGTH
       else if beqb ver s_1_1 then hpop h s_TRANSFER_ENCODING else h.
Proof.
  unfold model_te_stage.
  destruct (beqb ver s_1_1); [destruct (negb _); [discriminate|]; destruct (te_encodings _); [|destruct (negb _); [discriminate|]]|];
    intro H; injection H as <- <-; reflexivity.
Qed.

Lemma cl_stage_not_chunked h : model_cl_stage h <> MChunked.
Proof.
  unfold model_cl_stage. destruct (negb _); [discriminate|]. destruct (_ <? _); [discriminate|].
  cbv zeta. destruct (0 <? _); discriminate.
Qed.

(* model_cc over the stages: HTTP/1.0 without keep-alive, Transfer-Encoding outside HTTP/1.1,
   Content-Length beside chunked, "close" in the Connection list *)
Lemma model_cc_stages h ver h2 ch : model_te_stage h ver = (h2, ch, None) ->
  model_cc h ver =
  beqb ver s_1_0 && negb (beqb (lower_latin1 (hget_default h s_CONNECTION [])) s_keep_alive)
  || negb (beqb ver s_1_1) && present h s_TRANSFER_ENCODING
  || (if beqb ver s_1_1
      then ch && present h s_CONTENT_LENGTH || close_listed (hget_default h s_CONNECTION []) else false).
Proof.
  intro TE. unfold model_cc, model_framing. rewrite TE. fold (close_listed (hget_default h s_CONNECTION [])).
  pose proof (cl_stage_not_chunked h2) as NC.
  destruct ch; [|destruct (model_cl_stage h2); [| |congruence|]];
    destruct (beqb ver s_1_1), (_ && _), (present h s_TRANSFER_ENCODING); reflexivity.
Qed.

(* the HTTP/1.1 stage of parse_header computes model_te_stage *)
Lemma ph_v11_stage p h1 ver conn : chunked p = false -> headers p = h1 ->
  let '(q, oe) := ph_v11 p h1 ver conn in
  let '(h2, ch, oe') := model_te_stage h1 ver in
  oe = oe' /\ same_line p q /\ content_length q = content_length p /\
  (oe = None ->
   headers q = h2 /\ chunked q = ch /\
   body q = (if ch then Some (BChunked chunked_init) else body p) /\
   connection_close q =
     connection_close p
     || (if beqb ver s_1_1 then ch && present h1 s_CONTENT_LENGTH || close_listed conn else false)).
Proof.
  intros Hc Hh. unfold ph_v11, model_te_stage, present, close_listed, same_line.
  destruct (beqb ver s_1_1).
  2:{ rewrite Hc, orb_false_r. auto 10. }
  destruct (forallb _ _); cbn [negb].
  2:{ psimpl. repeat split; discriminate. }
  destruct (te_encodings _) as [|e0 encs].
  - destruct (existsb _ _); psimpl; rewrite ?orb_false_r, ?orb_true_r; repeat split; auto.
  - destruct (negb _); psimpl; [repeat split; discriminate|].
    rewrite (hget_hpop_other h1 s_CONTENT_LENGTH s_TRANSFER_ENCODING eq_refl).
    destruct (hget h1 s_CONTENT_LENGTH), (existsb _ _); psimpl; rewrite ?orb_false_r, ?orb_true_r; repeat split; auto.
Qed.

Lemma ph_tail_chunked p : chunked p = true -> ph_tail p = (p, PSOk).
Proof. intro H. unfold ph_tail. rewrite H. reflexivity. Qed.

(* the Content-Length stage computes model_cl_stage *)
Lemma ph_tail_stage p : chunked p = false ->
  let '(q, st) := ph_tail p in
  same_line p q /\ headers q = headers p /\ chunked q = false /\ connection_close q = connection_close p /\
  match model_cl_stage (headers p) with
  | MRefuse e => st = PSError e
  | MLen n => st = PSOk /\ body q = Some (BFixed (fixed_init n)) /\ content_length q = n
  | MNone => st = PSOk /\ body q = body p /\ content_length q = 0
  | MChunked => False
  end.
Proof.
  intro Hc. unfold ph_tail, model_cl_stage, same_line. rewrite Hc.
  destruct (negb _); [auto 10|]. destruct (_ <? _); [auto 10|]. cbv zeta.
  destruct (0 <? dec_value _) eqn:E; psimpl; repeat split; auto.
  apply N.ltb_ge in E. lia.
Qed.

Lemma ph_mid_framing a p h1 uri ver sc nl pa qu fr :
  chunked p = false -> body p = None -> connection_close p = false -> headers p = h1 ->
  split_uri uri = SOk sc nl pa qu fr ->
  let '(p', st) := ph_mid a p h1 uri ver in
  same_line p p' /\
  match model_framing h1 ver with
  | MRefuse e => st = PSError e
  | MChunked =>
      st = PSOk /\ chunked p' = true /\ body p' = Some (BChunked chunked_init)
      /\ content_length p' = content_length p
      /\ headers p' = hpop (hpop h1 s_TRANSFER_ENCODING) s_CONTENT_LENGTH
      /\ connection_close p' = model_cc h1 ver
  | MLen n =>
      st = PSOk /\ chunked p' = false /\ body p' = Some (BFixed (fixed_init n)) /\ content_length p' = n
      /\ headers p' = (if beqb ver s_1_1 then hpop h1 s_TRANSFER_ENCODING else h1)
      /\ connection_close p' = model_cc h1 ver
  | MNone =>
      st = PSOk /\ chunked p' = false /\ body p' = None /\ content_length p' = 0
      /\ headers p' = (if beqb ver s_1_1 then hpop h1 s_TRANSFER_ENCODING else h1)
      /\ connection_close p' = model_cc h1 ver
  end.
Proof.
  intros Hch Hb Hcc Hh Hs. unfold ph_mid. rewrite Hs. cbv zeta.
  set (conn := hget_default h1 s_CONNECTION []).
  match goal with |- context [ph_v11 ?q h1 ver conn] => set (q1 := q) end.
  assert (Q : same_line p q1 /\ content_length q1 = content_length p /\ chunked q1 = false /\ body q1 = None /\
              headers q1 = h1 /\ connection_close q1 = (beqb ver s_1_0 && negb (beqb (lower_latin1 conn) s_keep_alive))
                                    || negb (beqb ver s_1_1) && present h1 s_TRANSFER_ENCODING).
  { subst q1. unfold same_line, present. destruct (_ && _), (_ && _); psimpl; rewrite ?Hcc; auto 10. }
  destruct Q as (Q0 & Ql & Q1 & Q2 & Q3 & Q4).
  pose proof (ph_v11_stage q1 h1 ver conn Q1 Q3) as V.
  destruct (ph_v11 q1 h1 ver conn) as [q2 oe], (model_te_stage h1 ver) as [[h2 ch] oe'] eqn:TE.
  assert (F : model_framing h1 ver = match oe' with Some e => MRefuse e | None => if ch then MChunked else model_cl_stage h2 end)
    by (unfold model_framing; rewrite TE; destruct ch, oe'; reflexivity).
  rewrite F. clear F.
  destruct V as (-> & V0 & Vl & V). apply (same_line_trans _ _ _ Q0) in V0. rewrite Ql in Vl.
  destruct oe' as [e|]; [split; [exact V0|reflexivity]|].
  destruct (V eq_refl) as (V1 & V2 & V3 & V4). clear V.
  rewrite (model_cc_stages h1 ver h2 ch TE). fold conn. rewrite <- Q4, <- V4. apply te_stage_dict in TE.
  destruct ch.
  - rewrite (ph_tail_chunked q2 V2). subst h2. auto 10.
  - pose proof (ph_tail_stage q2 V2) as T. rewrite V1 in T.
    destruct (ph_tail q2) as [q3 st]. destruct T as (T0 & T1 & T2 & T3 & T).
    rewrite T3, T1, <- TE. rewrite V3, Q2 in T.
    split; [exact (same_line_trans _ _ _ V0 T0)|].
    destruct (model_cl_stage h2); intuition.
Qed.

Lemma parse_header_found a p hp index :
  find hp CRLF = Some index ->
  let fl := rstrip_by is_reqline_ws (firstn index hp) in
  has_cr_or_lf fl = false ->
  parse_header a p hp =
  let p := p <| first_line := fl |> in
  match get_header_lines (skipn (index + 2) hp) with
  | inl e => (p, PSError e)
  | inr lines =>
    match add_header_lines (headers p) lines with
    | inl (e, h) => (p <| headers := h |>, PSError e)
    | inr h1 =>
      let p := p <| headers := h1 |> in
      match crack_first_line fl with
      | None => (p, PSError EMalformedMethod)
      | Some (cmd, uri, ver) =>
        if beqb cmd [] && beqb uri [] && beqb ver [] then (p, PSError EStartLineInvalid)
        else ph_mid a (p <| request_uri := uri |> <| command := cmd |> <| version := ver |>) h1 uri ver
      end
    end
  end.
Proof. intros Hfind fl Hcr. rewrite parse_header_eq, Hfind. cbv zeta. fold fl. rewrite Hcr. reflexivity. Qed.

Lemma field_char_clean x : is_field_char x = true -> in_ranges x [(0,9); (11,12); (14,255)] = true.
Proof.
  unfold is_field_char, is_ows, is_field_vchar. cbn [in_ranges].
  rewrite !orb_true_iff, !andb_true_iff, !N.leb_le, !N.eqb_eq. lia.
Qed.

Lemma forallb_drop_while (P f : N -> bool) s : forallb P s = true -> forallb P (drop_while f s) = true.
Proof.
  induction s as [|x s IH]; cbn [drop_while forallb]; auto. intro H.
  destruct (f x); auto. apply andb_true_iff in H as [_ H]. auto.
Qed.

Lemma forallb_rev (P : N -> bool) s : forallb P (rev s) = forallb P s.
Proof.
  induction s as [|x s IH]; cbn [rev forallb]; auto.
  rewrite forallb_app, IH. cbn [forallb]. rewrite andb_true_r. apply andb_comm.
Qed.

Lemma forallb_trim (P f : N -> bool) s : forallb P s = true -> forallb P (trim f s) = true.
Proof.
  intro H. unfold trim. rewrite forallb_rev. apply forallb_drop_while. rewrite forallb_rev.
  apply forallb_drop_while. exact H.
Qed.

Lemma parse_field_line_clean l n v : parse_field_line l = Some (n, v) -> clean v = true.
Proof.
  unfold parse_field_line. destruct (split_colon l []) as [[name rest]|]; [|discriminate].
  destruct (nonempty name && forallb is_tchar name && forallb is_field_char rest) eqn:C; [|discriminate].
  intro H. injection H as _ <-. apply andb_true_iff in C as [_ C].
  unfold clean. apply forallb_trim. rewrite forallb_forall in *. intros x Hx. apply field_char_clean. auto.
Qed.

Definition values_clean (d : list (bytes * bytes)) : Prop := Forall (fun kv => clean (snd kv) = true) d.

Lemma parse_fields_clean : forall ls fs, parse_fields ls = Some fs -> values_clean fs.
Proof.
  induction ls as [|l ls IH]; intros fs; cbn [parse_fields].
  - intro H. injection H as <-. constructor.
  - destruct (parse_field_line l) as [[n v]|] eqn:E; [|discriminate].
    destruct (parse_fields ls) as [fs'|]; [|discriminate]. intro H. injection H as <-.
    constructor; [cbn; eapply parse_field_line_clean; eauto | apply IH; reflexivity].
Qed.

Lemma combine_add_clean d k v : values_clean d -> clean v = true -> values_clean (combine_add d k v).
Proof.
  intros Hd Hv. induction Hd as [|[k' v'] d Hkv Hd IH]; cbn [combine_add].
  - constructor; auto.
  - destruct (beqb k k').
    + constructor; auto. cbn [snd] in *. rewrite !clean_app, Hkv, Hv. reflexivity.
    + constructor; auto.
Qed.

Lemma fold_add_clean : forall fs d, values_clean d -> values_clean fs -> values_clean (fold_add d fs).
Proof.
  induction fs as [|[n v] fs IH]; intros d Hd Hf; cbn [fold_add fold_left]; auto.
  inversion Hf; subst. apply IH; auto. apply combine_add_clean; auto.
Qed.

Lemma hget_clean d k v : values_clean d -> hget d k = Some v -> clean v = true.
Proof.
  intro Hd. induction Hd as [|[k' v'] d Hkv Hd IH]; cbn [hget]; [discriminate|].
  destruct (beqb k k'); auto. intro H. injection H as <-. exact Hkv.
Qed.

Lemma head_fields_clean ls fs : head_fields ls = Some fs -> values_clean (combined fs).
Proof.
  unfold head_fields. destruct (unfold_lines ls None) as [joined|]; [|discriminate].
  destruct (parse_fields joined) as [fs0|] eqn:P; [|discriminate].
  destruct (no_repeated_single [] (drop_underscore fs0)); [|discriminate].
  intro H. injection H as <-. apply (fold_add_clean _ []); [constructor|].
  apply parse_fields_clean in P. unfold drop_underscore, values_clean in *.
  rewrite Forall_forall in *. intros x Hx. apply filter_In in Hx as [Hx _]. auto.
Qed.

Definition ref_head (rl : bytes) (flines : list bytes)
  : option (bytes * bytes * bytes * list (bytes * bytes)) :=
  match head_fields flines, request_line_shape rl with
  | Some fs, Some mtv => Some (mtv, fs)
  | _, _ => None
  end.

(* parse_header on a head block against the reference on its lines: verdict, request line, framing,
   and the dict and content length that are left *)
Lemma parse_header_head : forall a rl flines,
  bytes_ok rl -> has_crlf_byte rl = false -> rstrip_by is_reqline_ws rl = rl ->
  Forall bytes_ok flines -> Forall (fun l => l <> []) flines -> forallb crlf_free flines = true ->
  let '(p', st) := parse_header a parser_init (head_block rl flines) in
  match ref_head rl flines with
  | None => exists e, st = PSError e /\ perr_code e = 400
  | Some ((m, t, v), fs) =>
    match split_uri t with
    | SBadURI => st = PSError EBadURI
    | SOk _ _ _ _ _ =>
      command p' = m /\ request_uri p' = t /\ version p' = v /\
      match framing_of v (combined fs) with
      | FrRefuse code => exists e, st = PSError e /\ perr_code e = code
      | FrChunked =>
          st = PSOk /\ chunked p' = true /\ body p' = Some (BChunked chunked_init) /\ content_length p' = 0
          /\ headers p' = hpop (hpop (combined fs) s_TRANSFER_ENCODING) s_CONTENT_LENGTH
          /\ connection_close p' = model_cc (combined fs) v
      | FrLength n =>
          st = PSOk /\ chunked p' = false /\ body p' = Some (BFixed (fixed_init n)) /\ content_length p' = n
          /\ headers p' = (if beqb v s_1_1 then hpop (combined fs) s_TRANSFER_ENCODING else combined fs)
          /\ connection_close p' = model_cc (combined fs) v
      | FrNone =>
          st = PSOk /\ chunked p' = false /\ body p' = None /\ content_length p' = 0
          /\ headers p' = (if beqb v s_1_1 then hpop (combined fs) s_TRANSFER_ENCODING else combined fs)
          /\ connection_close p' = model_cc (combined fs) v
      end
    | _ => True
    end
  end.
Proof.
  intros a rl flines Hok Hc Htight Hokf Hnef Hfree.
  destruct (head_block_cut rl flines (no_crlf_byte_crlf_free rl Hc) Hfree) as (Hfind & Hfirst & Hlines).
  pose proof (head_equiv flines Hokf Hnef) as HE.
  pose proof (request_line_equiv rl Hok Hc) as RE.
  rewrite (parse_header_found a parser_init _ _ Hfind); rewrite Hfirst, Htight;
    [|rewrite has_cr_or_lf_ref; exact Hc].
  rewrite Hlines. cbv zeta. psimpl. change (headers parser_init) with (@nil (bytes * bytes)).
  unfold ref_head.
  destruct (header_lines_go flines []) as [e|joined].
  { destruct HE as [-> Hcode]. eauto. }
  destruct (add_header_lines [] joined) as [[e h]|h1].
  { destruct HE as [-> Hcode]. eauto. }
  destruct HE as (fs & HF & Hcomb). rewrite HF.
  destruct (crack_first_line rl) as [[[cmd uri] ver]|]; [|rewrite RE; eauto].
  destruct (beqb cmd [] && beqb uri [] && beqb ver []); rewrite RE; [eauto|].
  match goal with |- context [ph_mid a ?q h1 uri ver] =>
    pose proof (ph_mid_framing a q h1 uri ver) as M; destruct (ph_mid a q h1 uri ver) as [p' st] eqn:PM end.
  unfold ph_mid in PM.
  destruct (split_uri uri) as [sc nl pa qu fr| | |]; auto; [|injection PM as _ <-; reflexivity].
  clear PM. destruct (M sc nl pa qu fr eq_refl eq_refl eq_refl eq_refl eq_refl) as ((M1 & M2 & M3) & PF).
  repeat (split; [assumption|]).
  assert (Hclean : forall c, hget h1 s_CONTENT_LENGTH = Some c -> clean c = true).
  { intros c Hcl. rewrite <- Hcomb in Hcl. eapply hget_clean; eauto. eapply head_fields_clean; eauto. }
  rewrite Hcomb, <- (framing_decision h1 ver Hclean).
  psimpl. destruct (model_framing h1 ver); cbn [choice_framing]; eauto.
Qed.

(* "GET /a HTTP/1.1" ; "Host: h" ; "Content-Length: 3" *)
Example parse_header_equiv_example :
  ref_head [71;69;84;32;47;97;32;72;84;84;80;47;49;46;49]
           [[72;111;115;116;58;32;104]; [67;111;110;116;101;110;116;45;76;101;110;103;116;104;58;32;51]]
  = Some (([71;69;84], [47;97], [49;46;49]),
          [([72;111;115;116], [104]); ([67;111;110;116;101;110;116;45;76;101;110;103;116;104], [51])]).
Proof. vm_compute. reflexivity. Qed.
