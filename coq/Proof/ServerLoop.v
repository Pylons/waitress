(* The two I/O loop bodies of wasyncore (poll: select(); poll2: select.poll()),
   at the level of one object in one turn: which handle_*_event can be
   dispatched, as a function of what readable() / writable() / accepting said
   when the map was scanned.  Everything is stated about the terms regenerated
   from wasyncore.poll / poll2 / readwrite on this run (Gen/GenPreds.v).

   Kernel side (hypotheses, not code):
     select(r, w, e)  returns sub-lists of the lists it was given;
     poll()           reports only registered descriptors, and for each of them
                      revents is a subset of the registered events plus
                      POLLERR / POLLHUP / POLLNVAL, which need not be requested.
   Exceptions: a handler that raises ends the dispatch for that object
   (handle_close / handle_error); it never causes a further handle_*_event. *)
From Coq Require Import Bool.
From WV Require Import Gen.GenPreds.

Lemma gen_poll_dispatch_spec : forall in_r in_w in_e, gen_poll_dispatch in_r in_w in_e = (in_r, in_w, in_e).
Proof. reflexivity. Qed.

Lemma gen_poll_e_spec : forall r w a, gen_poll_e r w a = (r || w).
Proof. reflexivity. Qed.

Lemma gen_poll_rw_spec : forall r w a, gen_poll_r r w a = r /\ gen_poll_w r w a = (w && negb a).
Proof. split; reflexivity. Qed.

(* POLLIN and POLLPRI are registered iff readable(); POLLOUT iff writable() on a
   non-accepting object; the error flags are never requested; an object with an
   empty mask is not registered at all *)
Lemma gen_poll2_reg_spec : forall r w a,
  gen_poll2_reg r w a = (mkPF r r (w && negb a) false false false, r || (w && negb a)).
Proof. intros [] [] []; reflexivity. Qed.

(* readwrite: POLLIN -> handle_read_event, POLLOUT -> handle_write_event,
   POLLPRI -> handle_expt_event, POLLHUP | POLLERR | POLLNVAL -> handle_close *)
Lemma gen_readwrite_spec : forall i p o e h n, gen_readwrite i p o e h n = (i, o, p, e || h || n).
Proof. reflexivity. Qed.

Lemma gen_poll2_dispatch_spec : gen_poll2_dispatches_readwrite = true.
Proof. reflexivity. Qed.

Definition select_returns (in_r in_w in_e ret_r ret_w ret_e : bool) : Prop :=
  (ret_r = true -> in_r = true) /\ (ret_w = true -> in_w = true) /\ (ret_e = true -> in_e = true).

Definition poll_returns (reg : pollflags * bool) (rv : pollflags) : Prop :=
  snd reg = true /\
  (pf_in rv = true -> pf_in (fst reg) = true) /\
  (pf_pri rv = true -> pf_pri (fst reg) = true) /\
  (pf_out rv = true -> pf_out (fst reg) = true).

(* what one object gets in one turn *)
Definition select_turn (ret_r ret_w ret_e : bool) := gen_poll_dispatch ret_r ret_w ret_e.
Definition poll2_turn (rv : pollflags) :=
  gen_readwrite (pf_in rv) (pf_pri rv) (pf_out rv) (pf_err rv) (pf_hup rv) (pf_nval rv).

Definition sel_read (x : bool * bool * bool) : bool := fst (fst x).
Definition sel_write (x : bool * bool * bool) : bool := snd (fst x).
Definition sel_expt (x : bool * bool * bool) : bool := snd x.
Definition p2_read (x : bool * bool * bool * bool) : bool := fst (fst (fst x)).
Definition p2_write (x : bool * bool * bool * bool) : bool := snd (fst (fst x)).
Definition p2_expt (x : bool * bool * bool * bool) : bool := snd (fst x).
Definition p2_close (x : bool * bool * bool * bool) : bool := snd x.

Theorem select_loop_dispatch : forall r w a ret_r ret_w ret_e,
  select_returns (gen_poll_r r w a) (gen_poll_w r w a) (gen_poll_e r w a) ret_r ret_w ret_e ->
  (sel_read (select_turn ret_r ret_w ret_e) = true -> r = true) /\
  (sel_write (select_turn ret_r ret_w ret_e) = true -> w = true /\ a = false) /\
  (sel_expt (select_turn ret_r ret_w ret_e) = true -> r = true \/ w = true).
Proof.
  intros r w a ret_r ret_w ret_e (Hr & Hw & He). unfold select_turn. rewrite gen_poll_dispatch_spec.
  destruct (gen_poll_rw_spec r w a) as [Er Ew]. rewrite Er in Hr. rewrite Ew in Hw. rewrite gen_poll_e_spec in He.
  cbn. split; [exact Hr|]. split.
  - intros H. apply Hw in H. apply andb_prop in H. destruct H as [H1 H2]. apply negb_true_iff in H2. auto.
  - intros H. apply He in H. apply orb_prop in H. exact H.
Qed.

Theorem poll2_registration : forall r w a,
  let '(f, registered) := gen_poll2_reg r w a in
  pf_in f = r /\ pf_pri f = r /\ pf_out f = (w && negb a) /\
  pf_err f = false /\ pf_hup f = false /\ pf_nval f = false /\
  registered = (r || (w && negb a)).
Proof. intros r w a. rewrite gen_poll2_reg_spec. cbn. repeat split; reflexivity. Qed.

Theorem poll2_loop_dispatch : forall r w a rv,
  poll_returns (gen_poll2_reg r w a) rv ->
  (p2_read (poll2_turn rv) = true -> r = true) /\
  (p2_write (poll2_turn rv) = true -> w = true /\ a = false) /\
  (p2_expt (poll2_turn rv) = true -> r = true) /\
  p2_close (poll2_turn rv) = (pf_err rv || pf_hup rv || pf_nval rv) /\
  (r = true \/ (w = true /\ a = false)).
Proof.
  intros r w a rv. rewrite gen_poll2_reg_spec. intros (Hreg & Hi & Hp & Ho). cbn in Hreg, Hi, Hp, Ho.
  unfold poll2_turn. rewrite gen_readwrite_spec. cbn.
  assert (O : w && negb a = true -> w = true /\ a = false).
  { intros H. apply andb_prop in H. destruct H as [H1 H2]. apply negb_true_iff in H2. auto. }
  split; [exact Hi|]. split; [intros H; apply O, Ho, H|]. split; [exact Hp|]. split; [reflexivity|].
  apply orb_prop in Hreg. destruct Hreg as [H|H]; [left; exact H|right; apply O, H].
Qed.

(* the fact C06 cites (consumption stops): whichever loop body runs, handle_read_event
   reaches an object in a turn only if its readable() returned true when the map
   was scanned in that turn, and handle_write_event only if writable() did *)
Theorem loop_read_only_if_readable :
  (forall r w a ret_r ret_w ret_e,
     select_returns (gen_poll_r r w a) (gen_poll_w r w a) (gen_poll_e r w a) ret_r ret_w ret_e ->
     sel_read (select_turn ret_r ret_w ret_e) = true -> r = true) /\
  (forall r w a rv,
     poll_returns (gen_poll2_reg r w a) rv -> p2_read (poll2_turn rv) = true -> r = true).
Proof.
  split.
  - intros r w a ret_r ret_w ret_e H. exact (proj1 (select_loop_dispatch r w a ret_r ret_w ret_e H)).
  - intros r w a rv H. exact (proj1 (poll2_loop_dispatch r w a rv H)).
Qed.

Theorem loop_write_only_if_writable :
  (forall r w a ret_r ret_w ret_e,
     select_returns (gen_poll_r r w a) (gen_poll_w r w a) (gen_poll_e r w a) ret_r ret_w ret_e ->
     sel_write (select_turn ret_r ret_w ret_e) = true -> w = true /\ a = false) /\
  (forall r w a rv,
     poll_returns (gen_poll2_reg r w a) rv -> p2_write (poll2_turn rv) = true -> w = true /\ a = false).
Proof.
  split.
  - intros r w a ret_r ret_w ret_e H. exact (proj1 (proj2 (select_loop_dispatch r w a ret_r ret_w ret_e H))).
  - intros r w a rv H. exact (proj1 (proj2 (poll2_loop_dispatch r w a rv H))).
Qed.

(* the hypotheses are satisfiable, and the error flags do reach a registered
   object that did not ask for them: a writable, non-readable channel whose
   peer hung up gets handle_write_event and handle_close, not handle_read_event *)
Example poll2_example :
  let rv := mkPF false false true false true false in
  poll_returns (gen_poll2_reg false true false) rv /\
  poll2_turn rv = (false, true, false, true).
Proof. cbn. repeat split; auto; discriminate. Qed.
