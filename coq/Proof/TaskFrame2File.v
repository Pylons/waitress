(* C03: wsgi.file_wrapper around a seekable file that is handed
   over to the channel (no write() before, something to send): the length is
   reconciled with the declared Content-Length by prepare(size), the head is sent
   by write(b""), the file goes out raw. *)
From Coq Require Import String.
From Coq Require Import List NArith ZArith Bool Lia Arith Permutation.
From WV Require Import Lib.PyBytes Gen.GenTables Model.Task Spec.ClientParse
  Proof.TaskSort Proof.TaskLines Proof.TaskHead Proof.TaskStart Proof.TaskRun Proof.TaskChunk Proof.TaskClient
  Proof.TaskC08 Proof.TaskLadder Proof.TaskC09 Proof.TaskFrame Proof.TaskBody Proof.TaskSimple Proof.TaskFrameClient
  Proof.TaskFrameEnd Proof.TaskFrame2Sem Proof.TaskFrame2Run Proof.TaskFrame2Head Proof.TaskFrame2Dec
  Proof.TaskFrame2End.
Import ListNotations.
Local Open Scope N_scope.

Lemma chan_wire_push_file ws n z cnt : chan_wire (mkChan (WFile z cnt :: ws) n) = wire (rev ws) ++ cnt.
Proof. unfold chan_wire. cbn [ch_writes rev]. rewrite wire_app. cbn. rewrite app_nil_r. reflexivity. Qed.

Section File2.
Variable cap : str -> str.
Variable lower : str -> str.
Variable c : cfg.
Variable r : req.

(* prepare(size): what will be sent *)
Definition file_size (t : task) (content : bytes) : Z :=
  let fsize := Z.of_nat (length content) in
  match t_clen t with None => fsize | Some n => Z.min fsize n end.

(* the task after the length reconciliation *)
Definition reconciled (t : task) (content : bytes) : task :=
  let size := file_size t content in
  if match t_clen t with Some n => negb (n =? size)%Z | None => true end then
    set_clen (Some size) (match t_clen t with Some _ => remove_content_length_header lower t | None => t end)
  else t.

Lemma reconciled_fresh t content : t_complete t = true -> t_wrote_header t = false ->
  t_complete (reconciled t content) = true /\ t_wrote_header (reconciled t content) = false.
Proof.
  intros Hc Hw. unfold reconciled.
  destruct (match t_clen t with Some n => negb (n =? file_size t content)%Z | None => true end); auto.
  destruct (t_clen t); cbn; auto.
Qed.

Lemma execute_body_handover chunks t ch a s' o cc :
  a_kind a = KFile true -> a_steps a = plain_steps chunks ->
  t_complete t = true -> t_wrote_header t = false -> has_body t = true ->
  (0 < file_size t (file_content (plain_steps chunks)))%Z ->
  execute_body cap lower c r None (t, ch) a = (s', o, cc) -> o = Ok tt ->
  exists tp head, build_response_header cap lower c r (reconciled t (file_content (plain_steps chunks))) = (tp, Ok head)
    /\ fst s' = set_wrote true tp /\ cc = false
    /\ chan_wire (snd s') = chan_wire ch ++ head
                            ++ firstn (Z.to_nat (file_size t (file_content (plain_steps chunks)))) (file_content (plain_steps chunks)).
Proof.
  intros Ek Es Hc Hw Hhb Hsize. unfold execute_body. rewrite Ek, Es. cbn beta iota zeta.
  set (content := file_content (plain_steps chunks)) in *.
  change (match t_clen t with
          | Some n => Z.min (Z.of_nat (length content)) n
          | None => Z.of_nat (length content)
          end) with (file_size t content).
  set (size := file_size t content) in *.
  assert (E0 : (size =? 0)%Z = false) by (apply Z.eqb_neq; lia). rewrite E0, Hw, Hhb. cbn [negb].
  match goal with |- context [task_write cap lower c r None (?tt, ch) []] =>
    change tt with (reconciled t content) end.
  destruct (reconciled_fresh t content Hc Hw) as [Hc' Hw'].
  set (t' := reconciled t content) in *.
  unfold task_write. cbn [fst]. rewrite Hc'. cbn [negb].
  destruct (write_header cap lower c r None (t', ch)) as [[t1 ch1] o1] eqn:Eh.
  pose proof (write_header_fresh cap lower c r t' ch (t1, ch1) o1 Hw' Eh) as Hh.
  destruct (build_response_header cap lower c r t') as [tp [head|e]] eqn:Eb.
  2: { subst o1. intros H Ho. inversion H; subst. discriminate. }
  destruct Hh as (-> & Ht & Hwire). cbn [fst snd write_body] in *. subst t1.
  unfold write_soon. cbn [connected negb].
  assert (E1 : (size <? 0)%Z = false) by (apply Z.ltb_ge; lia). rewrite E1.
  intros H _. inversion H; subst s' o cc. clear H. cbn [fst snd].
  exists tp, head. split; [reflexivity|]. split; [reflexivity|]. split; [reflexivity|].
  destruct ch1 as [w n]. rewrite chan_wire_push_file. unfold chan_wire in Hwire at 1. cbn [ch_writes] in *.
  rewrite Hwire, <- app_assoc. reflexivity.
Qed.

(* a seekable file wrapper returned without any write() before *)
Definition fapp (status : str) (hs : list (pyobj * pyobj)) (chunks : list bytes) (hc : bool) : app :=
  wapp status hs [] (KFile true) chunks hc.

Theorem fapp_wire status hs chunks hc :
  r_error r = None ->
  (* the status has a body: after 1xx/204/304 nothing is handed over (fix d117733) *)
  startswith status (lit "1") || startswith status (lit "204") || startswith status (lit "304") = false ->
  (forall t1, start_response lower (new_task (r_version r) false) (PStr status) hs None = (t1, Ok tt) ->
              (0 < file_size t1 (file_content (plain_steps chunks)))%Z) ->
  let res := channel_service cap lower c r (fapp status hs chunks hc) None in
  o_raw res = None ->
  exists t1 tp head,
    start_response lower (new_task (r_version r) false) (PStr status) hs None = (t1, Ok tt)
    /\ build_response_header cap lower c r (reconciled t1 (file_content (plain_steps chunks))) = (tp, Ok head)
    /\ wire (o_writes res) = head ++ firstn (Z.to_nat (file_size t1 (file_content (plain_steps chunks))))
                                            (file_content (plain_steps chunks))
                             ++ (if t_chunked tp && negb (r_head r) then chunk_terminator else [])
    /\ o_close res = t_cof tp /\ o_next res = negb (t_cof tp)
    /\ o_handover res = true /\ o_closes res = 0%nat.
Proof.
  intros He Hst Hsz. cbn zeta. intro Hraw.
  destruct (service_quiet cap lower c r None _ eq_refl Hraw) as [Eraw ->]. clear Hraw.
  cbn [wound_up o_writes o_close o_next o_escaped o_handover o_closes].
  revert Eraw. unfold job_of, start_state. rewrite He. set (t0 := new_task (r_version r) false).
  unfold task_run, wsgi_execute.
  change (a_call (fapp status hs chunks hc)) with [AStart (PStr status) hs None].
  rewrite run_actions_single. cbn [run_action fst snd].
  destruct (start_response lower t0 (PStr status) hs None) as [t1 [[]|e1]] eqn:Esr; cbn [fst snd];
    [|cbn; intro X; discriminate X].
  destruct (start_response_ok lower _ _ _ _ _ Esr) as (_ & Hst1 & _ & Hc1 & Hw1 & _).
  cbn [t_wrote_header new_task t0] in Hw1. cbn [str_of] in Hst1.
  assert (Hhb1 : has_body t1 = true) by (unfold has_body; rewrite Hst1, Hst; reflexivity).
  specialize (Hsz t1 Esr).
  destruct (execute_body cap lower c r None (t1, mkChan [] 0) (fapp status hs chunks hc)) as [[s2 o2] cc] eqn:Ex.
  destruct o2 as [[]|e2].
  2: { destruct (cc && a_has_close (fapp status hs chunks hc)); [destruct (a_close_exn (fapp status hs chunks hc))|];
       cbn; intro X; discriminate X. }
  destruct (execute_body_handover chunks t1 (mkChan [] 0) (fapp status hs chunks hc) s2 (Ok tt) cc
              eq_refl eq_refl Hc1 Hw1 Hhb1 Hsz Ex eq_refl) as (tp & head & Eb & Ef & Ecc & W2).
  subst cc. cbn [andb negb x_out x_st x_closes x_handover x_iter].
  destruct s2 as [t2 ch2]. cbn [fst snd] in *. subst t2.
  destruct (finish_after_head cap lower c r (set_wrote true tp) ch2 eq_refl) as (ch3 & Ef3 & W3). rewrite Ef3.
  cbn [x_out x_st x_closes x_handover fst snd]. intros _.
  exists t1, tp, head. split; [reflexivity|]. split; [exact Eb|].
  fold (chan_wire ch3). rewrite W3, W2. cbn [chan_wire ch_writes rev wire flat_map List.app t_chunked t_cof set_wrote].
  rewrite <- !app_assoc. auto.
Qed.

End File2.

Section SrvLen.
Variable cap : str -> str.
Variable lower : str -> str.
Hypothesis Hcap : forall s, clean s -> clean (cap s).
Hypothesis Hcap_conn : cap (lit "Connection") = lit "Connection".
Hypothesis Hcap_te : beqb (cap (lit "Transfer-Encoding")) (lit "Connection") = false.
Hypothesis Hcap_cl : beqb (cap (lit "Content-Length")) (lit "Connection") = false.
Variable c : cfg.
Hypothesis Hc : cfg_clean c.
Variable r : req.

Definition f_len (n : Z) : str * str := (lit "Content-Length", z_to_dec n).

Lemma prepared_srvlen t1 n :
  t_cof t1 = false -> t_wrote_header t1 = false -> t_chunked t1 = false ->
  plain_fields cap (t_rh t1) -> t_clen t1 = Some n -> (0 <= n)%Z -> has_body t1 = true ->
  let tp := bh_prepare cap lower c r t1 in
  let '(add, cof, chk) := conn_table (t_v11 t1) (request_connection r) (r_connection_close r) true true in
  exists tail, t_rh tp = map (norm_field cap) (t_rh t1) ++ [f_len n] ++ add ++ tail /\ Forall tail_field tail
               /\ t_cof tp = cof /\ t_chunked tp = chk /\ t_status tp = t_status t1 /\ t_v11 tp = t_v11 t1.
Proof.
  intros C W K P L Hn Hb. cbn zeta. unfold bh_prepare.
  destruct (bh_loop_plain cap t1 P) as [Erh Ecl].
  set (a := bh_loop cap t1) in *.
  set (t0 := set_rh (map (norm_field cap) (t_rh t1) ++ [f_len n]) t1).
  assert (Eclen : bh_clen a (set_rh (ac_rh a) t1) = (Some (z_to_dec n), t0)).
  { unfold bh_clen. rewrite Ecl, Erh. cbn [t_clen set_rh]. rewrite L.
    change (has_body (set_rh _ t1)) with (has_body t1). rewrite Hb. reflexivity. }
  rewrite Eclen.
  assert (N : NoConn cap (t_rh t0))
    by (apply noconn_app; [apply noconn_plain; auto|]; constructor; [exact Hcap_cl|constructor]).
  pose proof (conn_tail cap lower Hcap_te c r a (Some (z_to_dec n)) t0 C W K N) as T.
  cbn zeta in T. rewrite (z_to_dec_truthy n Hn) in T.
  change (has_body t0) with (has_body t1) in T. rewrite Hb in T. change (t_v11 t0) with (t_v11 t1) in T.
  destruct (conn_table (t_v11 t1) (request_connection r) (r_connection_close r) true true) as [[add cof] chk].
  destruct T as (tail & E & R). exists tail. split; [|exact R]. rewrite E. symmetry. apply app_assoc.
Qed.

Lemma srvlen_head_facts t1 n :
  task_clean t1 ->
  t_cof t1 = false -> t_wrote_header t1 = false -> t_chunked t1 = false ->
  t_v11 t1 = beqb (r_version r) (lit "1.1") ->
  plain_fields cap (t_rh t1) -> t_clen t1 = Some n -> (0 <= n)%Z -> has_body t1 = true ->
  let tp := bh_prepare cap lower c r t1 in
  task_clean tp /\ nocolon_rh tp
  /\ t_status tp = t_status t1 /\ t_v11 tp = t_v11 t1
  /\ t_cof tp = negb (keep_of r) /\ t_chunked tp = false
  /\ te_fields tp = [] /\ cl_fields tp = [(lit "Content-Length", to_dec (Z.to_N n))]
  /\ (forall h, In h (t_rh t1) -> In (norm_field cap h) (t_rh tp))
  /\ (keep_of r = false -> In f_close (t_rh tp))
  /\ (keep_of r = true -> ~ In (client_field f_close) (cfields tp)).
Proof.
  intros Hclean S6 S5 S7 S9 Ppl L Hn Hb1. cbn zeta.
  pose proof (prepared_srvlen t1 n S6 S5 S7 Ppl L Hn Hb1) as P.
  cbn zeta in P. rewrite S9, table_len in P.
  destruct P as (tail & Prh & Ptail & Pcof & Pchk & Pst & Pv).
  set (tp := bh_prepare cap lower c r t1) in *. rewrite app_assoc in Prh.
  destruct (known_len_head cap Hcap_conn r tp _ tail (to_dec (Z.to_N n)) Prh Ptail) as (K1 & K2 & K3 & K4 & K5).
  { apply Forall_app. split; [apply plain_no_colon; auto|repeat constructor]. }
  { apply noconn_app; [apply noconn_plain; auto|]. constructor; [exact Hcap_cl|constructor]. }
  { rewrite map_app, filter_app, (plain_not_named _ _ te_name (or_introl eq_refl) Ppl). reflexivity. }
  { rewrite map_app, filter_app, (plain_not_named _ _ cl_name (or_intror eq_refl) Ppl).
    assert (E : filter (field_is cl_name) (map client_field [f_len n])
                = [(lit "Content-Length", strip_by is_sp_htab (z_to_dec n))]) by reflexivity.
    rewrite E, (z_to_dec_nonneg n Hn), (strip_digits _ (to_dec_all_digits _)). reflexivity. }
  split; [subst tp; apply bh_prepare_clean; auto|].
  split; [exact K1|]. split; [exact Pst|]. split; [rewrite S9; exact Pv|]. split; [exact Pcof|]. split; [exact Pchk|].
  split; [exact K2|]. split; [exact K3|].
  split; [intros h Hh; rewrite Prh; apply in_or_app; left; apply in_or_app; left; apply in_map; exact Hh|].
  split; [exact K4|exact K5].
Qed.

End SrvLen.
