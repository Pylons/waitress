(* C15 end to end: from the request BYTES to the environ the application sees.

   Composition of the C07 model (Parser.v -> Environ.v, with its theorems about
   where every environ entry comes from) with the C15 model (Proxy.v, two-run
   non-interference on environ dictionaries), through the bridge
   Model/ProxyEnviron.v. *)
From Coq Require Import List NArith ZArith Bool Lia ZifyBool.
From RecordUpdate Require Import RecordUpdate.
From WV Require Import Lib.PyBytes Lib.PyStrProxy Lib.Regex Gen.GenRegex
  Model.Receiver Model.UrlSplit Model.Parser Model.Environ Model.Proxy Model.ProxyEnviron
  Spec.Pep3333 Spec.ProxySpec
  Proof.PyBytesFacts Proof.EnvironDict Proof.EnvironParse Proof.EnvironRun Proof.EnvironFields
  Proof.EnvironLatin1 Proof.ProxyC15.
Import ListNotations.
Local Open Scope N_scope.

Definition ekeys (e : edict) : list bytes := map fst e.

Lemma eget_notin e k : ~ In k (ekeys e) -> eget e k = None.
Proof.
  induction e as [|[k' v] e IH]; simpl; auto. intro H.
  destruct (beqb k k') eqn:E.
  - apply beqb_eq in E. subst. tauto.
  - apply IH. tauto.
Qed.

Lemma emem_false_notin e k : emem e k = false -> ~ In k (ekeys e).
Proof.
  induction e as [|[k' v] e IH]; simpl; auto. intro H.
  apply orb_false_iff in H as [H1 H2]. intros [E|I].
  - subst. rewrite beqb_refl in H1. discriminate.
  - exact (IH H2 I).
Qed.

Lemma str_view_keys e k : In k (map fst (str_view e)) -> In k (ekeys e).
Proof.
  induction e as [|[k' v] e IH]; simpl; auto.
  destruct v; simpl; intro H; try (right; apply IH; exact H).
  destruct H as [H|H]; [left; exact H|right; apply IH; exact H].
Qed.

Lemma lookup_notin (d : Proxy.environ) k : ~ In k (map fst d) -> lookup k d = None.
Proof.
  induction d as [|[k' v] d IH]; simpl; auto. intro H.
  destruct (beqb k k') eqn:E.
  - apply beqb_eq in E. subst. tauto.
  - apply IH. tauto.
Qed.

Definition str_of (v : option evalue) : option bytes :=
  match v with Some (VStr s) => Some s | _ => None end.

Lemma lookup_str_view e k : NoDup (ekeys e) -> lookup k (str_view e) = str_of (eget e k).
Proof.
  induction e as [|[k' v] e IH]; simpl; auto. intro N.
  inversion N as [|? ? Hn N']; subst.
  destruct (beqb k k') eqn:E.
  - apply beqb_eq in E. subst k'.
    destruct v; simpl; try rewrite beqb_refl; try reflexivity;
      apply lookup_notin; intro I; apply Hn; apply str_view_keys; exact I.
  - destruct v; simpl; try rewrite E; apply IH; exact N'.
Qed.

Lemma ekeys_eset_in e k v x : In x (ekeys (eset e k v)) <-> x = k \/ In x (ekeys e).
Proof.
  induction e as [|[k' v'] e IH]; simpl.
  - intuition.
  - destruct (beqb k k') eqn:E; simpl.
    + apply beqb_eq in E. subst. intuition.
    + rewrite IH. intuition.
Qed.

Lemma eset_nodup e k v : NoDup (ekeys e) -> NoDup (ekeys (eset e k v)).
Proof.
  induction e as [|[k' v'] e IH]; simpl; intro N.
  - constructor; [intros []|constructor].
  - inversion N as [|? ? Hn N']; subst.
    destruct (beqb k k') eqn:E; simpl.
    + constructor; auto.
    + constructor; auto. rewrite ekeys_eset_in. intros [X|X]; auto.
      subst. rewrite beqb_refl in E. discriminate.
Qed.

Lemma nodup_snoc {A} (l : list A) x : NoDup l -> ~ In x l -> NoDup (l ++ [x]).
Proof.
  induction l as [|y l IH]; simpl; intros N H.
  - constructor; auto.
  - inversion N; subst. constructor.
    + rewrite in_app_iff. simpl. intuition.
    + apply IH; auto.
Qed.

Lemma add_header_nodup e kv : NoDup (ekeys e) -> NoDup (ekeys (add_header e kv)).
Proof.
  destruct kv as [key value]. rewrite add_header_unfold. intro N.
  destruct (emem e (env_key key)) eqn:E; cbn [negb]; auto.
  unfold ekeys. rewrite map_app. cbn [map fst].
  apply nodup_snoc; auto. apply emem_false_notin. exact E.
Qed.

Lemma fold_add_header_nodup hs : forall e, NoDup (ekeys e) -> NoDup (ekeys (fold_left add_header hs e)).
Proof.
  induction hs as [|kv hs IH]; intros e N; cbn [fold_left]; auto.
  apply IH. apply add_header_nodup. exact N.
Qed.

(* a Python dict has no repeated key: so has the environ of the model, for
   every parser state and configuration *)
Lemma get_environment_nodup c p : NoDup (ekeys (get_environment c p)).
Proof.
  unfold get_environment. apply eset_nodup. apply fold_add_header_nodup.
  unfold ekeys. rewrite base_environ_keys.
  pose proof server_keys_distinct as N. inversion N; assumption.
Qed.

Lemma lookup_environ_of c p k :
  lookup k (environ_of c p) = str_of (eget (get_environment c p) k).
Proof. unfold environ_of. apply lookup_str_view. apply get_environment_nodup. Qed.

(* the six metadata keys that do not come from a header *)
Record ctx_keys (ctx : Environ.config) (scheme : bytes) (o : Proxy.environ) : Prop := {
  ck_addr : lookup k_remote_addr o = Some (addr0 (peer_addr ctx));
  ck_host : lookup k_remote_host o = Some (addr0 (peer_addr ctx));
  ck_port : lookup k_remote_port o = Some (str_addr1 (peer_addr ctx));
  ck_sname : lookup k_server_name o = Some (server_name ctx);
  ck_sport : lookup k_server_port o = Some (str_port (effective_port ctx));
  ck_scheme : lookup k_url_scheme o = Some scheme
}.

Lemma environ_ctx_keys c p : ctx_keys c (url_scheme p) (environ_of c p).
Proof. constructor; rewrite lookup_environ_of, no_override by (vm_compute; tauto); reflexivity. Qed.

Lemma head_of_head_block ds hp : head_of ds hp -> head_block (concat ds) = Some hp.
Proof.
  intros (pre & i & [post ->] & Hf & ->). rewrite concat_app.
  unfold head_block, find_double_newline in *.
  destruct (find (concat pre) CRLFCRLF) as [i0|] eqn:E; [|discriminate]. injection Hf as <-.
  rewrite (find_app_l _ (concat post) _ _ E).
  pose proof (find_bound _ _ _ E) as B. change (length CRLFCRLF) with 4%nat in B.
  rewrite firstn_app_le by lia. f_equal. f_equal.
  apply strip_crlf_fuel.
  - rewrite firstn_length, app_length. lia.
  - rewrite firstn_length. lia.
Qed.

Definition accepted (p : parser) : Prop := completed p = true /\ error p = None /\ empty p = false.

(* every accepted run, with the pieces C07's lemmas speak about, tied to
   [head_parts] of the bytes offered *)
Lemma accepted_parts a ds p :
  feed_all a ds = Some p -> accepted p ->
  exists fl lines p0 p1 hp h1,
    head_parts (concat ds) = Some (fl, lines) /\
    accepted_run a ds p p0 p1 hp /\ accepted_head a p0 p1 hp fl lines h1.
Proof.
  intros H (Hc & He & Hm).
  destruct (run_accepted _ _ _ H Hc He Hm) as (p0 & p1 & hp & AR).
  destruct (parse_header_ok _ _ _ _ (ar_parse _ _ _ _ _ _ AR)) as (fl & lines & h1 & AH).
  exists fl, lines, p0, p1, hp, h1. split; [|split; assumption].
  unfold head_parts. rewrite (head_of_head_block _ _ (ar_head _ _ _ _ _ _ AR)).
  destruct (ah_find _ _ _ _ _ _ _ AH) as (index & F & -> & L). rewrite F, L. reflexivity.
Qed.

(* wsgi.url_scheme of an accepted request is the configured adj.url_scheme *)
Lemma accepted_url_scheme a ds p :
  feed_all a ds = Some p -> accepted p -> url_scheme p = adj_url_scheme a.
Proof.
  intros H A. destruct (accepted_parts _ _ _ H A) as (fl & lines & p0 & p1 & hp & h1 & _ & AR & AH).
  pose proof (ar_reqline _ _ _ _ _ _ AR) as R. unfold reqline in R.
  injection R as _ _ _ _ _ R. rewrite R. exact (ah_scheme _ _ _ _ _ _ _ AH).
Qed.

Lemma cut_colon_parts l : cut_colon l = (line_name l, line_rest l).
Proof.
  induction l as [|x l IH]; cbn [cut_colon line_name line_rest]; auto.
  destruct (x =? 58); auto. rewrite IH. reflexivity.
Qed.

Lemma field_values_key_lines lines k :
  field_values (map cut_colon lines) k = map (fun l => trim (line_rest l)) (key_lines k lines).
Proof.
  unfold field_values, key_lines. induction lines as [|l lines IH]; cbn [map flat_map filter]; auto.
  rewrite cut_colon_parts, IH. cbn [fst snd].
  change (negb (has_underscore (line_name l)) && beqb (cgi_key (line_name l)) k) with (maps_to (line_name l) k).
  destruct (maps_to (line_name l) k); reflexivity.
Qed.

(* header keys whose value the framing code never touches *)
Definition plain_key (ek : bytes) : bool :=
  is_header_key ek && negb (beqb ek c_HTTP_TRANSFER_ENCODING) && negb (beqb ek c_CONTENT_LENGTH).

Lemma str_of_VStr (x : option bytes) : str_of (option_map VStr x) = x.
Proof. destruct x; reflexivity. Qed.

Lemma header_key_local a ds p fl lines p0 p1 hp h1 c ek :
  accepted_run a ds p p0 p1 hp -> accepted_head a p0 p1 hp fl lines h1 ->
  plain_key ek = true ->
  lookup ek (environ_of c p) = value_of_lines (key_lines ek lines).
Proof.
  intros AR AH Hk. unfold plain_key in Hk.
  apply andb_true_iff in Hk as [Hk Hcl]. apply andb_true_iff in Hk as [Hk Hte].
  apply negb_true_iff in Hcl. apply negb_true_iff in Hte.
  rewrite lookup_environ_of, (header_entries_image _ _ _ _ _ _ _ _ _ AR AH c ek Hk), str_of_VStr.
  unfold spec_header. rewrite Hte, Hcl, !andb_false_r.
  unfold request_of. cbn [rq_fields]. rewrite field_values_key_lines. reflexivity.
Qed.

Lemma cgi_char_lower x : cgi_char (lower_ascii_b x) = cgi_char x.
Proof.
  unfold cgi_char, lower_ascii_b.
  destruct ((65 <=? x) && (x <=? 90)) eqn:?;
  repeat match goal with |- context [if ?b then _ else _] => destruct b eqn:? end; lia.
Qed.

Lemma cgi_char_inj_lower x y :
  x <> 95 -> y <> 95 -> cgi_char x = cgi_char y -> lower_ascii_b x = lower_ascii_b y.
Proof.
  unfold cgi_char, lower_ascii_b. intros Hx Hy.
  destruct ((65 <=? x) && (x <=? 90)) eqn:?; destruct ((65 <=? y) && (y <=? 90)) eqn:?;
  repeat match goal with |- context [if ?b then _ else _] => destruct b eqn:? end; lia.
Qed.

Lemma lower_is_underscore x : (95 =? lower_ascii_b x) = (95 =? x).
Proof.
  unfold lower_ascii_b.
  destruct ((65 <=? x) && (x <=? 90)) eqn:?; lia.
Qed.

Lemma has_underscore_lower n : has_underscore (lower_ascii n) = has_underscore n.
Proof.
  unfold has_underscore, lower_ascii. induction n as [|x n IH]; cbn [map existsb]; auto.
  rewrite IH, lower_is_underscore. reflexivity.
Qed.

Lemma cgi_base_lower n : cgi_base (lower_ascii n) = cgi_base n.
Proof.
  unfold cgi_base, lower_ascii. rewrite map_map. apply map_ext. apply cgi_char_lower.
Qed.

Lemma cgi_base_inj_lower : forall n t,
  has_underscore n = false -> has_underscore t = false ->
  cgi_base n = cgi_base t -> lower_ascii n = lower_ascii t.
Proof.
  unfold cgi_base, lower_ascii, has_underscore.
  induction n as [|x n IH]; intros [|y t] Hn Ht E; cbn [map existsb] in *; try discriminate; auto.
  apply orb_false_iff in Hn as [Hx Hn]. apply orb_false_iff in Ht as [Hy Ht].
  injection E as E1 E2. f_equal.
  - apply cgi_char_inj_lower; auto; intro; subst; discriminate.
  - apply IH; auto.
Qed.

(* the general rule: a name maps to the key of a canonical (lower-case, "-"
   spelled) name exactly when it equals it ASCII case-insensitively *)
Lemma maps_to_canonical t n :
  has_underscore t = false -> lower_ascii t = t ->
  beqb (cgi_base t) c_CONTENT_LENGTH = false -> beqb (cgi_base t) c_CONTENT_TYPE = false ->
  maps_to n (c_HTTP_ ++ cgi_base t) = beqb (lower_ascii n) t.
Proof.
  intros Ut Lt Hcl Hct. unfold maps_to.
  destruct (beqb (lower_ascii n) t) eqn:E.
  - apply beqb_eq in E.
    assert (Un : has_underscore n = false) by (rewrite <- has_underscore_lower, E; exact Ut).
    assert (B : cgi_base n = cgi_base t) by (rewrite <- cgi_base_lower, E; reflexivity).
    rewrite Un. cbn [negb andb]. unfold cgi_key. rewrite B, Hcl, Hct. cbn [orb].
    apply beqb_refl.
  - destruct (has_underscore n) eqn:Un; cbn [negb andb]; auto.
    destruct (beqb (cgi_key n) (c_HTTP_ ++ cgi_base t)) eqn:K; auto.
    apply beqb_eq in K. exfalso. apply beqb_false in E. apply E.
    transitivity (lower_ascii t); [|exact Lt]. apply cgi_base_inj_lower; auto.
    unfold cgi_key in K.
    destruct (beqb (cgi_base n) c_CONTENT_LENGTH || beqb (cgi_base n) c_CONTENT_TYPE) eqn:S.
    + apply orb_true_iff in S as [S|S]; apply beqb_eq in S; rewrite S in K; discriminate K.
    + apply app_inv_head in K. exact K.
Qed.

Lemma proxy_line_spec l : proxy_line l = existsb (maps_to (line_name l)) proxy_keys.
Proof.
  unfold proxy_line, proxy_names, proxy_keys. cbn [existsb].
  rewrite <- (maps_to_canonical n_xff), <- (maps_to_canonical n_xfh), <- (maps_to_canonical n_xfproto),
    <- (maps_to_canonical n_xfport), <- (maps_to_canonical n_xfby), <- (maps_to_canonical n_fwd) by reflexivity.
  reflexivity.
Qed.

Definition header_part (p : parser) (lines : list bytes) (k : bytes) : option bytes :=
  match unkey k with
  | Some key =>
    if beqb (version p) s_1_1 && beqb key s_TRANSFER_ENCODING then None
    else if chunked p && beqb key s_CONTENT_LENGTH then Some (to_dec (lenN (get_body_stream p)))
    else value_of_lines (key_lines k lines)
  | None => None
  end.

Lemma environ_lookup_full a ds p fl lines p0 p1 hp h1 c k :
  accepted_run a ds p p0 p1 hp -> accepted_head a p0 p1 hp fl lines h1 ->
  lookup k (environ_of c p) =
    if beqb k k_waitress_client_disconnected then None
    else match eget (base_environ c p) k with
         | Some v => str_of (Some v)
         | None => header_part p lines k
         end.
Proof.
  intros AR AH. rewrite lookup_environ_of. unfold get_environment. rewrite eget_eset.
  destruct (beqb k k_waitress_client_disconnected); [reflexivity|].
  rewrite fold_add_header_eget. destruct (eget (base_environ c p) k); [reflexivity|].
  rewrite hfind_unkey, str_of_VStr. unfold header_part. destruct (unkey k) as [key|] eqn:U; auto.
  rewrite (final_headers _ _ _ _ _ _ _ _ _ AR AH key).
  rewrite <- (field_values_line_adds _ _ _ U), field_values_key_lines. reflexivity.
Qed.

Lemma same_reqline a ds p p0 p1 hp h1 ds' p' p0' p1' hp' h1' fl lines lines' :
  accepted_run a ds p p0 p1 hp -> accepted_head a p0 p1 hp fl lines h1 ->
  accepted_run a ds' p' p0' p1' hp' -> accepted_head a p0' p1' hp' fl lines' h1' ->
  reqline p = reqline p'.
Proof.
  intros AR AH AR' AH'.
  rewrite (ar_reqline _ _ _ _ _ _ AR), (ar_reqline _ _ _ _ _ _ AR'). unfold reqline.
  pose proof (ah_crack _ _ _ _ _ _ _ AH) as C. pose proof (ah_crack _ _ _ _ _ _ _ AH') as C'.
  rewrite C in C'. injection C' as Ec Eu Ev.
  destruct (ah_split _ _ _ _ _ _ _ AH) as (sc & nl & fr & S).
  destruct (ah_split _ _ _ _ _ _ _ AH') as (sc' & nl' & fr' & S').
  rewrite Eu, S' in S. injection S as _ _ Ep Eq _.
  rewrite (ah_scheme _ _ _ _ _ _ _ AH), (ah_scheme _ _ _ _ _ _ _ AH').
  rewrite Ec, Eu, Ev, Ep, Eq. reflexivity.
Qed.

Lemma base_environ_same c p p' :
  reqline p = reqline p' -> get_body_stream p = get_body_stream p' -> base_environ c p = base_environ c p'.
Proof.
  unfold reqline. intros R B. injection R as Ec Ev Eu Ep Eq Es.
  unfold base_environ, task_version. rewrite Ec, Ev, Eu, Ep, Eq, Es, B. reflexivity.
Qed.

Lemma filter_filter_implies {A} (f g : A -> bool) (l : list A) :
  (forall x, f x = true -> g x = true) -> filter f (filter g l) = filter f l.
Proof.
  intro H. induction l as [|x l IH]; cbn [filter]; auto.
  destruct (g x) eqn:G; cbn [filter].
  - rewrite IH. reflexivity.
  - destruct (f x) eqn:F; auto. rewrite (H _ F) in G. discriminate.
Qed.

Lemma maps_not_ignorable k l :
  is_proxy_key k = false -> maps_to (line_name l) k = true -> negb (ignorable l) = true.
Proof.
  intros Hk M. unfold ignorable, underscore_name_line. apply negb_true_iff. apply orb_false_iff. split.
  - rewrite proxy_line_spec. destruct (existsb (maps_to (line_name l)) proxy_keys) eqn:E; auto.
    apply existsb_exists in E as (pk & Hin & Mp). exfalso.
    unfold maps_to in M, Mp. apply andb_true_iff in M as [_ M]. apply andb_true_iff in Mp as [_ Mp].
    apply beqb_eq in M. apply beqb_eq in Mp. subst.
    assert (X : is_proxy_key (cgi_key (line_name l)) = true).
    { unfold is_proxy_key. apply existsb_exists. exists (cgi_key (line_name l)). split; auto.
      apply beqb_refl. }
    congruence.
  - unfold maps_to in M. apply andb_true_iff in M as [M _]. apply negb_true_iff in M. exact M.
Qed.

(* a key that is not one of the six sees only lines that are not ignorable *)
Lemma key_lines_kept k lines :
  is_proxy_key k = false -> key_lines k (kept_lines lines) = key_lines k lines.
Proof.
  intro Hk. unfold key_lines, kept_lines. apply filter_filter_implies.
  intros l M. apply (maps_not_ignorable k l Hk M).
Qed.

Lemma proxy_key_plain pk : is_proxy_key pk = true -> plain_key pk = true.
Proof.
  intro H. unfold is_proxy_key in H. apply existsb_exists in H as (x & Hin & E).
  apply beqb_eq in E. subst x. unfold proxy_keys in Hin. cbn [In] in Hin.
  repeat (destruct Hin as [<-|Hin]; [reflexivity|]). contradiction.
Qed.

Lemma key_lines_host lines : key_lines k_http_host lines = filter host_line lines.
Proof.
  unfold key_lines, host_line. apply filter_ext. intro l. apply (maps_to_canonical n_host); reflexivity.
Qed.

Lemma host_lines_kept lines : filter host_line (kept_lines lines) = filter host_line lines.
Proof. rewrite <- !key_lines_host. apply key_lines_kept. reflexivity. Qed.

(* The framing verdict (chunked or not) is a function of the version and of the
   Transfer-Encoding lines, so it is the same for two requests whose kept lines agree. *)

Definition nonnil {A} (l : list A) : bool := match l with [] => false | _ => true end.

Lemma stage_uri_chunked a p h1 cmd uri ver p' :
  stage_uri a p h1 cmd uri ver = (p', PSOk) -> chunked p = false ->
  version p' = ver /\
  chunked p' = beqb ver s_1_1 && nonnil (te_encodings (hget_default h1 s_TRANSFER_ENCODING [])).
Proof.
  unfold stage_uri. intros H Hc.
  destruct (split_uri uri) as [sc nl pa qu fr| | |]; try discriminate.
  set (q0 := p <| request_uri := uri |> <| command := cmd |> <| version := ver |>
               <| p_scheme := sc |> <| p_netloc := nl |> <| path := pa |>
               <| query := qu |> <| fragment := fr |> <| url_scheme := adj_url_scheme a |>) in *.
  set (conn := hget_default h1 s_CONNECTION []) in *.
  set (q1a := if beqb ver s_1_0 && negb (beqb (lower_latin1 conn) s_keep_alive)
              then q0 <| connection_close := true |> else q0) in *.
  set (q1 := if negb (beqb ver s_1_1)
                && (match hget h1 s_TRANSFER_ENCODING with Some _ => true | None => false end)
             then q1a <| connection_close := true |> else q1a) in *.
  assert (Q1 : chunked q1 = chunked p /\ reqline q1 = (cmd, ver, uri, pa, qu, adj_url_scheme a)).
  { unfold q1, q1a. destruct (beqb ver s_1_0 && _); destruct (negb (beqb ver s_1_1) && _); cbn; auto. }
  destruct Q1 as (C1 & R1).
  cbv zeta in H.
  destruct (beqb ver s_1_1) eqn:E11.
  - destruct (stage_11 h1 conn q1) as [q2 [e|]] eqn:E2; [discriminate|].
    apply stage_11_ok in E2. destruct E2 as (_ & R2 & _ & _ & Hte).
    apply stage_cl_ok in H. destruct H as (_ & R3 & _ & C3 & _).
    assert (RL : reqline p' = (cmd, ver, uri, pa, qu, adj_url_scheme a)) by congruence.
    unfold reqline in RL. injection RL as _ Rv _ _ _ _. split; [exact Rv|].
    rewrite C3. cbn [andb].
    destruct Hte as [(Hnil & C2 & _)|(Hlen & C2 & _)].
    + rewrite Hnil, C2, C1, Hc. reflexivity.
    + rewrite C2. destruct (te_encodings _); [discriminate Hlen|reflexivity].
  - apply stage_cl_ok in H. destruct H as (_ & R3 & _ & C3 & _).
    assert (RL : reqline p' = (cmd, ver, uri, pa, qu, adj_url_scheme a)) by congruence.
    unfold reqline in RL. injection RL as _ Rv _ _ _ _. split; [exact Rv|].
    rewrite C3, C1, Hc. reflexivity.
Qed.

Lemma parse_header_chunked a p hp p' fl lines h1 :
  parse_header a p hp = (p', PSOk) -> accepted_head a p p' hp fl lines h1 -> chunked p = false ->
  chunked p' = beqb (version p') s_1_1 && nonnil (te_encodings (hget_default h1 s_TRANSFER_ENCODING [])).
Proof.
  intros H AH Hc. rewrite parse_header_stages in H.
  destruct (ah_find _ _ _ _ _ _ _ AH) as (index & F & Efl & L).
  rewrite F in H. cbv zeta in H. rewrite <- Efl in H.
  rewrite (ah_no_crlf _ _ _ _ _ _ _ AH), L in H. 
  change (headers (p <| first_line := fl |>)) with (headers p) in H.
  rewrite (ah_lines _ _ _ _ _ _ _ AH) in H.
  destruct (crack_first_line fl) as [[[cmd uri] ver]|]; [|discriminate].
  destruct (beqb cmd [] && beqb uri [] && beqb ver []); [discriminate|].
  apply stage_uri_chunked in H; [|exact Hc].
  destruct H as [V C]. rewrite C, V. reflexivity.
Qed.

Definition te_of_lines (lines : list bytes) : bytes :=
  match value_of_lines (key_lines c_HTTP_TRANSFER_ENCODING lines) with Some v => v | None => [] end.

Lemma accepted_chunked a ds p p0 p1 hp fl lines h1 :
  accepted_run a ds p p0 p1 hp -> accepted_head a p0 p1 hp fl lines h1 ->
  chunked p = beqb (version p) s_1_1 && nonnil (te_encodings (te_of_lines lines)).
Proof.
  intros AR AH.
  destruct (ar_fresh _ _ _ _ _ _ AR) as (Fh & _ & Fc & _).
  rewrite (ar_chunked _ _ _ _ _ _ AR).
  assert (V : version p = version p1).
  { pose proof (ar_reqline _ _ _ _ _ _ AR) as R. unfold reqline in R. congruence. }
  rewrite V, (parse_header_chunked _ _ _ _ _ _ _ (ar_parse _ _ _ _ _ _ AR) AH Fc).
  f_equal. f_equal. f_equal.
  pose proof (ah_lines _ _ _ _ _ _ _ AH) as AL. rewrite Fh in AL.
  unfold hget_default. rewrite (add_header_lines_hget _ _ _ s_TRANSFER_ENCODING AL).
  cbn [hget]. rewrite fold_append_joined.
  unfold te_of_lines, value_of_lines.
  rewrite <- field_values_key_lines.
  rewrite (field_values_line_adds lines c_HTTP_TRANSFER_ENCODING s_TRANSFER_ENCODING) by reflexivity.
  reflexivity.
Qed.

Lemma te_of_lines_kept lines : te_of_lines (kept_lines lines) = te_of_lines lines.
Proof. unfold te_of_lines. rewrite key_lines_kept by reflexivity. reflexivity. Qed.

(* the two requests carry the same body: wsgi.input yields the same bytes
   (the framing verdict itself is derived: accepted_chunked) *)
Definition same_body (p p' : parser) : Prop := get_body_stream p = get_body_stream p'.

Lemma two_requests_agree a c ds p p0 p1 hp h1 ds' p' p0' p1' hp' h1' fl lines lines' :
  accepted_run a ds p p0 p1 hp -> accepted_head a p0 p1 hp fl lines h1 ->
  accepted_run a ds' p' p0' p1' hp' -> accepted_head a p0' p1' hp' fl lines' h1' ->
  kept_lines lines = kept_lines lines' -> same_body p p' ->
  agree_off is_proxy_key (environ_of c p) (environ_of c p').
Proof.
  intros AR AH AR' AH' K Bb k Hk. unfold same_body in Bb.
  pose proof (same_reqline _ _ _ _ _ _ _ _ _ _ _ _ _ _ _ _ AR AH AR' AH') as R.
  assert (V : version p = version p') by (unfold reqline in R; congruence).
  assert (Bc : chunked p = chunked p').
  { rewrite (accepted_chunked _ _ _ _ _ _ _ _ _ AR AH), (accepted_chunked _ _ _ _ _ _ _ _ _ AR' AH'), V.
    rewrite <- (te_of_lines_kept lines), <- (te_of_lines_kept lines'), K. reflexivity. }
  rewrite (environ_lookup_full _ _ _ _ _ _ _ _ _ c k AR AH),
          (environ_lookup_full _ _ _ _ _ _ _ _ _ c k AR' AH').
  rewrite (base_environ_same c p p' R Bb).
  destruct (beqb k k_waitress_client_disconnected); auto.
  destruct (eget (base_environ c p') k); auto.
  unfold header_part.
  rewrite V, Bc, Bb.
  rewrite <- (key_lines_kept k lines Hk), <- (key_lines_kept k lines' Hk), K. reflexivity.
Qed.

(* the seven metadata keys as the application sees them: fixed by the
   channel/server context, adj.url_scheme and the Host line(s) alone *)
Record meta_fixed (a : adj) (ctx : Environ.config) (lines : list bytes) (o : Proxy.environ) : Prop := {
  mf_ctx : ctx_keys ctx (adj_url_scheme a) o;
  mf_host : lookup k_http_host o = value_of_lines (filter host_line lines)
}.

Lemma meta_fixed_transfer a ctx lines e o :
  (forall k, is_proxy_key k = false -> lookup k o = lookup k e) ->
  meta_fixed a ctx lines e -> meta_fixed a ctx lines o.
Proof.
  intros T [[A B C D E F] H].
  constructor; [constructor|]; rewrite T by reflexivity; assumption.
Qed.

Lemma e2e_environ_keys a ds p fl lines ctx :
  feed_all a ds = Some p -> accepted p -> head_parts (concat ds) = Some (fl, lines) ->
  meta_fixed a ctx lines (environ_of ctx p) /\
  (forall ek, plain_key ek = true -> lookup ek (environ_of ctx p) = value_of_lines (key_lines ek lines)) /\
  (forall pk, is_proxy_key pk = true ->
     lookup pk (environ_of ctx p) = value_of_lines (key_lines pk lines) /\
     (forall l, In l (key_lines pk lines) -> In l lines /\ proxy_line l = true /\ underscore_name_line l = false)).
Proof.
  intros H A HP.
  destruct (accepted_parts _ _ _ H A) as (fl0 & lines0 & p0 & p1 & hp & h1 & HP0 & AR & AH).
  rewrite HP in HP0. injection HP0 as <- <-.
  assert (L : forall ek, plain_key ek = true ->
              lookup ek (environ_of ctx p) = value_of_lines (key_lines ek lines)).
  { intros ek Hk. eapply header_key_local; eauto. }
  split; [|split].
  - constructor.
    + rewrite <- (accepted_url_scheme _ _ _ H A). apply environ_ctx_keys.
    + rewrite <- key_lines_host. apply L. reflexivity.
  - exact L.
  - intros pk Hpk. split; [apply L; apply proxy_key_plain; exact Hpk|].
    intros l Hl. unfold key_lines in Hl. apply filter_In in Hl as [Hin M]. split; [exact Hin|].
    split.
    + rewrite proxy_line_spec. apply existsb_exists. exists pk. split; [|exact M].
      unfold is_proxy_key in Hpk. apply existsb_exists in Hpk as (x & Hx & E).
      apply beqb_eq in E. subst x. exact Hx.
    + unfold underscore_name_line. unfold maps_to in M. apply andb_true_iff in M as [M _].
      apply negb_true_iff in M. exact M.
Qed.

Lemma c15_e2e_two_requests a ds ds' p p' fl lines lines' ctx cfg :
  feed_all a ds = Some p -> accepted p ->
  feed_all a ds' = Some p' -> accepted p' ->
  head_parts (concat ds) = Some (fl, lines) -> head_parts (concat ds') = Some (fl, lines') ->
  kept_lines lines = kept_lines lines' -> same_body p p' ->
  peer_untrusted cfg (addr0 (peer_addr ctx)) ->
  exists o o',
    serve_request cfg ctx p = Ok o /\ serve_request cfg ctx p' = Ok o' /\
    agree_off is_proxy_key o o' /\
    meta_fixed a ctx lines o /\ meta_fixed a ctx lines' o' /\
    filter host_line lines = filter host_line lines' /\
    (clear_untrusted cfg = true ->
       (forall k, is_proxy_key k = true -> lookup k o = None /\ lookup k o' = None) /\
       (forall k, lookup k o = lookup k o')) /\
    (clear_untrusted cfg = false ->
       o = environ_of ctx p /\ o' = environ_of ctx p' /\
       forall pk, is_proxy_key pk = true ->
         lookup pk o = value_of_lines (key_lines pk lines) /\
         lookup pk o' = value_of_lines (key_lines pk lines')).
Proof.
  intros H A H' A' HP HP' K B U.
  destruct (accepted_parts _ _ _ H A) as (fl0 & lines0 & p0 & p1 & hp & h1 & HP0 & AR & AH).
  rewrite HP in HP0. injection HP0 as <- <-.
  destruct (accepted_parts _ _ _ H' A') as (fl0 & lines0 & p0' & p1' & hp' & h1' & HP0 & AR' & AH').
  rewrite HP' in HP0. injection HP0 as <- <-.
  pose proof (two_requests_agree _ ctx _ _ _ _ _ _ _ _ _ _ _ _ _ _ _ AR AH AR' AH' K B) as Ag.
  destruct (e2e_environ_keys _ _ _ _ _ ctx H A HP) as (M & _ & PK).
  destruct (e2e_environ_keys _ _ _ _ _ ctx H' A' HP') as (M' & _ & PK').
  pose proof (ck_addr _ _ _ (mf_ctx _ _ _ _ M)) as Pe.
  pose proof (ck_addr _ _ _ (mf_ctx _ _ _ _ M')) as Pe'.
  destruct (c15_two_runs cfg _ _ _ Pe U Ag) as (o & o' & S & S' & Ao & Fr & _ & Cl & Nc).
  assert (Ag' : agree_off is_proxy_key (environ_of ctx p') (environ_of ctx p)).
  { intros k Hk. symmetry. apply Ag. exact Hk. }
  destruct (c15_two_runs cfg _ _ _ Pe' U Ag') as (o2 & o2' & S2 & _ & _ & Fr' & _ & Cl' & Nc').
  rewrite S' in S2. injection S2 as <-.
  exists o, o'. unfold serve_request.
  split; [exact S|]. split; [exact S'|]. split; [exact Ao|].
  split; [eapply meta_fixed_transfer; eauto|]. split; [eapply meta_fixed_transfer; eauto|].
  split; [rewrite <- (host_lines_kept lines), <- (host_lines_kept lines'), K; reflexivity|].
  split.
  - intro C. destruct (Cl C) as [N1 E1]. destruct (Cl' C) as [N2 _]. split; auto.
  - intro C. rewrite (Nc C), (Nc' C). split; [reflexivity|]. split; [reflexivity|].
    intros pk Hpk. split; [apply PK|apply PK']; exact Hpk.
Qed.

Lemma kept_after_delete lines :
  kept_lines (filter (fun l => negb (proxy_line l)) lines) = kept_lines lines.
Proof.
  unfold kept_lines. apply filter_filter_implies. intros l Hl. unfold ignorable in Hl.
  apply negb_true_iff in Hl. apply orb_false_iff in Hl as [Hl _]. rewrite Hl. reflexivity.
Qed.

Lemma key_lines_after_delete k lines :
  is_proxy_key k = true -> key_lines k (filter (fun l => negb (proxy_line l)) lines) = [].
Proof.
  intro Hk. unfold key_lines. induction lines as [|l lines IH]; cbn [filter]; auto.
  destruct (negb (proxy_line l)) eqn:Np; cbn [filter]; auto.
  destruct (maps_to (line_name l) k) eqn:Mp; auto. exfalso.
  apply negb_true_iff in Np. rewrite proxy_line_spec in Np.
  assert (X : existsb (maps_to (line_name l)) proxy_keys = true).
  { apply existsb_exists. exists k. split; auto.
    unfold is_proxy_key in Hk. apply existsb_exists in Hk as (x & Hx & E).
    apply beqb_eq in E. subst x. exact Hx. }
  congruence.
Qed.

