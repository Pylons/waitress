(* C16 (c): for a trusted peer the application sees a trusted list-valued
   header only through its trusted suffix: two requests whose header values
   have the same last k elements (and are both accepted) produce the same
   environ, on every key.  An accepted request is handed on as Spec.spec_out
   says (accepted_exact), and spec_out reads such a header through picked,
   pruned and fwd_oldest only, which are functions of the suffix. *)
From Coq Require Import List NArith ZArith Bool Lia.
From WV Require Import Lib.PyBytes Lib.PyStrProxy Model.Proxy Spec.ProxySpec
  Proof.ProxyDict Proof.ProxyStages Proof.ProxyTotal Proof.ProxyConverse1 Proof.ProxyConverse2 Proof.ProxyConverse3
  Proof.ProxyRel Proof.ProxyKinds.
Import ListNotations.
Local Open Scope N_scope.

Definition none : str -> bool := fun _ => false.

Lemma rel_weaken D s1 s2 : rel none s1 s2 -> rel D s1 s2.
Proof. intros [r_env0 ? ? ? ? ? ?]. constructor; auto. intros key _. apply r_env0. reflexivity. Qed.

Lemma spec_out_prune tph kd e1 e2 raw1 raw2 k clr :
  (kd = KFor \/ kd = KHost \/ kd = KFwd /\ truthy raw1 = true /\ truthy raw2 = true) ->
  has tph (name_of kd) = true ->
  agree (only (key_of kd)) e1 e2 ->
  lookup (key_of kd) e1 = Some raw1 -> lookup (key_of kd) e2 = Some raw2 ->
  suffix (elements raw1) k = suffix (elements raw2) k ->
  forall key, spec_out tph k clr e1 key = spec_out tph k clr e2 key.
Proof.
  intros Hkd Ht Ha L1 L2 Hs key.
  destruct (suffix_only raw1 raw2 k Hs) as (Pk & Pr & Po).
  assert (A : forall key', beqb key' (key_of kd) = false -> lookup key' e1 = lookup key' e2) by exact Ha.
  (* the same is selected, and Forwarded is in effect in both or in neither *)
  assert (Sel : select tph k e1 = select tph k e2 /\ fwd_active tph e1 = fwd_active tph e2 /\
                (kd = KFwd -> fwd_active tph e2 = true)).
  { unfold select, fwd_active, xf_client, xf_host, xf_single, hdr. model_names.
    destruct Hkd as [->|[->|(-> & T1 & T2)]]; cbn [key_of name_of] in *;
      rewrite ?L1, ?L2, ?Ht, ?T1, ?T2, ?Pk, ?Po,
        ?(A k_xff), ?(A k_xfh), ?(A k_xfproto), ?(A k_xfport), ?(A k_fwd) by reflexivity;
      repeat split; auto; discriminate. }
  destruct Sel as (Sel & FA & FT).
  unfold spec_out. rewrite Sel. destruct (is_proxy_key key) eqn:Ek.
  - (* a proxy header key: the differing header is pruned (or cleared), the others are the same *)
    assert (HO : forall name K rw, beqb K (key_of kd) = false ->
                 header_out tph k clr e1 name K rw = header_out tph k clr e2 name K rw).
    { intros name K rw HK. unfold header_out. rewrite (A K HK). reflexivity. }
    assert (HK : header_out tph k clr e1 (name_of kd) (key_of kd) true =
                 header_out tph k clr e2 (name_of kd) (key_of kd) true).
    { unfold header_out. rewrite L1, L2, Pr. reflexivity. }
    unfold headers_out. rewrite FA. model_names.
    apply proxy_key_cases in Ek.
    destruct Hkd as [->|[->|(-> & T1 & T2)]]; cbn [key_of name_of] in *; rewrite ?Ht, ?(FT eq_refl), HK, !HO by reflexivity;
      destruct Ek as [->|[->|[->|[->|[->| ->]]]]]; reflexivity.
  - apply meta_out_ext; [|exact Ek]. intros k' Hk'. apply A.
    destruct (not_proxy_key k' Hk') as (M1 & M2 & M3 & M4 & M5 & M6). destruct kd; assumption.
Qed.

Lemma prune_two_runs c kd e1 e2 raw1 raw2 p o1 o2 :
  (kd = KFor \/ kd = KHost \/ kd = KFwd /\ truthy raw1 = true /\ truthy raw2 = true) ->
  has (tph_of c) (name_of kd) = true -> trusted_proxy_count c = Zpos p ->
  on_trusted_path c e1 = true ->
  agree (only (key_of kd)) e1 e2 ->
  lookup (key_of kd) e1 = Some raw1 -> lookup (key_of kd) e2 = Some raw2 ->
  suffix (split raw1 [c_comma]) (Pos.to_nat p) = suffix (split raw2 [c_comma]) (Pos.to_nat p) ->
  middleware c e1 = Ok o1 -> middleware c e2 = Ok o2 ->
  forall key, lookup key o1 = lookup key o2.
Proof.
  intros Hkd Ht Hp Htp Ha L1 L2 Hs M1 M2 key.
  assert (Htp2 : on_trusted_path c e2 = true).
  { unfold on_trusted_path in *. rewrite <- (Ha k_remote_addr); [exact Htp|]. unfold only. destruct kd; reflexivity. }
  rewrite (accepted_exact c e1 p o1 Htp Hp M1), (accepted_exact c e2 p o2 Htp2 Hp M2).
  eapply spec_out_prune; eauto.
Qed.
