(* The header part of the environ is the CGI image of the field lines:
   what a line does to the dictionary (add_header_line_ok) and the invariant of
   add_header_lines by induction over the lines; the model's string primitives
   against those of Spec/Pep3333 (header_key, strip, the cut at the first
   colon); the injectivity of the key mapping (unkey); the dictionary a task
   sees for the three body paths (accepted_framing, final_headers) and its
   comparison with spec_header (header_entries_image); field names with an
   underscore; get_header_lines against unfold_lines. *)
From Coq Require Import List NArith ZArith Bool Lia.
From RecordUpdate Require Import RecordUpdate.
From WV Require Import Lib.PyBytes Lib.Regex Gen.GenRegex Model.Receiver Model.UrlSplit Model.Parser
  Model.Environ Spec.Pep3333 Proof.C01Dict Proof.EnvironDict Proof.EnvironParse Proof.EnvironRun.
Import ListNotations.
Local Open Scope N_scope.

(* a field line as add_header_line cuts it: name and the text after the first colon *)
Definition field_of_line (line : bytes) : bytes * bytes :=
  let '(n, _, r) := partition line [58] in (n, r).

(* the value, if any, that [line] contributes to dictionary key k *)
Definition line_adds (k : bytes) (line : bytes) : list bytes :=
  let '(n, r) := field_of_line line in
  if negb (memb 95 n) && beqb (header_key n) k then [strip_by is_sp_htab r] else [].

(* a repeated field: old ++ ", " ++ new *)
Definition append_value (acc : option bytes) (v : bytes) : option bytes :=
  Some (match acc with Some old => old ++ [44; 32] ++ v | None => v end).

Lemma add_header_line_ok h line h' :
  add_header_line h line = inr h' ->
  let '(n, r) := field_of_line line in
  h' = if memb 95 n then h
       else hset h (header_key n)
                 (match hget h (header_key n) with
                  | Some old => old ++ [44; 32] ++ strip_by is_sp_htab r
                  | None => strip_by is_sp_htab r
                  end).
Proof.
  unfold add_header_line, field_of_line.
  destruct (negb (matches gate_header_field line)); [discriminate|].
  destruct (partition line [58]) as [[n sep] r].
  destruct (memb 95 n); [intro H; injection H as <-; reflexivity|].
  destruct (hget h (header_key n)).
  - destruct (is_singleton (header_key n)); [discriminate|]. intro H. injection H as <-. reflexivity.
  - intro H. injection H as <-. reflexivity.
Qed.

Lemma add_header_line_hget h line h' k :
  add_header_line h line = inr h' ->
  hget h' k = fold_left append_value (line_adds k line) (hget h k).
Proof.
  intro H. apply add_header_line_ok in H. unfold line_adds.
  destruct (field_of_line line) as [n r]. subst h'.
  destruct (memb 95 n); [reflexivity|]. cbn [negb andb].
  rewrite hget_hset, (beqb_sym (header_key n) k).
  destruct (beqb k (header_key n)) eqn:E; [|reflexivity].
  apply beqb_eq in E. subst k. reflexivity.
Qed.

Lemma add_header_line_uniq h line h' :
  add_header_line h line = inr h' -> uniq h -> uniq h'.
Proof.
  intro H. apply add_header_line_ok in H. destruct (field_of_line line) as [n r]. subst h'.
  destruct (memb 95 n); auto using uniq_hset.
Qed.

Lemma add_header_lines_hget lines : forall h h' k,
  add_header_lines h lines = inr h' ->
  hget h' k = fold_left append_value (flat_map (line_adds k) lines) (hget h k).
Proof.
  induction lines as [|l lines IH]; intros h h' k H; simpl in *.
  - injection H as <-. reflexivity.
  - destruct (add_header_line h l) as [e|h1] eqn:E1; [discriminate|].
    rewrite fold_left_app. rewrite <- (add_header_line_hget _ _ _ _ E1). apply IH. assumption.
Qed.

Lemma add_header_lines_uniq lines : forall h h',
  add_header_lines h lines = inr h' -> uniq h -> uniq h'.
Proof.
  induction lines as [|l lines IH]; intros h h' H N; simpl in *.
  - injection H as <-. assumption.
  - destruct (add_header_line h l) as [e|h1] eqn:E1; [discriminate|].
    eapply IH; eauto. eapply add_header_line_uniq; eauto.
Qed.

Lemma fold_append_some vs : forall x,
  fold_left append_value vs (Some x) = Some (x ++ concat (map (fun w => comma_sp ++ w) vs)).
Proof.
  induction vs as [|v vs IH]; intro x; cbn [fold_left map concat].
  - rewrite app_nil_r. reflexivity.
  - change (append_value (Some x) v) with (Some (x ++ [44; 32] ++ v)).
    rewrite IH. unfold comma_sp. rewrite <- !app_assoc. reflexivity.
Qed.

Lemma fold_append_joined vs : fold_left append_value vs None = joined vs.
Proof. destruct vs as [|v vs]; simpl; auto. apply fold_append_some. Qed.

Lemma header_key_cgi_base n : header_key n = cgi_base n.
Proof.
  unfold header_key, cgi_base, replace_byte, upper_ascii. rewrite map_map.
  apply map_ext. intro x. unfold upper_ascii_b, cgi_char.
  destruct (x =? 45) eqn:E45.
  - apply N.eqb_eq in E45. subst. reflexivity.
  - destruct ((97 <=? x) && (x <=? 122)) eqn:Elow.
    + apply andb_true_iff in Elow as [A B]. apply N.leb_le in A. apply N.leb_le in B.
      destruct (x - 32 =? 45) eqn:E; auto. apply N.eqb_eq in E. lia.
    + rewrite E45. reflexivity.
Qed.

Lemma env_key_cgi_key n : env_key (header_key n) = cgi_key n.
Proof.
  unfold env_key, rename_headers, cgi_key. rewrite header_key_cgi_base.
  change c_CONTENT_LENGTH with s_CONTENT_LENGTH. change c_CONTENT_TYPE with s_CONTENT_TYPE.
  destruct (beqb (cgi_base n) s_CONTENT_LENGTH) eqn:E1; simpl.
  - apply beqb_eq in E1. auto.
  - destruct (beqb (cgi_base n) s_CONTENT_TYPE) eqn:E2; simpl.
    + apply beqb_eq in E2. auto.
    + reflexivity.
Qed.

Lemma lstrip_trim_left s : lstrip_by is_sp_htab s = trim_left s.
Proof. induction s as [|x s IH]; simpl; auto. unfold is_sp_htab, ows in *. destruct ((x =? 32) || (x =? 9)); auto. Qed.

Lemma lstrip_snoc f s x :
  lstrip_by f (s ++ [x]) = match lstrip_by f s with [] => if f x then [] else [x] | t => t ++ [x] end.
Proof.
  induction s as [|y s IH]; simpl.
  - reflexivity.
  - destruct (f y); auto.
Qed.

Lemma rstrip_trim_right s : rstrip_by is_sp_htab s = trim_right s.
Proof.
  unfold rstrip_by. induction s as [|x s IH]; simpl; auto.
  rewrite lstrip_snoc. rewrite <- IH.
  destruct (lstrip_by is_sp_htab (rev s)) as [|y t] eqn:E; simpl.
  - unfold is_sp_htab, ows. destruct ((x =? 32) || (x =? 9)); reflexivity.
  - rewrite rev_app_distr. simpl. destruct (rev t ++ [y]) eqn:E2.
    + destruct (rev t); discriminate.
    + reflexivity.
Qed.

Lemma strip_trim s : strip_by is_sp_htab s = trim s.
Proof. unfold strip_by, trim. rewrite rstrip_trim_right, lstrip_trim_left. reflexivity. Qed.

(* the text before and after the first colon, written without find/firstn/skipn *)
Fixpoint cut_colon (l : bytes) : bytes * bytes :=
  match l with
  | [] => ([], [])
  | x :: l' => if x =? 58 then ([], l') else let '(n, v) := cut_colon l' in (x :: n, v)
  end.

Lemma startswith_single x s c : startswith (x :: s) [c] = (c =? x).
Proof. simpl. destruct s; rewrite andb_true_r; reflexivity. Qed.

Lemma find1_cons c x s :
  find (x :: s) [c] = if c =? x then Some 0%nat else option_map S (find s [c]).
Proof.
  rewrite PyBytesFacts.find_cons, startswith_single. destruct (c =? x); [reflexivity|].
  destruct (find s [c]); reflexivity.
Qed.

Lemma field_of_line_cut line : field_of_line line = cut_colon line.
Proof.
  unfold field_of_line, partition. induction line as [|x l IH]; [reflexivity|].
  rewrite find1_cons. cbn [cut_colon]. rewrite (N.eqb_sym 58 x). destruct (x =? 58); [reflexivity|].
  destruct (cut_colon l) as [n v].
  destruct (find l [58]) as [i|]; cbn in *; injection IH as <- <-; reflexivity.
Qed.

(* the key mapping is injective: unkey is its partial inverse *)
Definition unkey (ek : bytes) : option bytes :=
  if beqb ek s_CONTENT_LENGTH then Some s_CONTENT_LENGTH
  else if beqb ek s_CONTENT_TYPE then Some s_CONTENT_TYPE
  else if startswith ek k_HTTP_ then
    let k := skipn 5 ek in
    if beqb k s_CONTENT_LENGTH || beqb k s_CONTENT_TYPE then None else Some k
  else None.

Lemma unkey_env_key key : unkey (env_key key) = Some key.
Proof.
  unfold unkey, env_key, rename_headers.
  destruct (beqb key s_CONTENT_LENGTH) eqn:K1; [apply beqb_eq in K1; subst; reflexivity|].
  destruct (beqb key s_CONTENT_TYPE) eqn:K2; [apply beqb_eq in K2; subst; reflexivity|].
  rewrite PyBytesFacts.startswith_self_app. change (skipn 5 (k_HTTP_ ++ key)) with key.
  rewrite K1, K2. reflexivity.
Qed.

Lemma unkey_some ek key : unkey ek = Some key -> ek = env_key key.
Proof.
  unfold unkey.
  destruct (beqb ek s_CONTENT_LENGTH) eqn:E1; [intro H; injection H as <-; apply beqb_eq in E1; exact E1|].
  destruct (beqb ek s_CONTENT_TYPE) eqn:E2; [intro H; injection H as <-; apply beqb_eq in E2; exact E2|].
  destruct (startswith ek k_HTTP_) eqn:E3; [|discriminate].
  apply PyBytesFacts.startswith_spec in E3 as [k ->]. change (skipn 5 (k_HTTP_ ++ k)) with k. cbv zeta.
  destruct (beqb k s_CONTENT_LENGTH) eqn:K1; [discriminate|].
  destruct (beqb k s_CONTENT_TYPE) eqn:K2; [discriminate|].
  intro H. injection H as <-. unfold env_key, rename_headers. rewrite K1, K2. reflexivity.
Qed.

Lemma unkey_spec ek key :
  beqb ek (env_key key) = match unkey ek with Some k' => beqb k' key | None => false end.
Proof.
  destruct (beqb ek (env_key key)) eqn:E.
  - apply beqb_eq in E. subst ek. rewrite unkey_env_key, beqb_refl. reflexivity.
  - destruct (unkey ek) as [k'|] eqn:U; [|reflexivity].
    apply unkey_some in U. subst ek. symmetry. apply beqb_false. intros ->.
    rewrite beqb_refl in E. discriminate.
Qed.

Lemma hfind_unkey h ek :
  hfind h ek = match unkey ek with Some key => hget h key | None => None end.
Proof.
  induction h as [|[key v] h IH]; simpl.
  - destruct (unkey ek); reflexivity.
  - rewrite unkey_spec, IH. destruct (unkey ek) as [k'|]; reflexivity.
Qed.

Lemma environ_header_entry c p ek :
  is_header_key ek = true ->
  eget (get_environment c p) ek =
  option_map VStr (match unkey ek with Some key => hget (headers p) key | None => None end).
Proof. intro H. rewrite get_environment_header_key, hfind_unkey by exact H. reflexivity. Qed.

(* the three body paths of an accepted run: chunked (the dictionary loses
   Transfer-Encoding and the client's Content-Length and gains the decoded
   length), a Content-Length body, no body *)
Lemma accepted_framing a ds p p0 p1 hp fl lines h1 :
  accepted_run a ds p p0 p1 hp -> accepted_head a p0 p1 hp fl lines h1 ->
  (chunked p = true /\ version p = s_1_1 /\
   exists c, body p = Some (BChunked c) /\
             headers p = hset (hpop (hpop h1 s_TRANSFER_ENCODING) s_CONTENT_LENGTH)
                              s_CONTENT_LENGTH (to_dec (lenN (c_buf c))))
  \/
  (chunked p = false /\
   let H := if beqb (version p) s_1_1 then hpop h1 s_TRANSFER_ENCODING else h1 in
   let cl := hget_default H s_CONTENT_LENGTH s_0 in
   headers p = H /\ matches gate_content_length cl = true /\
   ((exists f, body p = Some (BFixed f) /\ lenN (f_buf f) = dec_value cl /\ 0 < dec_value cl) \/
    (body p = None /\ dec_value cl = 0))).
Proof.
  intros AR AH. destruct AR as [F _ _ R C _ B]. destruct AH as [_ _ _ _ _ _ _ _ AF].
  destruct F as (_ & Fb & Fc & _).
  assert (V : version p = version p1) by (unfold reqline in R; congruence).
  rewrite V, C.
  destruct AF as [(Ac & Av & Ab & Ah & _)|(Ac & Ah & Acl)].
  - left. split; [exact Ac|]. split; [exact Av|].
    destruct (body p) as [[f|c]|]; [destruct B; congruence| |destruct B; congruence].
    destruct B as (_ & Bh). exists c. rewrite Bh, Ah. auto.
  - right. rewrite Ac, Fc. split; [reflexivity|].
    destruct (Acl Fc) as (Am & Al & Ab). rewrite Fb in Ab. cbv zeta. rewrite <- Ah.
    destruct (body p) as [[f|c]|].
    + destruct B as (_ & Bh & Blen & Bpos). rewrite Al in Blen, Bpos. eauto 8.
    + destruct B as (X & _). congruence.
    + destruct B as (Bn & Bh). split; [exact Bh|]. split; [exact Am|]. right. split; [reflexivity|].
      rewrite Bn in Ab. destruct (0 <? dec_value _) eqn:E; [discriminate|]. apply N.ltb_ge in E. lia.
Qed.

Lemma final_headers a ds p p0 p1 hp fl lines h1 :
  accepted_run a ds p p0 p1 hp -> accepted_head a p0 p1 hp fl lines h1 ->
  forall key, hget (headers p) key =
    if beqb (version p) s_1_1 && beqb key s_TRANSFER_ENCODING then None
    else if chunked p && beqb key s_CONTENT_LENGTH then Some (to_dec (lenN (get_body_stream p)))
    else joined (flat_map (line_adds key) lines).
Proof.
  intros AR AH key.
  assert (Hg : hget h1 key = joined (flat_map (line_adds key) lines) /\ uniq h1).
  { pose proof (ah_lines _ _ _ _ _ _ _ AH) as AL. destruct (ar_fresh _ _ _ _ _ _ AR) as (Fh & _).
    rewrite Fh in AL. rewrite (add_header_lines_hget _ _ _ key AL), fold_append_joined.
    split; [reflexivity|]. exact (add_header_lines_uniq _ _ _ AL I). }
  destruct Hg as (Hg & U). unfold get_body_stream.
  (* Transfer-Encoding is gone from a dictionary it was popped from; other keys do not see the pop *)
  assert (TE : forall h, uniq h -> hget (hpop h s_TRANSFER_ENCODING) key =
                 if beqb key s_TRANSFER_ENCODING then None else hget h key).
  { intros h Uh. destruct (beqb key s_TRANSFER_ENCODING) eqn:Et; [|apply hget_hpop_other, Et].
    apply beqb_eq in Et. subst key. apply hget_hpop_same, Uh. }
  destruct (accepted_framing _ _ _ _ _ _ _ _ _ AR AH) as [(Ec & Ev & c & Eb & Eh)|(Ec & Eh & _)].
  - rewrite Ec, Ev, Eb, Eh, beqb_refl, hget_hset. cbn [andb body_bytes].
    destruct (beqb key s_CONTENT_LENGTH) eqn:Ek.
    + apply beqb_eq in Ek. subst key. reflexivity.
    + rewrite hget_hpop_other, TE by assumption.
      destruct (beqb key s_TRANSFER_ENCODING); [reflexivity|exact Hg].
  - cbv zeta in Eh. rewrite Ec, Eh. cbn [andb].
    destruct (beqb (version p) s_1_1); cbn [andb]; [|exact Hg].
    rewrite TE by exact U. destruct (beqb key s_TRANSFER_ENCODING); [reflexivity|exact Hg].
Qed.

(* the request the specification is applied to: the request-line pieces the
   parser kept, the field lines cut at their first colon, the framing verdict
   and the body behind wsgi.input *)
Definition request_of (p : parser) (lines : list bytes) : request :=
  {| rq_method := command p; rq_target := request_uri p; rq_version := version p;
     rq_fields := map cut_colon lines; rq_chunked := chunked p; rq_body := get_body_stream p |}.

Lemma field_values_line_adds lines ek key :
  unkey ek = Some key ->
  field_values (map cut_colon lines) ek = flat_map (line_adds key) lines.
Proof.
  intro U. unfold field_values. induction lines as [|l lines IH]; cbn [map flat_map]; auto.
  rewrite IH. f_equal. unfold line_adds. rewrite field_of_line_cut.
  destruct (cut_colon l) as [n r]. cbn [fst snd].
  change (has_underscore n) with (memb 95 n).
  rewrite <- env_key_cgi_key. rewrite beqb_sym, unkey_spec, U, beqb_sym, strip_trim. reflexivity.
Qed.

Lemma field_values_no_key fields ek : unkey ek = None -> field_values fields ek = [].
Proof.
  intro U. unfold field_values. induction fields as [|[n v] fields IH]; cbn [flat_map fst snd]; auto.
  rewrite IH, app_nil_r. rewrite <- env_key_cgi_key, beqb_sym, unkey_spec, U, andb_false_r. reflexivity.
Qed.

Lemma header_entries_image a ds p p0 p1 hp fl lines h1 :
  accepted_run a ds p p0 p1 hp -> accepted_head a p0 p1 hp fl lines h1 ->
  forall c ek, is_header_key ek = true ->
  eget (get_environment c p) ek = option_map VStr (spec_header (request_of p lines) ek).
Proof.
  intros AR AH c ek Hk. rewrite environ_header_entry by exact Hk. f_equal.
  unfold spec_header, request_of. cbn [rq_version rq_chunked rq_body rq_fields].
  change c_1_1 with s_1_1.
  change c_HTTP_TRANSFER_ENCODING with (env_key s_TRANSFER_ENCODING).
  change c_CONTENT_LENGTH with (env_key s_CONTENT_LENGTH).
  rewrite !unkey_spec.
  destruct (unkey ek) as [key|] eqn:U.
  - rewrite (final_headers _ _ _ _ _ _ _ _ _ AR AH key).
    rewrite (field_values_line_adds _ _ _ U). reflexivity.
  - rewrite !andb_false_r. rewrite field_values_no_key by exact U. reflexivity.
Qed.

(* where the lines come from: the head block of the run *)
Definition head_lines (hp fl : bytes) (lines : list bytes) : Prop :=
  exists index, find hp CRLF = Some index /\
                fl = rstrip_by is_reqline_ws (firstn index hp) /\
                get_header_lines (skipn (index + 2) hp) = inr lines.

Lemma cgi_key_header_form n : is_header_key (cgi_key n) = true.
Proof. rewrite <- env_key_cgi_key. apply env_key_header_form. Qed.

Definition underscore_line (l : bytes) : bool := has_underscore (fst (cut_colon l)).

Lemma add_header_line_underscore h l h' :
  add_header_line h l = inr h' -> underscore_line l = true -> h' = h.
Proof.
  intros H U. apply add_header_line_ok in H. unfold underscore_line in U.
  rewrite <- field_of_line_cut in U. destruct (field_of_line l) as [n r]. cbn [fst] in U.
  change (has_underscore n) with (memb 95 n) in U. rewrite U in H. exact H.
Qed.

(* deleting every field line whose name contains "_" leaves the dictionary,
   hence the environ, exactly as it was *)
Lemma add_header_lines_drop_underscore lines : forall h h',
  add_header_lines h lines = inr h' ->
  add_header_lines h (filter (fun l => negb (underscore_line l)) lines) = inr h'.
Proof.
  induction lines as [|l lines IH]; intros h h' H; cbn [filter add_header_lines] in *; auto.
  destruct (add_header_line h l) as [e|h1] eqn:E1; [discriminate|].
  destruct (underscore_line l) eqn:U; cbn [negb].
  - apply add_header_line_underscore in E1; auto. subst h1. apply IH. exact H.
  - cbn [add_header_lines]. rewrite E1. apply IH. exact H.
Qed.

Lemma field_values_drop_underscore fields ek :
  field_values (filter (fun nv => negb (has_underscore (fst nv))) fields) ek = field_values fields ek.
Proof.
  unfold field_values. induction fields as [|[n v] fields IH]; cbn [filter flat_map fst snd]; auto.
  destruct (has_underscore n) eqn:U; cbn [negb andb flat_map fst snd app].
  - exact IH.
  - rewrite U. cbn [negb andb]. rewrite IH. reflexivity.
Qed.

Lemma spec_header_drop_underscore rq ek :
  spec_header {| rq_method := rq_method rq; rq_target := rq_target rq; rq_version := rq_version rq;
                 rq_fields := filter (fun nv => negb (has_underscore (fst nv))) (rq_fields rq);
                 rq_chunked := rq_chunked rq; rq_body := rq_body rq |} ek
  = spec_header rq ek.
Proof. unfold spec_header. cbn [rq_version rq_chunked rq_body rq_fields]. rewrite field_values_drop_underscore. reflexivity. Qed.

Lemma header_lines_go_gather ls : forall cur r out,
  header_lines_go ls (cur :: r) = inr out -> out = rev r ++ gather cur ls.
Proof.
  induction ls as [|l ls IH]; intros cur r out; cbn [header_lines_go gather].
  - intro H. injection H as <-. reflexivity.
  - destruct l as [|c l']; [apply IH|].
    destruct (has_cr_or_lf (c :: l')); [discriminate|].
    change (ows c) with ((c =? 32) || (c =? 9)).
    destruct ((c =? 32) || (c =? 9)).
    + apply IH.
    + intro H. apply IH in H. rewrite H. cbn [rev]. rewrite <- app_assoc. reflexivity.
Qed.

Lemma header_lines_go_unfold ls : forall out,
  header_lines_go ls [] = inr out -> out = unfold_lines ls.
Proof.
  induction ls as [|l ls IH]; intro out; cbn [header_lines_go unfold_lines].
  - intro H. injection H as <-. reflexivity.
  - destruct l as [|c l']; [apply IH|].
    destruct (has_cr_or_lf (c :: l')); [discriminate|].
    destruct ((c =? 32) || (c =? 9)); [discriminate|].
    intro H. apply header_lines_go_gather in H. exact H.
Qed.
