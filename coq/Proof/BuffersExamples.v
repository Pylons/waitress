(* C17: the hypotheses of the theorems are satisfiable by non-trivial concrete
   histories (computed with the model itself). *)
From Coq Require Import List NArith ZArith Bool.
From WV Require Import Lib.PyBytes Model.Buffers Spec.Fifo Proof.Buffers Proof.BuffersRefine Proof.BuffersRo.
Import ListNotations.
Local Open Scope Z_scope.

(* STRBUF_LIMIT = 4, overflow = 6: plain bytes -> BytesIO -> temporary file,
   with a non-zero read position at the second migration *)
Definition ex_ops : list op :=
  [OAppend [1;2;3]%N; OGet 2 false; OAppend [4;5]%N; OGet 2 true; OSkip 1 true;
   OAppend [6;7;8;9]%N; OGetFile; OSkip 2 false; OLen].

Example ex_live : Forall live ex_ops.
Proof. repeat constructor; discriminate. Qed.

Example ex_passes_through_all_representations :
  rep_of (exec 4 6 o_new (firstn 1 ex_ops)) = Str [1;2;3]%N /\
  rep_of (exec 4 6 o_new (firstn 5 ex_ops)) = Bio (mkfile [1;2;3;4;5]%N 3 false) 2 /\
  rep_of (exec 4 6 o_new ex_ops) = Tmp (mkfile [1;2;3;4;5;6;7;8;9]%N 5 false) 4 /\
  snd (run 4 6 o_new ex_ops) =
    [RUnit; RBytes [1;2;3]%N; RUnit; RBytes [1;2]%N; RUnit; RUnit;
     RFile (mkfile [1;2;3;4;5;6;7;8;9]%N 3 false); RUnit; RLen 4].
Proof. vm_compute. repeat split. Qed.

Example ex_accounting :
  appended_of ex_ops = [1;2;3;4;5;6;7;8;9]%N /\ consumed_of q_empty ex_ops = 5%nat /\
  abs (exec 4 6 o_new ex_ops) = [6;7;8;9]%N.
Proof. vm_compute. repeat split. Qed.

(* the error branch is reachable: plain bytes, skip more than queued *)
Example ex_skip_error :
  step 4 6 (exec 4 6 o_new [OAppend [1;2]%N]) (OSkip 3 true) =
  (mkobuf (Some (mkfbuf KBio (mkfile [1;2]%N 0 false) 2)) [] false, RExn ValueErrorSkip).
Proof. vm_compute. reflexivity. Qed.

Example ex_respects : respects (abs (exec 4 6 o_new ex_ops)) (OSkip 4 true).
Proof. vm_compute. discriminate. Qed.

Example ex_close_file :
  ob_buf (exec 4 6 o_new ex_ops) <> None /\
  snd (step 4 6 (o_close (exec 4 6 o_new ex_ops)) (OGet (-1) false)) = RExn ValueErrorClosed.
Proof. vm_compute. split; [discriminate | reflexivity]. Qed.

(* read-only buffer: 10 byte file positioned at 2, Content-Length 5 *)
Definition ex_ro_ops : list ro_op := [ROGet 3 false; ROGet 3 true; ROSkip 1; ROGet (-1) false; ROGet 18000 true; ROLen].

Example ex_ro_valid : Forall ro_valid ex_ro_ops /\ size_ok (Some 5) /\ (2 <= length [0;1;2;3;4;5;6;7;8;9]%N)%nat.
Proof. vm_compute. repeat constructor; discriminate. Qed.

Example ex_ro_run :
  match ro_prepare (ro_init (mkfile [0;1;2;3;4;5;6;7;8;9]%N 2 false)) (Some 5) with
  | Ok (b0, P) =>
      P = 5 /\
      fst (ro_step (ro_exec b0 (firstn 3 ex_ro_ops)) (ROGet (-1) false)) = ro_exec b0 (firstn 3 ex_ro_ops) /\
      snd (ro_step (ro_exec b0 (firstn 3 ex_ro_ops)) (ROGet (-1) false)) = RBytes [6]%N /\
      ro_exec b0 ex_ro_ops = mkfbuf KRo (mkfile [0;1;2;3;4;5;6;7;8;9]%N 7 false) 0
  | Exn _ => False
  end.
Proof. vm_compute. repeat split. Qed.

(* the drain pattern on plain bytes: get(2) answers all three bytes, two are sent *)
Example ex_flush :
  let o := exec 4 6 o_new [OAppend [1;2;3]%N] in
  snd (step 4 6 o (OGet 2 false)) = RBytes [1;2;3]%N /\
  step 4 6 o (OSkip 2 true) =
    (mkobuf (Some (mkfbuf KBio (mkfile [1;2;3]%N 2 false) 1)) [] false, RUnit).
Proof. vm_compute. split; reflexivity. Qed.

(* faults: BytesIO holding 5 bytes (STRBUF_LIMIT 4, overflow 6), append 2 more;
   TemporaryFile() raises: the exception propagates and all 7 bytes are queued *)
Example ex_fault_ctor :
  let o := exec 4 6 o_new [OAppend [1;2;3;4;5]%N] in
  rep_of o = Bio (mkfile [1;2;3;4;5]%N 0 false) 5 /\
  step_f (FCtor KTmp) 4 6 o (OAppend [6;7]%N) =
    (mkobuf (Some (mkfbuf KBio (mkfile [1;2;3;4;5;6;7]%N 0 false) 7)) [] false, RExn OSFault) /\
  (* plain bytes: nothing at all happens *)
  step_f (FCtor KBio) 4 6 (exec 4 6 o_new [OAppend [1;2]%N]) (OGet 1 true) =
    (exec 4 6 o_new [OAppend [1;2]%N], RExn OSFault).
Proof. vm_compute. repeat split. Qed.

(* the same history with the copy loop's write failing: the BytesIO keeps its place
   (finally: from_file.seek(read_pos), /repo commit c9585b7) *)
Example ex_fault_copy_write :
  step_f FCopyWrite 4 6 (exec 4 6 o_new [OAppend [1;2;3;4;5]%N]) (OAppend [6;7]%N) =
    (mkobuf (Some (mkfbuf KBio (mkfile [1;2;3;4;5;6;7]%N 0 false) 7)) [] false, RExn OSFault).
Proof. vm_compute. reflexivity. Qed.
