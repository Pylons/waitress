(* Generic facts: regular expressions of character classes as list predicates, facts about the
   members of a class decided on the 256 bytes, and the first occurrence of one byte in a string. *)
From Coq Require Import List NArith Bool Lia.
From WV Require Import Lib.Regex Lib.RegexDec Lib.PyBytes.
Import ListNotations.
Local Open Scope N_scope.

Lemma Lang_Cls rs s : Lang (Cls rs) s <-> exists x, s = [x] /\ in_ranges x rs = true.
Proof.
  split.
  - intro H; inversion H; subst; eauto.
  - intros (x & -> & H); constructor; auto.
Qed.

Lemma Lang_star_cls rs s :
  Lang (Star (Cls rs)) s <-> Forall (fun x => in_ranges x rs = true) s.
Proof.
  split.
  - intro H. remember (Star (Cls rs)) as r eqn:E.
    induction H; try discriminate; auto.
    injection E as ->. apply Forall_app. split; auto.
    apply Lang_Cls in H as (x & -> & Hx). constructor; auto.
  - induction 1 as [|x l Hx Hl IH]; [constructor|].
    change (x :: l) with ([x] ++ l). apply LStarS; auto. constructor; auto.
Qed.

Lemma in_ranges_below b x rs : forallb (fun r => snd r <? b) rs = true -> in_ranges x rs = true -> x < b.
Proof.
  induction rs as [|[lo hi] rs IH]; cbn [forallb in_ranges snd]; [discriminate|].
  rewrite andb_true_iff, orb_true_iff, andb_true_iff, N.ltb_lt, !N.leb_le. intros [H Hr] [[_ Hx]|Hx]; [lia | auto].
Qed.

(* a fact about the members of a byte class, decided on the 256 bytes *)
Lemma ranges_table rs (P : N -> bool) :
  forallb (fun r => snd r <? 256) rs = true ->
  forallb (fun x => implb (in_ranges x rs) (P x)) alphabet = true ->
  forall x, in_ranges x rs = true -> P x = true.
Proof.
  intros Hb H x Hx. rewrite forallb_forall in H.
  specialize (H x (alphabet_complete x (in_ranges_below 256 x rs Hb Hx))). rewrite Hx in H. exact H.
Qed.

(* every byte but c *)
Definition all_but (c : N) : re := Star (Cls [(0, c - 1); (c + 1, 255)]).

Lemma Lang_all_but c s : 0 < c < 255 -> bytes_ok s -> (Lang (all_but c) s <-> Forall (fun x => x <> c) s).
Proof.
  intros Hc Hs. unfold all_but. rewrite Lang_star_cls. unfold bytes_ok in Hs.
  rewrite !Forall_forall in *. split; intros H x Hx; specialize (H x Hx); specialize (Hs x Hx); cbn in *;
    rewrite orb_false_r, orb_true_iff, !andb_true_iff, !N.leb_le in *; lia.
Qed.

Lemma memb_false_forall c s : memb c s = false <-> Forall (fun x => x <> c) s.
Proof.
  unfold memb. induction s as [|x s IH]; simpl.
  - split; auto.
  - rewrite orb_false_iff, IH. split.
    + intros [H1 H2]. constructor; auto. apply N.eqb_neq in H1. congruence.
    + intro H; inversion H; subst. split; auto. apply N.eqb_neq. congruence.
Qed.

Lemma startswith_single s c :
  startswith s [c] = match s with x :: _ => c =? x | [] => false end.
Proof. destruct s as [|x s']; simpl; auto. destruct s'; simpl; rewrite andb_true_r; auto. Qed.

(* s.find(bytes([c])) *)
Lemma find_from_char s c i :
  match find_from s [c] i with
  | None => Forall (fun x => x <> c) s
  | Some j => exists a b, s = a ++ c :: b /\ Forall (fun x => x <> c) a /\ j = (i + length a)%nat
  end.
Proof.
  revert i; induction s as [|x s IH]; intro i.
  - simpl. constructor.
  - cbn [find_from]. rewrite startswith_single.
    destruct (c =? x) eqn:E.
    + apply N.eqb_eq in E; subst. exists [], s. simpl. repeat split; auto; lia.
    + apply N.eqb_neq in E. specialize (IH (S i)).
      destruct (find_from s [c] (S i)) as [j|].
      * destruct IH as (a & b & -> & Ha & ->). exists (x :: a), b. simpl.
        repeat split; auto; lia.
      * constructor; auto.
Qed.

Lemma find_char s c :
  match find s [c] with
  | None => Forall (fun x => x <> c) s
  | Some j => exists a b, s = a ++ c :: b /\ Forall (fun x => x <> c) a /\ j = length a
  end.
Proof. unfold find. pose proof (find_from_char s c 0) as H. destruct (find_from s [c] 0); auto. Qed.

Lemma find_char_unique a b c :
  Forall (fun x => x <> c) a -> find (a ++ c :: b) [c] = Some (length a).
Proof.
  intro Ha. pose proof (find_char (a ++ c :: b) c) as H.
  destruct (find (a ++ c :: b) [c]) as [j|].
  - destruct H as (a' & b' & E & Ha' & ->). f_equal.
    revert a' E Ha'. induction Ha as [|x a Hx Ha IH]; intros a' E Ha'.
    + destruct a' as [|y a']; auto. simpl in E. injection E as -> _. inversion Ha'; congruence.
    + destruct a' as [|y a']; simpl in E.
      * injection E as -> _. congruence.
      * injection E as -> E. inversion Ha'; subst. simpl. f_equal. eauto.
  - exfalso. rewrite Forall_forall in H. apply (H c); auto. apply in_or_app. right. left. auto.
Qed.

Lemma firstn_app_exact {A} (a b : list A) : firstn (length a) (a ++ b) = a.
Proof. induction a; simpl; auto. f_equal; auto. Qed.
Lemma skipn_app_exact {A} (a b : list A) : skipn (length a) (a ++ b) = b.
Proof. induction a; simpl; auto. Qed.

(* the first occurrence of c cuts a string in one way only *)
Lemma first_char_unique (c : N) (a b a' b' : bytes) :
  Forall (fun x => x <> c) a -> Forall (fun x => x <> c) a' ->
  a ++ c :: b = a' ++ c :: b' -> a = a' /\ b = b'.
Proof.
  intros Ha Ha' E. pose proof (find_char_unique a b c Ha) as F. rewrite E, (find_char_unique a' b' c Ha') in F.
  injection F as L.
  assert (Ea : a' = a) by (rewrite <- (firstn_app_exact a' (c :: b')), <- E, L; apply firstn_app_exact).
  subst a'. apply app_inv_head in E. injection E as ->. auto.
Qed.

Lemma bytes_ok_app a b : bytes_ok (a ++ b) <-> bytes_ok a /\ bytes_ok b.
Proof. unfold bytes_ok. apply Forall_app. Qed.

(* two byte predicates are equal if they agree on the 256 bytes: a table, checked by evaluation *)
Lemma byte_table (f g : N -> bool) :
  forallb (fun x => Bool.eqb (f x) (g x)) alphabet = true -> forall x, x < 256 -> f x = g x.
Proof.
  intros H x Hx. rewrite forallb_forall in H. apply eqb_prop. apply H. apply alphabet_complete. exact Hx.
Qed.
