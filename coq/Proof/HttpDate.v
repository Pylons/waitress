(* build_http_date (Model/HttpDate.v): for EVERY time stamp the Date value consists of printable
   ASCII only (so it cannot add or split lines of a response head: the assumption "the date contains no
   CR/LF and is latin-1" of the C08 / C03 theorems holds for every date the server can produce), and for
   every time stamp up to the year 9999 it is an IMF-fixdate: Www, DD Mon YYYY HH:MM:SS GMT. *)
From Coq Require Import List NArith ZArith Bool Lia ZifyBool Arith.
From WV Require Import Lib.PyBytes Model.HttpDate Proof.PyBytesFacts.
Import ListNotations.
Local Open Scope N_scope.
(* lets lia decide goals with division by a constant (civil_md, date_shape); the setting is global
   from here on: every file that requires this one gets it too *)
Ltac Zify.zify_post_hook ::= Z.to_euclidean_division_equations.

Definition printable (x : N) : Prop := 32 <= x <= 126.
Definition digit (x : N) : Prop := 48 <= x <= 57.

Lemma digit_printable x : digit x -> printable x.
Proof. unfold digit, printable. lia. Qed.

Lemma to_dec_digits n : Forall digit (to_dec n).
Proof. exact (proj2 (to_dec_shape n)). Qed.

Lemma to_dec_printable n : Forall printable (to_dec n).
Proof. exact (Forall_impl _ digit_printable (to_dec_digits n)). Qed.

Lemma pad2_digits n : Forall digit (pad2 n).
Proof. unfold pad2. destruct (n <? 10); [constructor; [unfold digit; lia|]|]; apply to_dec_digits. Qed.

Lemma pad2_printable n : Forall printable (pad2 n).
Proof. exact (Forall_impl _ digit_printable (pad2_digits n)). Qed.

Lemma pad4_printable n : Forall printable (pad4 n).
Proof.
  unfold pad4. apply Forall_app; split.
  - apply Forall_forall. intros x Hx. apply repeat_spec in Hx. subst. unfold printable. lia.
  - apply to_dec_printable.
Qed.

Definition all_printable (s : bytes) : bool := forallb (fun x => (32 <=? x) && (x <=? 126)) s.

Lemma all_printable_spec s : all_printable s = true -> Forall printable s.
Proof.
  unfold all_printable. rewrite forallb_forall. intro H. apply Forall_forall. intros x Hx.
  specialize (H x Hx). unfold printable. lia.
Qed.

Lemma table_nth_printable (t : list bytes) k : forallb all_printable t = true -> Forall printable (nth k t []).
Proof.
  intro H. destruct (nth_in_or_default k t []) as [Hin | ->]; [|constructor].
  rewrite forallb_forall in H. apply all_printable_spec. apply H. exact Hin.
Qed.

Theorem date_printable when : Forall printable (build_http_date when).
Proof.
  unfold build_http_date. cbv zeta.
  rewrite !Forall_app. repeat split;
    first [apply pad2_printable | apply pad4_printable
          | apply table_nth_printable; reflexivity | apply all_printable_spec; reflexivity].
Qed.

Corollary date_no_crlf when : ~ In 13 (build_http_date when) /\ ~ In 10 (build_http_date when) /\
  Forall (fun x => x < 128) (build_http_date when).
Proof.
  pose proof (date_printable when) as H. rewrite Forall_forall in H. repeat split.
  - intro Hi. specialize (H _ Hi). unfold printable in H. lia.
  - intro Hi. specialize (H _ Hi). unfold printable in H. lia.
  - apply Forall_forall. intros x Hx. specialize (H _ Hx). unfold printable in H. lia.
Qed.

(* month and day depend on the day of the 400-year era only; their bounds are linear arithmetic
   with constant divisors (decided by lia over the Euclidean-division equations) *)
Lemma civil_md days : let '(y, m, d) := civil_from_days days in 1 <= m <= 12 /\ 1 <= d <= 31.
Proof.
  unfold civil_from_days. cbv zeta.
  set (z := days + 719468). set (doe := z - z / 146097 * 146097).
  assert (Hdoe : doe < 146097) by (subst doe; lia).
  clearbody doe.
  set (yoe := (doe - doe / 1460 + doe / 36524 - doe / 146096) / 365).
  set (doy := doe - (365 * yoe + yoe / 4 - yoe / 100)).
  set (mp := (5 * doy + 2) / 153).
  assert (H : mp <= 11 /\ 1 <= doy - (153 * mp + 2) / 5 + 1 <= 31) by (subst mp doy yoe; lia).
  clearbody mp doy. destruct (N.ltb_spec mp 10); lia.
Qed.

Lemma pad2_len n : n < 100 -> length (pad2 n) = 2%nat.
Proof.
  intro H. unfold pad2. destruct (N.ltb_spec n 10).
  - rewrite to_dec_small by assumption. reflexivity.
  - apply (to_dec_length 1). cbn. lia.
Qed.

Lemma pad4_len n : 1000 <= n <= 9999 -> length (pad4 n) = 4%nat /\ Forall digit (pad4 n).
Proof.
  intro H. assert (L : length (to_dec n) = 4%nat) by (apply (to_dec_length 3); cbn; lia).
  unfold pad4. cbv zeta. rewrite L. split; [exact L | apply to_dec_digits].
Qed.

Lemma name_len (t : list bytes) k : (k < length t)%nat -> forallb (fun s => Nat.eqb (length s) 3) t = true ->
  length (nth k t []) = 3%nat /\ In (nth k t []) t.
Proof.
  intros Hk H. assert (Hin : In (nth k t []) t) by (apply nth_In; exact Hk).
  rewrite forallb_forall in H. specialize (H _ Hin). apply Nat.eqb_eq in H. auto.
Qed.

Theorem date_shape when : 1000 <= tm_year (gmtime when) <= 9999 ->
  exists W D M Y h m s,
    build_http_date when = W ++ [44; 32] ++ D ++ [32] ++ M ++ [32] ++ Y ++ [32] ++ h ++ [58] ++ m ++ [58] ++ s ++ [32; 71; 77; 84] /\
    In W weekdayname /\ In M monthname /\
    length D = 2%nat /\ length Y = 4%nat /\ length h = 2%nat /\ length m = 2%nat /\ length s = 2%nat /\
    Forall digit D /\ Forall digit Y /\ Forall digit h /\ Forall digit m /\ Forall digit s /\
    length (build_http_date when) = 29%nat.
Proof.
  intro Hy. unfold build_http_date.
  set (t := gmtime when) in *.
  assert (Hb : tm_wday t < 7 /\ 1 <= tm_mon t <= 12 /\ 1 <= tm_mday t <= 31 /\ tm_hour t < 24 /\ tm_min t < 60 /\ tm_sec t < 60).
  { subst t. unfold gmtime. pose proof (civil_md (when / 86400)) as C.
    destruct (civil_from_days (when / 86400)) as [[y mo] d]. cbn [tm_wday tm_mon tm_mday tm_hour tm_min tm_sec].
    pose proof (N.mod_upper_bound (when / 86400 + 3) 7). pose proof (N.mod_upper_bound when 86400).
    pose proof (N.mod_upper_bound (when mod 86400) 3600). pose proof (N.mod_upper_bound (when mod 86400) 60).
    assert (when mod 86400 / 3600 < 24) by (apply N.div_lt_upper_bound; lia).
    assert (when mod 86400 mod 3600 / 60 < 60) by (apply N.div_lt_upper_bound; lia).
    lia. }
  destruct Hb as (Hw & Hmo & Hd & Hh & Hmi & Hs).
  assert (Lw : (N.to_nat (tm_wday t) < length weekdayname)%nat) by (change (length weekdayname) with 7%nat; lia).
  destruct (name_len weekdayname (N.to_nat (tm_wday t)) Lw eq_refl) as (LW & IW).
  assert (Lm : (N.to_nat (tm_mon t - 1) < length monthname)%nat) by (change (length monthname) with 12%nat; lia).
  destruct (name_len monthname (N.to_nat (tm_mon t - 1)) Lm eq_refl) as (LM & IM).
  destruct (pad4_len (tm_year t) Hy) as (LY & DY).
  do 7 eexists. split; [reflexivity|].
  repeat split; auto using pad2_digits; try (apply pad2_len; lia).
  rewrite !app_length, LW, LM, LY, !pad2_len by lia. reflexivity.
Qed.

Example date_examples :
  build_http_date 0 = [84;104;117;44;32;48;49;32;74;97;110;32;49;57;55;48;32;48;48;58;48;48;58;48;48;32;71;77;84] /\
  tm_year (gmtime 951782400) = 2000 /\ tm_mon (gmtime 951782400) = 2 /\ tm_mday (gmtime 951782400) = 29 /\
  tm_year (gmtime 253402300799) = 9999.
Proof. vm_compute. repeat split. Qed.

(* in the vocabulary of the response-head theorems (Model/Task.v: has_crlf = memb LF || memb CR) *)
Lemma printable_memb x s : Forall printable s -> ~ printable x -> PyBytes.memb x s = false.
Proof.
  unfold PyBytes.memb. induction s as [|y s IH]; intros H Hx; [reflexivity|]. inversion H; subst. cbn [existsb].
  destruct (N.eqb_spec x y) as [->|Hne]; [contradiction|]. cbn [orb]. apply IH; assumption.
Qed.

Theorem date_memb_crlf when : PyBytes.memb 10 (build_http_date when) = false /\ PyBytes.memb 13 (build_http_date when) = false.
Proof.
  split; apply printable_memb; try apply date_printable; unfold printable; lia.
Qed.
