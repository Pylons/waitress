(* Every string of the environ is a latin-1 native string: all code points
   are below 256 whenever the bytes offered to the parser and the configured
   strings are.  Preservation of [ok] through every primitive on the path
   wire -> parser -> environ.  REQUEST_METHOD is str.upper() of the method,
   which can leave latin-1 (U+00B5, U+00FF): hence accepted_method, the method
   of an accepted run has no character that upper() changes. *)
From Coq Require Import List NArith ZArith Bool Lia.
From RecordUpdate Require Import RecordUpdate.
From WV Require Import Lib.PyBytes Lib.Regex Gen.GenRegex Model.Receiver Model.UrlSplit Model.Parser
  Model.Environ Spec.Pep3333 Proof.PyBytesFacts Proof.EnvironDict Proof.EnvironParse Proof.EnvironRun Proof.EnvironFields
  Proof.UrlSplitFacts Proof.EnvironTarget.
Import ListNotations.
Local Open Scope N_scope.

(* the same predicate as Lib/Regex.bytes_ok (ok_bytes_ok), under the name the
   C07 statements use *)
Definition ok (s : bytes) : Prop := Forall (fun b => b < 256) s.

Lemma ok_bytes_ok s : ok s <-> bytes_ok s.
Proof. reflexivity. Qed.

Lemma ok_app a b : ok a -> ok b -> ok (a ++ b).
Proof. intros. apply Forall_app. auto. Qed.
Lemma ok_app_l a b : ok (a ++ b) -> ok a.
Proof. intro H. apply Forall_app in H. tauto. Qed.
Lemma ok_app_r a b : ok (a ++ b) -> ok b.
Proof. intro H. apply Forall_app in H. tauto. Qed.
Lemma ok_firstn n s : ok s -> ok (firstn n s).
Proof. intro H. rewrite <- (firstn_skipn n s) in H. eapply ok_app_l; eauto. Qed.
Lemma ok_skipn n s : ok s -> ok (skipn n s).
Proof. intro H. rewrite <- (firstn_skipn n s) in H. eapply ok_app_r; eauto. Qed.
Lemma ok_rev s : ok s -> ok (rev s).
Proof. intro H. apply Forall_rev. exact H. Qed.
Lemma ok_filter f s : ok s -> ok (filter f s).
Proof.
  induction 1 as [|x s Hx _ IH]; cbn [filter]; [constructor|].
  destruct (f x); auto. constructor; auto.
Qed.
Lemma ok_lstrip f s : ok s -> ok (lstrip_by f s).
Proof. induction 1 as [|x s Hx Hs IH]; cbn [lstrip_by]; [constructor|]. destruct (f x); auto. constructor; auto. Qed.
Lemma ok_rstrip f s : ok s -> ok (rstrip_by f s).
Proof. intro H. unfold rstrip_by. apply ok_rev, ok_lstrip, ok_rev, H. Qed.
Lemma ok_strip f s : ok s -> ok (strip_by f s).
Proof. intro H. unfold strip_by. apply ok_rstrip, ok_lstrip, H. Qed.
Lemma ok_until f s : ok s -> ok (until f s).
Proof. induction 1 as [|x s Hx Hs IH]; cbn [until]; [constructor|]. destruct (f x); constructor; auto. Qed.
Lemma ok_from f s : ok s -> ok (from f s).
Proof. induction 1 as [|x s Hx Hs IH]; cbn [from]; [constructor|]. destruct (f x); auto. constructor; auto. Qed.
Lemma ok_tail_of s : ok s -> ok (tail_of s).
Proof. destruct 1; cbn; auto. constructor. Qed.
Lemma ok_concat l : Forall ok l -> ok (concat l).
Proof. induction 1; cbn [concat]; [constructor|]. apply ok_app; auto. Qed.

Lemma ok_split_fuel sep : forall fuel s, ok s -> Forall ok (split_fuel fuel s sep).
Proof.
  induction fuel as [|f IH]; intros s H; cbn [split_fuel].
  - constructor; auto.
  - destruct (find s sep) as [i|].
    + constructor; [apply ok_firstn; exact H|]. apply IH. apply ok_skipn. exact H.
    + constructor; auto.
Qed.
Lemma ok_split s sep : ok s -> Forall ok (split s sep).
Proof. apply ok_split_fuel. Qed.

Lemma ok_to_dec n : ok (to_dec n).
Proof. eapply Forall_impl; [|apply to_dec_shape]. intros x Hx. cbn beta in Hx. lia. Qed.

Lemma hexdig_lt x h : hexdig x = Some h -> h < 16.
Proof.
  unfold hexdig, digit.
  destruct ((48 <=? x) && (x <=? 57)) eqn:D.
  { intro H. injection H as <-. apply andb_true_iff in D as [A B]. apply N.leb_le in A. apply N.leb_le in B. lia. }
  destruct ((65 <=? x) && (x <=? 70)) eqn:U.
  { intro H. injection H as <-. apply andb_true_iff in U as [A B]. apply N.leb_le in A. apply N.leb_le in B. lia. }
  destruct ((97 <=? x) && (x <=? 102)) eqn:L; [|discriminate].
  intro H. injection H as <-. apply andb_true_iff in L as [A B]. apply N.leb_le in A. apply N.leb_le in B. lia.
Qed.

Lemma ok_pct_decode : forall n s, (length s <= n)%nat -> ok s -> ok (pct_decode s).
Proof.
  induction n as [|n IH]; intros s Hl H.
  - destruct s; [constructor|cbn in Hl; lia].
  - destruct s as [|x rest]; [constructor|]. cbn [pct_decode]. inversion H; subst.
    cbn [length] in Hl.
    assert (R : ok (x :: pct_decode rest)) by (constructor; auto; apply IH; auto; lia).
    destruct (x =? 37); [|exact R].
    destruct rest as [|a [|b rest']]; try exact R.
    destruct (hexdig a) as [ha|] eqn:Ha; [|exact R].
    destruct (hexdig b) as [hb|] eqn:Hb; [|exact R].
    apply hexdig_lt in Ha. apply hexdig_lt in Hb.
    constructor; [lia|]. apply IH.
    + cbn [length] in Hl. lia.
    + inversion H3; subst. inversion H5; subst. assumption.
Qed.

Lemma ok_unquote s : ok s -> ok (unquote_to_bytes s).
Proof. intro H. rewrite unquote_pct. eapply ok_pct_decode; eauto. Qed.

Lemma ok_qpart u : ok u -> ok (qpart u).
Proof.
  intro H. unfold qpart. pose proof (ok_from path_end u H) as F.
  destruct (from path_end u) as [|x q]; [constructor|].
  destruct (x =? 63); [|constructor]. apply ok_until. inversion F; auto.
Qed.

Lemma ok_us_scheme u : ok u -> ok (snd (us_scheme u)).
Proof.
  intro H. unfold us_scheme. destruct (find u [58]) as [[|i']|]; cbn [snd]; auto.
  destruct u as [|c0 u']; cbn [snd]; auto.
  destruct (is_alpha c0 && _); cbn [snd]; auto. apply ok_skipn. exact H.
Qed.

Lemma ok_split_uri t sc nl pa qu fr :
  ok t -> split_uri t = SOk sc nl pa qu fr -> ok pa /\ ok qu.
Proof.
  intros H E. apply split_uri_ok in E as [-> ->].
  assert (Hh : ok (model_hier t)).
  { unfold model_hier. destruct (two_slashes t); [exact H|]. cbv zeta.
    destruct (two_slashes _); [apply ok_from, ok_skipn|]; apply ok_us_scheme, ok_filter, ok_lstrip, H. }
  split; [apply ok_unquote, ok_until | apply ok_qpart]; exact Hh.
Qed.

Lemma ok_crack_first_line fl cmd uri ver :
  ok fl -> crack_first_line fl = Some (cmd, uri, ver) ->
  beqb cmd [] && beqb uri [] && beqb ver [] = false -> ok cmd /\ ok uri /\ ok ver.
Proof.
  intros H C Hne.
  destruct (crack_first_line_shape _ _ _ _ C Hne) as [[-> ->]|(v & -> & ->)].
  - split; [exact (ok_app_l _ _ H)|]. split; [exact (ok_app_r _ _ (ok_app_r _ _ H))|constructor].
  - pose proof (ok_app_r _ _ (ok_app_r _ _ H)) as H2.
    split; [exact (ok_app_l _ _ H)|]. split; [exact (ok_app_l _ _ H2)|].
    apply ok_skipn. exact (ok_app_r _ _ (ok_app_r _ _ H2)).
Qed.

Lemma ok_header_lines_go : forall lines r ls,
  Forall ok lines -> Forall ok r -> header_lines_go lines r = inr ls -> Forall ok ls.
Proof.
  induction lines as [|line rest IH]; intros r ls HL HR; cbn [header_lines_go].
  - intro E. injection E as <-. apply Forall_rev. exact HR.
  - inversion HL as [|? ? H1 H2]; subst.
    destruct line as [|c line']; [apply IH; auto|].
    destruct (has_cr_or_lf (c :: line')); [discriminate|].
    destruct ((c =? 32) || (c =? 9)).
    + destruct r as [|last r']; [discriminate|]. inversion HR; subst.
      apply IH; auto. constructor; auto. apply ok_app; auto.
    + apply IH; auto.
Qed.

Lemma ok_get_header_lines header ls :
  ok header -> get_header_lines header = inr ls -> Forall ok ls.
Proof.
  intros H E. unfold get_header_lines in E.
  eapply ok_header_lines_go; [apply ok_split; exact H | constructor | exact E].
Qed.

Definition hvals_ok (h : hdict) : Prop := Forall (fun kv => ok (snd kv)) h.

Lemma hvals_ok_hset h k v : hvals_ok h -> ok v -> hvals_ok (hset h k v).
Proof.
  induction 1 as [|[k0 v0] h H0 Hh IH]; intro Hv; cbn [hset].
  - constructor; [exact Hv|constructor].
  - destruct (beqb k k0); constructor; auto. apply IH. exact Hv.
Qed.

Lemma hvals_ok_hpop h k : hvals_ok h -> hvals_ok (hpop h k).
Proof.
  induction 1 as [|[k0 v0] h H0 Hh IH]; cbn [hpop]; [constructor|].
  destruct (beqb k k0); auto. constructor; auto.
Qed.

Lemma hvals_ok_hget h k v : hvals_ok h -> hget h k = Some v -> ok v.
Proof.
  induction 1 as [|[k0 v0] h H0 Hh IH]; cbn [hget]; [discriminate|].
  destruct (beqb k k0); auto. intro E. injection E as <-. exact H0.
Qed.

Lemma ok_field_of_line line : ok line -> ok (snd (field_of_line line)).
Proof.
  intro H. unfold field_of_line, partition.
  destruct (find line [58]); cbn [snd]; [apply ok_skipn, H|constructor].
Qed.

Lemma hvals_ok_add_header_line h line h' :
  hvals_ok h -> ok line -> add_header_line h line = inr h' -> hvals_ok h'.
Proof.
  intros Hh Hl E. apply add_header_line_ok in E. pose proof (ok_field_of_line _ Hl) as Hr.
  destruct (field_of_line line) as [n r]. cbn [snd] in Hr. subst h'.
  destruct (memb 95 n); [exact Hh|]. apply hvals_ok_hset; [exact Hh|].
  pose proof (ok_strip is_sp_htab r Hr) as Hv.
  destruct (hget h (header_key n)) as [old|] eqn:G; [|exact Hv].
  apply ok_app; [eapply hvals_ok_hget; eauto|]. apply (ok_app [44; 32]); [repeat constructor|exact Hv].
Qed.

Lemma hvals_ok_add_header_lines lines : forall h h',
  hvals_ok h -> Forall ok lines -> add_header_lines h lines = inr h' -> hvals_ok h'.
Proof.
  induction lines as [|l lines IH]; intros h h' Hh HL; cbn [add_header_lines].
  - intro E. injection E as <-. exact Hh.
  - inversion HL; subst. destruct (add_header_line h l) as [e|h1] eqn:E1; [discriminate|].
    apply IH; auto. eapply hvals_ok_add_header_line; eauto.
Qed.

Record ok_request (p : parser) : Prop := {
  okr_command : ok (command p);
  okr_version : ok (version p);
  okr_uri : ok (request_uri p);
  okr_path : ok (path p);
  okr_query : ok (query p);
  okr_scheme : ok (url_scheme p);
  okr_headers : hvals_ok (headers p)
}.

Lemma ok_strip_leading_crlf : forall fuel s, ok s -> ok (strip_leading_crlf fuel s).
Proof.
  induction fuel as [|f IH]; intros s H; [exact H|].
  rewrite strip_leading_crlf_step. destruct s as [|x [|y s']]; try exact H.
  destruct ((x =? 13) && (y =? 10)); [|exact H].
  apply IH. inversion H as [|? ? _ H2]; subst. inversion H2; auto.
Qed.

Lemma ok_head_of ds hp : Forall ok ds -> head_of ds hp -> ok hp.
Proof.
  intros H (pre & i & (post & ->) & _ & ->).
  apply ok_lstrip, ok_strip_leading_crlf, ok_firstn, ok_concat. apply Forall_app in H. tauto.
Qed.

Lemma accepted_line_ok a p0 p1 hp fl lines h1 : ok hp -> accepted_head a p0 p1 hp fl lines h1 -> ok fl.
Proof.
  intros Hhp AH. destruct (ah_find _ _ _ _ _ _ _ AH) as (index & _ & -> & _).
  apply ok_rstrip, ok_firstn, Hhp.
Qed.

Lemma accepted_head_ok a p0 p1 hp fl lines h1 :
  ok (adj_url_scheme a) -> ok hp -> headers p0 = [] ->
  accepted_head a p0 p1 hp fl lines h1 -> ok_request p1.
Proof.
  intros Ha Hhp H0 AH. pose proof (accepted_line_ok _ _ _ _ _ _ _ Hhp AH) as Hfl.
  destruct AH as [(index & _ & _ & GL) _ AL CR NE (sc & nl & fr & SP) SC _ AF].
  destruct (ok_crack_first_line _ _ _ _ Hfl CR NE) as (C1 & C2 & C3).
  destruct (ok_split_uri _ _ _ _ _ _ C2 SP) as (P1 & P2).
  assert (HL : Forall ok lines) by (eapply ok_get_header_lines; [|exact GL]; apply ok_skipn, Hhp).
  rewrite H0 in AL.
  assert (H1 : hvals_ok h1) by (eapply hvals_ok_add_header_lines; [constructor|exact HL|exact AL]).
  constructor; auto.
  - rewrite SC. exact Ha.
  - destruct AF as [(_ & _ & _ & -> & _)|(_ & -> & _)].
    + apply hvals_ok_hpop, hvals_ok_hpop, H1.
    + destruct (beqb (version p1) s_1_1); [apply hvals_ok_hpop|]; exact H1.
Qed.

Lemma accepted_method a ds p p0 p1 hp fl lines h1 :
  Forall ok ds -> accepted_run a ds p p0 p1 hp -> accepted_head a p0 p1 hp fl lines h1 ->
  command p = until (N.eqb 32) fl /\ command p <> [] /\
  Forall (fun x => 33 <= x <= 126 /\ ~ (97 <= x <= 122)) (command p).
Proof.
  intros Hds AR AH. pose proof (ar_reqline _ _ _ _ _ _ AR) as R. unfold reqline in R.
  injection R as -> _ _ _ _ _.
  apply crack_first_line_method with (uri := request_uri p1) (ver := version p1);
    [|exact (ah_crack _ _ _ _ _ _ _ AH)|exact (ah_crack_ne _ _ _ _ _ _ _ AH)].
  exact (accepted_line_ok _ _ _ _ _ _ _ (ok_head_of _ _ Hds (ar_head _ _ _ _ _ _ AR)) AH).
Qed.

Theorem accepted_run_ok a ds p :
  ok (adj_url_scheme a) -> Forall ok ds ->
  feed_all a ds = Some p -> completed p = true -> error p = None -> empty p = false ->
  ok_request p /\ upper_str (command p) = command p.
Proof.
  intros Ha Hds H Hc He Hm.
  destruct (run_accepted_head _ _ _ H Hc He Hm) as (p0 & p1 & hp & fl & lines & h1 & AR & AH).
  split; [|apply upper_str_identity, (accepted_method _ _ _ _ _ _ _ _ _ Hds AR AH)].
  destruct (ar_fresh _ _ _ _ _ _ AR) as (F0 & _).
  destruct (accepted_head_ok _ _ _ _ _ _ _ Ha (ok_head_of _ _ Hds (ar_head _ _ _ _ _ _ AR)) F0 AH)
    as [O1 O2 O3 O4 O5 O6 O7].
  pose proof (ar_reqline _ _ _ _ _ _ AR) as R. unfold reqline in R.
  injection R as R1 R2 R3 R4 R5 R6.
  constructor; try congruence.
  pose proof (ar_body _ _ _ _ _ _ AR) as B.
  destruct (body p) as [[f|c]|].
  - destruct B as (_ & -> & _). exact O7.
  - destruct B as (_ & ->). apply hvals_ok_hset; [exact O7|apply ok_to_dec].
  - destruct B as (_ & ->). exact O7.
Qed.

Definition ok_value (v : evalue) : Prop := match v with VStr s => ok s | _ => True end.
Definition ok_environ (e : edict) : Prop := Forall (fun kv => ok_value (snd kv)) e.

Record ok_config (c : config) : Prop := {
  okc_prefix : ok (url_prefix c);
  okc_name : ok (server_name c);
  okc_port : match effective_port c with PortStr s => ok s | PortInt _ => True end;
  okc_ident : ok (ident c);
  okc_peer : match peer_addr c with PeerTCP h _ => ok h | PeerUnix => True end
}.

Lemma ok_environ_path prefix path0 : ok prefix -> ok path0 -> ok (environ_path prefix path0).
Proof.
  intros Hp H0. unfold environ_path.
  assert (H1 : ok (if startswith path0 [47] then 47 :: lstrip_by (N.eqb 47) path0 else path0)).
  { destruct (startswith path0 [47]); auto. constructor; [lia|]. apply ok_lstrip. exact H0. }
  destruct prefix as [|a pre]; auto.
  destruct (beqb _ (a :: pre)); [constructor|].
  destruct (startswith _ ((a :: pre) ++ [47])); auto. apply ok_skipn. exact H1.
Qed.

Lemma ok_environ_fold h : forall e, ok_environ e -> hvals_ok h -> ok_environ (fold_left add_header h e).
Proof.
  induction h as [|[k v] h IH]; intros e He Hh; cbn [fold_left]; auto.
  inversion Hh as [|? ? Hv Hh']; subst. apply IH; auto. rewrite add_header_unfold.
  destruct (negb (emem e (env_key k))); auto.
  apply Forall_app. split; [exact He|]. constructor; [exact Hv|constructor].
Qed.

Lemma ok_environ_eset e k v : ok_environ e -> ok_value v -> ok_environ (eset e k v).
Proof.
  induction 1 as [|[k0 v0] e H0 He IH]; intro Hv; cbn [eset].
  - constructor; [exact Hv|constructor].
  - destruct (beqb k k0); constructor; auto. apply IH. exact Hv.
Qed.

Theorem environ_latin1 a c ds p :
  ok (adj_url_scheme a) -> ok_config c -> Forall ok ds ->
  feed_all a ds = Some p -> completed p = true -> error p = None -> empty p = false ->
  ok_environ (get_environment c p).
Proof.
  intros Ha Hcfg Hds H Hc He Hm.
  destruct (accepted_run_ok _ _ _ Ha Hds H Hc He Hm) as ([O1 O2 O3 O4 O5 O6 O7] & UP).
  destruct Hcfg as [K1 K2 K3 K4 K5].
  unfold get_environment. apply ok_environ_eset; [|exact I].
  apply ok_environ_fold; [|exact O7].
  unfold base_environ, ok_environ.
  assert (A0 : ok (addr0 (peer_addr c))).
  { unfold addr0. destruct (peer_addr c); auto. repeat constructor. }
  assert (A1 : ok (str_addr1 (peer_addr c))).
  { unfold str_addr1. destruct (peer_addr c); [apply ok_to_dec|repeat constructor]. }
  assert (A2 : ok (str_port (effective_port c))).
  { unfold str_port. destruct (effective_port c); [apply ok_to_dec|exact K3]. }
  assert (A3 : ok (k_HTTPslash ++ task_version p)).
  { apply ok_app; [repeat constructor|]. unfold task_version.
    destruct (beqb (version p) s_1_0 || beqb (version p) s_1_1); [exact O2|repeat constructor]. }
  rewrite UP.
  repeat (constructor; [cbn [snd ok_value]; auto using ok_environ_path|]). constructor.
Qed.
