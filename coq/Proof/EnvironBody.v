(* CONTENT_LENGTH against the bytes behind wsgi.input for the three body
   paths; the fixed receiver delivers exactly the first content-length bytes;
   the request-line entries of the environ for every accepted run. *)
From Coq Require Import List NArith ZArith Bool Lia.
From RecordUpdate Require Import RecordUpdate.
From WV Require Import Lib.PyBytes Lib.Regex Gen.GenRegex Model.Receiver Model.UrlSplit Model.Parser
  Model.Environ Spec.Pep3333 Proof.PyBytesFacts Proof.C01Dict Proof.EnvironDict Proof.EnvironParse Proof.EnvironRun
  Proof.EnvironFields Proof.EnvironTarget Proof.EnvironLatin1.
Import ListNotations.
Local Open Scope N_scope.

Definition fixed_feed (f : fixed_rcv) (ds : list bytes) : fixed_rcv :=
  fold_left (fun f d => fst (fixed_received f d)) ds f.

(* any receiver, any segmentation: the buffer grows by the first f_remain
   bytes offered *)
Lemma fixed_feed_closed ds : forall f,
  let g := fixed_feed f ds in
  f_buf g = f_buf f ++ firstn (N.to_nat (f_remain f)) (concat ds) /\
  f_remain g = f_remain f - lenN (concat ds) /\
  (f_completed g = true <-> f_completed f = true \/ (ds <> [] /\ f_remain f <= lenN (concat ds))).
Proof.
  induction ds as [|d ds IH]; intro f; cbv zeta.
  - cbn. rewrite firstn_nil, app_nil_r, N.sub_0_r. intuition congruence.
  - change (fixed_feed f (d :: ds)) with (fixed_feed (fst (fixed_received f d)) ds).
    destruct (IH (fst (fixed_received f d))) as (Hb & Hr & Hc). rewrite Hb, Hr, Hc. clear IH Hb Hr Hc.
    rewrite fixed_received_closed. cbn [f_buf f_remain f_completed concat].
    unfold lenN. rewrite app_length, firstn_app, <- app_assoc.
    split; [do 3 f_equal; lia|]. split; [lia|].
    rewrite orb_true_iff, N.leb_le. split.
    + intros [[H|H]|[Hne H]]; auto; right; (split; [discriminate|lia]).
    + intros [H|[_ H]]; auto.
      destruct (N.le_gt_cases (f_remain f) (N.of_nat (length d))); auto.
      right. split; [|lia]. intros ->. cbn in H. lia.
Qed.

Definition body_statement (c : config) (p : parser) : Prop :=
  let env := get_environment c p in
  let data := get_body_stream p in
  eget env k_wsgi_input = Some (VInput data) /\
  match eget env s_CONTENT_LENGTH with
  | Some (VStr cl) =>
    matches gate_content_length cl = true /\
    dec_value cl = lenN data /\
    (chunked p = true -> cl = to_dec (lenN data))
  | Some _ => False
  | None => data = [] /\ chunked p = false
  end /\
  (version p = s_1_1 -> eget env c_HTTP_TRANSFER_ENCODING = None) /\
  (chunked p = true -> version p = s_1_1).

Lemma gate_content_length_to_dec n : matches gate_content_length (to_dec n) = true.
Proof.
  apply matches_correct. destruct (to_dec_shape n) as (NE & F).
  destruct (to_dec n) as [|x s]; [contradiction|]. inversion F as [|? ? Hx Hs]; subst.
  assert (D : forall z, 48 <= z <= 57 -> in_ranges z [(48, 57)] = true).
  { intros z Hz. cbn. rewrite orb_false_r. apply andb_true_iff. split; apply N.leb_le; lia. }
  rewrite <- (app_nil_r (x :: s)). apply LCat; [|apply LAltL; constructor].
  apply (LCat _ _ [x] s); [constructor; auto|]. apply RegexFacts.Lang_star_cls. eapply Forall_impl; [|exact Hs]. exact D.
Qed.

Theorem body_image a c ds p :
  feed_all a ds = Some p -> completed p = true -> error p = None -> empty p = false ->
  body_statement c p.
Proof.
  intros H Hc He Hm.
  destruct (run_accepted_head _ _ _ H Hc He Hm) as (p0 & p1 & hp & fl & lines & h1 & AR & AH).
  unfold body_statement. cbv zeta.
  rewrite no_override by (cbn; tauto). rewrite !environ_header_entry by reflexivity.
  change (unkey s_CONTENT_LENGTH) with (Some s_CONTENT_LENGTH).
  change (unkey c_HTTP_TRANSFER_ENCODING) with (Some s_TRANSFER_ENCODING). cbv iota.
  split; [reflexivity|].
  assert (TE : version p = s_1_1 -> option_map VStr (hget (headers p) s_TRANSFER_ENCODING) = None).
  { intro E. rewrite (final_headers _ _ _ _ _ _ _ _ _ AR AH s_TRANSFER_ENCODING), E. reflexivity. }
  unfold get_body_stream.
  destruct (accepted_framing _ _ _ _ _ _ _ _ _ AR AH)
    as [(Ec & Ev & cr & Eb & Eh)|(Ec & Eh & Em & [(f & Eb & El & Epos)|(Eb & El)])];
    (split; [|split; [exact TE|congruence]]); rewrite Eb; cbn [body_bytes].
  - rewrite Eh, hget_hset, beqb_refl. cbn [option_map].
    split; [apply gate_content_length_to_dec|]. split; [apply dec_value_to_dec|reflexivity].
  - cbv zeta in Eh. rewrite Eh. unfold hget_default in *.
    destruct (hget _ s_CONTENT_LENGTH) as [cl|]; cbn [option_map].
    + split; [exact Em|]. split; [congruence|congruence].
    + cbn in Epos. lia.
  - cbv zeta in Eh. rewrite Eh. unfold hget_default in *.
    destruct (hget _ s_CONTENT_LENGTH) as [cl|]; cbn [option_map]; [|auto].
    split; [exact Em|]. split; [exact El|congruence].
Qed.

Definition target_statement (c : config) (p : parser) : Prop :=
  let env := get_environment c p in
  eget env k_REQUEST_METHOD = Some (VStr (command p)) /\
  eget env k_REQUEST_URI = Some (VStr (request_uri p)) /\
  eget env k_SCRIPT_NAME = Some (VStr (url_prefix c)) /\
  (version p = s_1_0 \/ version p = s_1_1 ->
   eget env k_SERVER_PROTOCOL = Some (VStr (k_HTTPslash ++ version p))) /\
  (wf_target (request_uri p) ->
   eget env k_PATH_INFO =
     Some (VStr (path_info (url_prefix c) (collapse (pct_decode (raw_path (request_uri p)))))) /\
   eget env k_QUERY_STRING = Some (VStr (raw_query (request_uri p)))).

(* how the pieces sit in the request line: method, SP, target and then nothing
   or SP and the version token *)
Definition request_line_pieces (fl cmd uri ver : bytes) : Prop :=
  cmd = until (N.eqb 32) fl /\ cmd <> [] /\
  Forall (fun x => 33 <= x <= 126 /\ ~ (97 <= x <= 122)) cmd /\
  ((fl = cmd ++ [32] ++ uri /\ ver = []) \/
   (exists v, fl = cmd ++ [32] ++ uri ++ [32] ++ v /\ ver = skipn 5 v)).

Lemma request_line_image a ds p p0 p1 hp fl lines h1 :
  Forall ok ds -> accepted_run a ds p p0 p1 hp -> accepted_head a p0 p1 hp fl lines h1 ->
  request_line_pieces fl (command p) (request_uri p) (version p) /\
  url_scheme p = adj_url_scheme a /\
  (wf_target (request_uri p) ->
   path p = pct_decode (raw_path (request_uri p)) /\ query p = raw_query (request_uri p)).
Proof.
  intros Hds AR AH. pose proof (accepted_method _ _ _ _ _ _ _ _ _ Hds AR AH) as M.
  pose proof (ar_reqline _ _ _ _ _ _ AR) as R. unfold reqline in R. injection R as R1 R2 R3 R4 R5 R6.
  rewrite R1 in M. rewrite R1, R2, R3, R4, R5, R6. destruct M as (M1 & M2 & M3).
  split; [|split; [exact (ah_scheme _ _ _ _ _ _ _ AH)|]].
  - split; [exact M1|]. split; [exact M2|]. split; [exact M3|].
    exact (crack_first_line_shape _ _ _ _ (ah_crack _ _ _ _ _ _ _ AH) (ah_crack_ne _ _ _ _ _ _ _ AH)).
  - intro W. destruct (ah_split _ _ _ _ _ _ _ AH) as (sc & nl & fr & SP).
    exact (split_uri_spec _ _ _ _ _ _ W SP).
Qed.

Theorem target_image a c ds p :
  Forall ok ds ->
  feed_all a ds = Some p -> completed p = true -> error p = None -> empty p = false ->
  target_statement c p /\
  exists hp fl lines, head_of ds hp /\ head_lines hp fl lines /\
                      request_line_pieces fl (command p) (request_uri p) (version p).
Proof.
  intros Hds H Hc He Hm.
  destruct (run_accepted_head _ _ _ H Hc He Hm) as (p0 & p1 & hp & fl & lines & h1 & AR & AH).
  destruct (request_line_image _ _ _ _ _ _ _ _ _ Hds AR AH) as (RL & _ & PQ).
  split.
  - unfold target_statement. cbv zeta.
    rewrite !no_override by (unfold server_keys; cbn; tauto).
    split. { cbn. rewrite upper_str_identity by apply RL. reflexivity. }
    split; [reflexivity|]. split; [reflexivity|]. split.
    + intros [E|E]; cbn; unfold task_version; rewrite E; reflexivity.
    + intro W. cbn. rewrite environ_path_spec. destruct (PQ W) as [-> ->]. split; reflexivity.
  - exists hp, fl, lines. split; [exact (ar_head _ _ _ _ _ _ AR)|].
    split; [exact (ah_find _ _ _ _ _ _ _ AH)|exact RL].
Qed.
