(* Proof/ChanExpectLog.v -- second invariant of Model/ChanExpect.v: the output log
   is ordered by (request id, interim before final). *)
From Coq Require Import List Arith Bool Lia.
From RecordUpdate Require Import RecordUpdate.
From WV Require Import Model.ChanExpect Proof.ChanExpectBase.
Import ListNotations.

Definition ub (s : state) : nat :=
  match requests s with
  | r :: _ => 2 * rid r + 2
  | [] => match request s with Some q => 2 * rid q + 1 | None => 2 * next_id s end
  end.

Record InvB (s : state) : Prop := {
  B_ord : ordered (outlog s);
  B_ub : Forall (fun t => key t < ub s) (outlog s)
}.

Lemma InvB_init : InvB init.
Proof. constructor; simpl; auto. Qed.

Lemma InvB_mono : forall s s', InvB s -> outlog s' = outlog s -> ub s <= ub s' -> InvB s'.
Proof.
  intros s s' [B1 B2] E Hle. constructor; rewrite E; auto.
  eapply Forall_impl; [|exact B2]. simpl. intros; lia.
Qed.

Lemma InvB_append : forall s s' t, InvB s -> outlog s' = outlog s ++ [t] ->
  ub s <= key t + 1 -> key t < ub s' -> InvB s'.
Proof.
  intros s s' t [B1 B2] E H1 H2. constructor; rewrite E.
  - apply ordered_snoc; auto. eapply Forall_impl; [|exact B2]. simpl. intros; lia.
  - apply Forall_app. split.
    + eapply Forall_impl; [|exact B2]. simpl. intros; lia.
    + constructor; [assumption|constructor].
Qed.

(* dropping the head of the queue (or all of it) only raises the bound *)
Lemma InvB_pop : forall s s', InvA s -> InvB s -> outlog s' = outlog s -> next_id s' = next_id s ->
  (request s' = request s \/ exists q q', request s = Some q /\ request s' = Some q' /\ rid q' = rid q) ->
  (requests s' = tl (requests s) \/ requests s' = []) -> InvB s'.
Proof.
  intros s s' HA HB Eo E2 E3 E1. apply (InvB_mono s); [assumption..|].
  (* the ids in the queue are below the id of the object under construction, or the next fresh one *)
  set (top := fun s0 => match request s0 with Some q => rid q | None => next_id s0 end).
  assert (I : asc (requests s) (top s)).
  { pose proof (A_ids s HA) as I. unfold top. destruct (request s); tauto. }
  assert (Et : top s' = top s).
  { unfold top. rewrite E2. destruct E3 as [->|(q & q' & -> & -> & ->)]; reflexivity. }
  assert (Hub : forall s0 r, requests s0 = [] -> rid r < top s0 -> 2 * rid r + 2 <= ub s0).
  { intros s0 r E. unfold ub, top. rewrite E. destruct (request s0); lia. }
  destruct (requests s) as [|r rest] eqn:Er.
  - unfold ub. rewrite Er. replace (requests s') with (@nil areq) by (destruct E1 as [->| ->]; reflexivity).
    clear Et. destruct E3 as [->|(q & q' & -> & -> & ->)]; [destruct (request s)|]; lia.
  - apply asc_tail in I. destruct I as (_ & Hlt & Hrest). rewrite <- Et in Hlt.
    unfold ub at 1. rewrite Er.
    destruct E1 as [E1|E1]; [destruct rest as [|r2 ?]|]; try (apply Hub; assumption).
    unfold ub. rewrite E1. inversion Hrest; subst. simpl. lia.
Qed.

Lemma InvB_step : forall s c s' l, InvA s -> InvB s -> step s c = Some (s', l) -> InvB s'.
Proof.
  intros s c s' l HA HB H.
  trans_cases (step_trans _ _ _ _ HA H); clear H.
  (* neither the log nor the bound moves *)
  1, 2, 5, 6, 7, 9, 11, 16, 17: (apply (InvB_mono s); [exact HB|reflexivity|apply le_n]).
  - (* a loop turn: the object parsed into has the highest id so far *)
    destruct (parse_ids _ _ _ _ _ HA Hq0 Ha) as [I1 I2]. fold s1 in I2.
    destruct (after_parse_fields s q1 fresh) as (F1 & F2 & _ & _ & _ & _ & _ & _ & _ & _ & F11 & F13 & _).
    fold s1 in F1, F2, F11, F13.
    assert (U1 : ub s <= ub s1).
    { unfold ub. rewrite F1, F2. destruct (requests s); [|lia].
      rewrite (astep_rid _ _ _ Ha). unfold parse_obj in Hq0.
      destruct (request s); destruct Hq0 as [-> _]; simpl; lia. }
    assert (B1 : InvB s1) by (eapply InvB_mono; eauto).
    destruct Hcase as [(Hw & _ & ->)|[Hw Hc]].
    + eapply InvB_mono; [exact B1|reflexivity|]. unfold ub. simpl. rewrite F1. simpl. lia.
    + pose proof (io_complete_spec _ _ _ _ Hc) as S.
      destruct S as (S1 & S2 & S3 & S4 & S5 & S6 & S8 & S9 & S10 & S11).
      eapply InvB_mono; [exact B1|assumption|]. unfold ub.
      destruct S11 as [(q & Sq & _ & _ & Sr & _ & Srs & _)|[(q & Sq & _ & _ & Sr & _ & Srs & _)|(_ & Sr & _ & Srs & _)]];
        rewrite Srs, ?Sr, ?S6; [| |lia]; rewrite F1 in *; inv_some; rewrite F2; destruct (requests s); simpl; lia.
  - (* the I/O thread sends: the object is the only request around *)
    set (s1 := s <| outlog := outlog s ++ [TInterim (rid q) false] |> <| sent_continue := true |>) in *.
    assert (B1 : InvB s1).
    { eapply InvB_append; [exact HB|reflexivity| |]; unfold ub; simpl; rewrite Hrs, Hq; simpl; lia. }
    pose proof (io_complete_spec _ _ _ _ Hc) as S.
    destruct S as (S1 & S2 & S3 & S4 & S5 & S6 & S8 & S9 & S10 & S11).
    eapply InvB_mono; [exact B1|assumption|]. unfold ub.
    pose proof (A_ids s HA) as I. rewrite Hq in I. simpl in S11. rewrite Hq, Hrs in S11.
    destruct S11 as [(q' & Sq & _ & _ & Sr & _ & Srs & _)|[(q' & Sq & _ & _ & Sr & _ & Srs & _)|(_ & Sr & _ & Srs & _)]];
      inv_some; rewrite Srs, ?Sr, ?S6; simpl; rewrite ?Hrs, ?Hq; simpl; lia.
  - (* a chunk of the final response of the request at the head of the queue *)
    eapply InvB_append; [exact HB|reflexivity| |]; unfold ub; simpl; rewrite Hrs; simpl; lia.
  - apply (InvB_pop s); auto.
  - apply (InvB_pop s); simpl; auto. rewrite Hrs. auto.
  - apply (InvB_pop s); simpl; auto.
    right. exists q. eexists. split; [assumption|]. split; reflexivity.
  - apply (InvB_pop s); simpl; auto. rewrite Hrs. auto.
  - eapply InvB_append; [exact HB|reflexivity| |]; unfold ub; simpl; rewrite Hrs, Hq; simpl; lia.
Qed.
