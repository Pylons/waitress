(* C01, composition, step 1: the head of one message.  What Parser.received
   makes of a stream that is offered to a FRESH parser in one call, against
   what the reference makes of the head it reads from the same stream: the
   same number of bytes consumed (T4a), the same refusal, or the same request
   line, field dict and framing decision (T1, T3 through C01_T13), including
   the leading empty lines, the whitespace around the request line, the 431
   limit and the 413 limit on a declared Content-Length. *)
From Coq Require Import List NArith ZArith Bool Lia Arith.
From RecordUpdate Require Import RecordUpdate.
From WV Require Import Lib.PyBytes Lib.Regex Gen.GenRegex Model.Receiver Model.UrlSplit Model.Parser Spec.Ref9112.
From WV Require Import Proof.PyBytesFacts Proof.RegexFacts Proof.EnvironParse Proof.ReceiverTotal Proof.ParserTotal Proof.SplitParser.
From WV Require Import Proof.C01Lib Proof.C01Body Proof.C01Block Proof.C01Boundary Proof.C01Head Proof.C01Framing
  Proof.C01ReqLine Proof.C01ParseHeader Proof.C01Observe Proof.C01ComposeLib.
Import ListNotations.
Local Open Scope N_scope.

Lemma head_geometry s lines rest n i :
  read_head s [] [] 0 = Some (lines, rest, n) -> find_double_newline s = Some i ->
  n = N.of_nat i /\ rest = skipn i s /\ firstn i s = block_of lines ++ CRLF /\ (4 <= i <= length s)%nat
  /\ forallb crlf_free lines = true /\ s = (block_of lines ++ CRLF) ++ rest.
Proof.
  intros Hrh Hi. pose proof (head_boundary s) as HB. rewrite Hrh, Hi in HB. destruct HB as [-> ->].
  destruct (read_head_lines s lines (skipn i s) (N.of_nat i) Hrh) as [Es Hf].
  apply fdn_Some in Hi as (j & Hj & ->). pose proof (find_bound _ _ _ Hj) as B.
  change (length CRLFCRLF) with 4%nat in B.
  repeat split; auto; try lia.
  assert (L : length (block_of lines ++ CRLF) = (j + 4)%nat).
  { apply (f_equal (@length N)) in Es. rewrite app_length, skipn_length in Es. lia. }
  rewrite Es at 1. rewrite <- L. apply firstn_app_exact.
Qed.

Lemma block_cons l ls : block_of (l :: ls) = l ++ CRLF ++ block_of ls.
Proof. unfold block_of. cbn [map concat]. rewrite <- app_assoc. reflexivity. Qed.

Lemma stripped_block l0 tl f : Forall ne tl -> forallb crlf_free (l0 :: tl) = true ->
  (length (block_of (l0 :: tl) ++ CRLF) <= f)%nat ->
  match drop_leading (l0 :: tl) with
  | [] => strip_leading_crlf f (block_of (l0 :: tl) ++ CRLF) = []
  | rl :: flines =>
      strip_leading_crlf f (block_of (l0 :: tl) ++ CRLF) = head_block rl flines
      /\ rl <> [] /\ Forall ne flines /\ crlf_free rl = true /\ forallb crlf_free flines = true
      /\ infix rl (block_of (l0 :: tl)) /\ Forall (fun l => infix l (block_of (l0 :: tl))) flines
  end.
Proof.
  intros Hne Hfree Hlen.
  assert (Hin : forall ls pre, Forall (fun l => infix l (pre ++ block_of ls)) ls).
  { induction ls as [|l ls IH]; intro pre; constructor.
    - rewrite block_cons. apply infix_mid.
    - rewrite block_cons. replace (pre ++ l ++ CRLF ++ block_of ls) with ((pre ++ l ++ CRLF) ++ block_of ls)
        by (rewrite <- !app_assoc; reflexivity). apply IH. }
  cbn [forallb] in Hfree. apply andb_true_iff in Hfree as [Hf0 Hft].
  destruct l0 as [|c l0'].
  - (* first line empty *)
    cbn [drop_leading nonempty]. destruct tl as [|rl flines].
    + cbn [drop_leading]. rewrite (strip_crlf_fuel f 4); [reflexivity | exact Hlen | cbn; lia].
    + inversion Hne as [|? ? Hrl Hfl]; subst.
      cbn [drop_leading]. rewrite (proj2 (nonempty_ne rl) Hrl).
      cbn [forallb] in Hft. apply andb_true_iff in Hft as [Hfr Hff].
      split; [|repeat split; auto].
      * rewrite block_cons. cbn [app]. destruct f as [|f']; [cbn in Hlen; lia|].
        rewrite block_cons.
        change (13 :: 10 :: (rl ++ CRLF ++ block_of flines) ++ CRLF)
          with (13 :: 10 :: ((rl ++ CRLF ++ block_of flines) ++ CRLF)).
        rewrite strip_leading_crlf_step. cbn [N.eqb Pos.eqb andb].
        unfold head_block. rewrite <- !app_assoc. apply strip_crlf_line; auto.
      * rewrite !block_cons. apply infix_app_r. apply (infix_mid rl CRLF).
      * rewrite block_cons. cbn [app]. rewrite block_cons.
        specialize (Hin flines (CRLF ++ rl ++ CRLF)). rewrite <- !app_assoc in Hin. exact Hin.
  - cbn [drop_leading nonempty]. split; [|repeat split; auto; try discriminate].
    + rewrite block_cons. unfold head_block. rewrite <- !app_assoc. apply strip_crlf_line; [discriminate|auto].
    + rewrite block_cons. apply infix_prefix.
    + rewrite block_cons. specialize (Hin tl ((c :: l0') ++ CRLF)). rewrite <- !app_assoc in Hin. exact Hin.
Qed.

Lemma skipn_line (l X : bytes) : skipn (length l + 2) (l ++ CRLF ++ X) = X.
Proof.
  replace (length l + 2)%nat with (length (l ++ CRLF)) by (rewrite app_length; reflexivity).
  rewrite (app_assoc l CRLF), skipn_app_exact. reflexivity.
Qed.

Lemma ph_bare_lf a p l Y : crlf_free l = true ->
  parse_header a p ((10 :: l) ++ CRLF ++ Y) = (p, PSError EBareCRLFFirstLine).
Proof.
  intro Hf. rewrite parse_header_eq.
  rewrite (find_line (10 :: l) Y) by (cbn [crlf_free]; rewrite Hf; reflexivity).
  cbv zeta. rewrite firstn_app_exact.
  destruct (rstrip_cons_keep is_reqline_ws 10 l eq_refl) as (r & ->).
  unfold has_cr_or_lf. replace (memb 10 (10 :: r)) with true by reflexivity.
  rewrite orb_true_r. reflexivity.
Qed.

(* only the stripped first line and the field block matter *)
Lemma ph_first_line a p l1 l2 B : crlf_free l1 = true -> crlf_free l2 = true ->
  rstrip_by is_reqline_ws l1 = rstrip_by is_reqline_ws l2 ->
  parse_header a p (l1 ++ CRLF ++ B) = parse_header a p (l2 ++ CRLF ++ B).
Proof.
  intros H1 H2 E. rewrite !parse_header_eq.
  rewrite (find_line l1 B H1), (find_line l2 B H2). cbv zeta.
  rewrite !firstn_app_exact, E.
  rewrite (skipn_line l1 B), (skipn_line l2 B). reflexivity.
Qed.

Lemma ph_crlf_first a p l B : crlf_free l = true ->
  has_crlf_byte (rstrip_by is_reqline_ws l) = true ->
  parse_header a p (l ++ CRLF ++ B) = (p, PSError EBareCRLFFirstLine).
Proof.
  intros H1 H2. rewrite parse_header_eq. rewrite (find_line l B H1). cbv zeta.
  rewrite firstn_app_exact, has_cr_or_lf_ref, H2. reflexivity.
Qed.

Lemma class_no_crlf (P : N -> bool) x : P 13 = false -> P 10 = false -> P x = true -> (x =? 13) || (x =? 10) = false.
Proof.
  intros H13 H10 H. destruct (x =? 13) eqn:E1; [apply N.eqb_eq in E1; congruence|].
  destruct (x =? 10) eqn:E2; [apply N.eqb_eq in E2; congruence|]. reflexivity.
Qed.

Lemma forallb_no_crlf (P : N -> bool) l : P 13 = false -> P 10 = false -> forallb P l = true -> has_crlf_byte l = false.
Proof.
  intros H13 H10 H. unfold has_crlf_byte. induction l as [|x l IH]; cbn [existsb forallb] in *; auto.
  apply andb_true_iff in H as [H1 H2]. rewrite (class_no_crlf P x H13 H10 H1), IH; auto.
Qed.

Lemma target_no_crlf t : target_shape t = true -> has_crlf_byte t = false.
Proof. intro H. apply andb_true_iff in H as [_ H]. exact (forallb_no_crlf _ t eq_refl eq_refl H). Qed.

Lemma method_no_crlf m : method_ok m = true -> has_crlf_byte m = false.
Proof. intro H. apply andb_true_iff in H as [_ H]. exact (forallb_no_crlf _ m eq_refl eq_refl H). Qed.

Lemma shape_facts l m t v : request_line_shape l = Some (m, t, v) ->
  has_crlf_byte l = false /\ infix t l /\ target_shape t = true.
Proof.
  unfold request_line_shape.
  pose proof (split_on_inv 32 l) as E.
  destruct (split_on 32 l []) as [|m' [|t' [|v' [|? ?]]]]; try discriminate.
  - destruct (method_ok m' && target_shape t') eqn:C; [|discriminate].
    intro H. injection H as <- <- <-. apply andb_true_iff in C as [C1 C2].
    cbn [join] in E. split; [|split; auto].
    + rewrite E, !has_crlf_app, (method_no_crlf _ C1), (target_no_crlf _ C2). reflexivity.
    + rewrite E. exists (m' ++ [32]), []. rewrite <- !app_assoc, app_nil_r. reflexivity.
  - destruct (method_ok m' && target_shape t') eqn:C; [|discriminate].
    destruct (version_of v') as [ver|] eqn:V; [|discriminate].
    intro H. injection H as <- <- <-. apply andb_true_iff in C as [C1 C2].
    apply version_of_spec in V as (da & db & -> & -> & Ha & Hb).
    cbn [join] in E. split; [|split; auto].
    + rewrite E, !has_crlf_app, (method_no_crlf _ C1), (target_no_crlf _ C2).
      unfold has_crlf_byte. cbn [existsb N.eqb Pos.eqb orb]. rewrite (class_no_crlf is_dig _ eq_refl eq_refl Ha), (class_no_crlf is_dig _ eq_refl eq_refl Hb). reflexivity.
    + rewrite E. exists (m' ++ [32]), ([32] ++ [72; 84; 84; 80; 47; da; 46; db]). rewrite <- !app_assoc. reflexivity.
Qed.

Lemma shape_crlf_none l : has_crlf_byte l = true -> request_line_shape l = None.
Proof.
  intro H. destruct (request_line_shape l) as [[[m t] v]|] eqn:E; auto.
  apply shape_facts in E as [E _]. congruence.
Qed.

Inductive head_out :=
| HOEmpty
| HORefuse (code : N)
| HOMsg (m t v : bytes) (fs : list (bytes * bytes)).

Definition ref_msg_out (c : cfg) (rl : bytes) (flines : list bytes) : head_out :=
  match head_fields flines with
  | None => HORefuse 400
  | Some fs =>
    match parse_request_line (prepare_request_line c rl) with
    | None => HORefuse 400
    | Some (m, t, v) =>
      match framing_of v (combined fs) with
      | FrRefuse code => HORefuse code
      | _ => HOMsg m t v fs
      end
    end
  end.

Definition ref_head_out (c : cfg) (lines : list bytes) : head_out :=
  match drop_leading lines with
  | [] => HOEmpty
  | rl :: flines => ref_msg_out c rl flines
  end.

Definition hd1 (dict : hdict) (v : bytes) : hdict :=
  if beqb v s_1_1 then hpop dict s_TRANSFER_ENCODING else dict.

Definition ph_rel (p' : parser) (st : ph_status) (o : head_out) : Prop :=
  match o with
  | HOEmpty => False
  | HORefuse code => exists e, st = PSError e /\ perr_code e = code
  | HOMsg m t v fs =>
    let dict := combined fs in
    st = PSOk /\ command p' = m /\ request_uri p' = t /\ version p' = v /\
    connection_close p' = model_cc dict v /\
    match framing_of v dict with
    | FrNone => chunked p' = false /\ body p' = None /\ content_length p' = 0 /\ headers p' = hd1 dict v
    | FrLength k => chunked p' = false /\ body p' = Some (BFixed (fixed_init k)) /\ content_length p' = k
                    /\ headers p' = hd1 dict v
    | FrChunked => chunked p' = true /\ body p' = Some (BChunked chunked_init) /\ content_length p' = 0
                   /\ headers p' = hpop (hpop dict s_TRANSFER_ENCODING) s_CONTENT_LENGTH
    | FrRefuse _ => False
    end
  end.

Lemma prepare_eq a rl : prepare_request_line (cfg_of a) rl = strip_by is_reqline_ws rl.
Proof. unfold prepare_request_line, cfg_of. cbn [tol_reqline_ws]. symmetry. exact (strip_trim is_reqline_ws rl). Qed.

Lemma ph_head a rl flines :
  rl <> [] -> crlf_free rl = true -> Forall ne flines -> forallb crlf_free flines = true ->
  bytes_ok rl -> Forall bytes_ok flines ->
  (forall t, infix t rl -> target_shape t = true -> uri_ok t) ->
  let hp := lstrip_by is_reqline_ws (head_block rl flines) in
  hp <> [] /\
  ph_rel (fst (parse_header a parser_init hp)) (snd (parse_header a parser_init hp))
         (ref_msg_out (cfg_of a) rl flines).
Proof.
  intros Hne Hfree Hnef Hfreef Hok Hokf Huri hp. subst hp. unfold head_block.
  set (B := block_of flines ++ CRLF).
  destruct (lstrip_by is_reqline_ws rl) as [|c r1] eqn:E1.
  - (* the first line is all whitespace: the block then starts with LF *)
    rewrite (lstrip_app_all _ rl (CRLF ++ B) E1).
    replace (lstrip_by is_reqline_ws (CRLF ++ B)) with (10 :: B) by reflexivity.
    split; [discriminate|].
    assert (EB : exists l Y, 10 :: B = (10 :: l) ++ CRLF ++ Y /\ crlf_free l = true).
    { subst B. destruct flines as [|l ls].
      - exists [], []. split; reflexivity.
      - exists l, (block_of ls ++ CRLF). rewrite block_cons, <- !app_assoc. split; [reflexivity|].
        cbn [forallb] in Hfreef. apply andb_true_iff in Hfreef as [H _]. exact H. }
    destruct EB as (l & Y & -> & Hl). rewrite ph_bare_lf by exact Hl. cbn [fst snd].
    assert (R : ref_msg_out (cfg_of a) rl flines = HORefuse 400).
    { unfold ref_msg_out. rewrite prepare_eq. unfold strip_by. rewrite E1. change (rstrip_by is_reqline_ws []) with (@nil N).
      change (parse_request_line []) with (@None (bytes * bytes * bytes)). destruct (head_fields flines); reflexivity. }
    rewrite R. exists EBareCRLFFirstLine. split; reflexivity.
  - assert (Hkeep : lstrip_by is_reqline_ws rl <> []) by (rewrite E1; discriminate).
    rewrite (lstrip_app_keep _ rl (CRLF ++ B) Hkeep). rewrite E1.
    split; [discriminate|].
    set (rl1 := c :: r1) in *. set (rl2 := rstrip_by is_reqline_ws rl1).
    assert (I1 : infix rl1 rl) by (rewrite <- E1, lstrip_drop_while; apply infix_drop_while).
    assert (F1 : crlf_free rl1 = true) by (eapply crlf_free_infix; eauto).
    destruct (rstrip_prefix is_reqline_ws rl1) as [post Epost]. fold rl2 in Epost.
    assert (I2 : infix rl2 rl).
    { eapply infix_trans; [|exact I1]. rewrite Epost. apply infix_prefix. }
    assert (F2 : crlf_free rl2 = true) by (rewrite Epost in F1; eapply crlf_free_app_l; eauto).
    assert (Eprep : prepare_request_line (cfg_of a) rl = rl2).
    { rewrite prepare_eq. unfold strip_by. rewrite E1. reflexivity. }
    destruct (has_crlf_byte rl2) eqn:Hcr.
    + rewrite (ph_crlf_first a parser_init rl1 B F1 Hcr). cbn [fst snd].
      assert (R : ref_msg_out (cfg_of a) rl flines = HORefuse 400).
      { unfold ref_msg_out. rewrite Eprep. unfold parse_request_line. rewrite (shape_crlf_none rl2 Hcr).
        destruct (head_fields flines); reflexivity. }
      rewrite R. exists EBareCRLFFirstLine. split; reflexivity.
    + assert (Eidem : rstrip_by is_reqline_ws rl1 = rstrip_by is_reqline_ws rl2)
        by (unfold rl2; rewrite rstrip_idem; reflexivity).
      rewrite (ph_first_line a parser_init rl1 rl2 B F1 F2 Eidem).
      change (rl2 ++ CRLF ++ B) with (head_block rl2 flines).
      assert (Hok2 : bytes_ok rl2) by (eapply infix_bytes_ok; eauto).
      assert (Htight : rstrip_by is_reqline_ws rl2 = rl2) by (unfold rl2; apply rstrip_idem).
      pose proof (parse_header_head a rl2 flines Hok2 Hcr Htight Hokf Hnef Hfreef) as T.
      destruct (parse_header a parser_init (head_block rl2 flines)) as [p' st]. cbn [fst snd].
      unfold ref_msg_out. rewrite Eprep. unfold ref_head in T.
      destruct (head_fields flines) as [fs|]; [|exact T].
      unfold parse_request_line.
      destruct (request_line_shape rl2) as [[[m t] v]|] eqn:Sh; [|exact T].
      destruct (shape_facts rl2 m t v Sh) as (_ & It & Ht).
      destruct (Huri t (infix_trans _ _ _ It I2) Ht) as [Hnu Hiff].
      destruct (split_uri t) as [sc nl pa qu fr| | |] eqn:Su.
      * assert (Hpol : target_policy t = true).
        { destruct (target_policy t) eqn:P; auto. destruct Hiff as [_ Hiff]. specialize (Hiff eq_refl). discriminate. }
        rewrite Hpol. destruct T as (T1 & T2 & T3 & T).
        destruct (framing_of v (combined fs)) eqn:Fr; cbn [ph_rel]; rewrite ?Fr; unfold hd1; tauto.
      * assert (Hpol : target_policy t = false) by (apply Hiff; reflexivity).
        rewrite Hpol. exists EBadURI. split; [exact T | reflexivity].
      * exfalso. exact (split_uri_no_escape t Su).
      * exfalso. exact (Hnu eq_refl).
Qed.

Definition head_rel (a : adj) (p : parser) (o : head_out) : Prop :=
  body_bytes_received p = 0%Z /\
  match o with
  | HOEmpty => completed p = true /\ empty p = true
  | HORefuse code => completed p = true /\ empty p = false /\ exists e, error p = Some e /\ perr_code e = code
  | HOMsg m t v fs =>
    let dict := combined fs in
    empty p = false /\ headers_finished p = true /\
    command p = m /\ request_uri p = t /\ version p = v /\ connection_close p = model_cc dict v /\
    match framing_of v dict with
    | FrNone => completed p = true /\ error p = None /\ body p = None /\ headers p = hd1 dict v
    | FrLength k =>
        body p = Some (BFixed (fixed_init k)) /\ chunked p = false /\ headers p = hd1 dict v /\ 0 < k /\
        (if max_request_body_size a <=? k then completed p = true /\ error p = Some EBodyTooLarge
         else completed p = false /\ error p = None)
    | FrChunked =>
        body p = Some (BChunked chunked_init) /\ chunked p = true
        /\ headers p = hpop (hpop dict s_TRANSFER_ENCODING) s_CONTENT_LENGTH
        /\ completed p = false /\ error p = None
    | FrRefuse _ => False
    end
  end.

Lemma framing_len_pos v d k : framing_of v d = FrLength k -> 0 < k.
Proof.
  unfold framing_of.
  destruct (if beqb v v11 then match lookup d K_TE with Some v0 => list_elems v0 | None => [] end else [])
    as [|e [|e' te']].
  - destruct (lookup d K_CL) as [v0|]; [|discriminate].
    destruct (content_length_of v0) as [[|q]|]; try discriminate.
    intro H. injection H as <-. reflexivity.
  - destruct (beqb e w_chunked); discriminate.
  - discriminate.
Qed.

Lemma head_step a s lines rest n :
  bytes_ok s -> targets_ok s ->
  read_head s [] [] 0 = Some (lines, rest, n) ->
  (max_request_header_size a <=? n) = false ->
  exists p, received a parser_init s = ROk p (Z.of_N n) /\ head_rel a p (ref_head_out (cfg_of a) lines).
Proof.
  intros Hok Htg Hrh Hmax.
  pose proof (head_boundary s) as HB. rewrite Hrh in HB.
  destruct (find_double_newline s) as [i|] eqn:Hi; [|contradiction]. clear HB.
  destruct (head_geometry s lines rest n i Hrh Hi) as (-> & -> & Hfirst & Hil & Hfree & Es).
  destruct (read_head_shape s lines _ _ Hrh) as (l0 & tl & -> & Hne).
  change parser_init with (P0 []). rewrite (received_head_eq a [] s). cbn [app]. rewrite Hi.
  replace (Z.of_N (lenN s) - (Z.of_nat (length s) - Z.of_nat i))%Z with (Z.of_N (N.of_nat i)) by (unfold lenN; lia).
  unfold head_found. cbv zeta. rewrite Hmax. rewrite Hfirst.
  assert (Hlen : (length (block_of (l0 :: tl) ++ CRLF) <= length s)%nat)
    by (rewrite <- Hfirst, firstn_length; lia).
  pose proof (stripped_block l0 tl (length s) Hne Hfree Hlen) as SB.
  unfold ref_head_out.
  destruct (drop_leading (l0 :: tl)) as [|rl flines].
  - rewrite SB. cbn [lstrip_by]. eexists. split; [reflexivity|]. split; [reflexivity|]. split; reflexivity.
  - destruct SB as (-> & Hrl & Hnef & Hfr & Hff & Irl & Ifl).
    assert (Iblock : infix (block_of (l0 :: tl)) s) by (rewrite Es, <- app_assoc; apply infix_prefix).
    assert (Hokrl : bytes_ok rl) by (eapply infix_bytes_ok; [eapply infix_trans; eauto | exact Hok]).
    assert (Hokf : Forall bytes_ok flines).
    { rewrite Forall_forall in *. intros l Hl. eapply infix_bytes_ok; [eapply infix_trans; [apply Ifl; exact Hl | exact Iblock] | exact Hok]. }
    assert (Huri : forall t, infix t rl -> target_shape t = true -> uri_ok t).
    { intros t It Ht. apply Htg; auto. eapply infix_trans; [exact It|]. eapply infix_trans; eauto. }
    destruct (ph_head a rl flines Hrl Hfr Hnef Hff Hokrl Hokf Huri) as (Hhp & Hrel).
    set (hp := lstrip_by is_reqline_ws (head_block rl flines)) in *.
    destruct hp as [|h0 hs]; [congruence|]. clear Hhp.
    change (P0 [] <| header_bytes_received := N.of_nat i |>) with (cset [] (N.of_nat i) parser_init).
    rewrite parse_header_hp.
    pose proof (parse_header_frame a parser_init (h0 :: hs)) as Fr.
    destruct (parse_header a parser_init (h0 :: hs)) as [p1 st]. cbn [fst snd] in *.
    destruct Fr as (F1 & F2 & F3 & F4 & F5 & F6 & F7).
    change (completed parser_init) with false in F1. change (empty parser_init) with false in F2.
    change (body_bytes_received parser_init) with 0%Z in F6. change (error parser_init) with (@None perr) in F7.
    destruct (ref_msg_out (cfg_of a) rl flines) as [|code|m t v fs]; cbn [ph_rel] in Hrel.
    + contradiction.
    + destruct Hrel as (e & -> & Hcode). eexists. split; [reflexivity|].
      unfold head_rel, cset. psimpl. rewrite F6, F2. repeat split. exists e. auto.
    + destruct Hrel as (-> & C1 & C2 & C3 & C4 & Hfr').
      unfold head_rel. cbv zeta.
      destruct (framing_of v (combined fs)) as [|k| |code] eqn:Efr.
      * destruct Hfr' as (Hc & Hb & Hcl & Hh).
        unfold cset. psimpl. rewrite Hb. psimpl. rewrite Hcl. cbn [N.ltb N.compare andb].
        eexists. split; [reflexivity|]. psimpl. rewrite F6, F2, F7, Hb, Hh. repeat split; assumption.
      * destruct Hfr' as (Hc & Hb & Hl & Hh). pose proof (framing_len_pos _ _ _ Efr) as Hk.
        unfold cset. psimpl. rewrite Hb. psimpl. rewrite Hl.
        replace (0 <? k) with true by (symmetry; apply N.ltb_lt; exact Hk). cbn [andb].
        destruct (max_request_body_size a <=? k) eqn:Emb.
        -- eexists. split; [reflexivity|]. psimpl. rewrite F6, F2, Hb, Hh, Hc. repeat split; assumption.
        -- eexists. split; [reflexivity|]. psimpl. rewrite F6, F2, F1, F7, Hb, Hh, Hc. repeat split; assumption.
      * destruct Hfr' as (Hc & Hb & Hcl & Hh).
        unfold cset. psimpl. rewrite Hb. psimpl. rewrite Hcl. cbn [N.ltb N.compare andb].
        eexists. split; [reflexivity|]. psimpl. rewrite F6, F2, F1, F7, Hb, Hh, Hc. repeat split; assumption.
      * contradiction.
Qed.

Lemma head_431_fields a k consumed :
  exists p, head_431 a (P0 [] <| header_bytes_received := k |>) consumed = ROk p consumed
    /\ completed p = true /\ empty p = false /\ error p = Some EHeaderTooLarge.
Proof.
  unfold head_431. pose proof (fake_head_ok a [] k) as Fk.
  pose proof (parse_header_frame a (P0 [] <| header_bytes_received := k |>) fake_head_431) as Fr.
  destruct (parse_header a (P0 [] <| header_bytes_received := k |>) fake_head_431) as [p1 st].
  cbn [fst snd] in *. subst st. destruct Fr as (_ & F2 & _).
  eexists. split; [reflexivity|]. psimpl. rewrite F2. repeat split.
Qed.

Lemma head_step_431 a s lines rest n :
  read_head s [] [] 0 = Some (lines, rest, n) ->
  (max_request_header_size a <=? n) = true ->
  exists p, received a parser_init s = ROk p (Z.of_N n)
    /\ completed p = true /\ empty p = false /\ error p = Some EHeaderTooLarge.
Proof.
  intros Hrh Hmax.
  pose proof (head_boundary s) as HB. rewrite Hrh in HB.
  destruct (find_double_newline s) as [i|] eqn:Hi; [|contradiction]. clear HB.
  destruct (head_geometry s lines rest n i Hrh Hi) as (-> & -> & Hfirst & Hil & Hfree & Es).
  change parser_init with (P0 []). rewrite (received_head_eq a [] s). cbn [app]. rewrite Hi.
  replace (Z.of_N (lenN s) - (Z.of_nat (length s) - Z.of_nat i))%Z with (Z.of_N (N.of_nat i)) by (unfold lenN; lia).
  unfold head_found. cbv zeta. rewrite Hmax. apply head_431_fields.
Qed.

Lemma head_step_none a s :
  read_head s [] [] 0 = None ->
  exists p, received a parser_init s = ROk p (Z.of_nat (length s)) /\
    if max_request_header_size a <=? lenN s
    then completed p = true /\ empty p = false /\ error p = Some EHeaderTooLarge
    else completed p = false /\ header_plus p = s /\ headers_finished p = false.
Proof.
  intros Hrh.
  pose proof (head_boundary s) as HB. rewrite Hrh in HB.
  destruct (find_double_newline s) as [i|] eqn:Hi; [contradiction|]. clear HB.
  change parser_init with (P0 []). rewrite (received_head_eq a [] s). cbn [app]. rewrite Hi.
  unfold head_more. cbv zeta. change (header_bytes_received (P0 [])) with 0. rewrite N.add_0_l.
  replace (Z.of_N (lenN s)) with (Z.of_nat (length s)) by (unfold lenN; lia).
  destruct (max_request_header_size a <=? lenN s).
  - apply head_431_fields.
  - eexists. split; [reflexivity|]. repeat split.
Qed.

Lemma head_rest s lines rest n : read_head s [] [] 0 = Some (lines, rest, n) ->
  exists i, n = N.of_nat i /\ rest = skipn i s /\ (4 <= i <= length s)%nat.
Proof.
  intro Hrh. pose proof (head_boundary s) as HB. rewrite Hrh in HB.
  destruct (find_double_newline s) as [i|] eqn:Hi; [|contradiction].
  destruct (head_geometry s lines rest n i Hrh Hi) as (-> & -> & _ & Hil & _). exists i. auto.
Qed.

Lemma ref_head_out_clean c lines m t v fs : ref_head_out c lines = HOMsg m t v fs -> values_clean (combined fs).
Proof.
  unfold ref_head_out, ref_msg_out. destruct (drop_leading lines) as [|rl flines]; [discriminate|].
  destruct (head_fields flines) as [fs'|] eqn:HF; [|discriminate].
  destruct (parse_request_line _) as [[[m' t'] v']|]; [|discriminate].
  destruct (framing_of v' (combined fs')); try discriminate; intro H; injection H as <- <- <- <-;
    eapply head_fields_clean; eauto.
Qed.
