(* Receivers: termination of the chunked loop for every state and input,
   well-formedness of the carry fields, bounds on the consumed count
   (1 <= n <= len(data)), and boundedness of the carry by the bytes consumed. *)
From Coq Require Import List NArith ZArith Bool Lia Arith.
From WV Require Import Lib.PyBytes Lib.Regex Gen.GenRegex Model.Receiver Proof.PyBytesFacts.
Import ListNotations.

Ltac rsimpl :=
  unfold set_rem, set_validate, set_control, set_chunk_end, set_all, set_trailer, set_completed,
    set_error, buf_append in *;
  cbn [chunk_remainder validate_chunk_end control_line chunk_end all_chunks_received trailer
       c_completed c_error c_buf] in *.

(* One iteration, phase by phase.  The state tells the phase: inside a chunk
   (bytes remaining), at its terminator, at a control line, in the trailer.
   Each step function is the corresponding branch of [chunked_iter]; the
   terminator, control-line and trailer steps take the stored piece already
   prepended to the input, and only the trailer step reads [orig_size]. *)

Definition data_state (st : chunked_rcv) (w : bytes) : chunked_rcv :=
  let st2 := set_rem (buf_append st w) (chunk_remainder st - lenN w) in
  if (chunk_remainder st2 =? 0)%N then set_validate st2 true else st2.

Definition data_step (st : chunked_rcv) (s : bytes) : iter_res :=
  let w := firstn (N.to_nat (chunk_remainder st)) s in
  Continue (data_state st w) (skipn (length w) s).

Definition term_bad (st : chunked_rcv) : chunked_rcv :=
  set_validate (set_all (set_error (set_chunk_end st []) (Some EChunkNotTerminated)) true) false.

Definition term_step (st : chunked_rcv) (s1 : bytes) : iter_res :=
  match find s1 CRLF with
  | Some O => Continue (set_validate (set_chunk_end st []) false) (skipn 2 s1)
  | Some (S _) => Continue (term_bad st) s1
  | None => if length s1 <? 2 then Continue (set_chunk_end st s1) [] else Continue (term_bad st) s1
  end.

Definition ctl_line (st : chunked_rcv) (line rest : bytes) : iter_res :=
  let st1 := set_control st [] in
  match line with
  | [] => Break (set_all (set_error st1 (Some EInvalidChunkSize)) true)
  | _ =>
    match control_line_verdict line with
    | LVBadExt => Break (set_all (set_error st1 (Some EInvalidChunkExt)) true)
    | LVBadSize => Break (set_all (set_error st1 (Some EInvalidChunkSize)) true)
    | LVSize sz => if (0 <? sz)%N then Continue (set_rem st1 sz) rest else Continue (set_all st1 true) rest
    end
  end.

Definition ctl_step (st : chunked_rcv) (s1 : bytes) : iter_res :=
  match find s1 CRLF with
  | None => Continue (set_control st s1) []
  | Some pos => ctl_line st (firstn pos s1) (skipn (pos + 2) s1)
  end.

Definition trailer_step (st : chunked_rcv) (tr : bytes) (o : Z) : iter_res :=
  if startswith tr CRLF then Return (set_completed st true) (o - (Z.of_nat (length tr) - 2))%Z
  else match find_double_newline tr with
       | None => Continue (set_trailer st tr) []
       | Some pos => Return (set_trailer (set_completed st true) (firstn pos tr))
                            (o - (Z.of_nat (length tr) - Z.of_nat pos))%Z
       end.

Lemma chunked_iter_eq st s o :
  chunked_iter st s o =
  if (0 <? chunk_remainder st)%N then data_step st s
  else if validate_chunk_end st then term_step st (chunk_end st ++ s)
  else if negb (all_chunks_received st) then ctl_step st (control_line st ++ s)
  else trailer_step st (trailer st ++ s) o.
Proof. reflexivity. Qed.

Inductive rcv_phase (st : chunked_rcv) : Prop :=
| PhData : (0 < chunk_remainder st)%N -> rcv_phase st
| PhTerm : chunk_remainder st = 0%N -> validate_chunk_end st = true -> rcv_phase st
| PhCtl : chunk_remainder st = 0%N -> validate_chunk_end st = false ->
          all_chunks_received st = false -> rcv_phase st
| PhTrailer : chunk_remainder st = 0%N -> validate_chunk_end st = false ->
              all_chunks_received st = true -> rcv_phase st.

Lemma rcv_phase_of st : rcv_phase st.
Proof.
  destruct (N.eq_dec (chunk_remainder st) 0) as [E|E]; [|apply PhData; lia].
  destruct (validate_chunk_end st) eqn:Hv; [apply PhTerm; auto|].
  destruct (all_chunks_received st) eqn:Ha; [apply PhTrailer | apply PhCtl]; auto.
Qed.

Lemma chunked_iter_data st s o : (0 < chunk_remainder st)%N -> chunked_iter st s o = data_step st s.
Proof. intros H. apply N.ltb_lt in H. rewrite chunked_iter_eq, H. reflexivity. Qed.

Lemma chunked_iter_term st s o : chunk_remainder st = 0%N -> validate_chunk_end st = true ->
  chunked_iter st s o = term_step st (chunk_end st ++ s).
Proof. intros H1 H2. rewrite chunked_iter_eq, H1, H2. reflexivity. Qed.

Lemma chunked_iter_ctl st s o :
  chunk_remainder st = 0%N -> validate_chunk_end st = false -> all_chunks_received st = false ->
  chunked_iter st s o = ctl_step st (control_line st ++ s).
Proof. intros H1 H2 H3. rewrite chunked_iter_eq, H1, H2, H3. reflexivity. Qed.

Lemma chunked_iter_trailer st s o :
  chunk_remainder st = 0%N -> validate_chunk_end st = false -> all_chunks_received st = true ->
  chunked_iter st s o = trailer_step st (trailer st ++ s) o.
Proof. intros H1 H2 H3. rewrite chunked_iter_eq, H1, H2, H3. reflexivity. Qed.

(* the measure of termination: twice the bytes still to be looked at (rest and
   carry), plus one while a chunk terminator is awaited *)
Definition M (st : chunked_rcv) (s : bytes) : nat :=
  2 * (length s + length (control_line st) + length (chunk_end st))
  + (if validate_chunk_end st then 1 else 0).

Lemma firstn_nonempty {A} n (s : list A) : 0 < n -> s <> [] -> 1 <= length (firstn n s).
Proof. destruct n; [lia|]. destruct s; [congruence|]. simpl. lia. Qed.

Lemma iter_measure st s o : s <> [] ->
  match chunked_iter st s o with
  | Continue st' s' => s' = [] \/ M st' s' < M st s
  | _ => True
  end.
Proof.
  intros Hs. destruct (rcv_phase_of st) as [Hrm|Hrm Hv|Hrm Hv Hall|Hrm Hv Hall].
  - rewrite chunked_iter_data by exact Hrm. right. unfold data_step, data_state. cbv zeta.
    set (w := firstn (N.to_nat (chunk_remainder st)) s).
    assert (L : 1 <= length w) by (apply firstn_nonempty; [lia | exact Hs]).
    assert (L2 : length (skipn (length w) s) = length s - length w) by apply skipn_length.
    assert (L3 : length w <= length s) by (subst w; rewrite firstn_length; lia).
    destruct (_ =? 0)%N; unfold M; rsimpl; rewrite L2; destruct (validate_chunk_end st); lia.
  - rewrite chunked_iter_term by assumption. unfold term_step, term_bad.
    destruct (find (chunk_end st ++ s) CRLF) as [[|p]|] eqn:Hf; [| |destruct (_ <? 2); [now left|]];
      right; unfold M; rsimpl; rewrite Hv, ?skipn_length, app_length; [|simpl; lia|simpl; lia].
    apply find_bound in Hf. rewrite app_length in Hf. simpl in *. lia.
  - rewrite chunked_iter_ctl by assumption. unfold ctl_step, ctl_line.
    destruct (find (control_line st ++ s) CRLF) as [p|] eqn:Hf; [|now left].
    pose proof (find_bound _ _ _ Hf) as B. rewrite app_length in B. simpl in B.
    assert (L : length (skipn (p + 2) (control_line st ++ s)) + p + 2
                = length (control_line st) + length s)
      by (rewrite skipn_length, app_length; lia).
    destruct (firstn p (control_line st ++ s)); [exact I|].
    destruct (control_line_verdict _); [|exact I|exact I].
    destruct (0 <? sz)%N; right; unfold M; rsimpl; rewrite Hv; simpl; lia.
  - rewrite chunked_iter_trailer by assumption. unfold trailer_step.
    destruct (startswith _ _); [exact I|]. destruct (find_double_newline _); [exact I | now left].
Qed.

Lemma loop_some fuel : forall st s o, M st s < fuel -> chunked_loop fuel st s o <> None.
Proof.
  induction fuel as [|f IH]; intros st s o H; [lia|].
  destruct s as [|x s]; [simpl; discriminate|].
  cbn [chunked_loop].
  pose proof (iter_measure st (x :: s) o ltac:(discriminate)) as Hm.
  destruct (chunked_iter st (x :: s) o) as [st' s'| |]; try discriminate.
  destruct Hm as [-> | Hm].
  - destruct f; simpl; discriminate.
  - apply IH. lia.
Qed.

Theorem chunked_received_total : forall st s, chunked_received st s <> None.
Proof.
  intros st s. unfold chunked_received. destruct (c_completed st); [discriminate|].
  apply loop_some. unfold M, chunked_fuel. destruct (validate_chunk_end st); lia.
Qed.

Lemma loop_fuel_mono f1 : forall f2 st s o r,
  chunked_loop f1 st s o = Some r -> f1 <= f2 -> chunked_loop f2 st s o = Some r.
Proof.
  induction f1 as [|f1 IH]; intros f2 st s o r H L.
  - destruct s; simpl in H; [|discriminate]. destruct f2; simpl; auto.
  - destruct f2 as [|f2]; [lia|].
    destruct s as [|x s]; [exact H|]. cbn [chunked_loop] in *.
    destruct (chunked_iter st (x :: s) o); auto. apply IH; auto. lia.
Qed.

Record wf_c (st : chunked_rcv) : Prop := {
  wf_ctl : find (control_line st) CRLF = None;
  wf_ce : length (chunk_end st) <= 1;
  wf_tr1 : c_completed st = false -> startswith (trailer st) CRLF = false;
  wf_tr2 : c_completed st = false -> find (trailer st) CRLFCRLF = None;
  wf_all : all_chunks_received st = true ->
           chunk_remainder st = 0%N /\ validate_chunk_end st = false;
  wf_notall : all_chunks_received st = false -> trailer st = []
}.

Lemma wf_init : wf_c chunked_init.
Proof. split; simpl; auto; try reflexivity; try lia; discriminate. Qed.

(* the carry: bytes held back for the next call *)
Definition phi (st : chunked_rcv) : nat :=
  length (control_line st) + length (chunk_end st) + length (trailer st).

(* what is known about the current rest [s] of the loop relative to the
   length [on] of the data of this call *)
Definition Inv (on : nat) (st : chunked_rcv) (s : bytes) : Prop :=
  length s <= on \/
  (all_chunks_received st = true /\ trailer st = [] /\ length s <= on + 1).

Lemma find_nil_CRLF : find [] CRLF = None. Proof. reflexivity. Qed.
Lemma find_nil_CRLFCRLF : find [] CRLFCRLF = None. Proof. reflexivity. Qed.
Lemma sw_nil_CRLF : startswith [] CRLF = false. Proof. reflexivity. Qed.

Lemma fdn_Some s pos : find_double_newline s = Some pos ->
  exists i, find s CRLFCRLF = Some i /\ pos = i + 4.
Proof. unfold find_double_newline. destruct (find s CRLFCRLF); [|discriminate]. intros H; injection H as <-. eauto. Qed.

Lemma fdn_None s : find_double_newline s = None -> find s CRLFCRLF = None.
Proof. unfold find_double_newline. destruct (find s CRLFCRLF); [discriminate|auto]. Qed.

Lemma sw_short_CRLF (s : bytes) : length s <= 1 -> startswith s CRLF = false.
Proof. intros. apply startswith_short. simpl. lia. Qed.

Definition iter_ok (on : nat) (st : chunked_rcv) (s : bytes) (r : iter_res) : Prop :=
  match r with
  | Continue st' s' =>
      wf_c st' /\ Inv on st' s' /\ phi st' + length s' <= phi st + length s
      /\ c_completed st' = c_completed st
  | Break st' =>
      wf_c st' /\ phi st' <= phi st + length s /\ c_completed st' = c_completed st
  | Return st' v =>
      wf_c st' /\ c_completed st' = true /\ (1 <= v <= Z.of_nat on)%Z
      /\ (Z.of_nat (phi st') + (Z.of_nat on - v) <= Z.of_nat (phi st + length s))%Z
  end.

(* before the last chunk nothing of the trailer is there yet, and the rest
   is part of this call's data *)
Lemma wf_open on st s : wf_c st -> Inv on st s ->
  (0 < chunk_remainder st)%N \/ validate_chunk_end st = true \/ all_chunks_received st = false ->
  all_chunks_received st = false /\ trailer st = [] /\ length s <= on.
Proof.
  intros W I H.
  assert (A : all_chunks_received st = false).
  { destruct (all_chunks_received st) eqn:E; [|reflexivity]. destruct (wf_all st W E) as (R & V).
    destruct H as [H|[H|H]]; [lia | congruence | discriminate]. }
  split; [exact A|]. split; [exact (wf_notall st W A)|]. destruct I as [I|(I & _)]; [exact I | congruence].
Qed.

(* the fields of wf_c one by one, for a state written with the setters *)
Ltac wf_fields := split; rsimpl; auto; try (intros; congruence); simpl; try lia.

Lemma data_ok on st s : wf_c st -> Inv on st s -> (0 < chunk_remainder st)%N ->
  iter_ok on st s (data_step st s).
Proof.
  intros W I Hrm. destruct (wf_open on st s W I (or_introl Hrm)) as (Hall & _ & Hlen).
  destruct W as [Wctl Wce Wt1 Wt2 Wall Wnall].
  unfold data_step, data_state, iter_ok. cbv zeta.
  set (w := firstn (N.to_nat (chunk_remainder st)) s).
  assert (L2 : length (skipn (length w) s) = length s - length w) by apply skipn_length.
  destruct (_ =? 0)%N; (split; [wf_fields|]); (split; [left; lia|]); unfold phi; rsimpl; (split; [lia | reflexivity]).
Qed.

(* a chunk not followed by CRLF: error, and what was taken for the
   terminator is looked at again as trailer *)
Lemma term_bad_ok on st s : wf_c st -> chunk_remainder st = 0%N -> trailer st = [] -> length s <= on ->
  iter_ok on st s (Continue (term_bad st) (chunk_end st ++ s)).
Proof.
  intros [Wctl Wce Wt1 Wt2 Wall Wnall] Hrm Htr Hlen. unfold term_bad.
  split; [wf_fields|]. split; [right; rsimpl; rewrite app_length; repeat split; auto; lia|].
  unfold phi; rsimpl. rewrite app_length. simpl. split; [lia | reflexivity].
Qed.

Lemma term_ok on st s : wf_c st -> Inv on st s -> chunk_remainder st = 0%N -> validate_chunk_end st = true ->
  iter_ok on st s (term_step st (chunk_end st ++ s)).
Proof.
  intros W I Hrm Hv. destruct (wf_open on st s W I (or_intror (or_introl Hv))) as (Hall & Htr & Hlen).
  pose proof (term_bad_ok on st s W Hrm Htr Hlen) as Bad.
  destruct W as [Wctl Wce Wt1 Wt2 Wall Wnall]. unfold term_step.
  destruct (find (chunk_end st ++ s) CRLF) as [[|p]|] eqn:Hf; [|exact Bad|].
  - apply find_bound in Hf. rewrite app_length in Hf. simpl in Hf.
    split; [wf_fields|]. split; [left; rewrite skipn_length, app_length; lia|].
    unfold phi; rsimpl. rewrite skipn_length, app_length. simpl. split; [lia | reflexivity].
  - destruct (length (chunk_end st ++ s) <? 2) eqn:Hl; [|exact Bad].
    apply Nat.ltb_lt in Hl.
    split; [wf_fields|]. split; [left; simpl; lia|].
    unfold phi; rsimpl. rewrite app_length. simpl. split; [lia | reflexivity].
Qed.

Lemma ctl_ok on st s : wf_c st -> Inv on st s ->
  chunk_remainder st = 0%N -> validate_chunk_end st = false -> all_chunks_received st = false ->
  iter_ok on st s (ctl_step st (control_line st ++ s)).
Proof.
  intros W I Hrm Hv Hall. destruct (wf_open on st s W I (or_intror (or_intror Hall))) as (_ & Htr & Hlen).
  destruct W as [Wctl Wce Wt1 Wt2 Wall Wnall]. unfold ctl_step.
  destruct (find (control_line st ++ s) CRLF) as [p|] eqn:Hf.
  - pose proof (find_bound _ _ _ Hf) as B. rewrite app_length in B. simpl in B.
    pose proof (find_app_none_l _ _ _ _ Wctl Hf) as B2. simpl in B2.
    assert (L : length (skipn (p + 2) (control_line st ++ s)) + p + 2
                = length (control_line st) + length s)
      by (rewrite skipn_length, app_length; lia).
    assert (Err : forall e, iter_ok on st s (Break (set_all (set_error (set_control st []) (Some e)) true))).
    { intros e. split; [wf_fields|]. unfold phi; rsimpl. simpl. split; [lia | reflexivity]. }
    unfold ctl_line. destruct (firstn p (control_line st ++ s)); [apply Err|].
    destruct (control_line_verdict _); [|apply Err|apply Err].
    destruct (0 <? sz)%N; (split; [wf_fields|]); (split; [left; lia|]);
      unfold phi; rsimpl; simpl; (split; [lia | reflexivity]).
  - split; [wf_fields|]. split; [left; simpl; lia|].
    unfold phi; rsimpl. rewrite app_length. simpl. split; [lia | reflexivity].
Qed.

Lemma trailer_ok on st s : wf_c st -> c_completed st = false -> Inv on st s -> s <> [] ->
  all_chunks_received st = true ->
  iter_ok on st s (trailer_step st (trailer st ++ s) (Z.of_nat on)).
Proof.
  intros [Wctl Wce Wt1 Wt2 Wall Wnall] Hc I Hs Hall.
  specialize (Wt1 Hc). specialize (Wt2 Hc).
  assert (Ls : 1 <= length s) by (destruct s; [congruence | simpl; lia]).
  assert (Li : length (trailer st ++ s) <= on + length (trailer st) \/ length (trailer st ++ s) <= on + 1).
  { rewrite app_length. destruct I as [H|(_ & H1 & H2)]; [|rewrite H1; simpl]; lia. }
  unfold trailer_step. destruct (startswith (trailer st ++ s) CRLF) eqn:Hsw.
  - assert (Lt : length (trailer st) <= 1).
    { destruct (le_lt_dec (length (trailer st)) 1); auto.
      rewrite startswith_app_long in Hsw by (simpl; lia). congruence. }
    pose proof (startswith_length _ _ Hsw) as L2. simpl in L2.
    split; [wf_fields|]. split; [reflexivity|].
    unfold phi; rsimpl. rewrite app_length in *. lia.
  - destruct (find_double_newline (trailer st ++ s)) as [pos|] eqn:Hd.
    + apply fdn_Some in Hd as (i & Hi & ->).
      pose proof (find_bound _ _ _ Hi) as B. simpl in B.
      pose proof (find_app_none_l _ _ _ _ Wt2 Hi) as B2. simpl in B2.
      split; [wf_fields|]. split; [reflexivity|].
      unfold phi; rsimpl. rewrite firstn_length. rewrite app_length in *. lia.
    + apply fdn_None in Hd.
      split; [wf_fields|]. split; [left; simpl; lia|].
      unfold phi; rsimpl. rewrite app_length. simpl. split; [lia | reflexivity].
Qed.

Lemma iter_spec on st s : wf_c st -> c_completed st = false -> s <> [] -> Inv on st s ->
  iter_ok on st s (chunked_iter st s (Z.of_nat on)).
Proof.
  intros W Hc Hs I. destruct (rcv_phase_of st) as [Hrm|Hrm Hv|Hrm Hv Hall|Hrm Hv Hall].
  - rewrite chunked_iter_data by exact Hrm. apply data_ok; assumption.
  - rewrite chunked_iter_term by assumption. apply term_ok; assumption.
  - rewrite chunked_iter_ctl by assumption. apply ctl_ok; assumption.
  - rewrite chunked_iter_trailer by assumption. apply trailer_ok; assumption.
Qed.

Lemma loop_spec on fuel : forall st s st' n,
  wf_c st -> c_completed st = false -> Inv on st s -> 1 <= on ->
  chunked_loop fuel st s (Z.of_nat on) = Some (st', n) ->
  wf_c st' /\ (1 <= n <= Z.of_nat on)%Z
  /\ (Z.of_nat (phi st') + (Z.of_nat on - n) <= Z.of_nat (phi st + length s))%Z
  /\ (c_completed st' = false -> n = Z.of_nat on).
Proof.
  induction fuel as [|f IH]; intros st s st' n W Hc I Hon H;
    (destruct s as [|x s];
     [simpl in H; injection H as <- <-; split; [auto|]; split; [lia|]; split; [lia|auto]|]);
    [discriminate|].
  cbn [chunked_loop] in H.
  pose proof (iter_spec on st (x :: s) W Hc ltac:(discriminate) I) as S.
  destruct (chunked_iter st (x :: s) (Z.of_nat on)) as [st1 s1|st1|st1 v].
  - destruct S as (W1 & I1 & P1 & C1).
    destruct (IH st1 s1 st' n W1 ltac:(congruence) I1 Hon H) as (A & B & C & D).
    split; [auto|]. split; [lia|]. split; [lia|auto].
  - injection H as <- <-. destruct S as (W1 & P1 & C1).
    split; [auto|]. split; [lia|]. split; [lia|auto].
  - injection H as <- <-. destruct S as (W1 & C1 & B1 & P1).
    split; [auto|]. split; [lia|]. split; [lia|]. congruence.
Qed.

(* The receiver as the parser sees it: on a well-formed, not completed state and
   a non-empty read it terminates, consumes between 1 and len(data) bytes, all of
   them unless it completed, keeps the state well-formed, and the carry grows by
   at most the number of bytes consumed. *)
Theorem chunked_received_spec st s : wf_c st -> c_completed st = false -> s <> [] ->
  exists st' n, chunked_received st s = Some (st', n) /\ wf_c st'
    /\ (1 <= n <= Z.of_nat (length s))%Z
    /\ (Z.of_nat (phi st') <= Z.of_nat (phi st) + n)%Z
    /\ (c_completed st' = false -> n = Z.of_nat (length s)).
Proof.
  intros W Hc Hs.
  destruct (chunked_received st s) as [[st' n]|] eqn:E; [|exfalso; revert E; apply chunked_received_total].
  exists st', n. split; auto.
  unfold chunked_received in E. rewrite Hc in E.
  assert (Hon : 1 <= length s) by (destruct s; [congruence | simpl; lia]).
  destruct (loop_spec (length s) _ st s st' n W Hc ltac:(left; lia) Hon E) as (A & B & C & D).
  split; [auto|]. split; [lia|]. split; [lia|auto].
Qed.

Lemma fixed_received_spec f data : (1 <= f_remain f)%N -> data <> [] ->
  let '(f', n) := fixed_received f data in
  (1 <= n <= Z.of_nat (length data))%Z /\
  (f_completed f' = true \/ (f_completed f' = f_completed f /\ (1 <= f_remain f')%N /\ n = Z.of_nat (length data))).
Proof.
  intros Hr Hd. unfold fixed_received.
  assert (Hl : (1 <= lenN data)%N) by (destruct data; [congruence | rewrite lenN_cons; lia]).
  destruct (f_remain f <? 1)%N eqn:E1; [apply N.ltb_lt in E1; lia|].
  destruct (f_remain f <=? lenN data)%N eqn:E2.
  - apply N.leb_le in E2. unfold lenN in *. cbn [f_completed f_remain]. split; [lia | auto].
  - apply N.leb_gt in E2. unfold lenN in *. cbn [f_completed f_remain]. split; [lia|]. right. repeat split; lia.
Qed.

(* the only errors the chunked receiver raises *)
Definition chunk_err (e : option perr) : Prop :=
  match e with
  | None | Some EChunkNotTerminated | Some EInvalidChunkExt | Some EInvalidChunkSize => True
  | _ => False
  end.

Lemma iter_err st s o : chunk_err (c_error st) ->
  match chunked_iter st s o with
  | Continue st' _ | Break st' | Return st' _ => chunk_err (c_error st')
  end.
Proof.
  intros H. destruct (rcv_phase_of st) as [Hrm|Hrm Hv|Hrm Hv Hall|Hrm Hv Hall].
  - rewrite chunked_iter_data by exact Hrm. unfold data_step, data_state. cbv zeta.
    destruct (_ =? 0)%N; exact H.
  - rewrite chunked_iter_term by assumption. unfold term_step.
    destruct (find _ CRLF) as [[|p]|]; [exact H | exact I|]. destruct (_ <? 2); [exact H | exact I].
  - rewrite chunked_iter_ctl by assumption. unfold ctl_step, ctl_line.
    destruct (find _ CRLF); [|exact H]. destruct (firstn _ _); [exact I|].
    destruct (control_line_verdict _); [destruct (0 <? sz)%N; exact H | exact I | exact I].
  - rewrite chunked_iter_trailer by assumption. unfold trailer_step.
    destruct (startswith _ _); [exact H|]. destruct (find_double_newline _); exact H.
Qed.

Lemma loop_err f : forall st s o st' n, chunk_err (c_error st) ->
  chunked_loop f st s o = Some (st', n) -> chunk_err (c_error st').
Proof.
  induction f as [|f IH]; intros st s o st' n H E.
  - destruct s; simpl in E; [injection E as <- <-; auto | discriminate].
  - destruct s as [|x s]; [simpl in E; injection E as <- <-; auto|].
    cbn [chunked_loop] in E. pose proof (iter_err st (x :: s) o H) as I.
    destruct (chunked_iter st (x :: s) o).
    + eapply IH; eauto.
    + injection E as <- <-. auto.
    + injection E as <- <-. auto.
Qed.

Lemma chunked_received_err st s st' n : chunk_err (c_error st) ->
  chunked_received st s = Some (st', n) -> chunk_err (c_error st').
Proof.
  intros H. unfold chunked_received. destruct (c_completed st).
  - intros E; injection E as <- <-. auto.
  - apply loop_err; auto.
Qed.
