(* C16 (a): no exception escapes the middleware.  For a WSGI environ
   (REMOTE_ADDR and wsgi.url_scheme present -- task.get_environment always
   sets them) every header value and every configuration gives Ok or
   Malformed.  (Before the repair 12a41a9 strip_brackets("") raised IndexError
   for a client address with an empty address part: finding F19, now a 400.)
   Without REMOTE_ADDR the middleware raises KeyError (no_remote_addr); without
   wsgi.url_scheme it does so only when the host stage reads it
   (ProxyConverse2.apply_closed: a forwarded host without port, port 80 or 443). *)
From Coq Require Import String.
From Coq Require Import List NArith ZArith Bool Lia.
From WV Require Import Lib.PyBytes Lib.PyStrProxy Lib.Regex Gen.GenRegex Model.Proxy Spec.ProxySpec
  Proof.ProxyDict Proof.ProxyStr Proof.ProxyStages.
Import ListNotations.
Local Open Scope N_scope.

Record frame (s s' : pst) : Prop := {
  fr_fwd : fwd s' = fwd s;
  fr_proto : u_proto (unt s') = u_proto (unt s);
  fr_port : u_port (unt s') = u_port (unt s);
  fr_by : u_by (unt s') = u_by (unt s);
  fr_keys : forall k, has_key k (env s) -> has_key k (env s')
}.

Lemma frame_refl s : frame s s.
Proof. constructor; auto. Qed.

Lemma frame_trans s1 s2 s3 : frame s1 s2 -> frame s2 s3 -> frame s1 s3.
Proof. intros [] []. constructor; try congruence. auto. Qed.

(* set.remove(kind): the set afterwards *)
Lemma lrm_ok x u u' : lrm x u = Ok u' ->
  u' = match x with
       | LFor => {| u_for := false; u_host := u_host u; u_proto := u_proto u; u_port := u_port u; u_by := u_by u; u_fwd := u_fwd u |}
       | LHost => {| u_for := u_for u; u_host := false; u_proto := u_proto u; u_port := u_port u; u_by := u_by u; u_fwd := u_fwd u |}
       end.
Proof.
  destruct x; cbn [lrm]; [unfold rm_for; destruct (u_for u)|unfold rm_host; destruct (u_host u)];
    try discriminate; intro H; injection H as <-; reflexivity.
Qed.

Lemma srm_ok x u u' : srm x u = Ok u' ->
  u' = match x with
       | SProto => {| u_for := u_for u; u_host := u_host u; u_proto := false; u_port := u_port u; u_by := u_by u; u_fwd := u_fwd u |}
       | SPort => {| u_for := u_for u; u_host := u_host u; u_proto := u_proto u; u_port := false; u_by := u_by u; u_fwd := u_fwd u |}
       end.
Proof.
  destruct x; cbn [srm]; [unfold rm_proto; destruct (u_proto u)|unfold rm_port; destruct (u_port u)];
    try discriminate; intro H; injection H as <-; reflexivity.
Qed.

Lemma lblk_frame x k tph s s' : lblk x k tph s = Ok s' -> frame s s'.
Proof.
  intro H. apply lblk_ok in H as [[-> _]|(raw & cs & c & u & _ & _ & _ & _ & Hu & ->)]; [apply frame_refl|].
  apply lrm_ok in Hu as ->. destruct x; constructor; cbn; auto; intros k0; apply has_key_set.
Qed.

Lemma fwd_get_precond tph s : fwd s = Some [] -> fwd_precond (blk_fwd_get tph s).
Proof.
  intros Hf. unfold blk_fwd_get, fwd_precond. destruct (has tph n_fwd); cbn.
  - destruct (lookup k_fwd (env s)); [discriminate|]. cbn. discriminate.
  - rewrite Hf. cbn. discriminate.
Qed.

Lemma select_no_exn e k tph : no_exn (parse_select e k tph).
Proof.
  intros x. unfold parse_select.
  destruct (blk_xff k tph (init_pst e)) as [s1| |] eqn:E1; cbn [bind]; try discriminate;
    [|destruct (lblk_no_exn LFor _ _ _ _ E1)].
  pose proof (lblk_frame LFor _ _ _ _ E1) as F1.
  destruct (blk_xfh k tph s1) as [s2| |] eqn:E2; cbn [bind]; try discriminate;
    [|destruct (lblk_no_exn LHost _ _ _ _ E2)].
  pose proof (frame_trans _ _ _ F1 (lblk_frame LHost _ _ _ _ E2)) as F2.
  destruct (blk_proto tph s2) as [s3| |] eqn:E3; cbn [bind]; try discriminate;
    [|destruct (sblk_no_exn SProto tph s2 (fr_proto _ _ F2) _ E3)].
  assert (F3 : fwd s3 = Some [] /\ u_port (unt s3) = true /\ u_by (unt s3) = true).
  { apply (sblk_ok SProto) in E3 as [[-> _]|(v & u & _ & _ & Hu & ->)]; [|apply srm_ok in Hu as ->; cbn];
      rewrite (fr_fwd _ _ F2), (fr_port _ _ F2), (fr_by _ _ F2); auto. }
  destruct F3 as (F3a & F3b & F3c).
  destruct (blk_port tph s3) as [s4| |] eqn:E4; cbn [bind]; try discriminate;
    [|destruct (sblk_no_exn SPort tph s3 F3b _ E4)].
  assert (F4 : fwd s4 = Some [] /\ u_by (unt s4) = true).
  { apply (sblk_ok SPort) in E4 as [[-> _]|(v & u & _ & _ & Hu & ->)]; auto. apply srm_ok in Hu as ->. cbn. auto. }
  destruct F4 as (F4a & F4b).
  destruct (blk_by tph s4) as [s5| |] eqn:E5; cbn [bind]; try discriminate;
    [|exfalso; eapply (blk_by_no_exn tph s4); eauto].
  apply blk_by_ok in E5 as (_ & _ & _ & _ & _ & F5).
  apply blk_forwarded_no_exn. apply fwd_get_precond. congruence.
Qed.

Lemma sblk_keeps x tph s s' : sblk x tph s = Ok s' -> env s' = env s /\ fwd s' = fwd s.
Proof. intro H. apply sblk_ok in H as [[-> _]|(v & u & _ & _ & _ & ->)]; [auto|]. destruct x; auto. Qed.

(* when the Forwarded block is reached: forwarded is still "", the single-valued blocks have not
   touched the environ, and the two list blocks have rewritten their own header only *)
Lemma before_fwd k tph e s1 s2 s3 s4 s5 :
  blk_xff k tph (init_pst e) = Ok s1 -> blk_xfh k tph s1 = Ok s2 -> blk_proto tph s2 = Ok s3 ->
  blk_port tph s3 = Ok s4 -> blk_by tph s4 = Ok s5 ->
  fwd s5 = Some [] /\ env s3 = env s2 /\ env s5 = env s2 /\
  (forall key, beqb key k_xff = false -> lookup key (env s1) = lookup key e) /\
  (forall key, beqb key k_xff = false -> beqb key k_xfh = false -> lookup key (env s2) = lookup key e).
Proof.
  intros E1 E2 E3 E4 E5.
  destruct (sblk_keeps SProto _ _ _ E3) as [P3 Q3]. destruct (sblk_keeps SPort _ _ _ E4) as [P4 Q4].
  apply blk_by_ok in E5 as (P5 & _ & _ & _ & _ & Q5).
  assert (K : forall x s s', lblk x k tph s = Ok s' -> forall key, beqb key (lkey x) = false ->
              lookup key (env s') = lookup key (env s)).
  { intros x s s' H key Hk. apply lblk_ok in H as [[-> _]|(? & ? & ? & ? & _ & _ & _ & _ & _ & ->)]; auto.
    destruct x; apply lookup_set_other; exact Hk. }
  split; [|split; [exact P3|split; [congruence|split]]].
  - rewrite Q5, Q4, Q3, (fr_fwd _ _ (lblk_frame LHost _ _ _ _ E2)), (fr_fwd _ _ (lblk_frame LFor _ _ _ _ E1)). reflexivity.
  - apply (K LFor _ _ E1).
  - intros key H1 H2. rewrite (K LHost _ _ E2 key H2). apply (K LFor _ _ E1 key H1).
Qed.

Lemma blk_forwarded_keys k s s' key : blk_forwarded k s = Ok s' -> has_key key (env s) -> has_key key (env s').
Proof.
  intro H. apply blk_forwarded_ok in H as [[-> _]|(raw & ps & _ & _ & _ & ->)]; auto.
  cbn. apply has_key_set.
Qed.

Lemma select_keys e k tph s key : parse_select e k tph = Ok s -> has_key key e -> has_key key (env s).
Proof.
  intros H Hk. apply select_ok_inv in H as (s1 & s2 & s3 & s4 & s5 & E1 & E2 & E3 & E4 & E5 & H).
  eapply blk_forwarded_keys; eauto.
  assert (env (blk_fwd_get tph s5) = env s5) as -> by (unfold blk_fwd_get; destruct (has tph n_fwd); reflexivity).
  destruct (before_fwd _ _ _ _ _ _ _ _ E1 E2 E3 E4 E5) as (_ & _ & -> & _).
  apply (fr_keys _ _ (lblk_frame LHost _ _ _ _ E2)). apply (fr_keys _ _ (lblk_frame LFor _ _ _ _ E1)). exact Hk.
Qed.

Lemma apply_no_exn s : has_key k_url_scheme (env s) -> no_exn (parse_apply s).
Proof.
  intros Hk x. unfold parse_apply.
  destruct (stage_proto s) as [s1| |] eqn:E1; cbn [bind]; try discriminate.
  - pose proof (stage_proto_has_key _ _ _ E1 Hk) as Hk1.
    destruct (stage_host s1) as [s2| |] eqn:E2; cbn [bind]; try discriminate.
    + rewrite stage_client_spec. destruct (client (stage_port s2)) as [[|c0 c']|]; try discriminate.
      cbv zeta. destruct (bad_client (c0 :: c')); discriminate.
    + exfalso. eapply stage_host_no_exn; eauto.
  - exfalso. eapply stage_proto_no_exn; eauto.
Qed.

Definition env_ok (e : environ) : Prop := has_key k_remote_addr e /\ has_key k_url_scheme e.

Definition on_trusted_path (c : config) (e : environ) : bool :=
  match lookup k_remote_addr e with
  | Some peer => opt_str_eqb (trusted_proxy c) (Some s_star) || opt_str_eqb (Some peer) (trusted_proxy c)
  | None => false
  end.

Definition tph_of (c : config) : list str := match trusted_proxy_headers c with None => [] | Some t => t end.

Lemma total c e : env_ok e -> forall x, middleware c e <> Exn x.
Proof.
  intros [Hra Hus] x. unfold middleware.
  destruct (lookup k_remote_addr e) as [peer|] eqn:Ep; [|exfalso; apply Hra; exact Ep].
  destruct (opt_str_eqb (trusted_proxy c) (Some s_star) || opt_str_eqb (Some peer) (trusted_proxy c)).
  - unfold parse_proxy_headers. fold (tph_of c).
    destruct (parse_select e (trusted_proxy_count c) (tph_of c)) as [s| |] eqn:Es; cbn [bind]; try discriminate.
    + pose proof (select_keys _ _ _ _ _ Es Hus) as Hk.
      destruct (parse_apply s) as [s'| |] eqn:Ea; cbn [bind]; try discriminate.
      exfalso. eapply apply_no_exn; eauto.
    + exfalso. eapply select_no_exn; eauto.
  - cbn [bind]. destruct (clear_untrusted c); discriminate.
Qed.

(* outside WSGI environs: the unconditional subscript environ["REMOTE_ADDR"] *)
Lemma no_remote_addr c e : lookup k_remote_addr e = None -> middleware c e = Exn KeyError.
Proof. intro H. unfold middleware. rewrite H. reflexivity. Qed.

(* non-vacuity, and the two former crash inputs *)
Definition f19_cfg : config :=
  {| trusted_proxy := Some (s2l "10.0.0.1"%string); trusted_proxy_count := 1%Z;
     trusted_proxy_headers := Some [n_fwd]; clear_untrusted := true |}.
Definition f19_env : environ :=
  [(k_remote_addr, s2l "10.0.0.1"%string); (k_url_scheme, s_http); (k_fwd, s2l "for=:80"%string)].
Definition f19_cfg2 : config :=
  {| trusted_proxy := Some s_star; trusted_proxy_count := 2%Z;
     trusted_proxy_headers := Some [n_xff]; clear_untrusted := false |}.
Definition f19_env2 : environ :=
  [(k_remote_addr, s2l "10.0.0.1"%string); (k_url_scheme, s_http); (k_xff, [34; 32; 34])].

Example former_crashes_are_400 :
  env_ok f19_env /\ middleware f19_cfg f19_env = Malformed h_fwd /\
  env_ok f19_env2 /\ middleware f19_cfg2 f19_env2 = Malformed h_xff.
Proof. repeat split; vm_compute; try discriminate; reflexivity. Qed.

Example total_nonvacuous :
  let e := [(k_remote_addr, s2l "10.0.0.1"%string); (k_url_scheme, s_http);
            (k_fwd, s2l "for=""[2001:db8::1]:4711"";host=example.com;proto=https, for=192.0.2.7"%string)] in
  env_ok e /\
  exists o, middleware f19_cfg e = Ok o /\ lookup k_remote_addr o = Some (s2l "192.0.2.7"%string).
Proof. cbv zeta. repeat split; try (vm_compute; discriminate). eexists. split; vm_compute; reflexivity. Qed.
