(* Proof/ChanWakeL5.v -- layer 5 of the C05 invariant, the wake-up invariant itself:
   whenever the channel would be polled for writing (reading) if the interest set were
   evaluated now, the trigger is pulled, or the I/O thread has not yet committed to an
   interest set without POLLOUT (POLLIN), or some worker is on its way to a pull_trigger. *)
From Coq Require Import List ZArith Bool Arith Lia.
From WV Require Import Model.ChanWake Proof.ChanWakeInv Proof.ChanWakeBase Proof.ChanWakeL1 Proof.ChanWakeL2
  Proof.ChanWakeL3 Proof.ChanWakeL4.
Import ListNotations.
Open Scope Z_scope.

Definition Jw (s : state) : Prop :=
  closed s = false -> (0 < total s \/ wc s = true \/ cwf s = true) ->
  pulled s = true \/
  ((0 < total s /\ cov_tot (io s) = true) \/ (wc s = true /\ cov_wc (io s) = true) \/
   (cwf s = true /\ cov_cwf (io s) = true)) \/
  existsb will_pull (ws s) = true.

Definition Jr (c : cfg) (s : state) : Prop :=
  closed s = false ->
  (wc s = false /\ cwf s = false /\ (nreq s <= lookahead c)%nat /\ total s = 0) ->
  pulled s = true \/ rcov (io s) = true \/ existsb will_pull (ws s) = true.

Definition Inv5 (c : cfg) (s : state) : Prop := Jw s /\ Jr c s.

Lemma inv5_init : forall c nw, Inv5 c (init nw).
Proof.
  intros. split; intros Hc H; simpl in *.
  - destruct H as [H|[H|H]]; try lia; discriminate.
  - auto.
Qed.

Lemma inv5_step_io : forall c s ch s' l,
  Inv5 c s -> step_io c s ch = Some (s', l) -> Inv5 c s'.
Proof.
  intros c s ch s' l [HJw HJr] H.
  destruct (step_io_cov _ _ _ _ _ H) as [[Ct Cr]|[Cc|(p' & -> & Mt & Mw & Mc & Mr)]].
  - (* every attribute is still to be read *)
    destruct (cov_tot_all _ Ct) as (Cw & Cf). split; intros Hc Hw'; right; left; [|exact Cr].
    rewrite Ct, Cw, Cf. tauto.
  - split; intros Hc; congruence.
  - (* a read of readable() / writable(): coverage goes only with a value that asks for nothing *)
    split; intros Hc Hw'; simpl in *.
    + destruct (HJw Hc Hw') as [?|[[[A B]|[[A B]|[A B]]]|?]]; auto; right; left.
      * left. split; auto. destruct (cov_tot p'); auto. specialize (Mt B eq_refl). lia.
      * right; left. split; auto. destruct (cov_wc p'); auto. specialize (Mw B eq_refl). congruence.
      * right; right. split; auto. destruct (cov_cwf p'); auto. specialize (Mc B eq_refl). congruence.
    + destruct (HJr Hc Hw') as [?|[Hcov|?]]; auto.
      destruct (rcov p'); auto. exfalso. destruct Hw' as (? & ? & ? & ?).
      destruct (Mr Hcov eq_refl) as [?|[?|[?|?]]]; try congruence; lia.
Qed.


Lemma hc_late_cov : forall p, io_hc_late p = true ->
  cov_tot p = true /\ cov_wc p = true /\ cov_cwf p = true /\ rcov p = true.
Proof. destruct p; simpl; intros; try discriminate; auto. Qed.

(* from the moment handle_close has cleared connected nothing is asked of the wake-up *)
Lemma inv5_hc_late : forall c s, closed s = true \/ io_hc_late (io s) = true -> Inv5 c s.
Proof.
  intros c s [Hc|Hl]; [split; intros; congruence|].
  destruct (hc_late_cov _ Hl) as (C1 & C2 & C3 & C4).
  split; intros Hc Hw'; right; left; [|exact C4]. rewrite C1, C2, C3. tauto.
Qed.

Lemma inv5_step_w : forall c s i ch s' l,
  0 <= hw c -> Inv3 s -> Inv4 c s -> Inv5 c s -> step_w c s i ch = Some (s', l) -> Inv5 c s'.
Proof.
  intros c s i ch s' l Hhw HI3 HI4 [HJw HJr] H. unfold step_w in H.
  destruct (getw s i) as [pc|] eqn:Hg; [|discriminate]. unfold getw in Hg.
  assert (Hscx : w_scx pc = true -> conn s = false) by (intros Hx; eapply (i3_scx _ HI3); eauto).
  assert (Hlen : (i < length (ws s))%nat) by (apply nth_error_Some; congruence).
  pose proof (HI4 _ _ Hg) as Hi4. pose proof (i3_c3 _ HI3) as Hc3.
  step_w_cases H; simpl in Hscx.
  (* the worker is (still) on its way to a pull_trigger *)
  all: try (split; intros Hc Hw'; right; right; simpl;
            first [ apply existsb_upd_in; [rewrite ?length_ws_add_task; exact Hlen | reflexivity]
                  | eapply existsb_nth; [exact Hg | reflexivity] ]; fail).
  (* service() ends without pull_trigger, or an exception leaves it: connected is False *)
  all: try (apply inv5_hc_late; simpl; apply Hc3; auto; fail).
  (* WAcq -> WIdle, WNotif -> WIdle: the worker was not on its way to a pull, nothing else changes *)
  1-2: split; intros Hc Hw'; simpl in *;
       [ destruct (HJw Hc Hw') as [H1|[H1|H1]] | destruct (HJr Hc Hw') as [H1|[H1|H1]] ]; auto;
       right; right; eapply existsb_upd_keep; eauto.
  - (* parks after the exception branch: will_close is set, the trigger pulled *)
    simpl in Hi4. destruct Hi4 as (Hwc & _ & Hcov). split; intros Hc Hw'; simpl in *.
    + destruct Hcov as [H1|[H1|H1]]; [congruence | auto | right; left; right; left; auto].
    + destruct Hw' as (Hx & _). congruence.
  - (* parks in the watermark loop: output above the watermark, the trigger pulled *)
    simpl in Hi4. destruct Hi4 as (Hcn & Hab & Hcov). split; intros Hc Hw'; simpl in *.
    + destruct Hcov as [H1|[H1|H1]]; [congruence | auto | right; left; left; split; auto; lia].
    + destruct Hw' as (_ & _ & _ & Hx). lia.
  - (* WEnd2 -> WAcq: the trigger is pulled *)
    split; intros Hc Hw'; simpl in *; auto.
Qed.
