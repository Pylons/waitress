(* C08 at the level of HTTPChannel.service: the 500 that answers a refused
   start_response, and closed instances.  (That nothing precedes the head and
   that the head is clean: TaskProv.v.) *)
From Coq Require Import String.
From Coq Require Import List NArith ZArith Bool Lia Arith Permutation.
From WV Require Import Lib.PyBytes Gen.GenTables Model.Task Proof.TaskSort Proof.TaskLines Proof.TaskHead
  Proof.TaskStart Proof.TaskRun Proof.TaskOracle Proof.TaskLadder.
Import ListNotations.
Local Open Scope N_scope.

Section Service.
Variable cap : str -> str.
Variable lower : str -> str.
Variable c : cfg.
Variable r : req.
Variable disc : option nat.

(* the 500 the ladder sends: a function of the configuration, the request's
   version, Connection header and method (HEAD: no body, fix 52947ac), and where a
   scripted disconnect falls *)
Definition response_500 (n : nat) : list witem :=
  let body := if c_expose_tracebacks c then c_tb c else internal_error_text in
  let er := mkReq (r_version r) (r_connection r) (r_head r) false (Some (err_InternalServerError, body)) in
  let x1 := task_service cap lower c er disc (new_task (r_version r) true, mkChan [] n)
                         (inr (err_InternalServerError, body)) in
  rev (ch_writes (snd (x_st x1))).

(* proved by unfolding on purpose: a bare reflexivity lets the unifier evaluate task_service *)
Lemma response_500_run n :
  response_500 n = rev (ch_writes (snd (x_st (run_500 cap lower c r disc (mkChan [] n))))).
Proof. unfold response_500, run_500. reflexivity. Qed.

Theorem refused_gets_500 a pre status headers exc post s1 :
  r_error r = None -> connected disc 0 = true ->
  a_call a = pre ++ AStart status headers exc :: post ->
  run_actions cap lower c r disc (new_task (r_version r) false, mkChan [] 0) pre = (s1, Ok tt) ->
  t_wrote_header (fst s1) = false ->
  offending lower status headers = true ->
  o_served_500 (channel_service cap lower c r a disc) = true.
Proof.
  intros He Hconn Hcall Hpre Hw Hoff.
  destruct (start_response_refuses lower (fst s1) status headers exc Hoff) as (e & Hsr & Hcls).
  specialize (Hcls Hw).
  destruct (start_response_frame lower (fst s1) status headers exc) as (F1 & _).
  assert (Hrun : exists s2, run_actions cap lower c r disc (new_task (r_version r) false, mkChan [] 0) (a_call a) = (s2, Exn e)
                            /\ t_wrote_header (fst s2) = false).
  { rewrite Hcall, run_actions_app, Hpre. cbn [run_actions run_action].
    destruct (start_response lower (fst s1) status headers exc) as [t o]. cbn [fst snd] in *. subst o.
    eexists. split; [reflexivity|]. cbn [fst]. congruence. }
  destruct Hrun as (s2 & Hrun & Hw2).
  rewrite service_eq. cbn [o_served_500 wound_up]. apply answers_500_iff. exists e.
  unfold first_run, job_of, start_state. rewrite Hconn, He.
  pose proof (task_run_call_raised cap lower c r disc _ a s2 e Hrun) as Er.
  rewrite (task_service_raised cap lower c r disc _ _ e), Er; [|rewrite Er; reflexivity|destruct Hcls; subst; reflexivity].
  repeat split; [|exact Hw2]. destruct Hcls; subst; reflexivity.
Qed.

End Service.

Definition sample_cfg : cfg :=
  mkCfg (lit "waitress") false true (lit "Thu, 01 Jan 2026 00:00:00 GMT") (lit "TB").
Definition sample_req : req := mkReq (lit "1.1") None false false None.

(* header pairs passed as LISTS and mutated after start_response validated them:
   start_response stores fresh tuples (commit 2730de7), the mutation has no effect *)
Definition alias_app : app :=
  mkApp [AStart (PStr (lit "200 OK")) [(PStr (lit "X-A"), PStr (lit "ok"))] None;
         AMutate 0 true (lit "x" ++ CRLF ++ lit "Set-Cookie: evil=1")]
        (KSized 1) [mkStep [] (SYield (lit "body"))] false None.

Lemma sample_cfg_clean : cfg_clean sample_cfg.
Proof. split; reflexivity. Qed.
