(* Proof/ChanFaultIso2Sim.v -- the simulation behind the trace-level isolation theorem.

   s1 is a state of the two-connection system in which anything may have happened to
   connection a; s2 is a state of the same system in which a never appeared.  [rel a b s1 s2]:
   they agree on the record of b, on b's worker, on the listener / trigger / loop flags; in s2
   the record of a is the initial one and a's worker has never run; the I/O thread's stack in
   s2 is the stack in s1 with a's instructions removed ([proj a]); while s1 unwinds an exception
   raised on behalf of a, s2 just waits.
   One step of s1 is matched ([sim_step]) by
     no step of s2        when a's worker moves, or the I/O thread executes / unwinds through an
                          instruction of a: nothing the observer of b sees changes ([io_a_step],
                          [wstep_local]);
     the same step        when b's worker moves or the I/O thread executes an instruction of b
                          with the same answer of the environment ([io_b_step], from DET/LOCAL);
     the same instruction with a removed from the environment's answer, for the instructions that
                          belong to no connection: the readable()/writable() pass, select / poll,
                          the dispatch of the listener and the trigger, accept ([shared_exec],
                          [io_shared_step]).
   What makes this go through is the stack-shape invariant of ChanFaultIso2Cov.v (an exception of
   a is caught by a frame of a) and the invariant of ChanFaultOnce.v (select is never called on
   a closed descriptor, `del map[fd]` never fails), i.e. the repairs of F17 and F18. *)
From Coq Require Import List Arith ZArith Bool Lia.
From WV Require Import Lib.Conc Model.ChanFault Proof.ChanFaultSpec Proof.ChanFaultBase Proof.ChanFaultStep
                       Proof.ChanFaultOnce Proof.ChanFaultListener Proof.ChanFaultIso Proof.ChanFaultIso2Cov Proof.ChanFaultIso2Proj.
Import ListNotations.

Definition base (a b : chan) (s1 s2 : state) : Prop :=
  getc s1 b = getc s2 b /\ srv5 s1 = srv5 s2 /\ getc s2 a = chan0.

Transparent getc setc setth set_srv set_dead maint asked_r asked_w map_empty.

Lemma maint_chan0 : forall m, maint chan0 m = chan0.
Proof. intro m. unfold maint. destruct m; reflexivity. Qed.

Lemma base_srv : forall a b s1 s2, base a b s1 s2 ->
  lst_in_map s1 = lst_in_map s2 /\ trg_in_map s1 = trg_in_map s2 /\
  lst_open s1 = lst_open s2 /\ trg_open s1 = trg_open s2.
Proof. intros a b s1 s2 (_ & Hs & _). unfold srv5 in Hs. injection Hs as -> -> -> -> _. auto. Qed.

Lemma fd_open_base : forall a b s1 s2 f, a <> b -> base a b s1 s2 -> isfa a f = false -> fd_open s1 f = fd_open s2 f.
Proof.
  intros a b s1 s2 f Hab HB Hf. destruct (base_srv _ _ _ _ HB) as (_ & _ & E3 & E4). destruct HB as (Hb & _).
  destruct f as [| |c]; simpl; auto.
  destruct a, b, c; try congruence; simpl in *; try discriminate; rewrite Hb; reflexivity.
Qed.

Lemma open_filt : forall a b s1 s2 e, a <> b -> base a b s1 s2 ->
  forallb (fd_open s1) e = true -> forallb (fd_open s2) (filt a e) = true.
Proof.
  intros a b s1 s2 e Hab HB. unfold filt. induction e as [|f e IH]; simpl; intro H; auto.
  apply andb_true_iff in H. destruct H as [Hf He].
  destruct (isfa a f) eqn:Ef; simpl; auto.
  rewrite <- (fd_open_base a b s1 s2 f Hab HB Ef), Hf. auto.
Qed.

Lemma asked_filt : forall g a b s1 s2, a <> b -> base a b s1 s2 ->
  asked_r g s2 = filt a (asked_r g s1) /\ asked_w s2 = filt a (asked_w s1).
Proof.
  intros g a b s1 s2 Hab HB. destruct (base_srv _ _ _ _ HB) as (E1 & E2 & _). destruct HB as (Hb & _ & Ha).
  unfold asked_r, asked_w, filt. rewrite !filter_app.
  destruct a, b; try congruence; simpl in *; rewrite ?Ha, ?Hb, ?E1, ?E2; simpl; split;
  repeat match goal with |- context [if ?c then _ else _] => destruct c end; reflexivity.
Qed.

(* An instruction of the poll turn (it belongs to no connection) does in the system without a what it does
   in the system with a, once a is taken out of the select lists and out of the environment's answer. *)
Lemma shared_exec : forall g a b i ans s1 s2,
  a <> b -> base a b s1 s2 -> lst_in_map s1 = true -> chan_of i = None ->
  (forall r w e, i = ISelect r w e -> negb (use_poll2 g) && negb (forallb (fd_open s1) e) = false) ->
  match exec g IO i ans s1 with
  | Blocked => True
  | Raise _ _ _ => False
  | Norm s1' p1 l1 =>
      exists s2' l2, exec g IO (strip a i) (tr_ans a ans) s2 = Norm s2' (proj a p1) l2 /\
        base a b s1' s2' /\ view b l1 = view b l2 /\ labels_of a l2 = []
  end.
Proof.
  intros g a b i ans s1 s2 Hab HB HL Hc Hsel.
  destruct (base_srv _ _ _ _ HB) as (E1 & E2 & E3 & E4). pose proof HB as (Hb & Hs & Ha).
  destruct i; try discriminate Hc;
  try match goal with f : fdt |- _ => destruct f as [| |cc]; try discriminate Hc end;
  cbn [exec strip fd_in_map event];
  (* the instructions that return the state as it is (the dispatch of the listener and the trigger, their
     frames): nothing of a is pushed *)
  try (lazymatch goal with
       | |- match (if _ then Norm s1 _ [] else Norm s1 [] []) with _ => _ end => idtac
       | |- context [@eq result (Norm s2 _ [])] => idtac
       end;
       rewrite <- ?E1, <- ?E2; repeat split_innermost; exists s2, [];
       (split; [reflexivity|]); (split; [exact HB|split; reflexivity])).
  - (* IPoll: maintenance does nothing to the absent a; the lists are the lists without a *)
    assert (M1 : map_empty s1 = false) by (unfold map_empty; rewrite HL, orb_true_r; reflexivity).
    assert (M2 : map_empty s2 = false) by (unfold map_empty; rewrite <- E1, HL, orb_true_r; reflexivity).
    assert (MA : maint_of (tr_ans a ans) = maint_of ans).
    { destruct ans; simpl; auto. destruct r; simpl; auto. destruct (chan_eqb c a); reflexivity. }
    rewrite M1, M2, MA, <- E1, HL.
    match goal with |- exists s2' l2, Norm ?x _ _ = _ /\ _ => set (s2n := x) end.
    match goal with |- context [base a b ?x _] => set (s1n := x) end.
    assert (HBn : base a b s1n s2n).
    { unfold srv5 in Hs. injection Hs as _ _ _ _ E5.
      unfold s1n, s2n, base, srv5. destruct a, b; try congruence; simpl in *; rewrite ?Ha, ?Hb, ?maint_chan0; repeat split; congruence. }
    destruct (asked_filt g a b s1n s2n Hab HBn) as [Er Ew].
    exists s2n, []. split; [|split; [|split]]; auto.
    unfold proj. simpl. rewrite Er, Ew, filt_app. reflexivity.
  - (* ISelect: what is open with a is open without *)
    specialize (Hsel r w e eq_refl). rewrite Hsel.
    assert (X : negb (use_poll2 g) && negb (forallb (fd_open s2) (filt a e)) = false).
    { destruct (use_poll2 g); simpl in *; auto. apply negb_false_iff in Hsel.
      rewrite (open_filt a b s1 s2 e Hab HB Hsel). reflexivity. }
    rewrite X. exists s2, []. repeat split; auto.
  - (* ISelWait: an answer acceptable for the lists is acceptable, without a, for the lists without a *)
    destruct (use_poll2 g).
    + destruct ans; trivial. destruct (p2_ok r w e l) eqn:P; trivial.
      simpl tr_ans. cbv iota. rewrite (p2_ok_filt a r w e l P).
      exists s2, []. split; [|split; [|split]]; auto.
      rewrite proj_app, proj_map_p2. reflexivity.
    + destruct ans; trivial.
      destruct (subset_fd r0 r && subset_fd w0 w && subset_fd e0 e && forallb is_chan_fd e0) eqn:P; trivial.
      apply andb_true_iff in P. destruct P as [P P4]. apply andb_true_iff in P. destruct P as [P P3].
      apply andb_true_iff in P. destruct P as [P1 P2].
      simpl tr_ans. cbv iota. rewrite (subset_filt a _ _ P1), (subset_filt a _ _ P2), (subset_filt a _ _ P3).
      assert (P4' : forallb is_chan_fd (filt a e0) = true) by (apply forallb_filter; auto).
      rewrite P4'. simpl andb. cbv iota.
      exists s2, []. split; [|split; [|split]]; auto.
      rewrite !proj_app, !proj_map_disp. reflexivity.
  - (* IAccept: a is not delivered (EWOULDBLOCK instead), b is *)
    destruct ans; trivial. destruct r as [c|e].
    + destruct (chan_dec c a) as [->|Hca].
      * simpl tr_ans. rewrite chan_eqb_refl. destruct (accepted (getc s1 a)); trivial.
        exists s2, [LCaught IO (XOSError EWOULDBLOCK)]. split; [|split; [|split]]; auto.
        -- f_equal. symmetry. apply proj_about_a. destruct (init_guarded g); unfold about; simpl; rewrite chan_eqb_refl; reflexivity.
        -- split; [|split]; auto.
           ++ change (getc (setc s1 a (upd_accepted (getc s1 a))) b = getc s2 b). rewrite getc_setc_other by auto. auto.
           ++ rewrite srv5_setc. auto.
        -- simpl. rewrite (neq_eqb a b) by auto. reflexivity.
      * assert (c = b) by (destruct a, b, c; congruence). subst c.
        simpl tr_ans. rewrite (neq_eqb a b) by auto. cbn [exec].
        rewrite <- Hb.
        destruct (accepted (getc s1 b)); trivial.
        exists (setc s2 b (upd_accepted (getc s1 b))), [LAccepted b]. split; [|split; [|split]]; auto.
        -- f_equal. symmetry. apply (proj_about_b a b); auto.
           destruct (init_guarded g); unfold about; simpl; rewrite chan_eqb_refl; reflexivity.
        -- split; [|split].
           ++ rewrite !getc_setc_same. reflexivity.
           ++ rewrite !srv5_setc. auto.
           ++ rewrite getc_setc_other by auto. auto.
        -- simpl. rewrite (neq_eqb b a) by auto. reflexivity.
    + simpl tr_ans. cbn [exec]. exists s2, [LCaught IO (XOSError e)]. split; [|split; [|split]]; auto.
  - (* ITrigClose *)
    unfold srv5 in Hs. injection Hs as _ _ _ _ E5.
    rewrite <- E4, <- E2, <- E1, <- E3. destruct (trg_open s1).
    + eexists; eexists; split; [reflexivity|]. split; [|split].
      * unfold base. rewrite !getc_set_srv. split; [exact Hb|split; [|exact Ha]]. unfold srv5; simpl; congruence.
      * reflexivity.
      * destruct (trg_in_map s1); reflexivity.
    + exists s2, []. split; [reflexivity|]. split; [exact HB|]. split; reflexivity.
  - (* ILstClose *)
    unfold srv5 in Hs. injection Hs as _ _ _ _ E5.
    rewrite <- E4, <- E2, <- E1, <- E3.
    eexists; eexists; split; [reflexivity|]. split; [|split].
    * unfold base. rewrite !getc_set_srv. split; [exact Hb|split; [|exact Ha]]. unfold srv5; simpl; congruence.
    * reflexivity.
    * destruct (lst_in_map s1), (lst_open s1); reflexivity.
Qed.

Opaque getc setc setth set_srv set_dead maint asked_r asked_w map_empty.

Definition head_a (a : chan) (l : list instr) : bool := match l with i :: _ => about a i | [] => false end.

Record rel (a b : chan) (s1 s2 : state) : Prop := {
  r_base : base a b s1 s2;
  r_wb : getth s1 (W b) = getth s2 (W b);
  r_wa : getth s2 (W a) = th0 [];
  r_stk : stk (getth s2 IO) = proj a (stk (getth s1 IO));
  r_rais : raising (getth s2 IO) =
           match raising (getth s1 IO) with
           | Some x => if head_a a (stk (getth s1 IO)) then None else Some x
           | None => None
           end
}.

Lemma rel_init : forall a b, a <> b -> rel a b init init.
Proof.
  intros a b Hab. constructor.
  - split; [reflexivity|split; [reflexivity|]]. destruct a; reflexivity.
  - reflexivity.
  - destruct a; reflexivity.
  - reflexivity.
  - reflexivity.
Qed.

Lemma about_unique : forall c d i, about c i = true -> about d i = true -> c = d.
Proof. intros c d i H1 H2. apply about_chan_of in H1, H2. congruence. Qed.

Lemma prot_head_a : forall os c l, prot os c l = true -> head_a c l = true.
Proof. intros os c l H. destruct (prot_head _ _ _ H) as (k & r & -> & Hk). exact Hk. Qed.

Lemma prot_head_unique : forall os c d l, prot os c l = true -> head_a d l = true -> c = d.
Proof.
  intros os c d [|i r] Hp Hh; [discriminate|]. simpl in Hp, Hh. apply andb_true_iff in Hp.
  eapply about_unique; [apply Hp|exact Hh].
Qed.

Lemma head_other : forall a b l, a <> b -> head_a b l = true -> head_a a l = false.
Proof. intros a b [|i r] Hab H; simpl in *; auto. eapply about_other; eauto. Qed.

Lemma wstep_local : forall g s c ans s' l d,
  wtagged s c -> d <> c -> step g s (W c, ans) = Some (s', l) -> only c (W c) s s' /\ hidden d l = true.
Proof.
  intros g s c ans s' l d Hw Hd H.
  assert (Ht : W c <> W d) by congruence.
  refine (proj1 (worker_lift g c (about c) (fun _ => True)
                   (fun s s1 ls => only c (W c) s s1 /\ hidden d ls = true) _ _ _ _ _ s ans s' l Hw H I)).
  - intros s0 s1 v ls [O Hh]. split; [apply only_setth|]; auto.
  - intro s0. split; [apply only_refl|]. unfold hidden. simpl. rewrite (neq_eqb c d Hd). reflexivity.
  - intros. split; [apply only_setc|reflexivity].
  - unfold about. simpl. rewrite chan_eqb_refl. reflexivity.
  - intros r k a0 s0 Hk. generalize (does_local g (W c) r k a0 s0 c (about_chan_of _ _ Hk))
                                   (does_hidden g (W c) r k a0 s0 c d (about_chan_of _ _ Hk) Hd Ht).
    destruct (does g (W c) r k a0 s0); tauto.
Qed.

(* the relation after a step of a (its worker, or the I/O thread on its behalf) that s2 does not match ... *)
Lemma rel_stutter : forall a b t s1 s1' s2,
  a <> b -> t <> W b -> rel a b s1 s2 -> only a t s1 s1' ->
  stk (getth s2 IO) = proj a (stk (getth s1' IO)) ->
  raising (getth s2 IO) = match raising (getth s1' IO) with
                          | Some x => if head_a a (stk (getth s1' IO)) then None else Some x
                          | None => None
                          end ->
  rel a b s1' s2.
Proof.
  intros a b t s1 s1' s2 Hab Ht [(Hb & Hs & Ha) Rwb Rwa _ _] (C & T & S) Est Er. constructor; auto.
  - split; [rewrite C by auto; exact Hb|split; [congruence|exact Ha]].
  - rewrite T by auto. exact Rwb.
Qed.

(* ... and after a step of the I/O thread that s2 matches with a step of its own *)
Lemma rel_io : forall a b s1 s2 s1f s2f th1 th2,
  rel a b s1 s2 -> base a b s1f s2f ->
  (forall c, getth s1f (W c) = getth s1 (W c)) -> (forall c, getth s2f (W c) = getth s2 (W c)) ->
  stk th2 = proj a (stk th1) ->
  raising th2 = match raising th1 with Some x => if head_a a (stk th1) then None else Some x | None => None end ->
  rel a b (setth s1f IO th1) (setth s2f IO th2).
Proof.
  intros a b s1 s2 s1f s2f th1 th2 [_ Rwb Rwa _ _] HB T1 T2 Est Er.
  constructor; unfold base; rewrite ?getc_setth, ?srv5_setth, ?getth_setth_same, ?getth_setth_other by discriminate;
    auto; congruence.
Qed.

Lemma base_only : forall a b t s1 s2 s1f s2f,
  a <> b -> base a b s1 s2 -> only b t s1 s1f -> only b t s2 s2f -> getc s1f b = getc s2f b -> base a b s1f s2f.
Proof.
  intros a b t s1 s2 s1f s2f Hab (Hb & Hs & Ha) (_ & _ & S1) (C2 & _ & S2) Eb.
  split; [exact Eb|split; [congruence|]]. rewrite C2 by auto. exact Ha.
Qed.

(* what the I/O thread has reached when the head of its stack is of connection c: an instruction (a frame)
   of c, above it only instructions of c; without another connection a it reaches the same *)
Lemma reached_about : forall th c k rest,
  ioI th -> head_a c (stk th) = true -> reached th = k :: rest ->
  about c k = true /\ ioable k = true /\ proj c (stk th) = proj c rest /\
  forall a, a <> c ->
    match raising th with Some _ => drop_to_frame (proj a (stk th)) | None => proj a (stk th) end = k :: proj a rest.
Proof.
  intros th c k rest HI Hh E. unfold reached in E. destruct (raising th) as [x|] eqn:R.
  - destruct (ioI_unwind _ x HI R) as (_ & c0 & pre & k0 & rest0 & Hp & E1 & E2 & E3 & E4 & Hk & _).
    rewrite E2 in E. injection E as -> ->. assert (c0 = c) by (eapply prot_head_unique; eauto). subst c0.
    split; [exact E4|split; [exact Hk|split]].
    + rewrite E1, proj_app, (proj_about_a c pre E3). apply proj_cons_a. exact E4.
    + intros a Ha. destruct (prot_drop_proj a c _ _ Ha Hp) as (k' & rest' & D1 & D2 & _). congruence.
  - destruct HI as [I1 _ _]. rewrite E in Hh, I1. simpl in Hh, I1. apply andb_true_iff in I1.
    split; [exact Hh|split; [tauto|split]].
    + rewrite E. apply proj_cons_a. exact Hh.
    + intros a Ha. rewrite E, (proj_cons_na a k rest (about_other a c k Ha Hh)), (strip_about a c k Hh). reflexivity.
Qed.

(* the I/O thread executes (or unwinds through) an instruction of the faulted connection a *)
Lemma io_a_step : forall g a b s1 ans s1' l1,
  a <> b -> init_guarded g = true -> SInv g s1 -> ioI (getth s1 IO) ->
  head_a a (stk (getth s1 IO)) = true -> step g s1 (IO, ans) = Some (s1', l1) ->
  only a IO s1 s1' /\ proj a (stk (getth s1' IO)) = proj a (stk (getth s1 IO)) /\
  match raising (getth s1' IO) with Some _ => head_a a (stk (getth s1' IO)) = true | None => True end /\
  hidden b l1 = true.
Proof.
  intros g a b s1 ans s1' l1 Hab Hg HS HI Hh H.
  assert (Hba : b <> a) by congruence.
  assert (Ht : IO <> W b) by discriminate.
  destruct (step_micro _ _ _ _ _ _ H) as [x R E|c Et|k rest m E D]; try discriminate Et.
  { destruct (ioI_unwind _ x HI R) as (_ & c & pre & k & rest & _ & _ & E2 & _).
    unfold reached in E. rewrite R, E2 in E. discriminate. }
  destruct (reached_about _ a k rest HI Hh E) as (Hk & _ & Ep & _).
  generalize (does_local g IO (raising (getth s1 IO)) k ans s1 a (about_chan_of _ _ Hk))
             (does_hidden g IO (raising (getth s1 IO)) k ans s1 a b (about_chan_of _ _ Hk) Hba Ht).
  rewrite D. intros (O & Pp & _) Hhid.
  destruct (ioI_does g s1 ans k rest m Hg HS HI E D) as (_ & _ & X).
  rewrite getth_setth_same. simpl. split; [apply only_setth, O|].
  split; [rewrite proj_app, (proj_about_a a _ Pp), Ep; reflexivity|]. split; [|exact Hhid].
  destruct (m_rais m) as [y|]; auto. destruct (X y eq_refl) as (_ & c & Ec & -> & Hp).
  assert (c = a) by (apply about_chan_of in Hk; congruence). subst c. eapply prot_head_a; eauto.
Qed.

(* the I/O thread executes (or unwinds through) an instruction of the observed connection b *)
Lemma io_b_step : forall g a b s1 s2 ans s1' l1,
  a <> b -> init_guarded g = true -> SInv g s1 -> ioI (getth s1 IO) -> rel a b s1 s2 ->
  head_a b (stk (getth s1 IO)) = true -> step g s1 (IO, ans) = Some (s1', l1) ->
  exists s2', step g s2 (IO, ans) = Some (s2', l1) /\ rel a b s1' s2' /\ labels_of a l1 = [].
Proof.
  intros g a b s1 s2 ans s1' l1 Hab Hg HS HI HR Hh H.
  pose proof HR as [HB Rwb Rwa Rstk Rr]. rewrite (head_other a b _ Hab Hh) in Rr.
  assert (Rr' : raising (getth s2 IO) = raising (getth s1 IO)) by (rewrite Rr; destruct (raising (getth s1 IO)); reflexivity).
  destruct (step_micro _ _ _ _ _ _ H) as [x R E|c Et|k rest m E D]; try discriminate Et.
  { destruct (ioI_unwind _ x HI R) as (_ & c & pre & k & rest & _ & _ & E2 & _).
    unfold reached in E. rewrite R, E2 in E. discriminate. }
  destruct (reached_about _ b k rest HI Hh E) as (Hk & Hio & _ & E2). specialize (E2 a Hab).
  assert (Hnl : wonly k = true -> locals (getth s1 IO) = locals (getth s2 IO))
    by (intro Wk; unfold ioable in Hio; rewrite Wk in Hio; discriminate).
  generalize (does_det g IO (raising (getth s1 IO)) k ans s1 s2 b (about_chan_of _ _ Hk) (proj1 HB) Hnl)
             (does_local g IO (raising (getth s1 IO)) k ans s1 b (about_chan_of _ _ Hk))
             (does_local g IO (raising (getth s1 IO)) k ans s2 b (about_chan_of _ _ Hk)).
  rewrite D. unfold same_micro. destruct (does g IO _ k ans s2) as [m2|] eqn:D2; [|contradiction].
  intros (Ep & El & Er & Eb & _) (O1 & P1 & N1) (O2 & _).
  destruct (ioI_does g s1 ans k rest m Hg HS HI E D) as (_ & _ & X).
  rewrite step_does. unfold reached. rewrite Rr', Rstk, E2, D2, <- Ep, <- El, <- Er.
  eexists. split; [reflexivity|]. split; [|apply not_about_labels; auto].
  apply rel_io with (1 := HR); simpl; try (intro; apply O1 || apply O2; discriminate).
  - eapply base_only; eauto.
  - rewrite proj_app, (proj_about_b a b _ Hab P1). reflexivity.
  - destruct (m_rais m) as [y|]; auto. destruct (X y eq_refl) as (_ & c & Ec & -> & Hp).
    assert (c = b) by (apply about_chan_of in Hk; congruence). subst c.
    simpl. rewrite (head_other a b rest Hab (prot_head_a _ _ _ Hp)). reflexivity.
Qed.

(* the I/O thread executes an instruction that belongs to no connection (the poll turn, accept) *)
Lemma io_shared_step : forall g a b s1 s2 ans s1' l1 i rest,
  a <> b -> init_guarded g = true -> SInv g s1 -> ioI (getth s1 IO) -> lst_in_map s1 = true -> rel a b s1 s2 ->
  stk (getth s1 IO) = i :: rest -> chan_of i = None -> step g s1 (IO, ans) = Some (s1', l1) ->
  exists s2' l2, step g s2 (IO, tr_ans a ans) = Some (s2', l2) /\ rel a b s1' s2' /\
                 view b l1 = view b l2 /\ labels_of a l2 = [].
Proof.
  intros g a b s1 s2 ans s1' l1 i rest Hab Hg HS HI HL HR S Hc H.
  pose proof HR as [HB Rwb Rwa Rstk Rr]. pose proof HI as [I1 I2 I3].
  assert (Hna : about a i = false) by (unfold about; rewrite Hc; reflexivity).
  assert (R : raising (getth s1 IO) = None).
  { destruct (raising (getth s1 IO)) as [x|] eqn:R; auto.
    destruct (I3 x eq_refl) as (_ & c & Hp). rewrite S in Hp. simpl in Hp.
    apply andb_true_iff in Hp. destruct Hp as [Hp _]. apply about_chan_of in Hp. congruence. }
  rewrite R in Rr. rewrite S in Rstk, I1. rewrite (proj_cons_na a i rest Hna) in Rstk.
  simpl in I1. apply andb_true_iff in I1. destruct I1 as [Hio _].
  assert (Hsc : selfcov i = true).
  { rewrite S in I2. simpl in I2. rewrite Hc in I2. apply andb_true_iff in I2. destruct I2 as [I2 _].
    rewrite orb_false_r in I2. exact I2. }
  assert (Hsel : forall r w e, i = ISelect r w e -> negb (use_poll2 g) && negb (forallb (fd_open s1) e) = false).
  { intros r w e ->. destruct (negb (use_poll2 g) && negb (forallb (fd_open s1) e)) eqn:C; auto.
    exfalso. eapply (selfcov_no_raise g s1 (ISelect r w e) rest ans); eauto. cbn [exec]. rewrite C. reflexivity. }
  pose proof (shared_exec g a b i ans s1 s2 Hab HB HL Hc Hsel) as SE.
  pose proof (fun c => does_other_thread g IO None i ans s1 (W c) ltac:(discriminate)) as EO1. unfold does in EO1.
  pose proof (exec_own_stack g IO i ans s1) as EW1.
  unfold step in H. rewrite R, S in H. unfold step. rewrite Rr, Rstk.
  destruct (exec g IO i ans s1) as [|s1f p1 ls1|s1f x1 ls1] eqn:E; [discriminate| |contradiction].
  injection H as <- <-.
  destruct SE as (s2f & l2 & E2 & HB' & Ev & El).
  pose proof (fun c => does_other_thread g IO None (strip a i) (tr_ans a ans) s2 (W c) ltac:(discriminate)) as EO2.
  unfold does in EO2.
  pose proof (exec_own_stack g IO (strip a i) (tr_ans a ans) s2) as EW2.
  rewrite E2 in *. destruct EW1 as [_ ER1]. destruct EW2 as [_ ER2].
  eexists. eexists. split; [reflexivity|]. split; [|split; auto].
  apply rel_io with (1 := HR); simpl; auto.
  - rewrite proj_app. reflexivity.
  - rewrite ER1, ER2, R, Rr. reflexivity.
Qed.

(* one step of the faulted system is matched by at most one step of the system without a *)
Lemma sim_step : forall g a b s1 s2 ch s1' l1,
  a <> b -> init_guarded g = true -> SInv g s1 -> ioI (getth s1 IO) -> lst_in_map s1 = true ->
  (forall c, wtagged s1 c) -> rel a b s1 s2 -> step g s1 ch = Some (s1', l1) ->
  exists (o : option choice) s2' l2,
    match o with
    | None => s2' = s2 /\ l2 = []
    | Some ch2 => step g s2 ch2 = Some (s2', l2)
    end /\ rel a b s1' s2' /\ view b l1 = view b l2 /\ labels_of a l2 = [].
Proof.
  intros g a b s1 s2 [t ans] s1' l1 Hab Hg HS HI HL Hw HR H.
  assert (Hba : b <> a) by congruence.
  destruct t as [|c].
  - pose proof HI as [I1 I2 I3].
    destruct (stk (getth s1 IO)) as [|i rest] eqn:S.
    { exfalso. unfold step in H. rewrite S in H. destruct (raising (getth s1 IO)) as [x|] eqn:R; [|discriminate].
      destruct (I3 x eq_refl) as (_ & c & Hp). discriminate. }
    destruct (chan_of i) as [c|] eqn:Ec.
    + assert (Hi : about c i = true) by (unfold about; rewrite Ec; apply chan_eqb_refl).
      destruct (chan_dec c a) as [->|Hca].
      * assert (Hh : head_a a (stk (getth s1 IO)) = true) by (rewrite S; exact Hi).
        destruct (io_a_step g a b s1 ans s1' l1 Hab Hg HS HI Hh H) as (O & E4 & E5 & E6).
        exists None, s2, []. split; [auto|]. split; [|split; [apply hidden_view; auto|reflexivity]].
        apply (rel_stutter a b IO s1); auto; try discriminate.
        -- rewrite E4. apply HR.
        -- rewrite (r_rais _ _ _ _ HR). destruct (raising (getth s1 IO)); [rewrite Hh|];
             (destruct (raising (getth s1' IO)); [rewrite E5|]; reflexivity).
      * assert (c = b) by (destruct a, b, c; congruence). subst c.
        assert (Hh : head_a b (stk (getth s1 IO)) = true) by (rewrite S; exact Hi).
        destruct (io_b_step g a b s1 s2 ans s1' l1 Hab Hg HS HI HR Hh H) as (s2' & E1 & E2 & E3).
        exists (Some (IO, ans)), s2', l1. auto.
    + destruct (io_shared_step g a b s1 s2 ans s1' l1 i rest Hab Hg HS HI HL HR S Ec H) as (s2' & l2 & E1 & E2 & E3 & E4).
      exists (Some (IO, tr_ans a ans)), s2', l2. auto.
  - destruct (chan_dec c a) as [->|Hca].
    + destruct (wstep_local g s1 a ans s1' l1 b (Hw a) Hba H) as [O E4].
      exists None, s2, []. split; [auto|]. split; [|split; [apply hidden_view; auto|reflexivity]].
      assert (Eio : getth s1' IO = getth s1 IO) by (apply O; discriminate).
      apply (rel_stutter a b (W a) s1); auto; try congruence; rewrite Eio; apply HR.
    + assert (c = b) by (destruct a, b, c; congruence). subst c.
      pose proof HR as [HB Rwb Rwa Rstk Rr].
      pose proof (worker_two_run g s1 s2 b ans (Hw b) (proj1 HB) Rwb) as TW. unfold same_step in TW. rewrite H in TW.
      destruct (step g s2 (W b, ans)) as [[s2' l2]|] eqn:H2; [|contradiction].
      destruct TW as (T1 & T2 & <-).
      assert (Hw2 : wtagged s2 b) by (unfold wtagged; rewrite <- Rwb; apply Hw).
      destruct (wstep_local g s1 b ans s1' l1 a (Hw b) Hab H) as [O1 E4].
      destruct (wstep_local g s2 b ans s2' l1 a Hw2 Hab H2) as [O2 F4].
      exists (Some (W b, ans)), s2', l1. split; [auto|]. split; [|split; [reflexivity|apply hidden_labels_of; auto]].
      pose proof O1 as (_ & U1 & _). pose proof O2 as (_ & U2 & _). constructor.
      * eapply base_only; eauto.
      * exact T2.
      * rewrite U2 by congruence. exact Rwa.
      * rewrite U1, U2 by discriminate. exact Rstk.
      * rewrite U1, U2 by discriminate. exact Rr.
Qed.
