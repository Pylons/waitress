(* The chunked receiver does not depend on where its input is cut: feeding x
   and then y is the same as feeding x ++ y -- exactly (state and consumed
   count) unless x itself raises an error, in which case both runs end with
   that same error.  One iteration on x is either decided by x alone (what
   follows is only appended to the rest) or absorbs x into a carry field (and
   the iteration on x ++ y is the iteration of the new state on y); induction
   on the run over x does the rest.  The fixed receiver likewise. *)
From Coq Require Import List NArith ZArith Bool Lia Arith.
From WV Require Import Lib.PyBytes Lib.Regex Gen.GenRegex Model.Receiver Proof.PyBytesFacts
  Proof.ReceiverTotal.
Import ListNotations.

(* fuel-free view of the loop *)
Definition run (st : chunked_rcv) (s : bytes) (o : Z) (r : chunked_rcv * Z) : Prop :=
  exists f, chunked_loop f st s o = Some r.

Lemma run_det st s o r1 r2 : run st s o r1 -> run st s o r2 -> r1 = r2.
Proof.
  intros [f1 H1] [f2 H2].
  apply (loop_fuel_mono _ (Nat.max f1 f2)) in H1; [|lia].
  apply (loop_fuel_mono _ (Nat.max f1 f2)) in H2; [|lia]. congruence.
Qed.

Lemma run_total st s o : exists r, run st s o r.
Proof.
  destruct (chunked_loop (S (M st s)) st s o) as [r|] eqn:E.
  - exists r, (S (M st s)). exact E.
  - exfalso. revert E. apply loop_some. lia.
Qed.

Lemma run_nonempty st s o r : s <> [] ->
  (run st s o r <->
   match chunked_iter st s o with
   | Continue st' s' => run st' s' o r
   | Break st' => r = (st', o)
   | Return st' v => r = (st', v)
   end).
Proof.
  destruct s as [|x s]; [congruence|]. intros _. split.
  - intros [f H]. destruct f; [discriminate|]. cbn [chunked_loop] in H.
    destruct (chunked_iter st (x :: s) o); try congruence. exists f; auto.
  - intros H. destruct (chunked_iter st (x :: s) o) eqn:E.
    + destruct H as [f H]. exists (S f). cbn [chunked_loop]. now rewrite E.
    + exists 1. cbn [chunked_loop]. rewrite E. congruence.
    + exists 1. cbn [chunked_loop]. rewrite E. congruence.
Qed.

Lemma received_run st s r : c_completed st = false ->
  (chunked_received st s = Some r <-> run st s (Z.of_nat (length s)) r).
Proof.
  intros Hc. unfold chunked_received. rewrite Hc. split.
  - intros H. eexists; eauto.
  - intros H. destruct (chunked_loop (chunked_fuel st s) st s (Z.of_nat (length s))) as [r'|] eqn:E.
    + f_equal. eapply run_det; eauto. eexists; eauto.
    + exfalso. revert E. apply loop_some. unfold M, chunked_fuel. destruct (validate_chunk_end st); lia.
Qed.

(* the length of the call's data only shifts the result *)
Lemma iter_shift st s o k :
  chunked_iter st s (o + k) =
  match chunked_iter st s o with
  | Continue a b => Continue a b
  | Break a => Break a
  | Return a v => Return a (v + k)
  end.
Proof.
  destruct (rcv_phase_of st) as [Hrm|Hrm Hv|Hrm Hv Hall|Hrm Hv Hall].
  - rewrite !chunked_iter_data by exact Hrm. reflexivity.
  - rewrite !chunked_iter_term by assumption. unfold term_step.
    destruct (find _ CRLF) as [[|p]|]; [| |destruct (_ <? 2)]; reflexivity.
  - rewrite !chunked_iter_ctl by assumption. unfold ctl_step, ctl_line.
    destruct (find _ CRLF); [|reflexivity]. destruct (firstn _ _); [reflexivity|].
    destruct (control_line_verdict _); [destruct (0 <? sz)%N| |]; reflexivity.
  - rewrite !chunked_iter_trailer by assumption. unfold trailer_step.
    destruct (startswith _ _); [f_equal; lia|]. destruct (find_double_newline _); [f_equal; lia | reflexivity].
Qed.

Lemma loop_shift f k : forall st s o st' n,
  chunked_loop f st s o = Some (st', n) -> chunked_loop f st s (o + k) = Some (st', (n + k)%Z).
Proof.
  induction f as [|f IH]; intros st s o st' n H.
  - destruct s; simpl in *; congruence.
  - destruct s as [|x s]; [simpl in *; congruence|].
    cbn [chunked_loop] in *. rewrite iter_shift.
    destruct (chunked_iter st (x :: s) o); try congruence. apply IH; auto.
Qed.

Lemma run_shift st s o k st' n : run st s o (st', n) -> run st s (o + k) (st', (n + k)%Z).
Proof. intros [f H]. exists f. apply loop_shift; auto. Qed.

Definition app_rest (r : iter_res) (y : bytes) : iter_res :=
  match r with
  | Continue a s => Continue a (s ++ y)
  | Break a => Break a
  | Return a v => Return a v
  end.

(* equality of receiver states up to the [trailer] field of a completed receiver
   (a "no trailer" completion keeps whatever piece was stored before) *)
Definition ceq (a b : chunked_rcv) : Prop :=
  (c_completed a = false /\ a = b) \/
  (c_completed a = true /\ set_trailer a [] = set_trailer b []).

Lemma ceq_refl a : ceq a a.
Proof. destruct (c_completed a) eqn:E; [right | left]; auto. Qed.

Definition iter_ceq (r r' : iter_res) : Prop :=
  r = r' \/
  exists a a' v, r = Return a v /\ r' = Return a' v /\
                 c_completed a = true /\ set_trailer a [] = set_trailer a' [].

(* One iteration on a prefix x of the input: x alone decides it, or x goes
   whole into a carry field (or the buffer) and the next iteration sees y as
   the iteration on x ++ y would. *)
Inductive iter_cut (st : chunked_rcv) (x : bytes) : Prop :=
| Decided :
    (forall y o, chunked_iter st (x ++ y) (o + Z.of_nat (length y)) = app_rest (chunked_iter st x o) y) ->
    iter_cut st x
| Absorbed st' :
    (forall o, chunked_iter st x o = Continue st' []) ->
    (forall y o, iter_ceq (chunked_iter st' y o) (chunked_iter st (x ++ y) o)) ->
    iter_cut st x.

Lemma data_state_open st x : (lenN x < chunk_remainder st)%N ->
  data_state st x = set_rem (buf_append st x) (chunk_remainder st - lenN x).
Proof.
  intros H. unfold data_state. cbv zeta. rsimpl.
  destruct (chunk_remainder st - lenN x =? 0)%N eqn:Z; [|reflexivity]. apply N.eqb_eq in Z. lia.
Qed.

Lemma data_state_app st x w : (lenN x < chunk_remainder st)%N ->
  data_state (data_state st x) w = data_state st (x ++ w).
Proof.
  intros H. rewrite (data_state_open st x H). unfold data_state. cbv zeta. rsimpl.
  rewrite lenN_app, N.sub_add_distr, app_assoc. reflexivity.
Qed.

(* the chunk ends inside x, or x is all chunk data *)
Lemma data_cut st x : (0 < chunk_remainder st)%N -> iter_cut st x.
Proof.
  intros Hrm. destruct (le_lt_dec (N.to_nat (chunk_remainder st)) (length x)) as [L|L].
  - apply Decided. intros y o. rewrite !chunked_iter_data by exact Hrm. unfold data_step. cbv zeta.
    rewrite firstn_app_le by exact L. cbn [app_rest]. f_equal.
    apply skipn_app_le. rewrite firstn_length. lia.
  - assert (H : (lenN x < chunk_remainder st)%N) by (unfold lenN; lia).
    assert (R : chunk_remainder (data_state st x) = (chunk_remainder st - lenN x)%N)
      by (rewrite data_state_open by exact H; reflexivity).
    apply (Absorbed _ _ (data_state st x)).
    + intros o. rewrite chunked_iter_data by exact Hrm. unfold data_step. cbv zeta.
      rewrite firstn_all2 by lia. now rewrite skipn_all.
    + intros y o. left. symmetry.
      rewrite (chunked_iter_data st) by exact Hrm. rewrite chunked_iter_data by (rewrite R; lia).
      unfold data_step. cbv zeta. rewrite R.
      replace (N.to_nat (chunk_remainder st - lenN x)) with (N.to_nat (chunk_remainder st) - length x)
        by (unfold lenN; lia).
      rewrite firstn_app, (firstn_all2 x) by lia.
      set (w := firstn (N.to_nat (chunk_remainder st) - length x) y).
      rewrite data_state_app by exact H. f_equal.
      rewrite app_length, skipn_app, skipn_all2 by lia. cbn [app]. f_equal. lia.
Qed.

(* chunk terminator: two bytes decide; fewer are stored *)
Lemma term_cut st x : chunk_remainder st = 0%N -> validate_chunk_end st = true -> iter_cut st x.
Proof.
  intros Hrm Hv. set (s1 := chunk_end st ++ x). destruct (le_lt_dec 2 (length s1)) as [L|L].
  - apply Decided. intros y o. rewrite !chunked_iter_term, app_assoc by assumption. fold s1.
    unfold term_step. destruct (find s1 CRLF) as [p|] eqn:F.
    + rewrite (find_app_l _ y _ _ F). destruct p; [|reflexivity].
      cbn [app_rest]. f_equal. apply skipn_app_le. exact L.
    + replace (length s1 <? 2) with false by (symmetry; apply Nat.ltb_ge; exact L). cbn [app_rest].
      destruct (find (s1 ++ y) CRLF) as [[|q]|] eqn:F2; [|reflexivity|].
      * apply find_app_inv in F2; [congruence | exact L].
      * replace (length (s1 ++ y) <? 2) with false; [reflexivity|].
        symmetry. apply Nat.ltb_ge. rewrite app_length. lia.
  - apply (Absorbed _ _ (set_chunk_end st s1)).
    + intros o. rewrite chunked_iter_term by assumption. fold s1. unfold term_step.
      rewrite find_short by exact L. apply Nat.ltb_lt in L. now rewrite L.
    + intros y o. left. rewrite (chunked_iter_term st), app_assoc by assumption. now rewrite chunked_iter_term.
Qed.

(* control line: decided once its CRLF is there *)
Lemma ctl_decided st s1 y pos : find s1 CRLF = Some pos ->
  ctl_step st (s1 ++ y) = app_rest (ctl_step st s1) y.
Proof.
  intros F. unfold ctl_step. rewrite (find_app_l _ y _ _ F), F, (firstn_app_find _ y _ _ F).
  pose proof (skipn_app_find _ y _ _ F) as Hs. cbn [length CRLF] in Hs. rewrite Hs.
  unfold ctl_line. destruct (firstn pos s1); [reflexivity|].
  destruct (control_line_verdict _); try reflexivity. destruct (0 <? sz)%N; reflexivity.
Qed.

Lemma iter_control_found st x y o pos :
  chunk_remainder st = 0%N -> validate_chunk_end st = false -> all_chunks_received st = false ->
  find (control_line st ++ x) CRLF = Some pos ->
  chunked_iter st (x ++ y) o =
  match chunked_iter st x o with
  | Continue a r => Continue a (r ++ y)
  | Break a => Break a
  | Return a v => Return a v
  end.
Proof.
  intros H1 H2 H3 Hf. rewrite !chunked_iter_ctl, app_assoc by assumption. exact (ctl_decided st _ y pos Hf).
Qed.

Lemma ctl_cut st x :
  chunk_remainder st = 0%N -> validate_chunk_end st = false -> all_chunks_received st = false ->
  iter_cut st x.
Proof.
  intros Hrm Hv Hall. destruct (find (control_line st ++ x) CRLF) as [pos|] eqn:F.
  - apply Decided. intros y o. rewrite !chunked_iter_ctl, app_assoc by assumption. exact (ctl_decided st _ y pos F).
  - apply (Absorbed _ _ (set_control st (control_line st ++ x))).
    + intros o. rewrite chunked_iter_ctl by assumption. unfold ctl_step. now rewrite F.
    + intros y o. left. rewrite (chunked_iter_ctl st), app_assoc by assumption. now rewrite chunked_iter_ctl.
Qed.

(* trailer: decided when it ends inside x (the count of the bytes left over
   does not change when y comes with the same call), otherwise stored; the
   stored piece shows only in a "no trailer" completion *)
Lemma trailer_cut st x :
  chunk_remainder st = 0%N -> validate_chunk_end st = false -> all_chunks_received st = true ->
  iter_cut st x.
Proof.
  intros Hrm Hv Hall. set (tr := trailer st ++ x).
  destruct (startswith tr CRLF) eqn:Hsw; [|destruct (find_double_newline tr) as [p|] eqn:Hd].
  - apply Decided. intros y o. rewrite !chunked_iter_trailer, app_assoc by assumption. fold tr.
    unfold trailer_step. rewrite (startswith_app _ y _ Hsw), Hsw. cbn [app_rest]. f_equal.
    rewrite app_length, Nat2Z.inj_add. lia.
  - apply Decided. intros y o. rewrite !chunked_iter_trailer, app_assoc by assumption. fold tr.
    unfold trailer_step. rewrite Hsw, Hd. apply fdn_Some in Hd as (i & Hi & ->).
    pose proof (find_bound _ _ _ Hi) as B. change (length CRLFCRLF) with 4 in B.
    rewrite startswith_app_long by (change (length CRLF) with 2; lia). rewrite Hsw.
    unfold find_double_newline. rewrite (find_app_l _ y _ _ Hi), (firstn_app_le (i + 4) tr y) by lia.
    cbn [app_rest]. f_equal. rewrite app_length, Nat2Z.inj_add. lia.
  - apply (Absorbed _ _ (set_trailer st tr)).
    + intros o. rewrite chunked_iter_trailer by assumption. fold tr. unfold trailer_step. now rewrite Hsw, Hd.
    + intros y o. rewrite (chunked_iter_trailer st), app_assoc by assumption.
      rewrite chunked_iter_trailer by assumption. unfold trailer_step. rsimpl. fold tr.
      destruct (startswith (tr ++ y) CRLF).
      * right. eexists _, _, _. repeat split; reflexivity.
      * left. destruct (find_double_newline (tr ++ y)); reflexivity.
Qed.

Lemma iter_app st x : iter_cut st x.
Proof.
  destruct (rcv_phase_of st) as [Hrm|Hrm Hv|Hrm Hv Hall|Hrm Hv Hall];
    [apply data_cut | apply term_cut | apply ctl_cut | apply trailer_cut]; assumption.
Qed.

(* an error is only ever set on the way into the trailer phase *)
Definition err_phase (st : chunked_rcv) : Prop :=
  c_error st <> None ->
  chunk_remainder st = 0%N /\ validate_chunk_end st = false /\ all_chunks_received st = true.

Lemma iter_keeps st s o : err_phase st ->
  match chunked_iter st s o with
  | Continue a _ => c_completed a = c_completed st /\ err_phase a
  | Break a => c_completed a = c_completed st /\ c_error a <> None
  | Return a _ => c_completed a = true
  end.
Proof.
  intros P. unfold err_phase in *.
  destruct (rcv_phase_of st) as [Hrm|Hrm Hv|Hrm Hv Hall|Hrm Hv Hall].
  - rewrite chunked_iter_data by exact Hrm. unfold data_step, data_state. cbv zeta.
    destruct (_ =? 0)%N; (split; [reflexivity|]); intros E; apply P in E; lia.
  - rewrite chunked_iter_term by assumption. unfold term_step, term_bad.
    destruct (find _ CRLF) as [[|p]|]; [| |destruct (_ <? 2)]; (split; [reflexivity|]); rsimpl;
      first [solve [intros _; auto] | intros E; apply P in E; destruct E as (_ & E & _); congruence].
  - rewrite chunked_iter_ctl by assumption. unfold ctl_step, ctl_line.
    destruct (find _ CRLF); [destruct (firstn _ _); [|destruct (control_line_verdict _); [destruct (0 <? sz)%N| |]]|];
      (split; [reflexivity|]); rsimpl; try discriminate; intros E; apply P in E; destruct E as (_ & _ & E); congruence.
  - rewrite chunked_iter_trailer by assumption. unfold trailer_step.
    destruct (startswith _ _); [reflexivity|]. destruct (find_double_newline _); [reflexivity|].
    split; [reflexivity|]. rsimpl. auto.
Qed.

Lemma iter_error_kept st s o e : err_phase st -> c_error st = Some e ->
  match chunked_iter st s o with
  | Continue a _ | Break a | Return a _ => c_error a = Some e
  end.
Proof.
  intros P He. destruct P as (H1 & H2 & H3); [congruence|].
  rewrite chunked_iter_trailer by assumption. unfold trailer_step.
  destruct (startswith _ _); [exact He|]. destruct (find_double_newline _); exact He.
Qed.

Lemma run_error_kept st s o e r : err_phase st -> c_error st = Some e -> run st s o r ->
  c_error (fst r) = Some e.
Proof.
  intros P He [f H]. revert st s P He H. induction f as [|f IH]; intros st s P He H.
  - destruct s; simpl in H; [|discriminate]. injection H as <-. exact He.
  - destruct s as [|x s]; [simpl in H; injection H as <-; exact He|].
    cbn [chunked_loop] in H. pose proof (iter_keeps st (x :: s) o P) as K.
    pose proof (iter_error_kept st (x :: s) o e P He) as E.
    destruct (chunked_iter st (x :: s) o).
    + eapply IH; [apply K | exact E | exact H].
    + injection H as <-. exact E.
    + injection H as <-. exact E.
Qed.

Definition ceq_res (r r' : chunked_rcv * Z) : Prop := ceq (fst r) (fst r') /\ snd r = snd r'.

Lemma ceq_res_refl r : ceq_res r r.
Proof. split; [apply ceq_refl | reflexivity]. Qed.

Lemma ceq_error a b : ceq a b -> c_error a = c_error b.
Proof. intros [(_ & ->)|(_ & E)]; [reflexivity|]. exact (f_equal c_error E). Qed.

Lemma run_absorbed st x st' y o : y <> [] ->
  (forall y o, iter_ceq (chunked_iter st' y o) (chunked_iter st (x ++ y) o)) ->
  forall r2, run st' y o r2 -> exists r', run st (x ++ y) o r' /\ ceq_res r2 r'.
Proof.
  intros Hy A r2 R. apply run_nonempty in R; [|exact Hy].
  assert (Hxy : x ++ y <> []) by (intros E; apply app_eq_nil in E; tauto).
  destruct (A y o) as [E | (a & a' & v & E1 & E2 & C & T)].
  - exists r2. split; [|apply ceq_res_refl]. apply run_nonempty; [exact Hxy|].
    rewrite <- E. exact R.
  - rewrite E1 in R. subst r2. exists (a', v). split.
    + apply run_nonempty; [exact Hxy|]. now rewrite E2.
    + split; [right; split; assumption | reflexivity].
Qed.

(* What the run on x ++ y owes to a run on x that ended in (st1, n1) when
   called with o; [oy] is the offset of the run on y.  W stands for the results
   of the run on x ++ y: it is [run st (x ++ y) _] in [loop_app] and is kept
   abstract because the induction step replaces it by the run from the next state. *)
Definition split_concl (y : bytes) (oy : Z) (W : chunked_rcv * Z -> Prop)
    (o : Z) (st1 : chunked_rcv) (n1 : Z) : Prop :=
  (c_completed st1 = true -> W (st1, n1)) /\
  (c_completed st1 = false -> c_error st1 = None ->
     n1 = o /\ forall r2, run st1 y oy r2 -> exists r', W r' /\ ceq_res r2 r') /\
  (forall e, c_error st1 = Some e -> exists r', W r' /\ c_error (fst r') = Some e).

Lemma concl_mono y oy (W W' : chunked_rcv * Z -> Prop) o st1 n1 :
  (forall r, W r -> W' r) -> split_concl y oy W o st1 n1 -> split_concl y oy W' o st1 n1.
Proof.
  intros H (A & B & C). split; [auto|]. split.
  - intros Hc He. destruct (B Hc He) as (E & B'). split; [exact E|].
    intros r2 R. destruct (B' r2 R) as (r' & Wr & Q). eauto.
  - intros e He. destruct (C e He) as (r' & Wr & E). eauto.
Qed.

(* the run on x stopped at the end of x with the receiver open *)
Lemma concl_open y oy (W : chunked_rcv * Z -> Prop) o st1 :
  err_phase st1 -> c_completed st1 = false ->
  (forall r2, run st1 y oy r2 -> exists r', W r' /\ ceq_res r2 r') ->
  split_concl y oy W o st1 o.
Proof.
  intros P Hc H. split; [congruence|]. split; [auto|].
  intros e He. destruct (run_total st1 y oy) as [r2 R]. destruct (H r2 R) as (r' & Wr & Q & _).
  exists r'. split; [exact Wr|]. rewrite <- (ceq_error _ _ Q). eapply run_error_kept; eauto.
Qed.

Lemma loop_app y : y <> [] -> forall f st x o st1 n1,
  c_completed st = false -> err_phase st -> chunked_loop f st x o = Some (st1, n1) ->
  split_concl y (o + Z.of_nat (length y)) (run st (x ++ y) (o + Z.of_nat (length y))) o st1 n1.
Proof.
  intros Hy. induction f as [|f IH]; intros st x o st1 n1 Hc P H;
    (destruct x as [|b x'];
     [simpl in H; injection H as <- <-; apply concl_open; auto;
      intros r2 R; exists r2; split; [exact R | apply ceq_res_refl]|]);
    [discriminate|].
  cbn [chunked_loop] in H. pose proof (iter_keeps st (b :: x') o P) as K.
  destruct (iter_app st (b :: x')) as [D | st' A1 A2].
  - (* decided: the run on x ++ y takes the same step, y staying behind the rest *)
    assert (T : forall r, run st ((b :: x') ++ y) (o + Z.of_nat (length y)) r <->
                 match app_rest (chunked_iter st (b :: x') o) y with
                 | Continue st' s' => run st' s' (o + Z.of_nat (length y)) r
                 | Break st' => r = (st', (o + Z.of_nat (length y))%Z)
                 | Return st' v => r = (st', v)
                 end).
    { intros r. rewrite <- D. apply run_nonempty. discriminate. }
    destruct (chunked_iter st (b :: x') o) as [a r|a|a v]; cbn [app_rest] in T.
    + destruct K as (Ka & Pa).
      apply (concl_mono _ _ (run a (r ++ y) (o + Z.of_nat (length y)))); [intros R; apply T|].
      apply IH; [congruence | exact Pa | exact H].
    + injection H as <- <-. destruct K as (Ka & Ea).
      split; [congruence|]. split; [intros _ E; congruence|].
      intros e He. eexists. split; [apply T; reflexivity | exact He].
    + injection H as <- <-.
      split; [intros _; apply T; reflexivity|]. split; [congruence|].
      intros e He. eexists. split; [apply T; reflexivity | exact He].
  - (* absorbed: the run on x ends here, the run on x ++ y goes on as that of st' on y *)
    rewrite A1 in H, K. destruct K as (Ka & Pa).
    assert (E : (st1, n1) = (st', o)) by (destruct f; simpl in H; congruence).
    injection E as -> ->. apply concl_open; [exact Pa | congruence|].
    apply run_absorbed; [exact Hy | exact A2].
Qed.

Theorem chunked_split st x y st1 n1 :
  c_completed st = false -> c_error st = None -> y <> [] ->
  chunked_received st x = Some (st1, n1) ->
  (c_completed st1 = true -> chunked_received st (x ++ y) = Some (st1, n1)) /\
  (c_completed st1 = false -> c_error st1 = None ->
     n1 = Z.of_nat (length x) /\
     forall st2 n2, chunked_received st1 y = Some (st2, n2) ->
       exists st', chunked_received st (x ++ y) = Some (st', (Z.of_nat (length x) + n2)%Z) /\ ceq st2 st') /\
  (forall e, c_error st1 = Some e ->
     exists st' n', chunked_received st (x ++ y) = Some (st', n') /\ c_error st' = Some e).
Proof.
  intros Hc He Hy H. apply received_run in H; [|exact Hc]. destruct H as [f H].
  assert (P : err_phase st) by (intros E; congruence).
  destruct (loop_app y Hy f st x _ st1 n1 Hc P H) as (A & B & C).
  assert (E : Z.of_nat (length (x ++ y)) = (Z.of_nat (length x) + Z.of_nat (length y))%Z)
    by (rewrite app_length; lia).
  split; [|split].
  - intros Hc1. apply received_run; [exact Hc|]. rewrite E. auto.
  - intros Hc1 He1. destruct (B Hc1 He1) as (En & B'). split; [exact En|].
    intros st2 n2 R. apply received_run in R; [|exact Hc1].
    apply (run_shift _ _ _ (Z.of_nat (length x))) in R. rewrite Z.add_comm in R.
    destruct (B' _ R) as ([st' n'] & W & Q & N). cbn [fst snd] in Q, N. subst n'.
    exists st'. split; [|exact Q]. apply received_run; [exact Hc|]. rewrite E, (Z.add_comm _ n2). exact W.
  - intros e He1. destruct (C e He1) as ([st' n'] & W & Ee). exists st', n'.
    split; [|exact Ee]. apply received_run; [exact Hc|]. rewrite E. exact W.
Qed.

Lemma find2_CRLF c b : find [c; b] CRLF = if ((13 =? c) && (10 =? b))%N then Some 0 else None.
Proof.
  unfold find, CRLF. cbn. rewrite !andb_true_r, !andb_false_r.
  destruct ((13 =? c) && (10 =? b))%N; reflexivity.
Qed.

(* the fixed-length receiver: the body ends inside x, or x is all body *)
Lemma fixed_split f x y : (1 <= f_remain f)%N ->
  ((f_remain f <= lenN x)%N /\ fixed_received f (x ++ y) = fixed_received f x) \/
  ((lenN x < f_remain f)%N /\
   exists f1, fixed_received f x = (f1, Z.of_N (lenN x)) /\
     f_completed f1 = f_completed f /\ (1 <= f_remain f1)%N /\
     forall f2 n2, fixed_received f1 y = (f2, n2) ->
       fixed_received f (x ++ y) = (f2, (Z.of_N (lenN x) + n2)%Z)).
Proof.
  intros Hr.
  assert (E1 : (f_remain f <? 1)%N = false) by (apply N.ltb_ge; exact Hr).
  destruct (N.le_gt_cases (f_remain f) (lenN x)) as [L|L]; [left | right]; (split; [exact L|]).
  - unfold fixed_received. rewrite E1, lenN_app.
    replace (f_remain f <=? lenN x + lenN y)%N with true by (symmetry; apply N.leb_le; lia).
    replace (f_remain f <=? lenN x)%N with true by (symmetry; apply N.leb_le; exact L).
    rewrite firstn_app_le by (unfold lenN in L; lia). reflexivity.
  - exists {| f_remain := f_remain f - lenN x; f_buf := f_buf f ++ x; f_completed := f_completed f |}.
    cbn [f_completed f_remain f_buf]. split; [|split; [reflexivity|split; [lia|]]].
    { unfold fixed_received. rewrite E1.
      replace (f_remain f <=? lenN x)%N with false by (symmetry; apply N.leb_gt; exact L). reflexivity. }
    intros f2 n2. unfold fixed_received. cbn [f_completed f_remain f_buf]. rewrite E1, lenN_app.
    replace (f_remain f - lenN x <? 1)%N with false by (symmetry; apply N.ltb_ge; lia).
    destruct (f_remain f - lenN x <=? lenN y)%N eqn:E.
    + apply N.leb_le in E.
      replace (f_remain f <=? lenN x + lenN y)%N with true by (symmetry; apply N.leb_le; lia).
      intros H; injection H as <- <-. f_equal; [|lia]. f_equal.
      rewrite firstn_app, firstn_all2, app_assoc by (unfold lenN in L; lia).
      do 2 f_equal. unfold lenN. lia.
    + apply N.leb_gt in E.
      replace (f_remain f <=? lenN x + lenN y)%N with false by (symmetry; apply N.leb_gt; lia).
      intros H; injection H as <- <-. rewrite app_assoc. f_equal; [f_equal|]; lia.
Qed.
