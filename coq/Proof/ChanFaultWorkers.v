(* Proof/ChanFaultWorkers.v -- the invariant behind C13_workers (no fault placement and no schedule kills a
   pool worker): whatever escapes service() is caught by handler_thread's `except BaseException`, which is
   always the bottom frame of a busy worker ([WInv_step]; Props/C13.v runs the invariant rule over it). *)
From Coq Require Import List Arith Bool Lia.
From WV Require Import Lib.Conc Model.ChanFault Proof.ChanFaultSpec Proof.ChanFaultBase Proof.ChanFaultStep.
Import ListNotations.

Definition wtop (s : state) (c : chan) : Prop :=
  let th := getth s (W c) in
  (stk th = [] /\ raising th = None) \/ (exists pre, stk th = pre ++ [KWorkerTop c]).

Definition WInv (s : state) (tr : list label) : Prop :=
  (forall c, wtop s c) /\ workers_ok tr.

Lemma does_no_wdied : forall g t r k a s,
  match does g t r k a s with None => True | Some m => workers_ok (m_ls m) end.
Proof.
  intros. destruct r; unfold does; destruct k; cbn [frame exec]; repeat split_innermost; auto;
  unfold workers_ok; simpl; intros cc Hin; intuition discriminate.
Qed.

(* a stack with the frame K at its bottom: what is reached is K itself, last, or something above it *)
Lemma reached_last : forall th pre K k rest,
  is_frame K = true -> stk th = pre ++ [K] -> reached th = k :: rest ->
  (rest = [] /\ k = K) \/ (exists pre', rest = pre' ++ [K]).
Proof.
  intros th pre K k rest HK Ep E. unfold reached in E. rewrite Ep in E. clear Ep. destruct (raising th).
  - revert k rest E. induction pre as [|i pre IH]; simpl; intros k rest E.
    + rewrite HK in E. injection E as <- <-. auto.
    + destruct (is_frame i); [injection E as <- <-; right; exists pre; reflexivity|apply IH; exact E].
  - destruct pre as [|j pre]; simpl in E; injection E as <- <-; eauto.
Qed.

Lemma reached_some : forall th pre K, is_frame K = true -> stk th = pre ++ [K] -> reached th <> [].
Proof.
  intros th pre K HK Ep. unfold reached. rewrite Ep. clear Ep. destruct (raising th); [|destruct pre; discriminate].
  induction pre as [|i pre IH]; simpl; [rewrite HK; discriminate|]. destruct (is_frame i); [discriminate|auto].
Qed.

(* a step whose labels name a dead worker is that worker's, with an exception and no frame left *)
Lemma step_wdied : forall g s t a s' l,
  step g s (t, a) = Some (s', l) ->
  workers_ok l \/ exists c, t = W c /\ raising (getth s t) <> None /\ reached (getth s t) = [].
Proof.
  intros g s t a s' l H.
  destruct (step_micro _ _ _ _ _ _ H) as [x R E|c Et R S Q|k rest m E D].
  - destruct t as [|c]; [left|right; exists c; rewrite R; repeat split; auto; discriminate].
    intros c [Hin|[]]. discriminate Hin.
  - left. intros c' [].
  - left. generalize (does_no_wdied g t (raising (getth s t)) k a s). rewrite D. auto.
Qed.

(* KWorkerTop stays at the bottom of a busy worker's stack: it is popped only by itself, and then nothing
   is pushed and nothing is being raised *)
Lemma wtop_step : forall g s c a s' l, wtop s c -> step g s (W c, a) = Some (s', l) -> wtop s' c.
Proof.
  intros g s c a s' l Hw H. unfold wtop in *.
  destruct (step_micro _ _ _ _ _ _ H) as [x R E|c' Et R S Q|k rest m E D]; cbv zeta; rewrite getth_setth_same; simpl; auto.
  - injection Et as <-. right. exists [ISvcStart c]. reflexivity.
  - destruct Hw as [[E1 E2]|[pre Ep]]; [unfold reached in E; rewrite E2, E1 in E; discriminate|].
    destruct (reached_last _ pre (KWorkerTop c) _ _ eq_refl Ep E) as [[-> ->]|[pre' ->]].
    + left. unfold does in D. destruct (raising (getth s (W c))); cbn [frame exec] in D; injection D as <-; auto.
    + right. exists (m_push m ++ pre'). apply app_assoc.
Qed.

Lemma WInv_step : forall g s tr c s' l, WInv s tr -> step g s c = Some (s', l) -> WInv s' (tr ++ l).
Proof.
  intros g s tr [t a] s' l [Hw Htr] H. split.
  - intro c. destruct (tid_dec t (W c)) as [->|NE]; [eapply wtop_step; eauto|].
    unfold wtop. rewrite (step_other_thread g s t a s' l (W c) H NE). apply Hw.
  - apply workers_ok_app. split; auto. destruct (step_wdied _ _ _ _ _ _ H) as [Hl|(c & -> & R & D)]; auto.
    exfalso. destruct (Hw c) as [[E1 E2]|[pre Ep]]; [congruence|].
    exact (reached_some _ pre (KWorkerTop c) eq_refl Ep D).
Qed.
