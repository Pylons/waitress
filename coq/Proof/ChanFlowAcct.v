(* Proof/ChanFlowAcct.v -- L3: byte accounting and the C12 bound.
   While the outbufs are open, total_outbufs_len equals the bytes they hold, up to
   the one subtraction / addition that is in flight; bytes on the wire + bytes
   held = bytes accepted; bytes held <= high_watermark + size of the last accepted
   write. *)
From Coq Require Import List ZArith Bool Arith Lia.
From WV Require Import Lib.Conc Model.ChanFlow Proof.ChanFlow Proof.ChanFlowFlags.
Import ListNotations.
Local Open Scope Z_scope.

Definition sub_io (pc : iopc) : Z := match pc with IoSubL k => k | _ => 0 end.
Definition sub_w (pc : wpc) : Z := match pc with WSub _ k => k | _ => 0 end.
Definition add_w (pc : wpc) : Z := match pc with WAdd n => n | _ => 0 end.

(* after the one wait of the exception path write_soon does not test the mark again: L3 records
   that the notify came at total <= high_watermark (IoNotify) or from handle_close *)
Definition woken_e (pc : wpc) : bool := match pc with WFbParkedE _ true => true | _ => false end.
Definition at_notify (pc : iopc) : bool := match pc with IoNotify => true | _ => false end.

Definition L3 (p : params) (s : state) : Prop :=
  (closed_bufs s = false -> pending s + sub_io (io s) + sub_w (wk s) = total s + add_w (wk s))
  /\ 0 <= pending s /\ 0 <= sub_io (io s)
  /\ pending s <= hw p + last_write s
  /\ (woken_e (wk s) = true -> total s <= hw p \/ closed_bufs s = true)
  /\ (at_notify (io s) = true -> total s <= hw p)
  /\ wire s + pending s <= appended s
  /\ (closed_bufs s = false -> wire s + pending s = appended s)
  /\ Forall (fun n => 0 <= n) (wq s).

Lemma L3_init p : 0 <= hw p -> L3 p init.
Proof.
  intros Hhw. unfold L3, init; cbn.
  repeat split; intros; try lia; try exact I; try discriminate; try apply Forall_nil.
Qed.

Lemma Forall_tl (P : Z -> Prop) l : Forall P l -> Forall P (tl l).
Proof. destruct l; cbn; auto. inversion 1; auto. Qed.

Lemma Forall_map_max l : Forall (fun n => 0 <= n) (map (Z.max 0) l).
Proof. induction l; cbn; constructor; auto. lia. Qed.

Lemma io_out_facts pc : io_holds pc = false -> sub_io pc = 0 /\ is_hcconn pc = false /\ at_notify pc = false.
Proof. destruct pc; cbn; auto; discriminate. Qed.

Lemma L3_step_io p s r res s' l :
  L2 s -> L3 p s -> step_io p s r res = Some (s', l) -> L3 p s'.
Proof.
  intros (_ & F2 & _) (A1 & A3 & A4 & A5 & A6 & A7 & A8 & A9 & A10) E.
  unfold step_io in E.
  destruct (io s) eqn:Eio; unf.
  all: split_ifs E; try discriminate E; injection E as <- <-.
  all: wake_cases s; try rewrite Ew in *.
  all: unfold L3; frame s.
  (* the send (IoFlush), the subtraction (IoSubL), IoHcTot, and IoNotify waking a producer parked
     after an exception: arithmetic over the hypotheses *)
  all: try solve [first [at_pc IoFlush | at_pc (IoSubL _) | at_pc (IoHcTot _) | at_pc IoNotify];
                  intros; spec; split_hyps; cbn in *; b2p; lia].
  (* arriving at IoNotify: the notify test, whichever its shape *)
  all: try (first [at_pc IoTry | at_pc IoFlush | at_pc (IoSubL _) | at_pc (IoHcClose _)];
            intros _; destruct (fx_notify_le p); cbn in *; b2p; lia).
  (* IoSubL lowers the counter under a producer woken on the exception path *)
  all: try (at_pc (IoSubL _); intros Q; cbn in *; destruct (A6 Q); [left; lia | right; assumption]).
  (* the notify of handle_close: the outbufs are closed *)
  all: at_pc (IoHcNotify _); intros _; right; exact (F2 eq_refl).
Qed.

(* Most of what [frame] leaves is linear arithmetic over the hypotheses as they are, or about [wq].
   The rest is the bound at an append: write_soon holds the lock and has seen connected = true, so
   the outbufs are open ([C]), nothing is in flight at the I/O thread ([io_out_facts]), hence
   pending = total; and total <= high_watermark by the test that let it through, or by the notify
   that woke it on the exception path (conjunct 5 of L3). *)
Lemma L3_step_w p s r s' l :
  L0 s -> L2 s -> L3 p s -> step_w p s r = Some (s', l) -> L3 p s'.
Proof.
  intros H0 HL2 (A1 & A3 & A4 & A5 & A6 & A7 & A8 & A9 & A10) E.
  unfold step_w in E.
  destruct (wk s) eqn:Ewk; unf.
  all: split_ifs E; try discriminate E; injection E as <- <-.
  all: try (assert (X : io_holds (io s) = false) by (apply (L0_io_out s H0); rewrite Ewk; cbn; auto);
            destruct (io_out_facts _ X) as (S0 & S1 & S2)).
  all: unfold L3; frame s; rewrite ?S0, ?S1, ?S2 in *.
  all: cbn in *; try (match goal with E : wq _ = _ :: _ |- _ => rewrite E in A10 end);
    try (match goal with A : Forall _ (_ :: _) |- _ => inversion A; subst end).
  (* the send (WFlush), the subtraction (WSub), the addition (WAdd), and all of an append but the
     bound: arithmetic over the hypotheses *)
  all: try solve [intros; spec; split_hyps; cbn in *; b2p; lia].
  (* the task's write sizes: WIdle, WWrConn, WAdd *)
  all: try (first [at_pc WIdle | at_pc WWrConn | at_pc (WAdd _)]; solve [auto using Forall_tl, Forall_map_max]).
  (* the bound at an append, reached from WWrAcq, from the end of a flush (WFlush FW, WSub FW), or
     on waking (WFbParked FW, WFbParkedE FW) *)
  all: first [at_pc WWrAcq | at_pc (WFlush _ _) | at_pc (WSub _ _) | at_pc (WFbParked _ _) | at_pc (WFbParkedE _ _)];
    match goal with Co : connected _ = true |- _ =>
      assert (C := open_if_connected s HL2 Co X); try rewrite Co in *; spec; cbn in * end;
    try (destruct A6 as [|]; [|congruence]); b2p; lia.
Qed.

Lemma L3_step p s c s' l :
  L0 s -> L2 s -> L3 p s -> step p s c = Some (s', l) -> L3 p s'.
Proof.
  destruct c as [r res|r|n|a]; cbn [step].
  - intros _. apply L3_step_io.
  - apply L3_step_w.
  - intros _ _ H E. unfold step_tail in E. destruct n as [|[|[|[|[|[|n]]]]]]; try discriminate E; cbv iota in E.
    all: split_ifs E; try discriminate E; injection E as <- <-; exact H.
  - intros _ _ H E. destruct a; cbn in E; split_ifs E; try discriminate E; injection E as <- <-; exact H.
Qed.

(* the layers that rest on each other (the request queue, L1, stands alone) *)
Definition Lall (p : params) (s : state) : Prop := L0 s /\ L2 s /\ L3 p s.

Theorem Lall_step p s c s' l : Lall p s -> step p s c = Some (s', l) -> Lall p s'.
Proof.
  intros (A & C & D) E. split; [|split].
  - eapply L0_step; eauto.
  - eapply L2_step; eauto.
  - eapply L3_step; eauto.
Qed.

Theorem Lall_run p sched : 0 <= hw p -> Lall p (run p sched).
Proof.
  intros Hhw. unfold run. apply invariant_rule.
  - split; [|split]. apply L0_init. apply L2_init. apply L3_init; assumption.
  - intros; eapply Lall_step; eauto.
Qed.

Theorem accounting p sched : 0 <= hw p ->
  let s := run p sched in
  closed_bufs s = false ->
  pending s + sub_io (io s) + sub_w (wk s) = total s + add_w (wk s).
Proof.
  intros H s C. destruct (Lall_run p sched H) as (_ & _ & L). fold s in L.
  destruct L as (L1 & _). auto.
Qed.

(* the counter itself: equal to the bytes held whenever no subtraction / addition is in flight *)
Theorem total_is_pending p sched : 0 <= hw p ->
  let s := run p sched in
  closed_bufs s = false -> sub_io (io s) = 0 -> sub_w (wk s) = 0 -> add_w (wk s) = 0 ->
  total s = pending s.
Proof. intros H s C A B D. pose proof (accounting p sched H C) as E. fold s in E. lia. Qed.

(* the program points whose step changes the outbufs or total_outbufs_len (C12_order_exclusive:
   they are inside the outbuf_lock regions of L0) *)
Definition io_touches (pc : iopc) : bool :=
  match pc with IoFlush | IoSubL _ | IoHcTot _ => true | _ => false end.
Definition w_touches (pc : wpc) : bool :=
  match pc with WFlush _ _ | WSub _ _ | WFlushExn _ | WAdd _ => true | _ => false end.

