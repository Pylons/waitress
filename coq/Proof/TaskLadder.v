(* HTTPChannel.service as equations: the exception ladder gives the result record
   [wound_up] of the last state (the first task's own; that state marked to close;
   the 500 task's; the 500 task's marked to close), and channel_service is the ladder
   applied to the first task's run.  Users keep [ladder], [task_service] and
   [task_run] folded and rewrite with these. *)
From Coq Require Import List NArith ZArith Bool.
From WV Require Import Lib.PyBytes Gen.GenTables Model.Task.
Import ListNotations.

Definition raised (x : exec_result) : option exn :=
  match x_out x with Exn e => Some e | Ok _ => None end.

Section Service.
Variable cap : str -> str.
Variable lower : str -> str.
Variable c : cfg.
Variable r : req.
Variable disc : option nat.

Lemma task_service_quiet s job :
  raised (task_run cap lower c r disc s job) = None ->
  task_service cap lower c r disc s job = task_run cap lower c r disc s job.
Proof.
  unfold raised, task_service. destruct (x_out (task_run cap lower c r disc s job)); [reflexivity|discriminate].
Qed.

Lemma task_service_raised s job e :
  x_out (task_run cap lower c r disc s job) = Exn e -> is_OSError e = false ->
  task_service cap lower c r disc s job = task_run cap lower c r disc s job.
Proof. intros E Hos. unfold task_service. rewrite E, Hos. reflexivity. Qed.

Lemma task_service_st s job :
  let x := task_run cap lower c r disc s job in
  let x' := task_service cap lower c r disc s job in
  snd (x_st x') = snd (x_st x) /\ t_wrote_header (fst (x_st x')) = t_wrote_header (fst (x_st x))
  /\ x_closes x' = x_closes x /\ x_handover x' = x_handover x /\ x_iter x' = x_iter x
  /\ (t_cof (fst (x_st x)) = true -> t_cof (fst (x_st x')) = true).
Proof.
  cbn zeta. unfold task_service.
  destruct (x_out (task_run cap lower c r disc s job)) as [u|e]; [|destruct (is_OSError e)]; repeat split; auto.
Qed.

Lemma task_run_wsgi s a :
  let x := wsgi_execute cap lower c r disc s a in
  let x' := task_run cap lower c r disc s (inl a) in
  x_closes x' = x_closes x /\ x_handover x' = x_handover x /\ x_iter x' = x_iter x.
Proof.
  cbn zeta. unfold task_run. destruct (x_out (wsgi_execute cap lower c r disc s a)); auto.
  destruct (task_finish cap lower c r disc _). auto.
Qed.

Lemma task_run_error s e :
  let x := task_run cap lower c r disc s (inr e) in
  x_closes x = 0%nat /\ x_handover x = false /\ x_iter x = false.
Proof.
  cbn zeta. unfold task_run. destruct (error_execute cap lower c r disc s e) as [s1 [u|e1]]; cbn [x_out x_st]; auto.
  destruct (task_finish cap lower c r disc s1). auto.
Qed.

Lemma task_run_call_raised s a s1 e :
  run_actions cap lower c r disc s (a_call a) = (s1, Exn e) ->
  task_run cap lower c r disc s (inl a) = mkExec s1 (Exn e) 0 false false.
Proof. intro E. unfold task_run, wsgi_execute. rewrite E. reflexivity. Qed.

(* the tail of service() when the last task ended in state [s]; [x] is the first task's run *)
Definition wound_up (x : exec_result) (raw : option exn) (s : st) (served : bool) : result :=
  mkResult (rev (ch_writes (snd s))) (t_cof (fst s)) (negb (t_cof (fst s))) (x_closes x) (x_handover x) None
           (t_wrote_header (fst s)) served (ch_nws (snd (x_st x))) raw
           (x_iter x) (rev (ch_writes (snd (x_st x)))) (t_wrote_header (fst (x_st x))) (fst (x_st x)).

Definition closing (s : st) : st := (set_cof true (fst s), snd s).

(* the InternalServerError task, run on the channel the failed task left *)
Definition run_500 (ch : chan) : exec_result :=
  let body := if c_expose_tracebacks c then c_tb c else internal_error_text in
  let er := mkReq (r_version r) (r_connection r) (r_head r) false (Some (err_InternalServerError, body)) in
  task_service cap lower c er disc (new_task (r_version r) true, ch) (inr (err_InternalServerError, body)).

(* the first task raised something other than ClientDisconnected before its head went out *)
Definition answers_500 (x : exec_result) : bool :=
  match x_out x with
  | Exn e => negb (exn_eqb e ClientDisconnected) && negb (t_wrote_header (fst (x_st x)))
  | Ok _ => false
  end.

Lemma answers_500_iff x : answers_500 x = true <->
  exists e, x_out x = Exn e /\ exn_eqb e ClientDisconnected = false /\ t_wrote_header (fst (x_st x)) = false.
Proof.
  unfold answers_500. split.
  - destruct (x_out x) as [u|e]; [discriminate|]. intro A. apply andb_true_iff in A as [A B].
    exists e. rewrite negb_true_iff in A, B. auto.
  - intros (e & -> & -> & ->). reflexivity.
Qed.

Definition last_state (x : exec_result) : st :=
  match x_out x with
  | Ok _ => x_st x
  | Exn _ =>
      if answers_500 x then
        let x1 := run_500 (snd (x_st x)) in
        match x_out x1 with Ok _ => x_st x1 | Exn _ => closing (x_st x1) end
      else closing (x_st x)
  end.

Lemma ladder_eq x raw :
  ladder cap lower c r disc x raw = wound_up x raw (last_state x) (answers_500 x).
Proof.
  unfold ladder, wound_up, last_state, answers_500, run_500.
  destruct (x_out x) as [u|e]; [reflexivity|].
  destruct (exn_eqb e ClientDisconnected); [reflexivity|].
  destruct (t_wrote_header (fst (x_st x))); cbn [negb andb]; [reflexivity|].
  cbv zeta. set (x1 := task_service _ _ _ _ _ _ _). clearbody x1.
  destruct (x_out x1) as [u1|e1]; [reflexivity|].
  destruct (exn_eqb e1 ClientDisconnected); reflexivity.
Qed.

Lemma last_state_ok x u : x_out x = Ok u -> last_state x = x_st x /\ answers_500 x = false.
Proof. intro E. unfold last_state, answers_500. rewrite E. auto. Qed.

Lemma ladder_ok x raw u : x_out x = Ok u ->
  ladder cap lower c r disc x raw = wound_up x raw (x_st x) false.
Proof. intro E. destruct (last_state_ok x u E) as [S A]. rewrite ladder_eq, S, A. reflexivity. Qed.

Lemma last_state_quiet x e : x_out x = Exn e -> answers_500 x = false -> last_state x = closing (x_st x).
Proof. intros E A. unfold last_state. rewrite A, E. reflexivity. Qed.

(* whether or not the 500 task itself raised, its channel is what is left *)
Lemma last_state_500 x : answers_500 x = true ->
  snd (last_state x) = snd (x_st (run_500 (snd (x_st x)))).
Proof.
  intro A. unfold last_state. rewrite A. unfold answers_500 in A.
  destruct (x_out x); [discriminate|]. cbv zeta.
  generalize (run_500 (snd (x_st x))). intro x1. destruct (x_out x1); reflexivity.
Qed.

Definition job_of (a : app) : app + ((str * str) * str) :=
  match r_error r with Some e => inr e | None => inl a end.
Definition start_state : st :=
  (new_task (r_version r) (match r_error r with Some _ => true | None => false end), mkChan [] 0).

(* the first task's run and what left its execute()/finish(); a channel found
   disconnected runs nothing *)
Definition first_run (a : app) : exec_result :=
  if connected disc 0 then task_service cap lower c r disc start_state (job_of a)
  else mkExec (set_cof true (fst start_state), snd start_state) (Ok tt) 0 false false.
Definition first_raw (a : app) : option exn :=
  if connected disc 0 then raised (task_run cap lower c r disc start_state (job_of a)) else None.

Lemma channel_service_eq a :
  channel_service cap lower c r a disc = ladder cap lower c r disc (first_run a) (first_raw a).
Proof. unfold channel_service, first_run, first_raw. destruct (connected disc 0); reflexivity. Qed.

Lemma service_eq a :
  channel_service cap lower c r a disc
  = wound_up (first_run a) (first_raw a) (last_state (first_run a)) (answers_500 (first_run a)).
Proof. rewrite channel_service_eq. apply ladder_eq. Qed.

Lemma service_quiet a : connected disc 0 = true ->
  let x := task_run cap lower c r disc start_state (job_of a) in
  o_raw (channel_service cap lower c r a disc) = None ->
  x_out x = Ok tt /\ channel_service cap lower c r a disc = wound_up x None (x_st x) false.
Proof.
  intros Hc. cbn zeta. rewrite service_eq. unfold first_run, first_raw. rewrite Hc.
  cbn [o_raw wound_up]. intro Hraw. rewrite Hraw, (task_service_quiet _ _ Hraw).
  unfold raised in Hraw. destruct (x_out (task_run _ _ _ _ _ _ _)) as [[]|e] eqn:E; [|discriminate].
  destruct (last_state_ok _ _ E) as [-> ->]. auto.
Qed.

End Service.
