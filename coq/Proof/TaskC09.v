(* C09: containment of application failures; close() exactly once. *)
From Coq Require Import String.
From Coq Require Import List NArith ZArith Bool Lia Arith.
From WV Require Import Lib.PyBytes Gen.GenTables Model.Task Proof.TaskLines Proof.TaskHead Proof.TaskStart
  Proof.TaskRun Proof.TaskOracle Proof.TaskLadder Proof.TaskC08.
Import ListNotations.
Local Open Scope N_scope.

Section Contain.
Variable cap : str -> str.
Variable lower : str -> str.
Variable c : cfg.
Variable r : req.
Variable disc : option nat.

(* what the bookkeeping of one run says: [n] calls of close(), [h] handed over, [i] an iterable was returned *)
Definition closes_once (a : app) (n : nat) (h i : bool) : Prop :=
  (i = false -> n = 0%nat /\ h = false)
  /\ (i = true ->
      (a_has_close a = true -> (n = 1%nat /\ h = false) \/ (n = 0%nat /\ h = true))
      /\ (a_has_close a = false -> n = 0%nat))
  /\ (h = true -> a_kind a = KFile true).

Lemma wsgi_execute_close s a :
  let x := wsgi_execute cap lower c r disc s a in
  closes_once a (x_closes x) (x_handover x) (x_iter x).
Proof.
  cbn zeta. unfold wsgi_execute, closes_once.
  destruct (run_actions cap lower c r disc s (a_call a)) as [s1 [u|e]].
  2: { cbn. repeat split; auto; discriminate. }
  destruct (execute_body cap lower c r disc s1 a) as [[s2 o] cc] eqn:Eb.
  assert (Hcc : cc = false -> a_kind a = KFile true).
  { (* close() is skipped only after a hand-over, which needs a file of non-zero size: a seekable
       one; every other path goes through the iteration and allows close() *)
    intro Hf. subst cc. unfold execute_body in Eb.
    destruct (a_kind a) as [n| |[|]]; [| |reflexivity|]; exfalso; destruct s1 as [t0 ch0]; cbn in Eb;
      destruct (iterate _ _ _ _ _ _ _ _ _ _) as [[t ch] [u1|e1]]; inversion Eb. }
  destruct cc; cbn [andb].
  - destruct (a_has_close a) eqn:Eh; [destruct (a_close_exn a)|]; cbn; repeat split; auto; try discriminate.
  - cbn. repeat split; auto; try discriminate; destruct (a_has_close a); auto.
Qed.

Theorem close_once a :
  let res := channel_service cap lower c r a disc in
  (o_closes res <= 1)%nat
  /\ (o_iter res = false -> o_closes res = 0%nat /\ o_handover res = false)
  /\ (o_iter res = true -> a_has_close a = true ->
      (o_closes res = 1%nat /\ o_handover res = false) \/ (o_closes res = 0%nat /\ o_handover res = true))
  /\ (o_iter res = true -> a_has_close a = false -> o_closes res = 0%nat)
  /\ (o_handover res = true -> a_kind a = KFile true).
Proof.
  cbn zeta. rewrite service_eq. cbn [o_closes o_handover o_iter wound_up].
  set (x := first_run cap lower c r disc a).
  assert (Hx : closes_once a (x_closes x) (x_handover x) (x_iter x)).
  { subst x. unfold first_run. destruct (connected disc 0).
    2: { cbn. repeat split; auto; discriminate. }
    destruct (task_service_st cap lower c r disc (start_state r) (job_of r a)) as (_ & _ & -> & -> & -> & _).
    unfold job_of. destruct (r_error r) as [e|].
    - destruct (task_run_error cap lower c r disc (start_state r) e) as (-> & -> & ->).
      repeat split; auto; discriminate.
    - destruct (task_run_wsgi cap lower c r disc (start_state r) a) as (-> & -> & ->).
      apply wsgi_execute_close. }
  destruct Hx as (H1 & H2 & H3).
  destruct (x_iter x) eqn:Ei.
  - destruct (H2 eq_refl) as [H2a H2b]. repeat split; auto; try discriminate.
    destruct (a_has_close a) eqn:Eh.
    + destruct (H2a eq_refl) as [[-> _]|[-> _]]; lia.
    + rewrite (H2b eq_refl). lia.
  - destruct (H1 eq_refl) as [-> ->]. repeat split; auto; try discriminate; lia.
Qed.

End Contain.

Section Contain2.
Variable cap : str -> str.
Variable lower : str -> str.
Variable c : cfg.
Variable r : req.
Variable disc : option nat.

(* fields that build_response_header / set_close_on_finish never reset *)
Definition keeps (t t' : task) : Prop :=
  t_complete t' = t_complete t /\ (t_cof t = true -> t_cof t' = true) /\ t_clen t' = t_clen t
  /\ t_cbw t' = t_cbw t /\ t_status t' = t_status t.

Lemma keeps_scof t : keeps t (set_close_on_finish cap lower t) /\ t_cof (set_close_on_finish cap lower t) = true.
Proof.
  unfold set_close_on_finish. destruct (negb (t_wrote_header t)); [destruct (fold_left _ (t_rh t) None)|];
    unfold keeps; cbn; tauto.
Qed.

Lemma keeps_bh_prepare t : keeps t (bh_prepare cap lower c r t).
Proof.
  destruct (bh_prepare_ext cap lower c r t) as (_ & K5 & _ & K1 & _ & K3 & K4 & K2).
  unfold keeps. auto.
Qed.

Lemma write_header_facts s s' o : write_header cap lower c r disc s = (s', o) ->
  t_complete (fst s') = t_complete (fst s)
  /\ (t_cof (fst s) = true -> t_cof (fst s') = true)
  /\ (forall e, o = Exn e -> e = UnicodeEncodeError \/ e = ClientDisconnected).
Proof.
  destruct s as [t ch]. intro E. pose proof (keeps_bh_prepare t) as (K1 & K2 & _).
  destruct (write_header_cases cap lower c r disc t ch s' o E)
    as [(W & -> & ->)|(W & [(Et & _ & Ho)|(x & b & _ & Et & _ & ->)])]; cbn [fst] in *;
    try rewrite Et; cbn [t_complete t_cof set_wrote]; repeat split; auto; try discriminate.
  intros e He. destruct Ho as [->| ->]; inversion He; auto.
Qed.

(* what Task.write and Task.finish have in common: complete is kept, close_on_finish
   is not taken back, and only three exceptions can come out *)
Definition write_facts (s s' : st) (o : outcome unit) : Prop :=
  t_complete (fst s') = t_complete (fst s)
  /\ (t_cof (fst s) = true -> t_cof (fst s') = true)
  /\ (forall e, o = Exn e -> (e = RuntimeError /\ t_complete (fst s) = false)
                             \/ e = UnicodeEncodeError \/ e = ClientDisconnected).

Lemma task_write_facts s data s' o : task_write cap lower c r disc s data = (s', o) -> write_facts s s' o.
Proof.
  unfold write_facts, task_write. destruct (negb (t_complete (fst s))) eqn:Ec.
  - intro H; injection H as <- <-. repeat split; auto. intros e He; injection He as <-. left. split; auto.
    destruct (t_complete (fst s)); auto; discriminate.
  - destruct (write_header cap lower c r disc s) as [s1 [u|e1]] eqn:Eh.
    + destruct (write_header_facts _ _ _ Eh) as (H1 & H2 & _).
      intro H. destruct (write_body_frame _ _ _ _ _ H) as (_ & _ & _ & _ & _ & B1 & B2 & B3).
      split; [congruence|]. split; [intro Hc; rewrite B2; auto|].
      intros e He. right. right. eauto.
    + destruct (write_header_facts _ _ _ Eh) as (H1 & H2 & H3).
      intro H; injection H as <- <-. split; [exact H1|]. split; [exact H2|].
      intros e He; injection He as <-. right. apply H3. reflexivity.
Qed.

Lemma task_finish_facts s s' o : task_finish cap lower c r disc s = (s', o) -> write_facts s s' o.
Proof.
  unfold task_finish.
  set (r1 := if negb (t_wrote_header (fst s)) then _ else _).
  assert (F : write_facts s (fst r1) (snd r1)).
  { subst r1. destruct (negb _).
    - destruct (task_write cap lower c r disc s []) as [s1 o1] eqn:E. apply task_write_facts in E. exact E.
    - unfold write_facts. cbn. repeat split; auto. intros; discriminate. }
  unfold write_facts in *.
  destruct r1 as [[t ch] [u|e1]]; cbn [fst snd] in F; destruct F as (F1 & F2 & F3).
  - destruct (t_chunked t && negb (r_head r)).
    + destruct (write_soon disc ch (WBytes chunk_terminator)) as [ch1 o1] eqn:Ews.
      intro H; inversion H; subst; cbn [fst]. repeat split; auto.
      intros e ->. right. right. eapply write_soon_bytes_exn; eauto.
    + intro H; inversion H; subst; cbn [fst]. repeat split; auto. intros; discriminate.
  - intro H; inversion H; subst; cbn [fst]. repeat split; auto.
Qed.

Lemma task_service_out s job e :
  x_out (task_service cap lower c r disc s job) = Exn e ->
  x_out (task_run cap lower c r disc s job) = Exn e.
Proof.
  unfold task_service. destruct (x_out (task_run cap lower c r disc s job)) as [u|e0] eqn:E; [rewrite E; discriminate|].
  destruct (is_OSError e0); cbn [x_out]; [destruct (_ || _)|rewrite E]; congruence.
Qed.

(* an error task (ErrorTask: complete = True) raises nothing but an encode error
   of the server's own strings or ClientDisconnected, and always ends with
   close_on_finish set *)
Lemma error_execute_facts t ch e s' o : t_complete t = true ->
  error_execute cap lower c r disc (t, ch) e = (s', o) ->
  t_complete (fst s') = true /\ t_cof (fst s') = true
  /\ (forall ex, o = Exn ex -> ex = UnicodeEncodeError \/ ex = ClientDisconnected).
Proof.
  intros Hc Ew. destruct e as [[code reason] body]. unfold error_execute in Ew.
  apply task_write_facts in Ew as (W1 & W2 & W3). cbn [fst t_complete t_cof set_clen] in W1, W2, W3.
  destruct (keeps_scof (set_rh (t_rh (set_status (code ++ [32] ++ reason) t) ++ [err_header])
                               (set_status (code ++ [32] ++ reason) t))) as [(K1 & _) K2].
  cbn [t_complete set_rh set_status] in K1. rewrite K1 in W1, W3.
  split; [congruence|]. split; [auto|].
  intros ex Hex. destruct (W3 ex Hex) as [[_ Hcf]|H]; [congruence|exact H].
Qed.

Lemma error_run_facts_er t ch e : t_complete t = true ->
  let x := task_service cap lower c r disc (t, ch) (inr e) in
  t_cof (fst (x_st x)) = true
  /\ (forall ex, x_out x = Exn ex -> ex = UnicodeEncodeError \/ ex = ClientDisconnected).
Proof.
  intro Hc. cbn zeta.
  assert (R : let x := task_run cap lower c r disc (t, ch) (inr e) in
              t_cof (fst (x_st x)) = true
              /\ (forall ex, x_out x = Exn ex -> ex = UnicodeEncodeError \/ ex = ClientDisconnected)).
  { cbn zeta. unfold task_run.
    destruct (error_execute cap lower c r disc (t, ch) e) as [s1 o1] eqn:Ee.
    destruct (error_execute_facts _ _ _ _ _ Hc Ee) as (C1 & G1 & X1). clear Ee.
    destruct o1 as [u|e1]; cbn [x_out x_st]; [|auto].
    destruct (task_finish cap lower c r disc s1) as [s3 o3] eqn:Ef. cbn [x_out x_st].
    destruct (task_finish_facts _ _ _ Ef) as (_ & F2 & F3). split; [auto|].
    intros ex Hex. destruct (F3 ex Hex) as [[_ Hcf]|H]; [congruence|exact H]. }
  destruct R as [R1 R2]. split.
  - apply (task_service_st cap lower c r disc (t, ch) (inr e)). exact R1.
  - intros ex Hex. apply R2, task_service_out, Hex.
Qed.

End Contain2.

Section Ladder.
Variable cap : str -> str.
Variable lower : str -> str.
Variable c : cfg.
Variable r : req.
Variable disc : option nat.

(* how the first task's result relates to what its execute()/finish() raised *)
Definition service_rel (x : exec_result) (raw : option exn) : Prop :=
  match raw with
  | None => x_out x = Ok tt
  | Some e =>
      if is_OSError e then
        x_out x = (if c_log_socket_errors c || negb (t_wrote_header (fst (x_st x))) then Exn e else Ok tt)
        /\ t_cof (fst (x_st x)) = true
      else x_out x = Exn e
  end.

Lemma task_service_rel s job :
  service_rel (task_service cap lower c r disc s job)
              (match x_out (task_run cap lower c r disc s job) with Exn e => Some e | Ok _ => None end).
Proof.
  unfold service_rel, task_service.
  destruct (x_out (task_run cap lower c r disc s job)) as [[]|e] eqn:E.
  - exact E.
  - destruct (is_OSError e); cbn [x_out x_st fst t_wrote_header set_cof]; auto.
Qed.

(* the outcome of HTTPChannel.service(), by what the application did *)
Definition outcome_spec (res : result) : Prop :=
  let quiet_close := o_close res = true /\ o_next res = false /\ o_escaped res = None
                     /\ o_served_500 res = false /\ o_writes res = o_writes1 res in
  match o_raw res with
  | None =>                                   (* nothing was raised *)
      o_escaped res = None /\ o_served_500 res = false /\ o_writes res = o_writes1 res
  | Some e =>
      if exn_eqb e ClientDisconnected then quiet_close          (* the client went away *)
      else if o_wrote_header1 res then quiet_close               (* failure after output began *)
      else                                                       (* failure before any output *)
        (* one 500 is attempted and, whether or not it could be built and sent (a head that cannot be
           encoded, a client that went away), nothing escapes and the connection is wound up: until
           /repo fix 1a765e6 a UnicodeEncodeError of the 500 itself escaped here *)
        o_served_500 res = true
        /\ o_close res = true /\ o_next res = false /\ o_escaped res = None
  end.

Definition quiet_close_of (res : result) : Prop :=
  o_close res = true /\ o_next res = false /\ o_escaped res = None
  /\ o_served_500 res = false /\ o_writes res = o_writes1 res.

Lemma last_state_cof x e : x_out x = Exn e -> t_cof (fst (last_state cap lower c r disc x)) = true.
Proof.
  intro E. unfold last_state. rewrite E. destruct (answers_500 x); [|reflexivity]. cbv zeta.
  assert (Hcof : t_cof (fst (x_st (run_500 cap lower c r disc (snd (x_st x))))) = true)
    by (unfold run_500; apply error_run_facts_er; reflexivity).
  revert Hcof. generalize (run_500 cap lower c r disc (snd (x_st x))). intros x1 Hcof.
  destruct (x_out x1); [exact Hcof|reflexivity].
Qed.

Lemma ladder_raised x raw e : x_out x = Exn e ->
  let res := ladder cap lower c r disc x raw in
  if exn_eqb e ClientDisconnected then quiet_close_of res
  else if t_wrote_header (fst (x_st x)) then quiet_close_of res
  else o_served_500 res = true
       /\ o_close res = true /\ o_next res = false /\ o_escaped res = None.
Proof.
  intro Hout. cbn zeta. rewrite ladder_eq. pose proof (last_state_cof x e Hout) as Hcof.
  destruct (answers_500 x) eqn:A.
  - apply answers_500_iff in A as (e' & E' & Hcd & W). rewrite Hout in E'. injection E' as <-.
    rewrite Hcd, W. cbn [wound_up o_served_500 o_close o_next o_escaped]. rewrite Hcof. auto.
  - assert (Q : quiet_close_of (wound_up x raw (last_state cap lower c r disc x) false)).
    { unfold quiet_close_of. cbn [wound_up o_served_500 o_close o_next o_escaped o_writes o_writes1].
      rewrite Hcof, (last_state_quiet cap lower c r disc x e Hout A). auto. }
    unfold answers_500 in A. rewrite Hout in A.
    destruct (exn_eqb e ClientDisconnected); [exact Q|].
    destruct (t_wrote_header (fst (x_st x))); [exact Q|discriminate A].
Qed.

Theorem ladder_outcome x raw : service_rel x raw -> outcome_spec (ladder cap lower c r disc x raw).
Proof.
  intro Hrel. unfold outcome_spec.
  assert (Ef : o_raw (ladder cap lower c r disc x raw) = raw
               /\ o_wrote_header1 (ladder cap lower c r disc x raw) = t_wrote_header (fst (x_st x)))
    by (rewrite ladder_eq; auto).
  destruct Ef as [-> ->]. unfold service_rel in Hrel.
  destruct raw as [e|].
  2: { rewrite (ladder_ok _ _ _ _ _ _ _ _ Hrel). auto. }
  destruct (is_OSError e) eqn:Eos; [|exact (ladder_raised x (Some e) e Hrel)].
  destruct Hrel as [Hout Hcof].
  destruct e; try discriminate. cbn [exn_eqb].
  destruct (t_wrote_header (fst (x_st x))) eqn:W.
  - destruct (c_log_socket_errors c); cbn [orb negb] in Hout.
    + pose proof (ladder_raised x (Some AppOSError) _ Hout) as L. cbn zeta in L. cbn [exn_eqb] in L. rewrite W in L. exact L.
    + (* the OSError was swallowed by Task.service, which set close_on_finish *)
      rewrite (ladder_ok _ _ _ _ _ _ _ _ Hout). cbn [wound_up o_served_500 o_close o_next o_escaped o_writes o_writes1].
      rewrite Hcof. repeat split.
  - rewrite orb_true_r in Hout.
    pose proof (ladder_raised x (Some AppOSError) _ Hout) as L. cbn zeta in L. cbn [exn_eqb] in L. rewrite W in L. exact L.
Qed.

Theorem service_outcome a : outcome_spec (channel_service cap lower c r a disc).
Proof.
  rewrite channel_service_eq. apply ladder_outcome. unfold first_run, first_raw.
  destruct (connected disc 0); [apply task_service_rel|reflexivity].
Qed.

End Ladder.

Section NoLeak.
Variable cap : str -> str.
Variable lower : str -> str.

(* two configurations that differ at most in expose_tracebacks and the traceback text *)
Definition cfg_eqv (c1 c2 : cfg) : Prop :=
  c_ident c1 = c_ident c2 /\ c_date c1 = c_date c2 /\ c_log_socket_errors c1 = c_log_socket_errors c2.

Variables c1 c2 : cfg.
Hypothesis Heqv : cfg_eqv c1 c2.

Lemma eqv_bh_prepare r t : bh_prepare cap lower c1 r t = bh_prepare cap lower c2 r t.
Proof.
  destruct Heqv as (H1 & H2 & _). unfold bh_prepare, bh_server, bh_date. rewrite H1, H2. reflexivity.
Qed.

Lemma eqv_write_header r disc s : write_header cap lower c1 r disc s = write_header cap lower c2 r disc s.
Proof. destruct s as [t ch]. unfold write_header, build_response_header. rewrite eqv_bh_prepare. reflexivity. Qed.

Lemma eqv_task_write r disc s d : task_write cap lower c1 r disc s d = task_write cap lower c2 r disc s d.
Proof. unfold task_write. rewrite eqv_write_header. reflexivity. Qed.

Lemma eqv_task_finish r disc s : task_finish cap lower c1 r disc s = task_finish cap lower c2 r disc s.
Proof. unfold task_finish. rewrite eqv_task_write. reflexivity. Qed.

Lemma eqv_run_action r disc s a : run_action cap lower c1 r disc s a = run_action cap lower c2 r disc s a.
Proof. destruct a; cbn [run_action]; auto. apply eqv_task_write. Qed.

Lemma eqv_run_actions r disc l : forall s, run_actions cap lower c1 r disc s l = run_actions cap lower c2 r disc s l.
Proof.
  induction l as [|a l IH]; intro s; cbn [run_actions]; auto.
  rewrite eqv_run_action. destruct (run_action cap lower c2 r disc s a) as [s1 [u|e]]; auto.
Qed.

Lemma eqv_iterate r disc steps : forall f l b s,
  iterate cap lower c1 r disc f l b s steps = iterate cap lower c2 r disc f l b s steps.
Proof.
  induction steps as [|sp steps IH]; intros f l b s; cbn [iterate]; auto.
  rewrite eqv_run_actions. destruct (run_actions cap lower c2 r disc s (s_acts sp)) as [s1 [u|e]]; auto.
  destruct (s_res sp); auto. destruct (f && _); auto. destruct s1 as [t ch].
  destruct b0 as [|y b0]; [apply IH|]. rewrite eqv_task_write.
  match goal with |- context [task_write cap lower c2 r disc ?s0 ?d] =>
    destruct (task_write cap lower c2 r disc s0 d) as [s2 [u2|e2]] end; auto.
Qed.

Lemma eqv_execute_body r disc s a : execute_body cap lower c1 r disc s a = execute_body cap lower c2 r disc s a.
Proof.
  unfold execute_body. rewrite eqv_iterate.
  destruct (a_kind a); auto. destruct s as [t ch].
  repeat match goal with
         | |- context [task_write cap lower c1 r disc ?s0 ?d] => rewrite (eqv_task_write r disc s0 d)
         end. reflexivity.
Qed.

Lemma eqv_task_run r disc s job : task_run cap lower c1 r disc s job = task_run cap lower c2 r disc s job.
Proof.
  unfold task_run, wsgi_execute, error_execute. destruct job as [a|[[code reason] body]].
  - rewrite eqv_run_actions. destruct (run_actions cap lower c2 r disc s (a_call a)) as [s1 [u|e]]; cbn [x_out]; auto.
    rewrite eqv_execute_body. destruct (execute_body cap lower c2 r disc s1 a) as [[s2 o] cc].
    destruct (cc && a_has_close a); [destruct (a_close_exn a)|]; cbn [x_out x_st]; auto;
      destruct o; auto; rewrite eqv_task_finish; reflexivity.
  - destruct Heqv as (H1 & _). rewrite H1. destruct s as [t ch]. rewrite eqv_task_write.
    match goal with |- context [task_write cap lower c2 r disc ?s0 ?d] =>
      destruct (task_write cap lower c2 r disc s0 d) as [s2 [u2|e2]] end; cbn [x_out x_st]; auto.
    rewrite eqv_task_finish. reflexivity.
Qed.

Lemma eqv_task_service r disc s job : task_service cap lower c1 r disc s job = task_service cap lower c2 r disc s job.
Proof.
  unfold task_service. rewrite eqv_task_run. destruct Heqv as (_ & _ & H3). rewrite H3. reflexivity.
Qed.

Theorem no_traceback_leak r a disc :
  c_expose_tracebacks c1 = false -> c_expose_tracebacks c2 = false ->
  channel_service cap lower c1 r a disc = channel_service cap lower c2 r a disc.
Proof.
  intros E1 E2. rewrite !service_eq. unfold first_run, first_raw, last_state, run_500. rewrite E1, E2.
  rewrite !eqv_task_service, !eqv_task_run. reflexivity.
Qed.

End NoLeak.

Definition base_app : app :=
  mkApp [ARaise AppBaseException] KGen [] true None.
Definition oserr_app : app :=
  mkApp [ARaise AppOSError] KGen [] true None.
Definition quiet_cfg : cfg :=
  mkCfg (lit "waitress") false false (lit "Thu, 01 Jan 2026 00:00:00 GMT") (lit "TB").

Section Corollaries.
Variable cap : str -> str.
Variable lower : str -> str.

Theorem contained c r a disc e :
  let res := channel_service cap lower c r a disc in
  o_raw res = Some e ->
  exn_eqb e ClientDisconnected = false ->
  (o_wrote_header1 res = true ->
     o_close res = true /\ o_next res = false /\ o_escaped res = None
     /\ o_served_500 res = false /\ o_writes res = o_writes1 res)
  /\ (o_wrote_header1 res = false ->
     o_served_500 res = true /\ o_close res = true /\ o_next res = false /\ o_escaped res = None).
Proof.
  cbn zeta. intros Hraw Hcd.
  pose proof (service_outcome cap lower c r disc a) as H. unfold outcome_spec in H.
  rewrite Hraw, Hcd in H.
  destruct (o_wrote_header1 (channel_service cap lower c r a disc)); split; intro W; try discriminate; exact H.
Qed.

End Corollaries.

Lemma will_close_false c r a disc : run_task_wc c r a disc false = run_task c r a disc.
Proof. reflexivity. Qed.
