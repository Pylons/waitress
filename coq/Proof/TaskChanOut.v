(* Composition of the task model with the byte-level output queue.

   Model/Task.v records what a task hands to channel.write_soon (o_writes: byte strings and
   handed-over file buffers, in order) and the C03 theorems read [wire (o_writes res)] as a client
   reads it.  Model/ChanOut.v is what the channel does with those calls.  Here: for every list of
   write_soon arguments and every socket behaviour during each of them, what the socket accepts
   followed by what is still queued is exactly [wire ws] -- so the framing theorems of C03 are
   statements about the bytes the output queue delivers, not only about the arguments of write_soon. *)
From Coq Require Import List NArith ZArith Bool Lia ZifyBool Arith.
From WV Require Import Lib.PyBytes Model.Buffers Spec.Fifo Proof.Buffers Proof.BuffersRefine Proof.BuffersRo
  Model.ChanOut Proof.ChanOut.
From WV Require Model.Task.
Import ListNotations.
Local Open Scope Z_scope.

Module T := WV.Model.Task.

(* the ReadOnlyFileBasedBuffer the channel is handed for T.WFile: a prepared buffer that yields exactly
   [content] (that prepare() clamps to the declared size and leaves the file in place is C17_readonly_clamp) *)
Definition ro_of (content : bytes) : fbuf := mkfbuf KRo (mkfile content 0 false) (lenZ content).

Definition cop_of (w : T.witem) (ans : list answer) : cop :=
  match w with
  | T.WBytes b => CWrite (WBytes b) ans
  | T.WFile _ content => CWrite (WFile (ro_of content)) ans
  end.

Fixpoint cops_of (ws : list T.witem) (anss : list (list answer)) : list cop :=
  match ws with
  | [] => []
  | w :: ws' => cop_of w (hd [] anss) :: cops_of ws' (tl anss)
  end.

Lemma ro_of_ok content : bok (RO (ro_of content)).
Proof.
  cbn [bok]. exists content, 0%nat, (lenZ content). unfold ro_inv, ro_of, lenZ; cbn. repeat split; lia.
Qed.

Lemma written_by_cop w ans : written_by (cop_of w ans) = T.witem_bytes w.
Proof.
  destruct w as [b | r content]; cbn [cop_of written_by T.witem_bytes]; [reflexivity|].
  unfold ro_of; cbn [fb_remain fb_file f_pos f_content skipn]. unfold lenZ. rewrite Nat2Z.id. apply firstn_all.
Qed.

Lemma cops_ok ws : forall anss, Forall cop_ok (cops_of ws anss).
Proof.
  induction ws as [|w ws IH]; intro anss; cbn [cops_of]; constructor; [|apply IH].
  destruct w; cbn [cop_of cop_ok wdata_ok]; [exact I | apply ro_of_ok].
Qed.

Lemma cops_written ws : forall anss, concat (map written_by (cops_of ws anss)) = T.wire ws.
Proof.
  induction ws as [|w ws IH]; intro anss; cbn [cops_of map concat]; [reflexivity|].
  rewrite written_by_cop, IH. reflexivity.
Qed.

(* what the socket accepted followed by what is still queued is the task's wire; when
   the socket takes everything in the end, the client holds exactly [wire ws] *)
Theorem writes_reach_socket_both c ws anss : cfg_ok c ->
  let r := crun c chan_new (cops_of ws anss) in
  snd r ++ cabs (fst r) = T.wire ws /\ (cabs (fst r) = [] -> snd r = T.wire ws).
Proof.
  intro Hc. destruct (out_fifo_new c (cops_of ws anss) Hc (cops_ok ws anss)) as (E & _).
  cbv zeta in *. rewrite cops_written in E. split; [now symmetry|].
  intro Hq. rewrite Hq, app_nil_r in E. now symmetry.
Qed.
