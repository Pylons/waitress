(* The environ as a finite map.  One equation says what get_environment holds
   under a key (get_environment_eget): the dict literal and
   waitress.client_disconnected first, the parser's header dictionary for the
   keys these leave free.  The keys the header loop produces all have the
   protocol-specific form (HTTP_* or CONTENT_LENGTH / CONTENT_TYPE) and no
   server-defined key has that form, so the two parts never meet. *)
From Coq Require Import List NArith Bool.
From WV Require Import Lib.PyBytes Model.Receiver Model.Parser Model.Environ Proof.PyBytesFacts.
Import ListNotations.
Local Open Scope N_scope.

Lemma emem_eget e k : emem e k = match eget e k with Some _ => true | None => false end.
Proof.
  induction e as [|[k' v] e IH]; simpl; auto.
  destruct (beqb k k'); simpl; auto.
Qed.

Lemma eget_app e1 e2 k :
  eget (e1 ++ e2) k = match eget e1 k with Some v => Some v | None => eget e2 k end.
Proof.
  induction e1 as [|[k' v] e1 IH]; simpl; auto.
  destruct (beqb k k'); auto.
Qed.

Lemma eget_eset e k k' v :
  eget (eset e k' v) k = if beqb k k' then Some v else eget e k.
Proof.
  induction e as [|[k0 v0] e IH]; simpl.
  - reflexivity.
  - destruct (beqb k' k0) eqn:E0; simpl.
    + apply beqb_eq in E0. subst k0. destruct (beqb k k'); reflexivity.
    + destruct (beqb k k0) eqn:E1.
      * apply beqb_eq in E1. subst k0. rewrite beqb_sym, E0. reflexivity.
      * apply IH.
Qed.

Lemma eget_none e k : ~ In k (map fst e) -> eget e k = None.
Proof.
  induction e as [|[k' v] e IH]; simpl; auto. intro H.
  destruct (beqb k k') eqn:E; [apply beqb_eq in E; symmetry in E; tauto|]. apply IH. tauto.
Qed.

Lemma eget_some e k : In k (map fst e) -> exists v, eget e k = Some v.
Proof.
  induction e as [|[k' v] e IH]; simpl; [tauto|]. intro H.
  destruct (beqb k k') eqn:E; [eauto|]. apply IH. destruct H as [->|H]; auto.
  rewrite beqb_refl in E. discriminate.
Qed.

(* mykey in the header loop of get_environment *)
Definition env_key (key : bytes) : bytes :=
  match rename_headers key with Some k => k | None => k_HTTP_ ++ key end.

Definition is_header_key (k : bytes) : bool :=
  startswith k k_HTTP_ || beqb k s_CONTENT_LENGTH || beqb k s_CONTENT_TYPE.

Lemma env_key_header_form key : is_header_key (env_key key) = true.
Proof.
  unfold env_key, rename_headers, is_header_key.
  destruct (beqb key s_CONTENT_LENGTH) eqn:E1.
  - rewrite beqb_refl. rewrite orb_true_r. reflexivity.
  - destruct (beqb key s_CONTENT_TYPE) eqn:E2.
    + rewrite beqb_refl. rewrite !orb_true_r. reflexivity.
    + rewrite startswith_self_app. reflexivity.
Qed.

Lemma add_header_unfold e key value :
  add_header e (key, value) =
  if negb (emem e (env_key key)) then e ++ [(env_key key, VStr value)] else e.
Proof. reflexivity. Qed.

(* what the header loop finds for environ key ek: the value of the first
   dictionary entry whose name lands on ek *)
Fixpoint hfind (h : hdict) (ek : bytes) : option bytes :=
  match h with
  | [] => None
  | (key, v) :: h' => if beqb ek (env_key key) then Some v else hfind h' ek
  end.

(* an entry that is there is never replaced: `if mykey not in environ` *)
Lemma fold_add_header_eget h : forall e ek,
  eget (fold_left add_header h e) ek =
  match eget e ek with Some v => Some v | None => option_map VStr (hfind h ek) end.
Proof.
  induction h as [|[key v] h IH]; intros e ek; cbn [fold_left hfind].
  - destruct (eget e ek); reflexivity.
  - rewrite IH. rewrite add_header_unfold.
    destruct (emem e (env_key key)) eqn:Em; cbn [negb].
    + destruct (eget e ek) eqn:Ee; auto.
      destruct (beqb ek (env_key key)) eqn:Eb; auto.
      apply beqb_eq in Eb. subst ek. rewrite emem_eget, Ee in Em. discriminate.
    + rewrite eget_app. destruct (eget e ek) eqn:Ee; auto. simpl.
      destruct (beqb ek (env_key key)); reflexivity.
Qed.

Lemma hfind_other h k : is_header_key k = false -> hfind h k = None.
Proof.
  intro Hk. induction h as [|[key v] h IH]; cbn [hfind]; auto.
  destruct (beqb k (env_key key)) eqn:E; auto.
  apply beqb_eq in E. subst k. rewrite env_key_header_form in Hk. discriminate.
Qed.

Definition server_keys : list bytes :=
  [ k_REMOTE_ADDR; k_REMOTE_HOST; k_REMOTE_PORT; k_REQUEST_METHOD; k_SERVER_PORT; k_SERVER_NAME;
    k_SERVER_SOFTWARE; k_SERVER_PROTOCOL; k_SCRIPT_NAME; k_PATH_INFO; k_REQUEST_URI; k_QUERY_STRING;
    k_wsgi_url_scheme; k_wsgi_version; k_wsgi_errors; k_wsgi_multithread; k_wsgi_multiprocess;
    k_wsgi_run_once; k_wsgi_input; k_wsgi_file_wrapper; k_wsgi_input_terminated ].

Lemma base_environ_keys c p : map fst (base_environ c p) = server_keys.
Proof. reflexivity. Qed.

Fixpoint nodup_check (l : list bytes) : bool :=
  match l with [] => true | x :: l' => negb (existsb (beqb x) l') && nodup_check l' end.

Lemma nodup_check_sound l : nodup_check l = true -> NoDup l.
Proof.
  induction l as [|x l IH]; cbn [nodup_check]; intro H; constructor;
    apply andb_true_iff in H as [H1 H2]; auto.
  intro Hin. apply negb_true_iff in H1.
  rewrite (proj2 (existsb_exists _ _)) in H1; [discriminate|]. exists x. auto using beqb_refl.
Qed.

(* two finite checks on the key table: the keys are pairwise distinct, and
   none has the protocol-specific form *)
Lemma server_keys_distinct : NoDup (k_waitress_client_disconnected :: server_keys).
Proof. apply nodup_check_sound. vm_compute. reflexivity. Qed.

Lemma server_key_not_header k :
  In k (k_waitress_client_disconnected :: server_keys) -> is_header_key k = false.
Proof.
  assert (F : forallb (fun k => negb (is_header_key k)) (k_waitress_client_disconnected :: server_keys) = true)
    by (vm_compute; reflexivity).
  intro H. rewrite forallb_forall in F. apply F, negb_true_iff in H. exact H.
Qed.

Lemma get_environment_eget c p k :
  eget (get_environment c p) k =
  match eget (base_environ c p ++ [(k_waitress_client_disconnected, VDisconnected)]) k with
  | Some v => Some v
  | None => option_map VStr (hfind (headers p) k)
  end.
Proof.
  unfold get_environment. rewrite eget_eset, fold_add_header_eget, eget_app. cbn [eget].
  destruct (beqb k k_waitress_client_disconnected) eqn:E.
  - apply beqb_eq in E. subst k. rewrite eget_none; [reflexivity|].
    rewrite base_environ_keys. pose proof server_keys_distinct as D. inversion D; assumption.
  - destruct (eget (base_environ c p) k); reflexivity.
Qed.

Lemma base_environ_defines c p k : In k server_keys -> exists v, eget (base_environ c p) k = Some v.
Proof. rewrite <- (base_environ_keys c p). apply eget_some. Qed.

(* the value the server put there survives the header loop: the loop's
   `if mykey not in environ` is enough for that.  That the two sets of keys
   are disjoint (server_key_not_header) is what the converse needs: no header
   is hidden behind a server-defined key (get_environment_header_key). *)
Lemma no_override c p k :
  In k server_keys -> eget (get_environment c p) k = eget (base_environ c p) k.
Proof.
  intro H. rewrite get_environment_eget, eget_app.
  destruct (base_environ_defines c p k H) as [v ->]. reflexivity.
Qed.

Lemma client_disconnected_defined c p :
  eget (get_environment c p) k_waitress_client_disconnected = Some VDisconnected.
Proof. unfold get_environment. rewrite eget_eset, beqb_refl. reflexivity. Qed.

Lemma server_part_free c p k :
  is_header_key k = true ->
  eget (base_environ c p ++ [(k_waitress_client_disconnected, VDisconnected)]) k = None.
Proof.
  intro Hk. apply eget_none. rewrite map_app, base_environ_keys. intro I. apply in_app_or in I.
  rewrite server_key_not_header in Hk; [discriminate|]. cbn in *. tauto.
Qed.

Lemma get_environment_header_key c p k :
  is_header_key k = true -> eget (get_environment c p) k = option_map VStr (hfind (headers p) k).
Proof. intro Hk. rewrite get_environment_eget, server_part_free by exact Hk. reflexivity. Qed.

Lemma get_environment_other c p k :
  is_header_key k = false ->
  eget (get_environment c p) k =
  eget (base_environ c p ++ [(k_waitress_client_disconnected, VDisconnected)]) k.
Proof.
  intro Hk. rewrite get_environment_eget, hfind_other by exact Hk.
  destruct (eget _ k); reflexivity.
Qed.
