(* Every well-formed header set (Spec.wf_headers: the grammar of X-Forwarded-For / -Host lists, proto
   tokens, port numerals and forwarded-elements) has no refusal reason, hence is accepted. *)
From Coq Require Import String.
From Coq Require Import List NArith ZArith Bool Lia ZifyBool.
From WV Require Import Lib.PyBytes Lib.PyStrProxy Lib.Regex Gen.GenRegex Spec.Grammar Model.Proxy
  Spec.ProxySpec Proof.ProxyDict Proof.ProxyStr Proof.ProxyStages Proof.ProxyTotal
  Proof.ProxyCats Proof.ProxyUnq Proof.ProxyConverse1 Proof.ProxyConverse2 Proof.ProxyConverse3.
Import ListNotations.
Local Open Scope N_scope.

Definition safe (s : str) : bool := forallb is_node_char s.

Lemma node_not_ws x : is_node_char x = true -> is_str_ws x = false.
Proof. unfold is_node_char, is_alnum, is_str_ws. intro H. destruct (_ || _) eqn:E in |- *; [exfalso; lia|reflexivity]. Qed.

Lemma node_qdtext x : is_node_char x = true -> in_ranges x [(9,9); (32,32); (33,33); (35,91); (93,126); (128,255)] = true.
Proof. unfold is_node_char, is_alnum. cbn [in_ranges]. intro H. lia. Qed.

Lemma node_not x c : is_node_char c = false -> is_node_char x = true -> (c =? x) = false.
Proof. intros Hc Hx. destruct (c =? x) eqn:E; [|reflexivity]. apply N.eqb_eq in E. subst. congruence. Qed.

Lemma safe_memb c s : is_node_char c = false -> safe s = true -> memb c s = false.
Proof.
  intros Hc. induction s as [|x s IH]; [reflexivity|]. cbn [safe forallb]. intro H. apply andb_true_iff in H as [Hx Hs].
  rewrite memb_cons, (node_not x c Hc Hx). apply IH. exact Hs.
Qed.

Lemma safe_in s x : safe s = true -> In x s -> is_node_char x = true.
Proof. unfold safe. rewrite forallb_forall. auto. Qed.

Lemma last_opt_snoc_inv s l : last_opt s = Some l -> s = removelast s ++ [l].
Proof.
  induction s as [|x s IH]; [discriminate|]. destruct s as [|y s].
  - cbn. intro H. injection H as ->. reflexivity.
  - intro H. change (last_opt (x :: y :: s)) with (last_opt (y :: s)) in H.
    change (removelast (x :: y :: s)) with (x :: removelast (y :: s)). cbn [app]. f_equal. apply IH. exact H.
Qed.

Lemma last_opt_in s l : last_opt s = Some l -> In l s.
Proof. intro H. rewrite (last_opt_snoc_inv s l H). apply in_or_app. right. left. reflexivity. Qed.

Lemma strip_ends f s :
  (forall x, first_opt s = Some x -> f x = false) -> (forall l, last_opt s = Some l -> f l = false) ->
  strip_by f s = s.
Proof.
  intros Hf Hl. destruct s as [|x t]; [reflexivity|].
  unfold strip_by. assert (L : lstrip_by f (x :: t) = x :: t) by (cbn; rewrite (Hf x eq_refl); reflexivity).
  rewrite L. unfold rstrip_by.
  destruct (last_opt_truthy (x :: t) eq_refl) as [l Hlast].
  pose proof (last_opt_snoc_inv _ _ Hlast) as E.
  assert (R : rev (x :: t) = l :: rev (removelast (x :: t))).
  { rewrite E at 1. rewrite rev_app_distr. reflexivity. }
  rewrite R. cbn [lstrip_by]. rewrite (Hl l Hlast). rewrite <- R. apply rev_involutive.
Qed.

Lemma safe_strip s : safe s = true -> strip s = s.
Proof.
  intro H. apply strip_ends.
  - intros x Hx. apply node_not_ws. apply (safe_in s x H). destruct s; [discriminate|]. injection Hx as ->. left. reflexivity.
  - intros l Hl. apply node_not_ws. apply (safe_in s l H). apply last_opt_in. exact Hl.
Qed.

Lemma lstrip_keeps f l y : In y l -> f y = false -> lstrip_by f l <> [].
Proof.
  induction l as [|x l IH]; [intros []|]. intros [->|Hin] Hy; cbn.
  - rewrite Hy. discriminate.
  - destruct (f x); [apply IH; assumption|discriminate].
Qed.

Lemma strip_nonempty f x a : f x = false -> strip_by f (x :: a) <> [].
Proof.
  intro Hx. unfold strip_by. cbn [lstrip_by]. rewrite Hx. unfold rstrip_by. intro H.
  apply (f_equal (@rev N)) in H. rewrite rev_involutive in H. cbn [rev] in H.
  revert H. apply (lstrip_keeps f _ x); [|exact Hx]. apply in_or_app. right. left. reflexivity.
Qed.

Lemma safe_not_dq s : safe s = true -> starts_dq s = false /\ ends_dq s = false.
Proof.
  intro H. split.
  - unfold starts_dq. destruct s as [|x t]; [reflexivity|].
    assert (Hx : is_node_char x = true) by (apply (safe_in _ x H); left; reflexivity).
    rewrite N.eqb_sym. apply (node_not x dq); [reflexivity|exact Hx].
  - unfold ends_dq. destruct (last_opt s) as [l|] eqn:E; [|reflexivity].
    rewrite N.eqb_sym. apply (node_not l dq); [reflexivity|]. apply (safe_in s l H). apply last_opt_in. exact E.
Qed.

Lemma safe_unq_text s : safe s = true -> unq_text s = s.
Proof.
  induction s as [|x s IH]; [reflexivity|]. cbn [safe forallb]. intro H. apply andb_true_iff in H as [Hx Hs].
  rewrite unq_text_text; [rewrite (IH Hs); reflexivity|].
  intro E. subst x. discriminate.
Qed.

Lemma safe_star s : safe s = true -> Lang (Star (Alt qdtext quoted_pair)) s.
Proof.
  induction s as [|x s IH]; intro H; [constructor|].
  cbn [safe forallb] in H. apply andb_true_iff in H as [Hx Hs].
  change (x :: s) with ([x] ++ s). apply LStarS; [|apply IH; exact Hs].
  apply LAltL. unfold qdtext. constructor. apply node_qdtext. exact Hx.
Qed.

Lemma safe_quoted body : safe body = true -> matches quoted_string (34 :: body ++ [34]) = true.
Proof.
  intro H. apply matches_correct. unfold quoted_string.
  change (34 :: body ++ [34]) with ([34] ++ (body ++ [34])).
  apply LCat; [apply Lang_Sym; reflexivity|]. apply LCat; [apply safe_star; exact H|apply Lang_Sym; reflexivity].
Qed.

Lemma quoted_shape v : starts_dq v = true -> ends_dq v = true -> (2 <=? N.of_nat (List.length v)) = true ->
  v = 34 :: mid v ++ [34].
Proof.
  unfold starts_dq, ends_dq, mid. destruct v as [|x t]; [discriminate|]. intros Hs He Hl.
  apply N.eqb_eq in Hs. subst x. cbn [tl]. f_equal.
  destruct t as [|y t]; [cbn in Hl; discriminate|].
  change (last_opt (dq :: y :: t)) with (last_opt (y :: t)) in He.
  destruct (last_opt (y :: t)) as [l|] eqn:E; [|discriminate]. apply N.eqb_eq in He. subst l.
  apply last_opt_snoc_inv. exact E.
Qed.

(* what a well-formed value gives, for any body grammar made of safe non-empty strings *)
Lemma wf_value_facts (body_ok : str -> bool) v :
  (forall s, body_ok s = true -> safe s = true) ->
  wf_value body_ok v = true ->
  bad_quoting v = false /\ body_ok (field_value v) = true /\ memb comma v = false /\ strip v = v.
Proof.
  intros Hb. unfold wf_value, field_value. destruct (starts_dq v) eqn:Es.
  - intro H. apply andb_true_iff in H as [H Hbody]. apply andb_true_iff in H as [He Hlen].
    pose proof (Hb _ Hbody) as Hsafe.
    pose proof (quoted_shape v Es He Hlen) as Ev.
    repeat split.
    + unfold bad_quoting. replace (matches quoted_string v) with true; [apply andb_false_r|].
      symmetry. rewrite Ev. apply safe_quoted. exact Hsafe.
    + rewrite (safe_unq_text _ Hsafe). exact Hbody.
    + rewrite Ev. rewrite memb_cons. change (comma =? 34) with false. cbn [orb].
      rewrite memb_app, (safe_memb comma _ eq_refl Hsafe). reflexivity.
    + apply strip_ends.
      * intros x Hx. rewrite Ev in Hx. injection Hx as <-. reflexivity.
      * intros l Hl. unfold ends_dq in He. rewrite Hl in He. apply N.eqb_eq in He. subst l. reflexivity.
  - intro Hbody. pose proof (Hb _ Hbody) as Hsafe. destruct (safe_not_dq v Hsafe) as [_ He].
    repeat split.
    + unfold bad_quoting. rewrite Es, He. reflexivity.
    + exact Hbody.
    + apply (safe_memb comma _ eq_refl Hsafe).
    + apply safe_strip. exact Hsafe.
Qed.

Lemma wf_node_safe s : wf_node s = true -> safe s = true.
Proof. unfold wf_node. destruct s; [discriminate|]. intro H. apply andb_true_iff in H as [_ H]. exact H. Qed.

Lemma digits_safe s : is_port_numeral s = true -> safe s = true.
Proof.
  unfold is_port_numeral. destruct s as [|x t]; [discriminate|]. generalize (x :: t). intro l.
  unfold safe. rewrite !forallb_forall. intros H y Hy. specialize (H y Hy).
  unfold is_digit in H. unfold is_node_char, is_alnum. lia.
Qed.

Lemma lower_alpha c : ((97 <=? lower_latin1_c c) && (lower_latin1_c c <=? 122)) = true -> is_node_char c = true.
Proof.
  unfold lower_latin1_c, is_node_char, is_alnum.
  destruct ((65 <=? c) && (c <=? 90)) eqn:E1; [intro; lia|].
  destruct ((192 <=? c) && (c <=? 222) && negb (c =? 215)) eqn:E2; intro; lia.
Qed.

Lemma forallb_map {A B} (P : B -> bool) (f : A -> B) l : forallb P (map f l) = forallb (fun x => P (f x)) l.
Proof. induction l as [|x l IH]; [reflexivity|]. cbn. rewrite IH. reflexivity. Qed.

Lemma scheme_safe s : is_scheme s = true -> safe s = true.
Proof.
  unfold is_scheme. intro H.
  assert (Ha : forallb (fun c => (97 <=? c) && (c <=? 122)) (lower_latin1 s) = true).
  { apply orb_true_iff in H as [H|H]; apply beqb_eq in H; rewrite H; reflexivity. }
  unfold lower_latin1 in Ha. rewrite forallb_map in Ha. unfold safe.
  rewrite forallb_forall in *. intros x Hx. apply lower_alpha. apply Ha. exact Hx.
Qed.

Lemma token_safe s : wf_token s = true -> safe s = true.
Proof.
  unfold wf_token. destruct s as [|x t]; [discriminate|]. generalize (x :: t). intro l.
  unfold safe. rewrite !forallb_forall. intros H y Hy. specialize (H y Hy).
  unfold is_tchar in H. unfold is_node_char. lia.
Qed.

Lemma wf_node_addr v : wf_node v = true -> truthy (addr_text v) = true.
Proof.
  intro H. pose proof (wf_node_safe v H) as Hs. unfold wf_node in H. destruct v as [|x t]; [discriminate|].
  apply andb_true_iff in H as [Hx _]. apply negb_true_iff in Hx.
  assert (Hxn : is_str_ws x = false) by (apply node_not_ws; apply (safe_in _ x Hs); left; reflexivity).
  unfold addr_text. destruct (has_port (x :: t)) eqn:Ep.
  - unfold before_last. cbn [split_last]. destruct (split_last colon t) as [[a b]|] eqn:E.
    + apply truthy_true. apply strip_nonempty. exact Hxn.
    + change colon with 58 in *. rewrite Hx. apply truthy_true. apply strip_nonempty. exact Hxn.
  - apply truthy_true. apply strip_nonempty. exact Hxn.
Qed.

Lemma wf_node_client v : wf_node v = true -> bad_client v = false.
Proof. intro H. unfold bad_client. rewrite (wf_node_addr v H). apply andb_false_r. Qed.

Lemma wf_node_host v : wf_node v = true -> empty_host v = false.
Proof. intro H. pose proof (wf_node_addr v H) as Ha. unfold empty_host. unfold addr_text in Ha. unfold host_text. rewrite Ha. apply andb_false_r. Qed.

Lemma last_opt_app' s x : last_opt (s ++ [x]) = Some x.
Proof. apply last_opt_app. Qed.

Lemma bracketed_client v : bad_client (lbr :: v ++ [rbr]) = false.
Proof.
  unfold bad_client, addr_text, has_port, ends_with_char.
  change (lbr :: v ++ [rbr]) with ((lbr :: v) ++ [rbr]). rewrite last_opt_app. rewrite N.eqb_refl. rewrite andb_false_r.
  cbn [app]. assert (H : strip (lbr :: v ++ [rbr]) <> []) by (apply strip_nonempty; reflexivity).
  apply truthy_true in H. rewrite H. reflexivity.
Qed.

Definition good_node (v : str) : Prop := v = [] \/ wf_node v = true.
Definition good_scheme (v : str) : Prop := v = [] \/ is_scheme v = true.

Lemma good_node_client v : good_node v -> bad_client v = false.
Proof. intros [->|H]; [reflexivity|apply wf_node_client; exact H]. Qed.
Lemma good_node_host v : good_node v -> empty_host v = false.
Proof. intros [->|H]; [reflexivity|apply wf_node_host; exact H]. Qed.
Lemma good_scheme_ok v : good_scheme v -> cat_scheme v = false.
Proof.
  intros [->|H]; [reflexivity|]. unfold cat_scheme. unfold is_scheme in H. rewrite H. apply andb_false_r.
Qed.

Lemma first_nonempty_good (P : str -> Prop) l : P [] -> (forall x, In x l -> P x) -> P (first_nonempty l).
Proof.
  intros H0 H. destruct (first_nonempty l) eqn:E; [exact H0|]. rewrite <- E. apply H. apply first_nonempty_in. congruence.
Qed.

Lemma picked_cases raw k : picked raw k = [] \/ In (picked raw k) (elements raw).
Proof.
  unfold picked, pick. destruct (nth_error _ _) eqn:E; [right; eapply nth_error_In; eauto|left; reflexivity].
Qed.

Lemma suffix_incl {A} (l : list A) k x : In x (suffix l k) -> In x l.
Proof. destruct (suffix_suffix_of l k) as [pre E]. intro H. rewrite E. apply in_or_app. right. exact H. Qed.

Lemma wf_list_quoting raw : wf_list raw = true -> cat_list_quoting raw = false.
Proof.
  unfold wf_list, cat_list_quoting, elements. rewrite forallb_forall. intro H.
  destruct (existsb _ _) eqn:E; [|reflexivity]. apply existsb_exists in E as (h & Hin & Hb).
  destruct (wf_value_facts wf_node (strip h) wf_node_safe (H h Hin)) as (Hq & _). congruence.
Qed.

Lemma wf_list_host raw k : wf_list raw = true -> good_node (field_value (strip (picked raw k))).
Proof.
  intro H. destruct (picked_cases raw k) as [->|Hin]; [left; reflexivity|].
  unfold wf_list in H. rewrite forallb_forall in H. right.
  apply (wf_value_facts wf_node _ wf_node_safe (H _ Hin)).
Qed.

Lemma wf_list_client raw k : wf_list raw = true -> bad_client (xff_address (picked raw k)) = false.
Proof.
  intro H. unfold xff_address. cbv zeta. pose proof (wf_list_host raw k H) as G.
  destruct (negb (memb dot _) && memb colon _ && negb (ends_with_char rbr _)).
  - apply bracketed_client.
  - apply good_node_client. exact G.
Qed.

Lemma wf_proto_facts v : wf_proto v = true ->
  cat_single_quoting v = false /\ cat_several_values v = false /\ good_scheme (field_value v).
Proof.
  unfold wf_proto. destruct v as [|x t]; [intros _; repeat split; left; reflexivity|]. intro H.
  destruct (wf_value_facts is_scheme _ scheme_safe H) as (A & B & C & _). repeat split; auto. right. exact B.
Qed.

Lemma wf_port_facts v : wf_port v = true -> cat_single_quoting v = false /\ cat_several_values v = false.
Proof.
  unfold wf_port. destruct v as [|x t]; [intros _; split; reflexivity|]. intro H.
  destruct (wf_value_facts is_port_numeral _ digits_safe H) as (A & _ & C & _). split; auto.
Qed.

Lemma wf_pair_good q : wf_pair q = true -> pair_bad q = false.
Proof.
  unfold wf_pair. destruct q as [|x t]; [reflexivity|]. set (q := x :: t). intro H.
  apply andb_true_iff in H as [H Hv]. apply andb_true_iff in H as [Hm Ht].
  pose proof (token_safe _ Ht) as Hts.
  assert (V : bad_quoting (pair_value q) = false /\ strip (pair_value q) = pair_value q).
  { destruct (beqb (pair_token q) t_proto).
    - destruct (wf_value_facts is_scheme _ scheme_safe Hv) as (A & _ & _ & D). auto.
    - destruct (wf_value_facts wf_node _ wf_node_safe Hv) as (A & _ & _ & D). auto. }
  destruct V as [Vq Vs].
  unfold pair_bad, cat_pair_no_eq, cat_pair_padded, cat_pair_quoting.
  rewrite Hm, (safe_strip _ Hts), Vs, !beqb_refl, Vq. cbn. rewrite andb_false_r. reflexivity.
Qed.

Lemma wf_forwarded_good raw : wf_forwarded raw = true -> forwarded_reason raw = None.
Proof.
  intro H. pose proof (forwarded_reason_bad raw) as Hb.
  assert (Hc : cat_forwarded raw = false).
  { unfold cat_forwarded. destruct (existsb _ _) eqn:E; [|reflexivity].
    apply existsb_exists in E as (el & Hin & He). unfold element_bad in He.
    apply existsb_exists in He as (p & Hp & Hq).
    unfold wf_forwarded, elements in H. rewrite forallb_forall in H. specialize (H el Hin).
    unfold wf_element in H. rewrite forallb_forall in H. rewrite (wf_pair_good _ (H p Hp)) in Hq. discriminate. }
  rewrite Hc in Hb. destruct (forwarded_reason raw); [discriminate|reflexivity].
Qed.

Lemma fold_inv {A B} (P : A -> Prop) (f : A -> B -> A) l a :
  P a -> (forall a x, In x l -> P a -> P (f a x)) -> P (fold_left f l a).
Proof.
  revert a. induction l as [|x l IH]; intros a Ha Hf; [exact Ha|].
  cbn [fold_left]. apply IH; [apply Hf; [left; reflexivity|exact Ha]|]. intros a' y Hy. apply Hf. right. exact Hy.
Qed.

Lemma wf_field name el (P : str -> Prop) :
  wf_element el = true -> P [] ->
  (forall q, wf_pair q = true -> memb eqc q = true -> beqb (pair_token q) name = true -> P (field_value (pair_value q))) ->
  P (fwd_field name el).
Proof.
  intros H H0 Hp. unfold fwd_field. apply fold_inv; [exact H0|].
  intros a p Hin Ha. cbv zeta. unfold wf_element in H. rewrite forallb_forall in H. specialize (H p Hin).
  destruct (memb eqc (lower_latin1 p) && beqb (pair_token (lower_latin1 p)) name) eqn:E; [|exact Ha].
  apply andb_true_iff in E as [E1 E2]. apply Hp; assumption.
Qed.

Lemma wf_pair_value q : wf_pair q = true -> memb eqc q = true ->
  if beqb (pair_token q) t_proto then is_scheme (field_value (pair_value q)) = true
  else wf_node (field_value (pair_value q)) = true.
Proof.
  unfold wf_pair. destruct q as [|x t]; [discriminate|]. set (q := x :: t). intros H _.
  apply andb_true_iff in H as [_ Hv].
  destruct (beqb (pair_token q) t_proto).
  - apply (wf_value_facts is_scheme _ scheme_safe Hv).
  - apply (wf_value_facts wf_node _ wf_node_safe Hv).
Qed.

(* proto= carries a scheme, every other parameter a node *)
Definition good (name v : str) : Prop := if beqb name t_proto then good_scheme v else good_node v.

Lemma good_nil name : good name [].
Proof. unfold good. destruct (beqb name t_proto); left; reflexivity. Qed.

Lemma wf_field_good name el : wf_element el = true -> good name (fwd_field name el).
Proof.
  intro H. apply wf_field; [exact H|apply good_nil|].
  intros q Hq Hm Ht. pose proof (wf_pair_value q Hq Hm) as V. apply beqb_eq in Ht. rewrite Ht in V.
  unfold good. destruct (beqb name t_proto); right; exact V.
Qed.

Lemma wf_oldest_good name raw k : wf_forwarded raw = true -> good name (fwd_oldest name raw k).
Proof.
  intros H. unfold fwd_oldest. apply first_nonempty_good; [apply good_nil|].
  intros x Hx. apply in_map_iff in Hx as (el & <- & Hin). apply wf_field_good.
  unfold wf_forwarded in H. rewrite forallb_forall in H. apply H. eapply suffix_incl; eauto.
Qed.

Lemma xf_client_ok tph k e :
  (negb (trusts tph nm_xff) || match lookup hk_xff e with Some raw => wf_list raw | None => true end) = true ->
  bad_client (xf_client tph k e) = false.
Proof.
  unfold xf_client. destruct (trusts tph nm_xff); [|reflexivity]. cbn [negb orb].
  destruct (lookup hk_xff e); [|reflexivity]. apply wf_list_client.
Qed.

Theorem wellformed_no_reason tph k e : wf_headers tph e = true -> refusal_reason tph k e = None.
Proof.
  unfold wf_headers. intro H.
  apply andb_true_iff in H as [H W5]. apply andb_true_iff in H as [H W4].
  apply andb_true_iff in H as [H W3]. apply andb_true_iff in H as [W1 W2].
  unfold refusal_reason. apply orelse_none. split.
  - unfold syntax_reason. repeat (apply orelse_none; split).
    + unfold list_reason. destruct (trusts tph nm_xff); [|reflexivity]. cbn [negb orb] in W1.
      destruct (lookup hk_xff e); [|reflexivity]. rewrite (wf_list_quoting _ W1). reflexivity.
    + unfold list_reason. destruct (trusts tph nm_xfh); [|reflexivity]. cbn [negb orb] in W2.
      destruct (lookup hk_xfh e); [|reflexivity]. rewrite (wf_list_quoting _ W2). reflexivity.
    + unfold single_reason. destruct (trusts tph nm_xfproto); [|reflexivity]. cbn [negb orb] in W3.
      destruct (wf_proto_facts _ W3) as (-> & -> & _). reflexivity.
    + unfold single_reason. destruct (trusts tph nm_xfport); [|reflexivity]. cbn [negb orb] in W4.
      destruct (wf_port_facts _ W4) as (-> & ->). reflexivity.
    + destruct (fwd_active tph e); [|reflexivity]. cbn [negb orb] in W5. apply wf_forwarded_good. exact W5.
  - unfold selection_reason, select. destruct (fwd_active tph e).
    + cbn [negb orb] in W5. cbn [sel_proto sel_host sel_client].
      rewrite (good_scheme_ok _ (wf_oldest_good t_proto _ k W5)).
      rewrite (good_node_host _ (wf_oldest_good t_host _ k W5)).
      pose proof (wf_oldest_good t_for _ k W5) as G.
      destruct (fwd_oldest t_for (hdr hk_fwd e) k) eqn:E.
      * rewrite (xf_client_ok tph k e W1). reflexivity.
      * rewrite (good_node_client _ G). reflexivity.
    + cbn [sel_proto sel_host sel_client].
      assert (S1 : cat_scheme (xf_single nm_xfproto hk_xfproto tph e) = false).
      { unfold xf_single. destruct (trusts tph nm_xfproto); [|reflexivity]. cbn [negb orb] in W3.
        apply good_scheme_ok. apply (wf_proto_facts _ W3). }
      assert (S2 : empty_host (xf_host tph k e) = false).
      { unfold xf_host. destruct (trusts tph nm_xfh); [|reflexivity]. cbn [negb orb] in W2.
        destruct (lookup hk_xfh e); [|reflexivity]. apply good_node_host. apply wf_list_host. exact W2. }
      rewrite S1, S2, (xf_client_ok tph k e W1). reflexivity.
Qed.

Example wellformed_nonvacuous :
  wf_headers [n_fwd] (ex_env [(k_fwd, s2l "For=""[2001:db8::1]:4711"";Host=example.com:8443;proto=HTTPS, for=_hidden;by=10.0.0.9"%string)]) = true /\
  wf_headers [n_xff; n_xfh; n_xfproto; n_xfport]
    (ex_env [(k_xff, s2l "203.0.113.9, ""[2001:db8::7]:99"" ,	10.0.0.2"%string); (k_xfh, s2l "example.com:8443"%string);
             (k_xfproto, s2l """https"""%string); (k_xfport, s2l "8443"%string)]) = true /\
  wf_headers [n_fwd] (ex_env [(k_fwd, s2l "for=:80"%string)]) = false.
Proof. repeat split; vm_compute; reflexivity. Qed.
