(* undquote against the RFC 9110 reading of a quoted-string.  The generated gate pattern is the RFC
   quoted-string for every string (reflective regex equivalence), so a value is refused exactly when it
   begins or ends with DQUOTE without being one; the value of DQUOTE body DQUOTE is body with every
   quoted-pair replaced by its second character (Spec.Unq), for bodies of any length.  Then the element
   parsers built on undquote (xff_hop, xfh_hop, single_value, fwd_pair, fwd_element) in closed form. *)
From Coq Require Import List NArith ZArith Bool Lia.
From WV Require Import Lib.PyBytes Lib.PyStrProxy Lib.Regex Lib.RegexDec Gen.GenRegex Spec.Grammar Model.Proxy
  Spec.ProxySpec Proof.RegexFacts Proof.C10Gates Proof.ProxyDict Proof.ProxyStr Proof.ProxyStages.
Import ListNotations.
Local Open Scope N_scope.

Fixpoint re_bounded (r : re) : bool :=
  match r with
  | Emp | Eps => true
  | Cls rs => forallb (fun r => snd r <? 256) rs
  | Cat a b | Alt a b | And a b => re_bounded a && re_bounded b
  | Star a => re_bounded a
  end.

Lemma Lang_bounded r s : Lang r s -> re_bounded r = true -> bytes_ok s.
Proof.
  unfold bytes_ok. induction 1; simpl; intro Hb; try (apply andb_true_iff in Hb as [Hb1 Hb2]); auto.
  - constructor; [|constructor]. eapply in_ranges_below; eauto.
  - apply Forall_app. auto.
  - apply Forall_app. split; auto.
Qed.

Definition bytes_okb (s : list N) : bool := forallb (fun b => b <? 256) s.
Lemma bytes_okb_ok s : bytes_okb s = true <-> bytes_ok s.
Proof.
  unfold bytes_okb, bytes_ok. rewrite forallb_forall, Forall_forall.
  split; intros H x Hx; specialize (H x Hx); [apply N.ltb_lt|apply N.ltb_lt]; auto.
Qed.

Lemma gate_is_rfc v : matches gate_quoted_string v = matches quoted_string v.
Proof.
  destruct (bytes_okb v) eqn:E.
  - apply bytes_okb_ok in E. pose proof (quoted_string_exact v E) as H.
    rewrite <- !matches_correct in H.
    destruct (matches gate_quoted_string v), (matches quoted_string v); auto;
      [symmetry; apply H; reflexivity|apply H; reflexivity].
  - destruct (matches gate_quoted_string v) eqn:E1.
    + apply matches_correct in E1. apply Lang_bounded in E1; [|vm_compute; reflexivity].
      apply bytes_okb_ok in E1. congruence.
    + destruct (matches quoted_string v) eqn:E2; auto.
      apply matches_correct in E2. apply Lang_bounded in E2; [|vm_compute; reflexivity].
      apply bytes_okb_ok in E2. congruence.
Qed.

Lemma last_opt_app s x : last_opt (s ++ [x]) = Some x.
Proof.
  induction s as [|y s IH]; [reflexivity|]. cbn [app last_opt].
  destruct (s ++ [x]) eqn:E; [destruct s; discriminate|]. exact IH.
Qed.

Lemma endswith_char s c : endswith s [c] = match last_opt s with Some x => c =? x | None => false end.
Proof.
  unfold endswith. cbn [rev app]. rewrite startswith_single.
  destruct s as [|y s] using rev_ind; [reflexivity|].
  rewrite rev_app_distr, last_opt_app. reflexivity.
Qed.

Lemma starts_dq_spec v : startswith v [c_dquote] = starts_dq v.
Proof. rewrite startswith_single. unfold starts_dq. destruct v; auto. apply N.eqb_sym. Qed.

Lemma ends_dq_spec v : endswith v [c_dquote] = ends_dq v.
Proof. rewrite endswith_char. unfold ends_dq. destruct (last_opt v); auto. apply N.eqb_sym. Qed.

(* a quoted-string is DQUOTE body DQUOTE, the body made of qdtext and quoted-pairs *)
Lemma quoted_string_inv v : matches quoted_string v = true ->
  exists body, v = 34 :: body ++ [34] /\ Lang (Star (Alt qdtext quoted_pair)) body.
Proof.
  intro H. apply matches_correct in H. unfold quoted_string in H.
  apply Lang_Cat in H as (u & w & -> & Hu & Hw). apply Lang_Sym in Hu. subst u.
  apply Lang_Cat in Hw as (m & z & -> & Hm & Hz). apply Lang_Sym in Hz. subst z.
  exists m. split; [reflexivity|exact Hm].
Qed.

Lemma quoted_string_shape v : matches quoted_string v = true -> starts_dq v = true /\ ends_dq v = true.
Proof.
  intro H. apply quoted_string_inv in H as (m & -> & _). split; [reflexivity|].
  unfold ends_dq. change (34 :: m ++ [34]) with ((34 :: m) ++ [34]). rewrite last_opt_app. reflexivity.
Qed.

Lemma undquote_spec v :
  undquote v = if bad_quoting v then Exn ValueError
               else Ok (if starts_dq v then unescape (mid v) else v).
Proof.
  unfold undquote, bad_quoting. rewrite starts_dq_spec, ends_dq_spec, gate_is_rfc.
  destruct (matches quoted_string v) eqn:Em.
  - destruct (quoted_string_shape v Em) as [-> ->]. reflexivity.
  - destruct (starts_dq v), (ends_dq v); reflexivity.
Qed.

Lemma quoted_pair_first x c : matches p_QUOTED_PAIR_RE [x; c] = true -> x = 92.
Proof.
  intro H. apply matches_correct in H.
  assert (E : exists rs, p_QUOTED_PAIR_RE = Cat (Sym 92) (Cls rs)) by (eexists; reflexivity).
  destruct E as [rs E]. rewrite E in H.
  apply Lang_Cat in H as (u & w & Huw & Hu & Hw). apply Lang_Sym in Hu. subst u.
  injection Huw as ->. reflexivity.
Qed.

Lemma memb_unescape_aux c n : c <> 92 -> forall s, (List.length s <= n)%nat -> memb c (unescape s) = memb c s.
Proof.
  intros Hc. induction n as [|n IH]; intros s Hl.
  - destruct s; [reflexivity|simpl in Hl; lia].
  - destruct s as [|x [|y s']]; try reflexivity.
    assert (L1 : (List.length s' <= n)%nat) by (cbn [List.length] in Hl; lia).
    assert (L2 : (List.length (y :: s') <= n)%nat) by (cbn [List.length] in *; lia).
    pose proof (IH s' L1) as I1. pose proof (IH (y :: s') L2) as I2.
    change (unescape (x :: y :: s')) with
      (if matches p_QUOTED_PAIR_RE [x; y] then y :: unescape s' else x :: unescape (y :: s')).
    destruct (matches p_QUOTED_PAIR_RE [x; y]) eqn:E.
    + apply quoted_pair_first in E. subst x.
      rewrite (memb_cons c y), (memb_cons c 92), (memb_cons c y s'), I1.
      destruct (c =? 92) eqn:E2; [apply N.eqb_eq in E2; congruence|]. reflexivity.
    + rewrite (memb_cons c x), (memb_cons c x (y :: s')), I2. reflexivity.
Qed.

Lemma memb_unescape c s : c <> 92 -> memb c (unescape s) = memb c s.
Proof. intro H. eapply memb_unescape_aux; eauto. Qed.

Lemma memb_app c a b : memb c (a ++ b) = memb c a || memb c b.
Proof. unfold memb. apply existsb_app. Qed.

Lemma comma_survives v u : undquote v = Ok u -> has_char c_comma u = memb comma v.
Proof.
  rewrite undquote_spec. destruct (bad_quoting v) eqn:Eb; [discriminate|]. intro H. injection H as <-.
  unfold has_char. change c_comma with comma. destruct (starts_dq v) eqn:Es; [|reflexivity].
  rewrite memb_unescape by (vm_compute; discriminate).
  unfold bad_quoting in Eb. rewrite Es in Eb. cbn [orb andb] in Eb. apply negb_false_iff in Eb.
  apply quoted_string_inv in Eb as (m & -> & _).
  unfold mid. cbn [tl]. rewrite removelast_last.
  rewrite memb_cons, memb_app. cbn. rewrite orb_false_r. reflexivity.
Qed.

Lemma quoted_pair_gate_exact : forall s, bytes_ok s -> (Lang p_QUOTED_PAIR_RE s <-> Lang quoted_pair s).
Proof. apply equiv_check_sound. vm_compute. reflexivity. Qed.

Lemma quoted_pair_matches c : matches quoted_pair [92; c] = true -> matches p_QUOTED_PAIR_RE [92; c] = true.
Proof.
  intro H. apply matches_correct in H. apply matches_correct.
  apply quoted_pair_gate_exact; auto. apply (Lang_bounded _ _ H). vm_compute. reflexivity.
Qed.

Lemma unescape_text c t : c <> 92 -> unescape (c :: t) = c :: unescape t.
Proof.
  intro Hc. destruct t as [|d t]; [reflexivity|].
  change (unescape (c :: d :: t)) with
    (if matches p_QUOTED_PAIR_RE [c; d] then d :: unescape t else c :: unescape (d :: t)).
  destruct (matches p_QUOTED_PAIR_RE [c; d]) eqn:E; auto.
  apply quoted_pair_first in E. congruence.
Qed.

Lemma unescape_pair c t : matches quoted_pair [92; c] = true -> unescape (92 :: c :: t) = c :: unescape t.
Proof.
  intro H. change (unescape (92 :: c :: t)) with
    (if matches p_QUOTED_PAIR_RE [92; c] then c :: unescape t else 92 :: unescape (c :: t)).
  rewrite (quoted_pair_matches c H). reflexivity.
Qed.

Lemma body_unq body : Lang (Star (Alt qdtext quoted_pair)) body -> Unq body (unescape body).
Proof.
  intro H. remember (Star (Alt qdtext quoted_pair)) as r eqn:Er.
  induction H; try discriminate.
  - constructor.
  - injection Er as ->. specialize (IHLang2 eq_refl). clear IHLang1.
    apply Lang_Alt in H as [H|H].
    + (* qdtext: one character, not a backslash *)
      unfold qdtext in H. inversion H as [|rs x Hin| | | | | |]; subst. cbn [app].
      assert (Hx : x <> 92).
      { intro E. subst x. vm_compute in Hin. discriminate. }
      rewrite unescape_text by exact Hx. apply UnqText; auto.
      apply matches_correct. exact H.
    + (* quoted-pair: backslash and one character *)
      pose proof H as Hm. apply matches_correct in Hm.
      unfold quoted_pair in H. apply Lang_Cat in H as (u & w & -> & Hu & Hw). apply Lang_Sym in Hu. subst u.
      inversion Hw as [|rs x Hin| | | | | |]; subst. cbn [app] in *.
      rewrite unescape_pair by exact Hm. apply UnqPair; auto.
Qed.

Lemma undquote_quoted v : matches quoted_string v = true ->
  exists body, v = 34 :: body ++ [34] /\ exists u, undquote v = Ok u /\ Unq body u.
Proof.
  intro Hm. destruct (quoted_string_inv v Hm) as (body & Ev & Hb). exists body. split; [exact Ev|].
  rewrite undquote_spec. unfold bad_quoting. rewrite Hm, andb_false_r. subst v.
  change (starts_dq (34 :: body ++ [34])) with true. cbv iota.
  eexists. split; [reflexivity|].
  unfold mid. cbn [tl]. rewrite removelast_last. apply body_unq. exact Hb.
Qed.

Lemma undquote_plain v : starts_dq v = false -> ends_dq v = false -> undquote v = Ok v.
Proof.
  intros H1 H2. rewrite undquote_spec. unfold bad_quoting. rewrite H1, H2. reflexivity.
Qed.

Lemma unq_text_text c t : c <> 92 -> unq_text (c :: t) = c :: unq_text t.
Proof.
  intro Hc. destruct t as [|d t]; [reflexivity|].
  cbn [unq_text]. destruct (c =? 92) eqn:E; [apply N.eqb_eq in E; congruence|reflexivity].
Qed.

Lemma Unq_unq_text s t : Unq s t -> unq_text s = t.
Proof.
  induction 1 as [|c s t Hc _ IH|c s t Hc _ IH].
  - reflexivity.
  - rewrite unq_text_text; [rewrite IH; reflexivity|].
    intro E. subst c. vm_compute in Hc. discriminate.
  - cbn [unq_text]. rewrite IH. reflexivity.
Qed.

Lemma undquote_value v :
  undquote v = if bad_quoting v then Exn ValueError else Ok (field_value v).
Proof.
  rewrite undquote_spec. destruct (bad_quoting v) eqn:Eb; [reflexivity|].
  unfold field_value. destruct (starts_dq v) eqn:Es; [|reflexivity].
  f_equal. unfold bad_quoting in Eb. rewrite Es in Eb. cbn [orb andb] in Eb. apply negb_false_iff in Eb.
  destruct (undquote_quoted v Eb) as (body & -> & u & Hu & HU).
  rewrite undquote_spec in Hu. unfold bad_quoting in Hu. rewrite Eb, andb_false_r in Hu.
  change (starts_dq (34 :: body ++ [34])) with true in Hu. cbv iota in Hu. injection Hu as Hu.
  rewrite Hu. symmetry. unfold mid. cbn [tl]. rewrite removelast_last. apply Unq_unq_text. exact HU.
Qed.

(* The element parsers refuse on a decidable class of inputs and otherwise compute a value the
   specification names. *)
Lemma mapM_decide {A B} (f : A -> result B) (bad : A -> bool) (g : A -> B) e0 :
  (forall x, f x = if bad x then Exn e0 else Ok (g x)) ->
  forall l, mapM f l = if existsb bad l then Exn e0 else Ok (map g l).
Proof.
  intros Hf. induction l as [|x l IH]; [reflexivity|].
  cbn [mapM existsb map]. rewrite Hf. destruct (bad x); [reflexivity|]. cbn [bind orb].
  rewrite IH. destruct (existsb bad l); reflexivity.
Qed.

Lemma foldM_decide {A B} (f : A -> B -> result A) (bad : B -> bool) (g : A -> B -> A) e0 :
  (forall a x, f a x = if bad x then Exn e0 else Ok (g a x)) ->
  forall l a, foldM f a l = if existsb bad l then Exn e0 else Ok (fold_left g l a).
Proof.
  intros Hf. induction l as [|x l IH]; intro a; [reflexivity|].
  cbn [foldM existsb fold_left]. rewrite Hf. destruct (bad x); [reflexivity|]. cbn [bind orb]. apply IH.
Qed.

Lemma xff_hop_value h :
  xff_hop h = if bad_quoting (strip h) then Exn ValueError else Ok (xff_address h).
Proof.
  unfold xff_hop, xff_address. rewrite undquote_value.
  destruct (bad_quoting (strip h)); [reflexivity|]. cbn [bind]. cbv zeta.
  set (v := field_value (strip h)). unfold has_char. change c_dot with dot. change c_colon with colon.
  destruct (negb (memb dot v) && memb colon v) eqn:E; [|reflexivity].
  apply andb_true_iff in E as [_ E].
  assert (Hv : truthy v = true) by (destruct v; [discriminate|reflexivity]).
  destruct (last_opt_truthy v Hv) as [l Hl]. unfold ends_with_char. rewrite Hl. change c_rbr with rbr.
  destruct (l =? rbr); reflexivity.
Qed.

Lemma xfh_hop_value h :
  xfh_hop h = if bad_quoting (strip h) then Exn ValueError else Ok (field_value (strip h)).
Proof. unfold xfh_hop. apply undquote_value. Qed.

Lemma single_value_exact key e :
  single_value key e =
  if cat_single_quoting (hdr key e) then Exn ValueError
  else if cat_several_values (hdr key e) then Exn ValueError else Ok (field_value (hdr key e)).
Proof.
  unfold single_value, cat_single_quoting, cat_several_values. fold (hdr key e).
  pose proof (comma_survives (hdr key e)) as Hc.
  rewrite undquote_value in *. destruct (bad_quoting (hdr key e)); [reflexivity|]. cbn [bind].
  rewrite (Hc _ eq_refl). destruct (memb comma (hdr key e)); reflexivity.
Qed.

(* what an accepted (case-folded) pair does to the fields of its element *)
Definition upd_pair (acc : forwarded_t) (q : str) : forwarded_t :=
  if memb eqc q then
    let t := pair_token q in
    let v := field_value (pair_value q) in
    if beqb t s_by then {| f_by := v; f_for := f_for acc; f_host := f_host acc; f_proto := f_proto acc |}
    else if beqb t s_for then {| f_by := f_by acc; f_for := v; f_host := f_host acc; f_proto := f_proto acc |}
    else if beqb t s_host then {| f_by := f_by acc; f_for := f_for acc; f_host := v; f_proto := f_proto acc |}
    else if beqb t s_proto then {| f_by := f_by acc; f_for := f_for acc; f_host := f_host acc; f_proto := v |}
    else acc
  else acc.

Lemma fwd_pair_exact acc p :
  fwd_pair acc p = if pair_bad (lower_latin1 p) then Exn ValueError else Ok (upd_pair acc (lower_latin1 p)).
Proof.
  unfold fwd_pair, pair_bad, cat_pair_no_eq, cat_pair_padded, cat_pair_quoting, upd_pair, pair_token, pair_value.
  set (q := lower_latin1 p). destruct (truthy q) eqn:Et; cbn [negb].
  2:{ apply truthy_false in Et. rewrite Et. reflexivity. }
  rewrite partition_char. change c_eq with eqc. destruct (memb eqc q) eqn:Em.
  2:{ cbn. reflexivity. }
  rewrite beqb_refl. cbn [negb andb orb].
  destruct (beqb (strip (take_until eqc q)) (take_until eqc q)); cbn [negb orb]; [|reflexivity].
  destruct (beqb (strip (drop_through eqc q)) (drop_through eqc q)); cbn [negb orb]; [|reflexivity].
  unfold known_token. change t_by with s_by. change t_for with s_for. change t_host with s_host. change t_proto with s_proto.
  cbv zeta. rewrite undquote_value.
  destruct (beqb (take_until eqc q) s_by); cbn [orb andb].
  { destruct (bad_quoting (drop_through eqc q)); reflexivity. }
  destruct (beqb (take_until eqc q) s_for); cbn [orb andb].
  { destruct (bad_quoting (drop_through eqc q)); reflexivity. }
  destruct (beqb (take_until eqc q) s_host); cbn [orb andb].
  { destruct (bad_quoting (drop_through eqc q)); reflexivity. }
  destruct (beqb (take_until eqc q) s_proto); cbn [orb andb].
  { destruct (bad_quoting (drop_through eqc q)); reflexivity. }
  reflexivity.
Qed.

Definition element_fields (el : str) : forwarded_t :=
  fold_left (fun acc p => upd_pair acc (lower_latin1 p)) (split (strip el) [semi]) fwd_empty.

Lemma fwd_element_exact el :
  fwd_element el = if element_bad el then Exn ValueError else Ok (element_fields el).
Proof.
  unfold fwd_element, element_bad, element_fields. change semi with c_semi.
  apply (foldM_decide fwd_pair (fun p => pair_bad (lower_latin1 p)) (fun acc p => upd_pair acc (lower_latin1 p))).
  apply fwd_pair_exact.
Qed.

Lemma hdr_env key e1 e2 : lookup key e1 = lookup key e2 -> hdr key e1 = hdr key e2.
Proof. unfold hdr. intros ->. reflexivity. Qed.
