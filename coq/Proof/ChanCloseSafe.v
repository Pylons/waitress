(* Proof/ChanCloseSafe.v -- the flags of Model/ChanClose.v: will_close, connected and the ghost
   decision flag change one way only; Closed (no service() can start any more) is stable, and the
   worker's close decision establishes it. *)
From Coq Require Import List Arith Bool Lia.
From WV Require Import Model.ChanClose Proof.ChanCloseBase Proof.ChanCloseTok.
Import ListNotations.

Lemma flags_mono {s c s' l} : step s c = Some (s', l) ->
  (wc s = true -> wc s' = true) /\ (conn s = false -> conn s' = false) /\
  (gdec s = true -> gdec s' = true).
Proof.
  intros H. destruct c as [e|w e|]; simpl in H.
  - io_inv H; repeat split; intro X; rewrite ?X; reflexivity.
  - wk_inv H; repeat split; intro X; rewrite ?X; reflexivity.
  - sd_inv H; repeat split; intro X; rewrite ?X; reflexivity.
Qed.


(* the two parts of Closed that read the I/O thread's program point, as booleans of it *)
Definition looping (p : iopc) : bool :=
  match p with IoRCloop | IoRCapp | IoRCappX | IoRClen | IoRCadd => true | _ => false end.
Definition flagsb (c w : bool) (p : iopc) : bool :=
  c || w && match p with IoRC2 => false | _ => true end || match p with IoHW3 => true | _ => false end.

Lemma looping_iff p :
  (p <> IoRCloop /\ p <> IoRCapp /\ p <> IoRCappX /\ p <> IoRClen /\ p <> IoRCadd) <-> looping p = false.
Proof.
  split.
  - intros (N1 & N2 & N3 & N4 & N5). destruct p; try reflexivity; exfalso; auto.
  - intro H. repeat split; intros ->; discriminate H.
Qed.

Lemma flags_iff s : flags_ok s <-> flagsb (cwf s) (wc s) (io s) = true.
Proof.
  unfold flags_ok, flagsb. split.
  - intros [ -> | [ [ -> Y ] | -> ] ]; [reflexivity | | apply orb_true_r].
    destruct (cwf s), (io s); try reflexivity; now elim Y.
  - destruct (cwf s); [auto|]. destruct (wc s); cbn.
    + destruct (io s); intro X; try discriminate X; auto; (right; left; split; [reflexivity | discriminate]).
    + destruct (io s); intro X; try discriminate X; auto.
Qed.

Lemma flagsb_mono c w w' p : (w = true -> w' = true) -> flagsb c w p = true -> flagsb c w' p = true.
Proof. destruct c, w, w', p; auto; intro M; discriminate (M eq_refl). Qed.

Lemma closed_io {s e s' l} : (mret s = IoTop \/ mret s = IoSel) -> Closed s ->
  step_io s e = Some (s', l) -> Closed s'.
Proof.
  unfold Closed. intros MR (F & N & Q & ST & C2) H. rewrite flags_iff, looping_iff in *.
  destruct (io_frame H) as (-> & _).
  assert (X : flagsb (cwf s') (wc s') (io s') = true /\ looping (io s') = false /\
              queue s' = queue s /\ reqs s' = reqs s).
  { clear Q ST C2.
    io_inv H; try discriminate N; mret_cases MR; try (repeat split; assumption).
    (* will_close is set; close_when_flushed is read or cleared *)
    all: destruct (cwf s), (wc s); try discriminate F; repeat split; auto. }
  destruct X as (F' & N' & -> & ->). auto.
Qed.

Lemma closed_wk {s w e s' l} : Inv s -> Closed s -> step_wk s w e = Some (s', l) -> Closed s'.
Proof.
  unfold Closed. intros I (F & N & Q & ST & C2) H. rewrite flags_iff in *.
  destruct (wk_frame H) as (-> & _ & _ & W).
  pose proof (ST w) as STw. pose proof (no_other_active s w I) as NO.
  assert (C : reqs s = [] \/ at_close2 (wk s w) = true \/
              exists w0, w0 <> w /\ at_close2 (wk s w0) = true).
  { destruct C2 as [R|[w0 C]]; auto. destruct (Nat.eq_dec w0 w) as [->|]; eauto. }
  assert (X : flagsb (cwf s') (wc s') (io s) = true /\ queue s' = 0 /\ starter (wk s' w) = false /\
              (reqs s' = [] \/ exists w0, w0 <> w /\ at_close2 (wk s w0) = true)).
  { clear C2. wk_inv H; rewrite ?Nat.eqb_refl; try discriminate Q; try discriminate STw.
    all: repeat split; try (exact (flagsb_mono _ _ true _ (fun _ => eq_refl) F)); auto.
    all: destruct C as [X|[X|X]]; try discriminate X; auto.
    (* WKeep3 with requests left, while another worker is at WClose2: two active workers *)
    destruct X as (w0 & X & Y). apply (NO eq_refl) in X. destruct (wk s w0); discriminate. }
  destruct X as (F' & Q' & S' & C'). split; [exact F' | split; [exact N | split; [exact Q' | split]]].
  - intro w'. destruct (Nat.eq_dec w' w) as [->|N']; [exact S' | rewrite (W w' N'); apply ST].
  - destruct C' as [R|(w0 & N' & C')]; auto. right. exists w0. rewrite (W w0 N'). exact C'.
Qed.

Lemma closed_sd {s s' l} : Closed s -> step_sd s = Some (s', l) -> Closed s'.
Proof.
  unfold Closed. intros (F & N & Q & ST & C2) H. rewrite flags_iff in *.
  destruct (sd_frame H) as (-> & _ & -> & _).
  destruct (sd_step H) as (PC & _ & Q' & _ & RN).
  destruct PC as [-> | (E & _)]; [|now elim (proj1 (proj2 N))].
  destruct Q' as [(-> & _) | E]; [|rewrite Q in E; discriminate E].
  split; [exact (flagsb_mono _ _ _ _ (proj1 (flags_mono (c := CSd) H)) F)|].
  split; [exact N | split; [exact Q | split; [exact ST|]]].
  destruct C2; auto.
Qed.

Lemma closed_stable : forall s c s' l, Inv s -> Closed s -> step s c = Some (s', l) -> Closed s'.
Proof.
  intros s c s' l I C H. destruct c as [e|w e|]; simpl in H.
  - exact (closed_io (i_mret s I) C H).
  - exact (closed_wk I C H).
  - exact (closed_sd C H).
Qed.

(* the worker's close decision (WClose1: close_when_flushed := True under requests_lock) closes *)
Lemma worker_close_closes : forall s w k, Inv s -> wk s w = WClose1 k ->
  Closed (set_wk (decide (set_cwf s true) DWorkerClose) w (WClose2 k)).
Proof.
  intros s w k I Hw.
  assert (A : active (wk s w) = true) by (rewrite Hw; reflexivity).
  assert (HL : rlock s = Some (ByW w)) by (apply (i_lock_wk s I w); rewrite Hw; reflexivity).
  unfold Closed. rewrite flags_iff, looping_iff. cbn. repeat split.
  - (* the I/O thread is not inside received(): the worker holds the lock *)
    destruct (io s) eqn:E; try reflexivity;
      pose proof (proj2 (i_lock_io s I)) as L; rewrite E in L; specialize (L eq_refl); congruence.
  - apply (no_entry s I); eauto.
  - intro w1. destruct (Nat.eqb_spec w1 w) as [->|N]; [reflexivity|].
    apply (no_other_active s w I A w1) in N. destruct (wk s w1); auto; discriminate N.
  - right. exists w. rewrite Nat.eqb_refl. reflexivity.
Qed.

(* i_safe over a step: kept by the one-way flags and the stability of Closed; it is for the step
   that takes the first decision to establish *)
Lemma safe_step {s c s' l} : Inv s -> step s c = Some (s', l) ->
  (gdec s = false -> gdec s' = true -> conn s' = false \/ Closed s' \/ wc s' = true) ->
  gdec s' = true -> conn s' = false \/ Closed s' \/ wc s' = true.
Proof.
  intros I H F. destruct (gdec s) eqn:G; [intros _ | exact (F eq_refl)].
  destruct (flags_mono H) as (WC & CN & _).
  destruct (i_safe s I G) as [X|[X|X]]; eauto using closed_stable.
Qed.
