(* Proof/ChanExpectSeq.v -- C19, the sequential layer: HTTPChannel.received
   (Model/ChanSeq.v, the model K-chanseq compares with the real channel) over the
   transliterated parser.  In this order:
   1. a call of Parser.received by branch (received_cases) and as an event of the
      abstract parser of Model/ChanExpect.v (abs_sim);
   2. the loop of ChanSeq with the parser states it produces observed (loop_obs ..);
   3. every sequential run is a run of the I/O thread of the interleaving model
      (mrel, turn_sim, seq_refines), hence no interim response unless asked;
   4. one turn of `while data` by cases, and the object under construction stays
      well-formed over every feed (feed_invariant);
   5. the pipelines of findings F5 / F6 as examples. *)
From Coq Require Import List NArith ZArith Bool Lia.
From RecordUpdate Require Import RecordUpdate.
From WV Require Import Model.ChanExpect.
From WV Require Import Lib.PyBytes Model.Receiver Model.Parser Model.ChanSeq.
From WV Require Import Proof.ParserTotal Proof.ChanExpectParse.
From WV Require Proof.ChanExpectBase Proof.ChanExpect.
Import ListNotations.
Local Open Scope N_scope.

Module CE := WV.Model.ChanExpect.
Module CP := WV.Proof.ChanExpect.
Module CB := WV.Proof.ChanExpectBase.

Definition is_some {A} (o : option A) : bool := match o with Some _ => true | None => false end.

Definition flags_eq (q : CE.areq) (p : parser) : Prop :=
  CE.a_completed q = completed p /\ CE.a_expect q = expect_continue p /\
  CE.a_hf q = headers_finished p /\ CE.a_body q = is_some (body p) /\ CE.a_empty q = empty p.

Definition se_of (old new : bool) : option bool := if Bool.eqb old new then None else Some new.

Lemma set_expect_se : forall old new q, CE.a_expect q = old ->
  exists g, CE.set_expect (se_of old new) q = q <| CE.a_expect := new |> <| CE.g_asked := g |>.
Proof.
  intros old new q <-. unfold se_of. destruct (Bool.eqb (CE.a_expect q) new) eqn:E; simpl; eauto.
  apply eqb_prop in E. subst. exists (CE.g_asked q). destruct q. reflexivity.
Qed.

Lemma se_asks : forall a p hp p' st, parse_header a p hp = (p', st) ->
  se_of (expect_continue p) (expect_continue p') = Some true ->
  version p' = s_1_1 /\ expect_value p' = true.
Proof.
  intros a p hp p' st H Hse. unfold se_of in Hse.
  pose proof (parse_header_expect a p hp) as E. rewrite H in E. destruct E as [E|[E1 E2]]; cbn [fst] in *.
  - rewrite E, Bool.eqb_reflx in Hse. discriminate.
  - destruct (Bool.eqb (expect_continue p) (expect_continue p')); [discriminate|].
    inversion Hse as [E3]. split; [assumption|]. congruence.
Qed.

(* the end of the header phase of received() after a successful parse_header *)
Definition head_done (a : adj) (p1 : parser) : parser :=
  let p2 := match body p1 with None => p1 <| completed := true |> | Some _ => p1 end in
  let p3 := if (0 <? content_length p2) && (max_request_body_size a <=? content_length p2)
            then p2 <| error := Some EBodyTooLarge |> <| completed := true |> else p2 in
  p3 <| headers_finished := true |>.

Lemma head_done_fields : forall a p1, let p' := head_done a p1 in
  expect_continue p' = expect_continue p1 /\ body p' = body p1 /\ empty p' = empty p1 /\
  version p' = version p1 /\ headers p' = headers p1 /\ headers_finished p' = true /\
  (body p1 = None -> completed p' = true).
Proof.
  intros a p1. unfold head_done.
  destruct (body p1) eqn:Eb; cbv zeta; destruct (_ && _); simpl; rewrite ?Eb; repeat split; auto; discriminate.
Qed.

(* what a call of HTTPRequestParser.received leaves, by the branch taken *)
Inductive recv_case (a : adj) (p : parser) : parser -> Prop :=
| RC_done : completed p = true -> recv_case a p p
| RC_body : forall br br' bbr p',
    completed p = false -> body p = Some br ->
    let p1 := p <| body := Some br' |> <| body_bytes_received := bbr |> in
    p' = p1 \/ (exists e, p' = p1 <| error := Some e |> <| completed := true |>) \/
    p' = p1 <| completed := true |> \/ (exists h, p' = p1 <| completed := true |> <| headers := h |>) ->
    recv_case a p p'
| RC_more : forall k s, completed p = false -> body p = None ->
    recv_case a p (p <| header_bytes_received := k |> <| header_plus := s |>)
| RC_431 : forall k p1, completed p = false -> body p = None ->
    parse_header a (p <| header_bytes_received := k |>) fake_head_431 = (p1, PSOk) ->
    recv_case a p (p1 <| error := Some EHeaderTooLarge |> <| completed := true |>)
| RC_empty : forall k, completed p = false -> body p = None ->
    recv_case a p (p <| header_bytes_received := k |> <| empty := true |> <| completed := true |>
                     <| headers_finished := true |>)
| RC_error : forall k hp p1 e, completed p = false -> body p = None ->
    parse_header a (p <| header_bytes_received := k |>) hp = (p1, PSError e) ->
    recv_case a p (p1 <| error := Some e |> <| completed := true |> <| headers_finished := true |>)
| RC_head : forall k hp p1, completed p = false -> body p = None ->
    parse_header a (p <| header_bytes_received := k |>) hp = (p1, PSOk) ->
    recv_case a p (head_done a p1).

Lemma received_cases : forall a p data p' n, Parser.received a p data = ROk p' n -> recv_case a p p'.
Proof.
  intros a p data p' n H. unfold Parser.received in H.
  destruct (completed p) eqn:Ec; [inversion H; subst; apply RC_done; assumption|].
  destruct (body p) as [br|] eqn:Eb.
  - destruct (match br with
              | BFixed f => let '(f', n0) := fixed_received f data in Some (BFixed f', n0, None, f_completed f')
              | BChunked c => match chunked_received c data with
                              | Some (c', n0) => Some (BChunked c', n0, c_error c', c_completed c')
                              | None => None end end) as [[[[br' cons] brerr] brdone]|]; [|discriminate].
    apply (RC_body a p br br' (body_bytes_received p + cons)%Z p' Ec Eb).
    destruct (_ <=? _)%Z; [inversion H; eauto|].
    destruct brerr; [inversion H; eauto|].
    destruct brdone; [|inversion H; auto].
    destruct (chunked _); inversion H; eauto.
  - destruct (find_double_newline (header_plus p ++ data)) as [i|].
    + destruct (max_request_header_size a <=? N.of_nat i).
      { destruct (parse_header a _ fake_head_431) as [p1 []] eqn:Ep; try discriminate.
        inversion H; subst. eapply RC_431; eauto. }
      match type of H with context[match ?hpx with [] => _ | _ :: _ => _ end] => destruct hpx as [|c0 hp] end.
      { inversion H; subst. apply RC_empty; assumption. }
      destruct (parse_header a _ (c0 :: hp)) as [p1 []] eqn:Ep; try discriminate; inversion H; subst.
      * eapply RC_head; eauto.
      * eapply RC_error; eauto.
    + destruct (max_request_header_size a <=? header_bytes_received p + lenN data).
      { destruct (parse_header a _ fake_head_431) as [p1 []] eqn:Ep; try discriminate.
        inversion H; subst. eapply RC_431; eauto. }
      inversion H; subst. apply RC_more; assumption.
Qed.

Definition sim_goal (q : CE.areq) (p p' : parser) : Prop :=
  exists ev q', CE.astep q ev = Some q' /\ flags_eq q' p' /\ CE.rid q' = CE.rid q /\
    (CP.ev_asks ev = true -> version p' = s_1_1 /\ expect_value p' = true) /\
    (headers_finished p = false -> headers_finished p' = true -> empty p' = false ->
       CE.g_heads q' = S (CE.g_heads q)).

(* the abstract counterpart of a parse_header call: only the flag may move *)
Lemma parse_header_sim : forall a p k hp p1 st q,
  CE.a_expect q = expect_continue p ->
  parse_header a (p <| header_bytes_received := k |>) hp = (p1, st) ->
  let se := se_of (expect_continue p) (expect_continue p1) in
  (exists g, CE.set_expect se q = q <| CE.a_expect := expect_continue p1 |> <| CE.g_asked := g |>) /\
  (completed p1 = completed p /\ empty p1 = empty p /\ headers_finished p1 = headers_finished p) /\
  (se = Some true -> version p1 = s_1_1 /\ expect_value p1 = true).
Proof.
  intros a p k hp p1 st q Fe Ep se.
  pose proof (parse_header_frame a (p <| header_bytes_received := k |>) hp) as (Hc & Hem & Hh & _).
  rewrite Ep in Hc, Hem, Hh. split; [apply set_expect_se, Fe|]. split; [auto|]. exact (se_asks _ _ _ _ _ Ep).
Qed.

(* every call of the transliterated HTTPRequestParser.received is matched by an
   event of the abstract parser, and an event that sets the flag comes from an
   HTTP/1.1 head whose Expect field is "100-continue" (case-insensitively) *)
Theorem abs_sim : forall a p data p' n q,
  Parser.received a p data = ROk p' n -> flags_eq q p -> sim_goal q p p'.
Proof.
  intros a p data p' n q H (Fc & Fe & Fh & Fb & Fem). unfold sim_goal.
  destruct (received_cases _ _ _ _ _ H) as
    [Ec | br br' bbr p2 Ec Eb p1 Hp' | k s Ec Eb | k p1 Ec Eb Ep | k Ec Eb | k hp p1 e Ec Eb Ep | k hp p1 Ec Eb Ep];
    clear H; unfold CE.astep; rewrite Fc, Ec, ?Fb, ?Eb; cbn [is_some].
  - exists CE.EvNone, q. unfold flags_eq. repeat split; auto; try discriminate; congruence.
  - exists (CE.EvBody (completed p2)). eexists. split; [reflexivity|].
    assert (X : expect_continue p2 = expect_continue p /\ headers_finished p2 = headers_finished p /\
                is_some (body p2) = true /\ empty p2 = empty p)
      by (destruct Hp' as [->|[(e & ->)|[->|(h & ->)]]]; simpl; auto).
    destruct X as (X2 & X3 & X4 & X5). unfold flags_eq. simpl. rewrite Eb in Fb. simpl in Fb.
    repeat split; try discriminate; congruence.
  - exists CE.EvNone, q. unfold flags_eq. simpl. rewrite Eb. repeat split; auto; try discriminate; congruence.
  - destruct (parse_header_sim _ _ _ _ _ _ q Fe Ep) as ((g & Eg) & (Hc & Hem & Hh) & Hse).
    exists (CE.EvHead431 (se_of (expect_continue p) (expect_continue p1)) (is_some (body p1))).
    eexists. split; [reflexivity|]. rewrite Eg. unfold flags_eq. simpl.
    repeat split; try congruence; destruct (se_of _ _) as [[]|]; try discriminate; apply Hse; reflexivity.
  - exists CE.EvHeadEmpty. eexists. split; [reflexivity|]. unfold flags_eq. simpl. rewrite Eb.
    repeat split; auto; try discriminate; congruence.
  - destruct (parse_header_sim _ _ _ _ _ _ q Fe Ep) as ((g & Eg) & (Hc & Hem & Hh) & Hse).
    exists (CE.EvHead (se_of (expect_continue p) (expect_continue p1)) (is_some (body p1)) true).
    eexists. rewrite orb_true_r. split; [reflexivity|]. rewrite Eg. unfold flags_eq. simpl.
    repeat split; try congruence; destruct (se_of _ _) as [[]|]; try discriminate; apply Hse; reflexivity.
  - destruct (parse_header_sim _ _ _ _ _ _ q Fe Ep) as ((g & Eg) & (Hc & Hem & Hh) & Hse).
    destruct (head_done_fields a p1) as (D1 & D2 & D3 & D4 & D5 & D6 & D7).
    set (p3 := head_done a p1) in *. clearbody p3.
    exists (CE.EvHead (se_of (expect_continue p) (expect_continue p1)) (is_some (body p1)) (completed p3)).
    eexists.
    assert (Hbc : is_some (body p1) || completed p3 = true).
    { destruct (body p1); [reflexivity|]. simpl. auto. }
    rewrite Hbc. split; [reflexivity|]. rewrite Eg. unfold flags_eq, expect_value. simpl. rewrite D2, D4, D5.
    repeat split; try congruence; destruct (se_of _ _) as [[]|]; try discriminate; apply Hse; reflexivity.
Qed.

(* the flag itself: set only by an HTTP/1.1 head with Expect: 100-continue *)
Theorem flag_only_11 : forall a p data p' n,
  Parser.received a p data = ROk p' n ->
  expect_continue p = false -> expect_continue p' = true ->
  version p' = s_1_1 /\ expect_value p' = true /\ body p = None /\ completed p = false.
Proof.
  intros a p data p' n H E0 E1.
  assert (P : forall k hp p1 st, parse_header a (p <| header_bytes_received := k |>) hp = (p1, st) ->
            expect_continue p1 = true -> version p1 = s_1_1 /\ expect_value p1 = true).
  { intros k hp p1 st Ep E. apply (se_asks _ _ _ _ _ Ep). simpl. rewrite E0, E. reflexivity. }
  destruct (received_cases _ _ _ _ _ H) as
    [Ec | br br' bbr p2 Ec Eb p1 Hp' | k s Ec Eb | k p1 Ec Eb Ep | k Ec Eb | k hp p1 e Ec Eb Ep | k hp p1 Ec Eb Ep];
    clear H; try (simpl in E1; congruence).
  - destruct Hp' as [->|[(e & ->)|[->|(h & ->)]]]; simpl in E1; congruence.
  - destruct (P _ _ _ _ Ep E1). auto.
  - destruct (P _ _ _ _ Ep E1). auto.
  - destruct (head_done_fields a p1) as (D1 & _ & _ & D4 & D5 & _). rewrite D1 in E1.
    destruct (P _ _ _ _ Ep E1). unfold expect_value. rewrite D4, D5. auto.
Qed.

Definition cur (c : chan) : parser := match request c with Some r => r | None => parser_init end.

Definition trigger (c : chan) (r1 : parser) : bool :=
  expect_continue r1 && headers_finished r1
  && (match requests c with [] => true | _ => false end) && negb (sent_continue c).

Definition turn (c : chan) (r1 : parser) : chan :=
  let c := c <| request := Some r1 |> in
  let '(c, r2) := if trigger c r1 then send_continue c r1 else (c, r1) in
  let c := c <| request := Some r2 |> in
  if completed r2 then
    let c := c <| sent_continue := false |> in
    let c :=
      if negb (empty r2) then
        let c := c <| requests := requests c ++ [r2] |> in
        if (length (requests c) =? 1)%nat
        then c <| add_task_calls := S (add_task_calls c) |> else c
      else c in
    c <| request := None |>
  else c.

Lemma loop_unfold : forall f a c data,
  received_loop (S f) a c data =
  match Parser.received a (cur c) data with
  | REscapes => CEscapes
  | ROutOfFuel => COutOfFuel
  | RUnmodelled => CUnmodelled
  | ROk r1 n =>
    if (Z.of_nat (length data) <=? n)%Z then COk (turn c r1)
    else received_loop f a (turn c r1) (skipn (Z.to_nat n) data)
  end.
Proof.
  intros. cbn [received_loop]. fold (cur c).
  destruct (Parser.received a (cur c) data) as [r1 n| | |]; try reflexivity.
  unfold turn, trigger. cbn [requests sent_continue set eta_chan].
  destruct (expect_continue r1 && headers_finished r1 &&
            match requests c with [] => true | _ :: _ => false end && negb (sent_continue c)); reflexivity.
Qed.

(* the same loop, also returning the parser states produced by the calls *)
Fixpoint loop_obs (fuel : nat) (a : adj) (c : chan) (data : bytes) : chan_res * list parser :=
  match fuel with
  | O => (COutOfFuel, [])
  | S f =>
    match Parser.received a (cur c) data with
    | REscapes => (CEscapes, [])
    | ROutOfFuel => (COutOfFuel, [])
    | RUnmodelled => (CUnmodelled, [])
    | ROk r1 n =>
      if (Z.of_nat (length data) <=? n)%Z then (COk (turn c r1), [r1])
      else let '(res, l) := loop_obs f a (turn c r1) (skipn (Z.to_nat n) data) in (res, r1 :: l)
    end
  end.

Definition received_obs (a : adj) (c : chan) (data : bytes) : chan_res * list parser :=
  match data with
  | [] => (COk c, [])
  | _ => if will_close c || close_when_flushed c then (COk c, [])
         else loop_obs (S (length data)) a c data
  end.

Fixpoint feed_obs (a : adj) (c : chan) (reads : list bytes) : chan_res * list parser :=
  match reads with
  | [] => (COk c, [])
  | d :: rest =>
    match received_obs a c d with
    | (COk c', l) => let '(res, l') := feed_obs a c' rest in (res, l ++ l')
    | (r, l) => (r, l)
    end
  end.

Lemma loop_obs_fst : forall fuel a c data, fst (loop_obs fuel a c data) = received_loop fuel a c data.
Proof.
  induction fuel as [|f IH]; intros; [reflexivity|].
  rewrite loop_unfold. cbn [loop_obs].
  destruct (Parser.received a (cur c) data) as [r1 n| | |]; try reflexivity.
  destruct (Z.of_nat (length data) <=? n)%Z; [reflexivity|].
  specialize (IH a (turn c r1) (skipn (Z.to_nat n) data)).
  destruct (loop_obs f a (turn c r1) (skipn (Z.to_nat n) data)). exact IH.
Qed.

Lemma received_obs_fst : forall a c d, fst (received_obs a c d) = chan_received a c d.
Proof.
  intros. unfold received_obs, chan_received. destruct d; [reflexivity|].
  destruct (will_close c || close_when_flushed c); [reflexivity|]. apply loop_obs_fst.
Qed.

Theorem feed_obs_fst : forall a reads c, fst (feed_obs a c reads) = feed a c reads.
Proof.
  induction reads as [|d rest IH]; intros; [reflexivity|].
  cbn [feed_obs feed]. rewrite <- received_obs_fst.
  destruct (received_obs a c d) as [[c'| | |] l]; try reflexivity.
  cbn [fst]. specialize (IH c'). destruct (feed_obs a c' rest). exact IH.
Qed.

(* The model's [run] starts at [init] and carries the labels; the simulation composes
   runs from intermediate states, where only the state matters ([run_execs] links the two). *)
Definition execs (s : CE.state) (sched : list CE.choice) : CE.state :=
  fold_left (fun s c => match CE.step s c with Some (s', _) => s' | None => s end) sched s.

Lemma exec1_fst : forall l s tr, fst (fold_left CE.exec1 l (s, tr)) = execs s l.
Proof.
  induction l as [|c l IH]; intros; [reflexivity|].
  cbn [fold_left execs]. unfold CE.exec1 at 2. cbn [fst snd].
  destruct (CE.step s c) as [[s' lab]|]; apply IH.
Qed.

Lemma run_execs : forall l, CE.run l = execs CE.init l.
Proof. intros. apply exec1_fst. Qed.

Lemma execs_app : forall s l1 l2, execs s (l1 ++ l2) = execs (execs s l1) l2.
Proof. intros. unfold execs. apply fold_left_app. Qed.

Definition tok_bytes (t : CE.tok) : bytes :=
  match t with CE.TInterim _ _ => continue_bytes | CE.TFinal _ => [] end.

Record mrel (c : chan) (s : CE.state) : Prop := {
  m_req : match request c, CE.request s with
          | Some r, Some q => flags_eq q r
          | None, None => True
          | _, _ => False
          end;
  m_reqs : length (requests c) = length (CE.requests s);
  m_sc : sent_continue c = CE.sent_continue s;
  m_wc : will_close c = false /\ close_when_flushed c = false /\
         CE.will_close s = false /\ CE.close_when_flushed s = false;
  m_out : outlog c = concat (map tok_bytes (CE.outlog s));
  m_tasks : add_task_calls c = CE.queued s;
  m_act : CE.active s = []
}.

Lemma mrel_init : mrel chan_init CE.init.
Proof. constructor; simpl; auto. Qed.

(* the end of a turn: `if self.request.completed: ...` *)
Definition finish (c : chan) (r2 : parser) : chan :=
  if completed r2 then
    let c := c <| sent_continue := false |> in
    let c :=
      if negb (empty r2) then
        let c := c <| requests := requests c ++ [r2] |> in
        if (length (requests c) =? 1)%nat
        then c <| add_task_calls := S (add_task_calls c) |> else c
      else c in
    c <| request := None |>
  else c.

Lemma turn_finish : forall c r1,
  turn c r1 =
  let c1 := c <| request := Some r1 |> in
  if trigger c1 r1
  then finish (c1 <| outlog := outlog c1 ++ continue_bytes |> <| sent_continue := true |>
                  <| request := Some (r1 <| expect_continue := false |>) |>)
              (r1 <| expect_continue := false |>)
  else finish c1 r1.
Proof.
  intros. unfold turn, finish. cbv zeta.
  destruct (trigger (c <| request := Some r1 |>) r1); [unfold send_continue; cbn|];
    destruct c; reflexivity.
Qed.

Lemma finish_sim : forall c s r2 q2 more s' l',
  mrel c s -> request c = Some r2 -> CE.request s = Some q2 ->
  CE.io_complete s more = (s', l') ->
  mrel (finish c r2) s' /\ CE.io s' = (if more then CE.IOLoop else CE.IOIdle) /\
  CE.rlock s' = (if more then CE.rlock s else false).
Proof.
  (* both sides run the same program; the two length tests agree because the queues are equally long *)
  intros c s r2 q2 more s' l' [M1 M2 M3 M4 M5 M6 M7] Hr Hq Ec.
  rewrite Hr, Hq in M1. pose proof M1 as (Fc & _ & _ & _ & Fem).
  unfold CE.io_complete in Ec. unfold finish. rewrite Hq, Fc, Fem in Ec.
  assert (El : length (CE.requests s ++ [q2]) = length (requests c ++ [r2]))
    by (rewrite !app_length, M2; reflexivity).
  destruct (completed r2); [destruct (empty r2)|]; simpl in Ec |- *; rewrite ?El in Ec;
    try destruct (length (requests c ++ [r2]) =? 1)%nat;
    destruct more; inversion Ec; subst; simpl;
    (split; [constructor; simpl; rewrite ?app_length, ?Hr, ?Hq; auto|auto]).
Qed.

Lemma send_sim : forall c s r q more, mrel c s -> request c = Some r -> CE.request s = Some q ->
  mrel (c <| outlog := outlog c ++ continue_bytes |> <| sent_continue := true |>
          <| request := Some (r <| expect_continue := false |>) |>)
       (s <| CE.request := Some (q <| CE.a_expect := false |>) |> <| CE.io := CE.IOSend more |>
          <| CE.outlog := CE.outlog s ++ [CE.TInterim (CE.rid q) false] |> <| CE.sent_continue := true |>).
Proof.
  intros c s r q more [M1 M2 M3 M4 M5 M6 M7] Hr Hq. rewrite Hr, Hq in M1. destruct M1 as (Fc & Fe & Fh & Fb & Fem).
  constructor; simpl; auto.
  - unfold flags_eq. simpl. auto.
  - rewrite map_app, concat_app, <- M5. reflexivity.
Qed.

Definition justified (rs : list parser) (sched : list CE.choice) : Prop :=
  forall ev more, In (CE.CIOParse ev more) sched -> CP.ev_asks ev = true ->
    exists r, In r rs /\ version r = s_1_1 /\ expect_value r = true.

Lemma justified_app : forall rs1 rs2 l1 l2, justified rs1 l1 -> justified rs2 l2 ->
  justified (rs1 ++ rs2) (l1 ++ l2).
Proof.
  intros rs1 rs2 l1 l2 J1 J2 ev more Hin Ha. apply in_app_or in Hin. destruct Hin as [Hin|Hin].
  - destruct (J1 ev more Hin Ha) as (r & Hr & Hv). exists r. split; [apply in_or_app; left; assumption|assumption].
  - destruct (J2 ev more Hin Ha) as (r & Hr & Hv). exists r. split; [apply in_or_app; right; assumption|assumption].
Qed.

Lemma justified_turn : forall r1 ev more sched1,
  sched1 = [CE.CIOParse ev more] \/ sched1 = [CE.CIOParse ev more; CE.CIOSend] ->
  (CP.ev_asks ev = true -> version r1 = s_1_1 /\ expect_value r1 = true) -> justified [r1] sched1.
Proof.
  intros r1 ev more sched1 Hs Hask ev' more' Hin Ha. exists r1. split; [left; reflexivity|].
  apply Hask. destruct Hs as [-> | ->]; simpl in Hin.
  - destruct Hin as [Hin|[]]. inversion Hin; subst. assumption.
  - destruct Hin as [Hin|[Hin|[]]]; [|discriminate]. inversion Hin; subst. assumption.
Qed.

Lemma turn_sim : forall a c s data r1 n (more : bool),
  mrel c s -> CE.io s = CE.IOLoop -> CE.rlock s = true ->
  Parser.received a (cur c) data = ROk r1 n ->
  exists sched1,
    mrel (turn c r1) (execs s sched1) /\
    CE.io (execs s sched1) = (if more then CE.IOLoop else CE.IOIdle) /\
    CE.rlock (execs s sched1) = more /\ justified [r1] sched1.
Proof.
  intros a c s data r1 n more M Hio Hrl Hrecv.
  set (q0 := match CE.request s with Some q => q | None => CE.fresh_req (CE.next_id s) end).
  set (fresh := match CE.request s with Some _ => false | None => true end).
  assert (F0 : flags_eq q0 (cur c) /\ CB.parse_obj s q0 fresh).
  { pose proof (m_req _ _ M) as M1. unfold q0, fresh, cur, CB.parse_obj.
    destruct (request c), (CE.request s); try tauto. unfold flags_eq. simpl. auto 10. }
  destruct F0 as [F0 P].
  destruct (abs_sim _ _ _ _ _ _ Hrecv F0) as (ev & q1 & Ha & F1 & _ & Hask & _).
  pose proof (CB.step_parse_eq s ev more q0 fresh Hio P) as Estep. rewrite Ha in Estep. cbv zeta in Estep.
  destruct (CB.after_parse_fields s q1 fresh) as (T1 & T2 & T3 & T7 & T8 & _ & T9 & _ & T6 & T5 & T4 & _).
  set (s1 := CB.after_parse s q1 fresh) in *. clearbody s1.
  set (c1 := c <| request := Some r1 |>).
  assert (M1' : mrel c1 s1).
  { destruct M. constructor; simpl; rewrite ?T1, ?T2, ?T3, ?T4, ?T5, ?T6, ?T7, ?T8; auto. }
  assert (Etrig : trigger c1 r1 = CE.wants_continue s1 && CE.is_nil (CE.requests s1)).
  { destruct F1 as (_ & Fe & Fh & _). unfold trigger, CE.wants_continue. simpl.
    rewrite T1, T2, T3, Fe, Fh, (m_sc _ _ M). pose proof (m_reqs _ _ M) as M2.
    destruct (requests c), (CE.requests s); try discriminate; simpl;
      destruct (expect_continue r1), (headers_finished r1), (CE.sent_continue s); reflexivity. }
  rewrite turn_finish. cbv zeta. fold c1. rewrite Etrig.
  destruct (CE.wants_continue s1 && CE.is_nil (CE.requests s1)) eqn:Ew.
  - (* send_continue *)
    exists [CE.CIOParse ev more; CE.CIOSend].
    cbn [execs fold_left]. rewrite Estep.
    match goal with |- context[CE.step ?x CE.CIOSend] => set (s2 := x) end.
    cbn [CE.step]. change (CE.io s2) with (CE.IOSend more). cbv iota.
    rewrite (CB.do_send_some s2 false (q1 <| CE.a_expect := false |>) eq_refl).
    match goal with |- context[CE.io_complete ?x more] => set (s3 := x) end.
    destruct (CE.io_complete s3 more) as [s4 l4] eqn:Ec.
    destruct (finish_sim _ s3 _ _ more s4 l4 (send_sim c1 s1 r1 q1 more M1' eq_refl T1) eq_refl eq_refl Ec)
      as (R1 & R2 & R3).
    change (CE.rlock s3) with (CE.rlock s1) in R3. rewrite T9, Hrl in R3.
    split; [exact R1|]. split; [exact R2|]. split; [destruct more; exact R3|apply (justified_turn r1 ev more); auto].
  - exists [CE.CIOParse ev more].
    cbn [execs fold_left]. rewrite Estep.
    destruct (CE.io_complete s1 more) as [s' l'] eqn:Ec.
    destruct (finish_sim c1 s1 r1 q1 more s' l' M1' eq_refl T1 Ec) as (R1 & R2 & R3). rewrite T9, Hrl in R3.
    split; [exact R1|]. split; [exact R2|]. split; [destruct more; exact R3|apply (justified_turn r1 ev more); auto].
Qed.

(* from [s], the schedule leads to a state outside received() that matches [c'] *)
Definition idle_run (s : CE.state) (c' : chan) (rs : list parser) (sched : list CE.choice) : Prop :=
  mrel c' (execs s sched) /\ CE.io (execs s sched) = CE.IOIdle /\
  CE.rlock (execs s sched) = false /\ justified rs sched.

Lemma idle_run_nil : forall s c rs, mrel c s -> CE.io s = CE.IOIdle -> CE.rlock s = false -> idle_run s c rs [].
Proof. intros s c rs M Hio Hrl. split; [|split; [|split]]; auto. intros ev more []. Qed.

Lemma idle_run_app : forall s c rs1 rs2 l1 l2,
  justified rs1 l1 -> idle_run (execs s l1) c rs2 l2 -> idle_run s c (rs1 ++ rs2) (l1 ++ l2).
Proof.
  intros s c rs1 rs2 l1 l2 J (M & Hio & Hrl & J2). unfold idle_run. rewrite execs_app.
  auto using justified_app.
Qed.

Lemma loop_sim : forall fuel a c data c' rs s,
  loop_obs fuel a c data = (COk c', rs) -> mrel c s -> CE.io s = CE.IOLoop -> CE.rlock s = true ->
  exists sched, idle_run s c' rs sched.
Proof.
  induction fuel as [|f IH]; intros a c data c' rs s H M Hio Hrl; [discriminate|].
  cbn [loop_obs] in H.
  destruct (Parser.received a (cur c) data) as [r1 n| | |] eqn:Er; try discriminate.
  destruct (Z.of_nat (length data) <=? n)%Z eqn:El.
  - inversion H; subst. clear H. exact (turn_sim a c s data r1 n false M Hio Hrl Er).
  - destruct (loop_obs f a (turn c r1) (skipn (Z.to_nat n) data)) as [res l] eqn:Eo.
    inversion H; subst. clear H.
    destruct (turn_sim a c s data r1 n true M Hio Hrl Er) as (sched1 & M' & Hio' & Hrl' & J).
    destruct (IH a _ _ _ _ _ Eo M' Hio' Hrl') as (sched2 & Q).
    exists (sched1 ++ sched2). exact (idle_run_app s c' [r1] l _ _ J Q).
Qed.

Lemma received_sim : forall a c d c' rs s,
  received_obs a c d = (COk c', rs) -> mrel c s -> CE.io s = CE.IOIdle -> CE.rlock s = false ->
  exists sched, idle_run s c' rs sched.
Proof.
  intros a c d c' rs s H M Hio Hrl. unfold received_obs in H.
  assert (Hnone : exists sched, idle_run s c rs sched) by (exists []; apply idle_run_nil; assumption).
  destruct d as [|b d]; [inversion H; subst; exact Hnone|].
  destruct (m_wc _ _ M) as (M4a & M4b & M4c & M4d).
  rewrite M4a, M4b in H. cbn [orb] in H.
  set (s1 := s <| CE.rlock := true |> <| CE.io := CE.IOLoop |>).
  assert (E1 : CE.step s CE.CIOEnter = Some (s1, [])).
  { cbn [CE.step]. rewrite Hio, Hrl, M4c, M4d. reflexivity. }
  assert (M' : mrel c s1) by (destruct M; constructor; auto).
  destruct (loop_sim _ _ _ _ _ _ s1 H M' eq_refl eq_refl) as (sched & Q).
  exists ([CE.CIOEnter] ++ sched). apply (idle_run_app s c' [] rs).
  - intros ev more [Hin|[]]. discriminate.
  - cbn [execs fold_left]. rewrite E1. exact Q.
Qed.

(* every sequential run of HTTPChannel.received (Model/ChanSeq.v: the model that
   K-chanseq compares with the real channel) is a run of the I/O thread of the
   interleaving model, and every event of that run that sets the flag is
   justified by a parser state with version "1.1" and Expect = 100-continue *)
Theorem seq_refines : forall a reads c rs,
  feed_obs a chan_init reads = (COk c, rs) ->
  exists sched, mrel c (CE.run sched) /\ CE.io (CE.run sched) = CE.IOIdle /\
                CE.rlock (CE.run sched) = false /\ justified rs sched.
Proof.
  intros a reads.
  assert (G : forall reads c0 c rs s0,
    feed_obs a c0 reads = (COk c, rs) -> mrel c0 s0 -> CE.io s0 = CE.IOIdle -> CE.rlock s0 = false ->
    exists sched, idle_run s0 c rs sched).
  { clear reads. induction reads as [|d rest IH]; intros c0 c rs s0 H M Hio Hrl.
    - inversion H; subst. exists []. apply idle_run_nil; assumption.
    - cbn [feed_obs] in H. destruct (received_obs a c0 d) as [[c1| | |] l1] eqn:Er; try discriminate.
      destruct (feed_obs a c1 rest) as [res l2] eqn:Ef. inversion H; subst. clear H.
      destruct (received_sim _ _ _ _ _ _ Er M Hio Hrl) as (sched1 & Q1 & Q2 & Q3 & Q4).
      destruct (IH _ _ _ _ Ef Q1 Q2 Q3) as (sched2 & R).
      exists (sched1 ++ sched2). exact (idle_run_app s0 c l1 l2 _ _ Q4 R). }
  intros c rs H.
  destruct (G reads chan_init c rs CE.init H mrel_init eq_refl eq_refl) as (sched & Q).
  exists sched. rewrite run_execs. exact Q.
Qed.

Lemma no_interim_bytes : forall l, (forall i w, ~ In (CE.TInterim i w) l) -> concat (map tok_bytes l) = [].
Proof.
  induction l as [|t l IH]; intros H; [reflexivity|].
  destruct t as [i w|i]; [exfalso; apply (H i w); left; reflexivity|].
  simpl. apply IH. intros i' w' Hin. apply (H i' w'). right. assumption.
Qed.

(* HTTP/1.0 requests and requests that did not ask never get an interim
   response: if no parser state produced while the stream is fed has version
   "1.1" together with Expect = "100-continue", nothing is logged *)
Theorem seq_no_interim : forall a reads c rs,
  feed_obs a chan_init reads = (COk c, rs) ->
  (forall r, In r rs -> version r = s_1_1 -> expect_value r = true -> False) ->
  outlog c = [].
Proof.
  intros a reads c rs H Hno.
  destruct (seq_refines _ _ _ _ H) as (sched & M & _ & _ & J).
  rewrite (m_out _ _ M). apply no_interim_bytes.
  apply CP.no_interim_unless_asked. intros ev more Hin.
  destruct (CP.ev_asks ev) eqn:E; [|reflexivity]. exfalso.
  destruct (J ev more Hin E) as (r & Hr & Hv & He). eapply Hno; eauto.
Qed.

Lemma finish_request : forall c r2,
  (completed r2 = true -> request (finish c r2) = None) /\
  (completed r2 = false -> finish c r2 = c).
Proof.
  intros c r2. unfold finish. split; intros H; rewrite H; [|reflexivity].
  destruct (negb (empty r2)); [destruct (length _ =? 1)%nat|]; reflexivity.
Qed.

Lemma finish_done : forall c r2, completed r2 = true -> empty r2 = false ->
  requests (finish c r2) = requests c ++ [r2] /\ request (finish c r2) = None /\
  sent_continue (finish c r2) = false /\ outlog (finish c r2) = outlog c /\
  add_task_calls (finish c r2) =
    (if (length (requests c ++ [r2]) =? 1)%nat then S (add_task_calls c) else add_task_calls c).
Proof.
  intros c r2 Hc He. unfold finish. rewrite Hc, He. simpl.
  destruct (length (requests c ++ [r2]) =? 1)%nat; repeat split; reflexivity.
Qed.

Theorem turn_cases : forall c r1,
  let c1 := c <| request := Some r1 |> in
  let r2 := r1 <| expect_continue := false |> in
  (* the interim response is due and the request is still incomplete: it stays *)
  (trigger c1 r1 = true -> completed r1 = false ->
     turn c r1 = c <| outlog := outlog c ++ continue_bytes |> <| sent_continue := true |>
                   <| request := Some r2 |>) /\
  (* due, but the request was complete (or refused) at the end of its header block:
     interim response, then queued at once, flag consumed, latch cleared *)
  (trigger c1 r1 = true -> completed r1 = true -> empty r1 = false ->
     requests (turn c r1) = [r2] /\ request (turn c r1) = None /\
     sent_continue (turn c r1) = false /\ outlog (turn c r1) = outlog c ++ continue_bytes /\
     add_task_calls (turn c r1) = S (add_task_calls c)) /\
  (* not due: a completed request is queued as the parser produced it *)
  (trigger c1 r1 = false -> completed r1 = true -> empty r1 = false ->
     requests (turn c r1) = requests c ++ [r1] /\ request (turn c r1) = None /\
     sent_continue (turn c r1) = false /\ outlog (turn c r1) = outlog c) /\
  (trigger c1 r1 = false -> completed r1 = false ->
     turn c r1 = c <| request := Some r1 |>).
Proof.
  intros c r1 c1 r2. rewrite turn_finish. cbv zeta. fold c1.
  assert (Hnil : trigger c1 r1 = true -> requests c = []).
  { intros H. unfold trigger in H. destruct (ChanSeq.requests c1) eqn:E; [|rewrite andb_false_r in H; discriminate].
    exact E. }
  split; [|split; [|split]].
  - intros Ht Hc. rewrite Ht, (proj2 (finish_request _ r2) Hc). destruct c; reflexivity.
  - intros Ht Hc He. rewrite Ht.
    match goal with |- context [finish ?x ?y] => destruct (finish_done x y Hc He) as (A1 & A2 & A3 & A4 & A5) end.
    rewrite A1, A2, A3, A4, A5. simpl. rewrite (Hnil Ht). auto.
  - intros Ht Hc He. rewrite Ht. destruct (finish_done c1 r1 Hc He) as (A1 & A2 & A3 & A4 & _). auto.
  - intros Ht Hc. rewrite Ht. apply finish_request. assumption.
Qed.

(* the parser object under construction is well-formed: not completed, and once its
   header block is finished it has a body receiver (so it never parses a second
   header block); before that it carries no header field, no body receiver and no flag *)
Definition wf_cur (c : chan) : Prop :=
  forall r, request c = Some r ->
    completed r = false /\ (headers_finished r = true -> body r <> None) /\
    (headers_finished r = false -> headers r = [] /\ body r = None /\ expect_continue r = false).

Lemma wf_parser_init : completed parser_init = false /\ headers_finished parser_init = false /\
  headers parser_init = [] /\ body parser_init = None /\ expect_continue parser_init = false.
Proof. repeat split. Qed.

Definition wf_obj (r : parser) : Prop :=
  completed r = false /\ (headers_finished r = true -> body r <> None) /\
  (headers_finished r = false -> headers r = [] /\ body r = None /\ expect_continue r = false).

Lemma received_wf : forall a p data p' n,
  Parser.received a p data = ROk p' n -> wf_obj p -> completed p' = false -> wf_obj p'.
Proof.
  intros a p data p' n H (Ec & W1 & W2) Ec'. split; [exact Ec'|].
  destruct (received_cases _ _ _ _ _ H) as
    [Ec0 | br br' bbr p2 _ Eb p1 Hp' | k s _ Eb | k p1 _ Eb Ep | k _ Eb | k hp p1 e _ Eb Ep | k hp p1 _ Eb Ep];
    clear H; try (simpl in Ec'; congruence).
  - (* body bytes: the header block was finished before *)
    assert (Hhf : headers_finished p = true).
    { destruct (headers_finished p) eqn:E; [reflexivity|]. destruct (W2 eq_refl) as (_ & W & _). congruence. }
    destruct Hp' as [->|[(e & ->)|[->|(h & ->)]]]; simpl in Ec'; try discriminate.
    simpl. split; [intros _; discriminate|congruence].
  - simpl. split; [intros E; specialize (W1 E); congruence|exact W2].
  - (* a parsed head that leaves the object incomplete has a body receiver *)
    destruct (head_done_fields a p1) as (_ & D2 & _ & _ & _ & D6 & D7).
    split; [intros _ E; rewrite D2 in E; rewrite (D7 E) in Ec'; discriminate|rewrite D6; discriminate].
Qed.

(* C19 (sequential part): the object under construction stays well-formed over every
   turn of `while data` -- so exactly one header block is parsed into it, from an
   empty headers dict: a queued request has only its own header fields.  (Before
   fix e3537e2 this failed for requests complete or refused at the end of their
   header block: findings F5/F6.) *)
Theorem seq_wf_turn : forall a c data r1 n,
  wf_cur c -> Parser.received a (cur c) data = ROk r1 n -> wf_cur (turn c r1).
Proof.
  intros a c data r1 n W H.
  assert (P0 : wf_obj (cur c)).
  { unfold cur. destruct (request c) as [r|] eqn:Er; [apply W; assumption|].
    destruct wf_parser_init as (I1 & I2 & I3). split; [exact I1|]. rewrite I2. split; [discriminate|auto]. }
  pose proof (received_wf _ _ _ _ _ H P0) as R.
  destruct (completed r1) eqn:Ec.
  - intros r Hr. rewrite turn_finish in Hr. cbv zeta in Hr.
    destruct (trigger _ r1); rewrite (proj1 (finish_request _ _)) in Hr by exact Ec; discriminate.
  - pose proof (turn_cases c r1) as T. cbv zeta in T. destruct T as (T1 & _ & _ & T4).
    destruct (R eq_refl) as (_ & R1 & R2).
    destruct (trigger (c <| request := Some r1 |>) r1) eqn:Et.
    + rewrite (T1 eq_refl Ec). intros r Hr. inversion Hr; subst. split; [exact Ec|]. split; [exact R1|].
      (* the trigger held: the header block is finished *)
      intros E. unfold trigger in Et. cbn in E. rewrite E, andb_false_r in Et. discriminate.
    + rewrite (T4 eq_refl Ec). intros r Hr. inversion Hr; subst. split; auto.
Qed.

Lemma wf_cur_init : wf_cur chan_init.
Proof. intros r H. discriminate. Qed.

(* a property of the channel that every turn of `while data` keeps holds after every feed *)
Section FeedInvariant.
  Variable P : chan -> Prop.
  Hypothesis P_turn : forall a c data r1 n, P c -> Parser.received a (cur c) data = ROk r1 n -> P (turn c r1).

  Lemma loop_invariant : forall fuel a c data c', received_loop fuel a c data = COk c' -> P c -> P c'.
  Proof.
    induction fuel as [|f IH]; intros a c data c' H W; [discriminate|].
    rewrite loop_unfold in H.
    destruct (Parser.received a (cur c) data) as [r1 n| | |] eqn:Er; try discriminate.
    pose proof (P_turn _ _ _ _ _ W Er) as W'.
    destruct (Z.of_nat (length data) <=? n)%Z; [inversion H; subst; assumption|eauto].
  Qed.

  Lemma feed_invariant : forall a reads c0 c, feed a c0 reads = COk c -> P c0 -> P c.
  Proof.
    induction reads as [|d rest IH]; intros c0 c H W; [inversion H; subst; assumption|].
    cbn [feed] in H.
    destruct (chan_received a c0 d) as [c1| | |] eqn:Ec; try discriminate.
    apply (IH c1 c H).
    unfold chan_received in Ec. destruct d as [|b d]; [inversion Ec; subst; assumption|].
    destruct (will_close c0 || close_when_flushed c0); [inversion Ec; subst; assumption|].
    eapply loop_invariant; eauto.
  Qed.
End FeedInvariant.

(* for all pipelines and all segmentations *)
Theorem seq_wf_run : forall a reads c0 c,
  feed a c0 reads = COk c -> wf_cur c0 -> wf_cur c.
Proof. exact (feed_invariant wf_cur seq_wf_turn). Qed.

Definition adj_default : adj :=
  {| max_request_header_size := 262144; max_request_body_size := 1073741824;
     adj_url_scheme := [104;116;116;112] |}.
Definition adj_small_body : adj :=
  {| max_request_header_size := 262144; max_request_body_size := 50;
     adj_url_scheme := [104;116;116;112] |}.

(* b"GET /a HTTP/1.1\r\nExpect: 100-continue\r\n\r\n" *)
Definition req_a_expect_nobody : bytes :=
  [71;69;84;32;47;97;32;72;84;84;80;47;49;46;49;13;10;
   69;120;112;101;99;116;58;32;49;48;48;45;99;111;110;116;105;110;117;101;13;10;13;10].
(* b"GET /b HTTP/1.1\r\nX: 1\r\n\r\n" *)
Definition req_b_plain : bytes :=
  [71;69;84;32;47;98;32;72;84;84;80;47;49;46;49;13;10;88;58;32;49;13;10;13;10].
(* b"POST /a HTTP/1.1\r\nExpect: 100-continue\r\nContent-Length: 100\r\n\r\n" *)
Definition req_a_expect_big : bytes :=
  [80;79;83;84;32;47;97;32;72;84;84;80;47;49;46;49;13;10;
   69;120;112;101;99;116;58;32;49;48;48;45;99;111;110;116;105;110;117;101;13;10;
   67;111;110;116;101;110;116;45;76;101;110;103;116;104;58;32;49;48;48;13;10;13;10].

(* the body-less expecting request /a gets one 100 Continue and is queued; /b is a
   request of its own, without /a's Expect field; add_task once (for /a) *)
Example ex_former_F5 : exists c,
  feed adj_default chan_init [req_a_expect_nobody ++ req_b_plain] = COk c /\
  outlog c = continue_bytes /\
  map path (requests c) = [[47;97]; [47;98]] /\
  map (fun r => hget (headers r) s_EXPECT) (requests c) = [Some s_100_continue; None] /\
  add_task_calls c = 1%nat /\ request c = None /\ sent_continue c = false.
Proof. eexists. vm_compute. repeat split. Qed.

(* Content-Length >= max_request_body_size with Expect: 100-continue: 100 Continue,
   then the request is queued with its 413 error (it is answered and the
   connection closes); nothing is left under construction *)
Example ex_former_F6 : exists c r,
  feed adj_small_body chan_init [req_a_expect_big] = COk c /\
  outlog c = continue_bytes /\ requests c = [r] /\ add_task_calls c = 1%nat /\
  request c = None /\ error r = Some EBodyTooLarge /\ completed r = true.
Proof. eexists. eexists. vm_compute. repeat split. Qed.
