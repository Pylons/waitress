(* One task run, piecewise: what write_soon, set_close_on_finish,
   build_response_header and the second half of Task.write leave alone.
   [HeadOK] is what C08_wire says of the head on the wire; that every run of every
   script satisfies it is proved in TaskProv.v, for any admissible set of strings
   ([Inv] is the same invariant written for clean strings only). *)
From Coq Require Import String.
From Coq Require Import List NArith ZArith Bool Lia Arith.
From WV Require Import Lib.PyBytes Gen.GenTables Model.Task Proof.TaskLines Proof.TaskHead Proof.TaskStart.
Import ListNotations.
Local Open Scope N_scope.

(* No condition on scripts is needed: since start_response stores fresh tuples
   (commit 2730de7) an in-place mutation of a header pair (AMutate) has no effect. *)
Definition act_ok (a : action) : Prop := True.
Definition step_ok (s : istep) : Prop := Forall act_ok (s_acts s).
Definition app_ok (a : app) : Prop := Forall act_ok (a_call a) /\ Forall step_ok (a_steps a).

Lemma write_soon_writes disc ch it ch' o : write_soon disc ch it = (ch', o) ->
  (ch_writes ch' = ch_writes ch \/ (ch_writes ch' = it :: ch_writes ch /\ o = Ok tt))
  /\ (forall e, o = Exn e -> ch_writes ch' = ch_writes ch).
Proof.
  unfold write_soon. destruct (negb (connected disc (S (ch_nws ch)))).
  - intro H; inversion H; subst. cbn. split; auto.
  - destruct it as [[|x b]|z content].
    + intro H; inversion H; subst. cbn. split; auto.
    + intro H; inversion H; subst. cbn. split; auto. intros e He. discriminate.
    + destruct (z <? 0)%Z; intro H; inversion H; subst; cbn; split; auto. intros e He. discriminate.
Qed.

Lemma write_soon_bytes_exn disc ch b ch' e : write_soon disc ch (WBytes b) = (ch', Exn e) -> e = ClientDisconnected.
Proof.
  unfold write_soon. destruct (negb _); [intro H; inversion H; auto|].
  destruct b; intro H; inversion H.
Qed.

Lemma write_soon_ok_nonempty disc ch x b ch' u :
  write_soon disc ch (WBytes (x :: b)) = (ch', Ok u) -> ch_writes ch' = WBytes (x :: b) :: ch_writes ch.
Proof.
  unfold write_soon. destruct (negb _); intro H; inversion H; subst; reflexivity.
Qed.

Lemma encode_nonempty a b : encode_latin1 (a ++ CRLF ++ CRLF) = Ok b -> exists x b', b = x :: b'.
Proof.
  intro H. apply encode_latin1_ok in H. subst b. destruct a; cbn; eauto.
Qed.

Section Run.
Variable cap : str -> str.
Variable lower : str -> str.
Hypothesis Hcap : forall s, clean s -> clean (cap s).
Variable c : cfg.
Hypothesis Hc : cfg_clean c.
Variable r : req.
Variable disc : option nat.

(* h is the serialisation of a clean task *)
Definition HeadOK (h : bytes) : Prop :=
  exists t0 t1, task_clean t0 /\ build_response_header cap lower c r t0 = (t1, Ok h).

Definition Inv (s : st) : Prop :=
  (t_wrote_header (fst s) = false -> task_clean (fst s) /\ ch_writes (snd s) = [])
  /\ (t_wrote_header (fst s) = true ->
      exists h rest, ch_writes (snd s) = rest ++ [WBytes h] /\ HeadOK h).

Lemma Inv_task_only t t' ch :
  t_wrote_header t' = t_wrote_header t -> (task_clean t -> task_clean t') -> Inv (t, ch) -> Inv (t', ch).
Proof.
  intros Hw Hcl [I1 I2]. split; cbn [fst snd] in *; rewrite Hw; intro H.
  - destruct (I1 H). split; auto.
  - auto.
Qed.

Lemma scof_clean t : task_clean t -> task_clean (set_close_on_finish cap lower t).
Proof.
  intros [H1 H2]. destruct (ext_scof cap lower c t) as [(sf & E & F) [S1 _]].
  split. rewrite S1; auto. rewrite E. apply Forall_app. split; auto.
  eapply Forall_impl; [|exact F]. intro h. apply server_field_clean; auto.
Qed.

Lemma scof_wrote t : t_wrote_header (set_close_on_finish cap lower t) = t_wrote_header t.
Proof.
  unfold set_close_on_finish. destruct (negb (t_wrote_header t)); [|reflexivity].
  destruct (fold_left _ (t_rh t) None); reflexivity.
Qed.

Lemma Inv_scof t ch : Inv (t, ch) -> Inv (set_close_on_finish cap lower t, ch).
Proof. apply Inv_task_only. apply scof_wrote. apply scof_clean. Qed.

Lemma bh_prepare_wrote t : t_wrote_header (bh_prepare cap lower c r t) = t_wrote_header t.
Proof. apply (bh_prepare_ext cap lower c r t). Qed.

(* Task.write's first half, by cases: the head is out already; or it is built from
   bh_prepare t and cannot be encoded, or its write_soon fails because the client has
   gone (nothing is written in either case); or it becomes the next item on the channel *)
Lemma write_header_cases t ch s' o : write_header cap lower c r disc (t, ch) = (s', o) ->
  (t_wrote_header t = true /\ s' = (t, ch) /\ o = Ok tt)
  \/ (t_wrote_header t = false /\
      ((fst s' = bh_prepare cap lower c r t /\ ch_writes (snd s') = ch_writes ch
        /\ (o = Exn UnicodeEncodeError \/ o = Exn ClientDisconnected))
       \/ (exists x b, build_response_header cap lower c r t = (bh_prepare cap lower c r t, Ok (x :: b))
             /\ fst s' = set_wrote true (bh_prepare cap lower c r t)
             /\ ch_writes (snd s') = WBytes (x :: b) :: ch_writes ch /\ o = Ok tt))).
Proof.
  unfold write_header. destruct (t_wrote_header t) eqn:Ew; cbn [negb].
  { intro H; inversion H; auto. }
  intro H. right. split; [reflexivity|]. unfold build_response_header in *.
  destruct (encode_latin1 _) as [rh|e] eqn:Ee.
  - destruct (encode_nonempty _ _ Ee) as (x & b & ->).
    destruct (write_soon disc ch (WBytes (x :: b))) as [ch1 [[]|e]] eqn:Ews; inversion H; subst; cbn [fst snd].
    + right. exists x, b. rewrite (write_soon_ok_nonempty _ _ _ _ _ _ Ews). auto.
    + left. rewrite (write_soon_bytes_exn _ _ _ _ _ Ews).
      apply write_soon_writes in Ews as [_ Hs]. rewrite (Hs _ eq_refl). auto.
  - inversion H; subst; cbn [fst snd]. left. unfold encode_latin1 in Ee.
    destruct (forallb _ _); inversion Ee; auto.
Qed.

Lemma write_soon_grows ch it ch' o : write_soon disc ch it = (ch', o) ->
  exists pre, ch_writes ch' = pre ++ ch_writes ch.
Proof.
  intro H. apply write_soon_writes in H as [[Hs|[Hs _]] _]; rewrite Hs; [exists []|eexists [_]]; reflexivity.
Qed.

(* Task.write's second half: content_bytes_written may change, and there is at
   most one write_soon, of a non-empty byte string *)
Definition but_cbw (t t1 : task) : Prop :=
  t_wrote_header t1 = t_wrote_header t /\ t_rh t1 = t_rh t /\ t_status t1 = t_status t
  /\ t_chunked t1 = t_chunked t /\ t_complete t1 = t_complete t /\ t_cof t1 = t_cof t.

Lemma write_body_cases t ch data : exists t1, but_cbw t t1 /\
  (write_body disc (t, ch) data = ((t1, ch), Ok tt)
   \/ exists b, write_body disc (t, ch) data
                = match write_soon disc ch (WBytes b) with (ch1, o) => ((t1, ch1), o) end).
Proof.
  assert (R : but_cbw t t) by (repeat split).
  assert (C : forall z, but_cbw t (set_cbw z t)) by (intro; repeat split).
  unfold write_body. destruct data as [|x data]; [exists t; auto|].
  destruct (has_body t); [|eexists; split; [apply C|left; reflexivity]].
  destruct (t_chunked t).
  - destruct (to_hex_upper _ ++ _) as [|y tw]; exists t; split; eauto.
  - destruct (t_clen t) as [cl|]; [|exists t; split; eauto].
    destruct (py_slice_to _ _) as [|y tw]; eexists; (split; [apply C|]); eauto.
Qed.

Lemma write_body_frame s data s' o : write_body disc s data = (s', o) ->
  t_wrote_header (fst s') = t_wrote_header (fst s)
  /\ t_rh (fst s') = t_rh (fst s) /\ t_status (fst s') = t_status (fst s)
  /\ (exists pre, ch_writes (snd s') = pre ++ ch_writes (snd s))
  /\ t_chunked (fst s') = t_chunked (fst s) /\ t_complete (fst s') = t_complete (fst s)
  /\ t_cof (fst s') = t_cof (fst s)
  /\ (forall e, o = Exn e -> e = ClientDisconnected).
Proof.
  destruct s as [t ch]. destruct (write_body_cases t ch data) as (t1 & (A1 & A2 & A3 & A4 & A5 & A6) & [E|[b E]]);
    rewrite E; clear E.
  - intro H; inversion H; subst; cbn [fst snd]. repeat split; auto; [exists []; auto|discriminate].
  - destruct (write_soon disc ch (WBytes b)) as [ch1 o1] eqn:Ews.
    intro H; inversion H; subst; cbn [fst snd]. repeat split; auto.
    + eapply write_soon_grows; eauto.
    + intros e ->. eapply write_soon_bytes_exn; eauto.
Qed.

Lemma write_body_chunked s data s' o : write_body disc s data = (s', o) ->
  t_chunked (fst s') = t_chunked (fst s).
Proof. intro H. destruct (write_body_frame _ _ _ _ H) as (_ & _ & _ & _ & K & _). exact K. Qed.

Lemma run_actions_app l1 : forall s l2,
  run_actions cap lower c r disc s (l1 ++ l2) =
  match run_actions cap lower c r disc s l1 with
  | (s1, Ok _) => run_actions cap lower c r disc s1 l2
  | (s1, Exn e) => (s1, Exn e)
  end.
Proof.
  induction l1 as [|a l1 IH]; intros s l2; cbn [List.app run_actions]; auto.
  destruct (run_action cap lower c r disc s a) as [s1 [u|e]]; auto.
Qed.

Definition err_clean (e : (str * str) * str) : Prop := clean (fst (fst e)) /\ clean (snd (fst e)).

End Run.
