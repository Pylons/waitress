(* Non-vacuity: the hypotheses of the C07 theorems are satisfied by concrete
   runs, and the conclusions have the expected concrete content. *)
From Coq Require Import List NArith ZArith Bool.
From RecordUpdate Require Import RecordUpdate.
From WV Require Import Lib.PyBytes Model.Receiver Model.UrlSplit Model.Parser Model.Environ Spec.Pep3333
  Proof.EnvironDict Proof.EnvironParse Proof.EnvironRun Proof.EnvironFields Proof.EnvironTarget
  Proof.EnvironLatin1 Proof.EnvironBody.
Import ListNotations.
Local Open Scope N_scope.

Definition ex_adj : adj :=
  {| max_request_header_size := 262144; max_request_body_size := 1073741824;
     adj_url_scheme := [104;116;116;112;115] (* "https" *) |}.

Definition ex_cfg : config :=
  {| url_prefix := [47;112] (* "/p" *); server_name := [115;114;118] (* "srv" *);
     effective_port := PortInt 8080; ident := [119;97;105;116;114;101;115;115] (* "waitress" *);
     peer_addr := PeerTCP [49;48;46;48;46;48;46;55] (* "10.0.0.7" *) 39830 |}.

(* POST //p/q%41%zz?x=%41#f HTTP/1.1 | Host: h | X-Foo: 1  | x-foo:<TAB>2 | X_Foo: 3 |
   Remote-Addr: 6.6.6.6 | Content-Length: 99 | Transfer-Encoding: chunked || 5 hello 0 *)
Definition ex_head : bytes :=
  [80;79;83;84;32;47;47;112;47;113;37;52;49;37;122;122;63;120;61;37;52;49;35;102;32;72;84;84;80;47;49;46;49;13;10;72;111;115;116;58;32;104;13;10;88;45;70;111;111;58;32;49;32;13;10;120;45;102;111;111;58;9;50;13;10;88;95;70;111;111;58;32;51;13;10;82;101;109;111;116;101;45;65;100;100;114;58;32;54;46;54;46;54;46;54;13;10;67;111;110;116;101;110;116;45;76;101;110;103;116;104;58;32;57;57;13;10;84;114;97;110;115;102;101;114;45;69;110;99;111;100;105;110;103;58;32;99;104;117;110;107;101;100;13;10;13;10].
Definition ex_body : bytes := [53;13;10;104;101;108;108;111;13;10;48;13;10;13;10].

Definition ex_p : parser :=
  match feed_all ex_adj [ex_head; ex_body] with Some p => p | None => parser_init end.

Example ex_run :
  feed_all ex_adj [ex_head; ex_body] = Some ex_p /\
  completed ex_p = true /\ error ex_p = None /\ empty ex_p = false /\ chunked ex_p = true.
Proof. vm_compute. repeat split. Qed.

Example ex_inputs_ok : Forall ok [ex_head; ex_body] /\ ok (adj_url_scheme ex_adj) /\ ok_config ex_cfg.
Proof.
  split; [|split].
  - repeat constructor.
  - repeat constructor.
  - constructor; cbn; repeat constructor.
Qed.

Example ex_wf_target : wf_target (request_uri ex_p).
Proof. vm_compute. reflexivity. Qed.

Definition str_PATH : bytes := [47;113;65;37;122;122].          (* "/qA%zz" *)
Example ex_environ :
  let env := get_environment ex_cfg ex_p in
  eget env k_SCRIPT_NAME = Some (VStr [47;112]) /\
  eget env k_PATH_INFO = Some (VStr str_PATH) /\
  eget env k_QUERY_STRING = Some (VStr [120;61;37;52;49]) /\                       (* "x=%41" *)
  eget env k_REQUEST_METHOD = Some (VStr [80;79;83;84]) /\
  eget env k_SERVER_PROTOCOL = Some (VStr [72;84;84;80;47;49;46;49]) /\
  eget env k_REMOTE_ADDR = Some (VStr [49;48;46;48;46;48;46;55]) /\                (* the peer, not 6.6.6.6 *)
  eget env (cgi_key [82;101;109;111;116;101;45;65;100;100;114])                    (* HTTP_REMOTE_ADDR *)
    = Some (VStr [54;46;54;46;54;46;54]) /\
  eget env (cgi_key [88;45;70;111;111]) = Some (VStr [49;44;32;50]) /\             (* HTTP_X_FOO = "1, 2" *)
  eget env c_CONTENT_LENGTH = Some (VStr [53]) /\                                  (* "5", not 99 *)
  eget env c_HTTP_TRANSFER_ENCODING = None /\
  eget env k_wsgi_input = Some (VInput [104;101;108;108;111]).
Proof. vm_compute. repeat split. Qed.

(* a Content-Length body: "03" stays as sent, wsgi.input yields 3 bytes *)
Definition ex2_head : bytes :=
  [80;85;84;32;47;97;32;72;84;84;80;47;49;46;48;13;10;67;111;110;116;101;110;116;45;76;101;110;103;116;104;58;32;48;51;13;10;13;10].
Definition ex2_p : parser :=
  match feed_all ex_adj [ex2_head; [97;98]; [99;100;101;102]] with Some p => p | None => parser_init end.
Example ex2_run :
  feed_all ex_adj [ex2_head; [97;98]; [99;100;101;102]] = Some ex2_p /\
  completed ex2_p = true /\ error ex2_p = None /\ empty ex2_p = false /\
  eget (get_environment ex_cfg ex2_p) c_CONTENT_LENGTH = Some (VStr [48;51]) /\
  eget (get_environment ex_cfg ex2_p) k_wsgi_input = Some (VInput [97;98;99]).
Proof. vm_compute. repeat split. Qed.

(* the statement of C07_no_override is about any dictionary whatsoever, also
   one no parse produces: a dictionary with the keys REMOTE_ADDR.  They land on
   HTTP_REMOTE_ADDR; the server's REMOTE_ADDR is the peer's *)
Example ex_hostile_dict :
  eget (get_environment ex_cfg (ex_p <| headers := [(k_REMOTE_ADDR, [54]); ([82;69;77;79;84;69;95;65;68;68;82], [54])] |>))
       k_REMOTE_ADDR = Some (VStr [49;48;46;48;46;48;46;55]).
Proof. vm_compute. reflexivity. Qed.

(* the fixed receiver, offered more than it wants *)
Example ex_fixed :
  f_buf (fixed_feed (fixed_init 3) [[97;98]; [99;100;101;102]]) = [97;98;99].
Proof. vm_compute. reflexivity. Qed.
