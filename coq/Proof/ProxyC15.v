(* C15: an untrusted peer cannot influence connection metadata.  The untrusted
   path of the middleware never reads the values of the six proxy headers, so
   the two-run statement is proved directly, for every environ, every header
   value and every configuration. *)
From Coq Require Import String.
From Coq Require Import List NArith ZArith Bool.
From WV Require Import Lib.PyBytes Lib.PyStrProxy Model.Proxy Spec.ProxySpec Proof.ProxyDict.
Import ListNotations.
Local Open Scope N_scope.

Definition delete_proxy_headers (e : environ) : environ :=
  pop k_fwd (pop k_xfby (pop k_xfport (pop k_xfproto (pop k_xfh (pop k_xff e))))).

Lemma clear_all_is_delete e : clear_untrusted_headers e u_all = delete_proxy_headers e.
Proof. reflexivity. Qed.

Lemma is_proxy_key_spec k :
  is_proxy_key k = beqb k k_xff || beqb k k_xfh || beqb k k_xfproto || beqb k k_xfport || beqb k k_xfby || beqb k k_fwd.
Proof. unfold is_proxy_key, proxy_keys. cbn [existsb]. rewrite orb_false_r, !orb_assoc. reflexivity. Qed.

Lemma lookup_delete k e :
  lookup k (delete_proxy_headers e) = if is_proxy_key k then None else lookup k e.
Proof.
  unfold delete_proxy_headers. rewrite !lookup_pop, is_proxy_key_spec.
  destruct (beqb k k_xff), (beqb k k_xfh), (beqb k k_xfproto), (beqb k k_xfport), (beqb k k_xfby), (beqb k k_fwd);
    reflexivity.
Qed.

Lemma delete_agree e : agree_off is_proxy_key e (delete_proxy_headers e).
Proof. intros k Hk. rewrite lookup_delete, Hk. reflexivity. Qed.

Lemma metadata_not_proxy k : In k metadata_keys -> is_proxy_key k = false.
Proof.
  unfold metadata_keys. cbn [In].
  intros [H|[H|[H|[H|[H|[H|[H|[]]]]]]]]; subst k; vm_compute; reflexivity.
Qed.

Definition peer_untrusted (c : config) (peer : str) : Prop :=
  trusted_proxy c <> Some peer /\ trusted_proxy c <> Some s_star.

Lemma untrusted_test c peer : peer_untrusted c peer ->
  opt_str_eqb (trusted_proxy c) (Some s_star) || opt_str_eqb (Some peer) (trusted_proxy c) = false.
Proof.
  intros [H1 H2]. apply orb_false_iff. split.
  - destruct (trusted_proxy c) as [t|]; simpl; auto.
    apply beqb_false. intro E. subst. apply H2. reflexivity.
  - destruct (trusted_proxy c) as [t|]; simpl; auto.
    apply beqb_false. intro E. subst. apply H1. reflexivity.
Qed.

Lemma middleware_untrusted c e peer :
  lookup k_remote_addr e = Some peer -> peer_untrusted c peer ->
  middleware c e = Ok (if clear_untrusted c then delete_proxy_headers e else e).
Proof.
  intros Hp Hu. unfold middleware. rewrite Hp, (untrusted_test _ _ Hu). cbn [bind].
  destruct (clear_untrusted c); reflexivity.
Qed.

Lemma serve_untrusted c e peer :
  lookup k_remote_addr e = Some peer -> peer_untrusted c peer ->
  serve c e = Ok (if clear_untrusted c then delete_proxy_headers e else e).
Proof.
  intros Hp Hu. unfold serve. destruct (installed c) eqn:Hi.
  - eapply middleware_untrusted; eauto.
  - unfold installed in Hi. apply orb_false_iff in Hi as [_ Hc]. rewrite Hc. reflexivity.
Qed.

Lemma c15_two_runs c e e' peer :
  lookup k_remote_addr e = Some peer -> peer_untrusted c peer ->
  agree_off is_proxy_key e e' ->
  exists o o',
    serve c e = Ok o /\ serve c e' = Ok o' /\
    agree_off is_proxy_key o o' /\
    (forall k, is_proxy_key k = false -> lookup k o = lookup k e) /\
    (forall k, In k metadata_keys -> lookup k o = lookup k e) /\
    (clear_untrusted c = true -> (forall k, is_proxy_key k = true -> lookup k o = None) /\
                                 (forall k, lookup k o = lookup k o')) /\
    (clear_untrusted c = false -> o = e).
Proof.
  intros Hp Hu Ha.
  assert (Hp' : lookup k_remote_addr e' = Some peer).
  { rewrite <- Ha; auto. }
  exists (if clear_untrusted c then delete_proxy_headers e else e),
         (if clear_untrusted c then delete_proxy_headers e' else e').
  split; [eapply serve_untrusted; eauto|]. split; [eapply serve_untrusted; eauto|].
  assert (Hfr : forall k, is_proxy_key k = false ->
                lookup k (if clear_untrusted c then delete_proxy_headers e else e) = lookup k e).
  { intros k Hk. destruct (clear_untrusted c); auto. rewrite lookup_delete, Hk. reflexivity. }
  split; [|split; [exact Hfr|split; [|split]]].
  - intros k Hk. destruct (clear_untrusted c); auto. rewrite !lookup_delete, Hk. auto.
  - intros k Hk. apply Hfr. apply metadata_not_proxy. exact Hk.
  - intros Hc. rewrite Hc. split.
    + intros k Hk. rewrite lookup_delete, Hk. reflexivity.
    + intros k. rewrite !lookup_delete. destruct (is_proxy_key k) eqn:Hk; auto.
  - intros Hc. rewrite Hc. reflexivity.
Qed.

Lemma c15_not_installed c e : installed c = false -> serve c e = Ok e.
Proof. intro H. unfold serve. rewrite H. reflexivity. Qed.

Lemma installed_spec c :
  installed c = true <-> (exists x t, trusted_proxy c = Some (x :: t)) \/ clear_untrusted c = true.
Proof.
  unfold installed. rewrite orb_true_iff. split; intros [H|H]; auto; left.
  - destruct (trusted_proxy c) as [[|x t]|]; simpl in H; try discriminate. eauto.
  - destruct H as (x & t & ->). reflexivity.
Qed.

(* non-vacuity: a hostile request from an untrusted peer, trust configured for another address *)
Definition ex_cfg : config :=
  {| trusted_proxy := Some (s2l "10.0.0.1"%string); trusted_proxy_count := 1%Z;
     trusted_proxy_headers := Some [n_xff; n_xfproto]; clear_untrusted := true |}.
Definition ex_env : environ :=
  [(k_remote_addr, s2l "203.0.113.9"); (k_url_scheme, s_http); (k_server_name, s2l "s");
   (k_xff, s2l "6.6.6.6"); (k_xfproto, s_https); (k_fwd, s2l "for=:80")].
Example c15_hyps_satisfiable :
  lookup k_remote_addr ex_env = Some (s2l "203.0.113.9"%string) /\ peer_untrusted ex_cfg (s2l "203.0.113.9"%string) /\
  serve ex_cfg ex_env = Ok [(k_remote_addr, s2l "203.0.113.9"); (k_url_scheme, s_http); (k_server_name, s2l "s")].
Proof. split; [reflexivity|split; [split; discriminate|vm_compute; reflexivity]]. Qed.
