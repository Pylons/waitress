(* The head block as bytes.  A head written as  request-line CRLF
   *( field-line CRLF ) CRLF  is cut by the model (find / split on CRLF) into
   exactly the lines it was written from. *)
From Coq Require Import List NArith ZArith Bool Lia Arith.
From WV Require Import Lib.PyBytes Model.Receiver Model.Parser Spec.Ref9112.
From WV Require Import Proof.PyBytesFacts Proof.RegexFacts Proof.C01Lib Proof.C01Body.
Import ListNotations.
Local Open Scope N_scope.

(* no CRLF inside the line, also not across its end when a CR follows *)
Fixpoint crlf_free (l : bytes) : bool :=
  match l with
  | x :: r => negb ((x =? 13) && match r with y :: _ => y =? 10 | [] => false end) && crlf_free r
  | [] => true
  end.

Lemma no_crlf_byte_crlf_free l : has_crlf_byte l = false -> crlf_free l = true.
Proof.
  unfold has_crlf_byte. induction l as [|x l IH]; cbn [existsb crlf_free]; auto.
  intro H. apply orb_false_iff in H as [H1 H2]. apply orb_false_iff in H1 as [H1 _].
  rewrite H1, IH; auto.
Qed.

Lemma startswith_crlf_cons x s :
  startswith (x :: s) CRLF = (x =? 13) && match s with y :: _ => y =? 10 | [] => false end.
Proof. rewrite startswith_crlf. destruct s; [rewrite andb_false_r|]; reflexivity. Qed.

Lemma head_is_lf l r :
  match l ++ CRLF ++ r with y :: _ => y =? 10 | [] => false end
  = match l with y :: _ => y =? 10 | [] => false end.
Proof. destruct l; reflexivity. Qed.

Lemma find_line l r : crlf_free l = true -> find (l ++ CRLF ++ r) CRLF = Some (length l).
Proof.
  induction l as [|x l IH]; intro H.
  - cbn [app length]. apply find_crlf_zero. rewrite startswith_crlf. reflexivity.
  - cbn [crlf_free] in H. apply andb_true_iff in H as [H1 H2].
    change ((x :: l) ++ CRLF ++ r) with (x :: (l ++ CRLF ++ r)).
    rewrite find_cons, startswith_crlf_cons, head_is_lf.
    apply negb_true_iff in H1. rewrite H1. rewrite IH by exact H2. reflexivity.
Qed.

Definition block_of (ls : list bytes) : bytes := concat (map (fun l => l ++ CRLF) ls).

Lemma split_fuel_lines : forall ls tail fuel,
  forallb crlf_free ls = true -> (length (block_of ls ++ tail) < fuel)%nat ->
  split_fuel fuel (block_of ls ++ tail) CRLF = ls ++ split_fuel (fuel - length ls) tail CRLF.
Proof.
  induction ls as [|l ls IH]; intros tail fuel Hf Hl.
  - cbn. rewrite Nat.sub_0_r. reflexivity.
  - cbn [forallb] in Hf. apply andb_true_iff in Hf as [Hf1 Hf2].
    destruct fuel as [|f]; [lia|].
    unfold block_of. cbn [map concat]. fold (block_of ls).
    rewrite <- !app_assoc. cbn [split_fuel].
    rewrite (find_line l (block_of ls ++ tail) Hf1).
    rewrite firstn_app_exact.
    replace (length l + length CRLF)%nat with (length (l ++ CRLF)) by (rewrite app_length; reflexivity).
    rewrite (app_assoc l CRLF), skipn_app_exact.
    cbn [app length Nat.sub]. f_equal. apply IH; auto.
    unfold block_of in Hl. cbn [map concat] in Hl. rewrite !app_length in Hl. cbn [length CRLF] in Hl.
    rewrite app_length. fold (block_of ls) in Hl. lia.
Qed.

Lemma split_lines ls : forallb crlf_free ls = true ->
  split (block_of ls ++ CRLF) CRLF = ls ++ [[]; []].
Proof.
  intro Hf. unfold split. rewrite split_fuel_lines; auto.
  assert (L : (length ls <= length (block_of ls))%nat).
  { clear. induction ls as [|l ls IH]; cbn; auto. unfold block_of in *. cbn [map concat].
    rewrite !app_length. cbn [length CRLF]. lia. }
  rewrite app_length. cbn [length CRLF].
  destruct (S (length (block_of ls) + 2) - length ls)%nat as [|[|k]] eqn:E; try lia.
  reflexivity.
Qed.

Lemma header_lines_go_empties ls r : header_lines_go (ls ++ [[]; []]) r = header_lines_go ls r.
Proof.
  revert r; induction ls as [|l ls IH]; intro r; cbn [app header_lines_go]; [reflexivity|].
  destruct l as [|c l']; auto.
  destruct (has_cr_or_lf (c :: l')); auto.
  destruct ((c =? 32) || (c =? 9)); auto. destruct r; auto.
Qed.

Lemma rstrip_id f l : (forall x, last l x = x -> True) ->
  match rev l with x :: _ => f x = false | [] => True end -> rstrip_by f l = l.
Proof.
  intros _ H. unfold rstrip_by. destruct (rev l) as [|x r] eqn:E.
  - apply (f_equal (@rev N)) in E. rewrite rev_involutive in E. subst. reflexivity.
  - cbn [lstrip_by]. rewrite H. rewrite <- E. apply rev_involutive.
Qed.

Definition head_block (rl : bytes) (flines : list bytes) : bytes :=
  rl ++ CRLF ++ block_of flines ++ CRLF.

Lemma head_block_cut rl flines :
  crlf_free rl = true -> forallb crlf_free flines = true ->
  find (head_block rl flines) CRLF = Some (length rl)
  /\ firstn (length rl) (head_block rl flines) = rl
  /\ get_header_lines (skipn (length rl + 2) (head_block rl flines)) = header_lines_go flines [].
Proof.
  intros Hr Hf. unfold head_block. repeat split.
  - apply find_line. exact Hr.
  - apply firstn_app_exact.
  - replace (length rl + 2)%nat with (length (rl ++ CRLF)) by (rewrite app_length; reflexivity).
    rewrite (app_assoc rl CRLF), skipn_app_exact.
    unfold get_header_lines. rewrite split_lines by exact Hf. apply header_lines_go_empties.
Qed.

Lemma crlf_free_snoc l x :
  crlf_free l = true ->
  match rev l with c :: _ => negb ((c =? 13) && (x =? 10)) = true | [] => True end ->
  crlf_free (l ++ [x]) = true.
Proof.
  induction l as [|a l IH]; intros H1 H2.
  - cbn. rewrite andb_false_r. reflexivity.
  - cbn [crlf_free app] in *. apply andb_true_iff in H1 as [A B].
    destruct l as [|b l'].
    + cbn [app rev] in *. rewrite H2. cbn. rewrite andb_false_r. reflexivity.
    + cbn [app]. cbn [app] in IH. rewrite A. cbn [andb]. apply IH; auto.
      cbn [rev] in *. destruct (rev l' ++ [b]) eqn:E; [destruct (rev l'); discriminate|].
      cbn [app] in H2. exact H2.
Qed.

Lemma block_of_app a b : block_of (a ++ b) = block_of a ++ block_of b.
Proof. unfold block_of. rewrite map_app, concat_app. reflexivity. Qed.

Lemma block_of_snoc ls l : block_of (ls ++ [l]) = block_of ls ++ l ++ CRLF.
Proof. rewrite block_of_app. unfold block_of at 2. cbn [map concat]. rewrite app_nil_r. reflexivity. Qed.

Definition ne (l : bytes) : Prop := l <> [].

(* the lines closed so far are [rev acc]; of the lines still to come ([more]) only the first of
   the head may be empty *)
Definition lines_from (acc more : list bytes) : Prop :=
  match acc with
  | [] => exists l0 tl, more = l0 :: tl /\ Forall ne tl
  | _ :: _ => Forall ne more
  end.

Lemma read_head_block : forall n0 s, (length s <= n0)%nat ->
  forall cur acc n lines rest k,
  read_head s cur acc n = Some (lines, rest, k) ->
  crlf_free (rev cur) = true -> forallb crlf_free (rev acc) = true ->
  (match cur, s with c :: _, y :: _ => negb ((c =? 13) && (y =? 10)) = true | _, _ => True end) ->
  exists pre more, s = pre ++ rest /\ lines = rev acc ++ more /\ lines_from acc more
              /\ block_of (rev acc) ++ rev cur ++ pre = block_of lines ++ CRLF
              /\ forallb crlf_free lines = true.
Proof.
  induction n0 as [|n0 IH]; intros s Hn cur acc n lines rest k.
  { destruct s; [discriminate|cbn in Hn; lia]. }
  destruct s as [|x [|y r']]; try discriminate. cbn [read_head].
  destruct ((x =? 13) && (y =? 10)) eqn:E.
  - apply andb_true_iff in E as [E1 E2]. apply N.eqb_eq in E1, E2. subst x y.
    intros H Hc Ha Hb.
    assert (Hrec : (acc <> [] -> cur <> []) ->
                   read_head r' [] (rev cur :: acc) (n + 2) = Some (lines, rest, k) ->
                   exists pre more, 13 :: 10 :: r' = pre ++ rest /\ lines = rev acc ++ more /\ lines_from acc more
                     /\ block_of (rev acc) ++ rev cur ++ pre = block_of lines ++ CRLF
                     /\ forallb crlf_free lines = true).
    { intros Hline H0.
      destruct (IH r' ltac:(cbn [length] in Hn; lia) [] (rev cur :: acc) (n + 2) lines rest k H0)
        as (pre' & more' & P1 & Pl & Ps & P2 & P3).
      - reflexivity.
      - cbn [rev]. rewrite forallb_app. cbn [forallb]. rewrite Ha, Hc. reflexivity.
      - exact I.
      - exists (13 :: 10 :: pre'), (rev cur :: more'). split; [rewrite P1; reflexivity|].
        split; [rewrite Pl; cbn [rev]; rewrite <- app_assoc; reflexivity|]. split; [|split; auto].
        + cbn [lines_from] in Ps. destruct acc as [|a0 acc']; cbn [lines_from]; [eauto|].
          constructor; auto. intro E. apply Hline; [discriminate|]. apply (f_equal (@rev N)) in E.
          rewrite rev_involutive in E. exact E.
        + rewrite <- P2. cbn [rev app]. rewrite block_of_snoc. rewrite <- !app_assoc. reflexivity. }
    destruct cur as [|c cur'].
    + destruct acc as [|a0 acc'].
      * apply Hrec; [congruence | exact H].
      * injection H as <- <- <-. exists [13; 10], []. rewrite app_nil_r. repeat split; auto. constructor.
    + apply Hrec; [discriminate | exact H].
  - intros H Hc Ha Hb.
    destruct (IH (y :: r') ltac:(cbn [length] in *; lia) (x :: cur) acc (n + 1) lines rest k H)
      as (pre' & more & P1 & Pl & Ps & P2 & P3).
    + cbn [rev]. apply crlf_free_snoc; auto. rewrite rev_involutive. destruct cur; auto.
    + exact Ha.
    + rewrite E. reflexivity.
    + exists (x :: pre'), more. split; [rewrite P1; reflexivity|]. repeat split; auto.
      rewrite <- P2. cbn [rev]. rewrite <- !app_assoc. reflexivity.
Qed.

Theorem read_head_lines : forall s lines rest n,
  read_head s [] [] 0 = Some (lines, rest, n) ->
  s = (block_of lines ++ CRLF) ++ rest /\ forallb crlf_free lines = true.
Proof.
  intros s lines rest n H.
  destruct (read_head_block (length s) s ltac:(lia) [] [] 0 lines rest n H eq_refl eq_refl I)
    as (pre & more & P1 & _ & _ & P2 & P3).
  cbn [rev block_of map concat app] in P2. rewrite <- P2. auto.
Qed.

Lemma read_head_shape s lines rest n : read_head s [] [] 0 = Some (lines, rest, n) ->
  exists l0 tl, lines = l0 :: tl /\ Forall ne tl.
Proof.
  intro H.
  destruct (read_head_block (length s) s ltac:(lia) [] [] 0 lines rest n H eq_refl eq_refl I)
    as (pre & more & _ & -> & Ps & _). exact Ps.
Qed.
