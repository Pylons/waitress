(* aslist / aslist_cronly / splitlines: the list-valued casts of
   waitress.adjustments, characterised for ALL strings.  Every line separator of
   str.splitlines is a whitespace character, so the splitlines / strip / filter
   pipeline adds nothing to s.split(); hence a whitespace character between two
   strings concatenates their lists, which is why the string accumulated by
   repeated --listen options and the keyword value " ".join(vs) cast alike. *)
From Coq Require Import List NArith Bool Lia.
From WV Require Import Lib.PyBytes Gen.GenAdjust Model.Adjust.
Import ListNotations.
Local Open Scope N_scope.

Section SplitWs.
  Variable f : N -> bool.

  Lemma split_ws_go_app_sep : forall a x b cur, f x = true ->
    split_ws_go f (a ++ x :: b) cur = split_ws_go f a cur ++ split_ws_go f b [].
  Proof.
    induction a as [|y a IH]; intros x b cur Hx; cbn [app split_ws_go].
    - rewrite Hx. destruct cur; reflexivity.
    - destruct (f y).
      + destruct cur; cbn [app]; rewrite IH by assumption; reflexivity.
      + apply IH; assumption.
  Qed.

  Lemma split_ws_app_sep : forall a x b, f x = true ->
    split_ws f (a ++ x :: b) = split_ws f a ++ split_ws f b.
  Proof. intros. unfold split_ws. apply split_ws_go_app_sep; assumption. Qed.

  Lemma split_ws_cons_sep : forall x b, f x = true -> split_ws f (x :: b) = split_ws f b.
  Proof. intros x b Hx. apply (split_ws_app_sep [] x b Hx). Qed.

  Lemma split_ws_nil : split_ws f [] = [].
  Proof. reflexivity. Qed.

  Lemma split_ws_go_app_ws : forall t a cur, forallb f t = true ->
    split_ws_go f (a ++ t) cur = split_ws_go f a cur.
  Proof.
    induction t as [|x t IH]; intros a cur Ht.
    - rewrite app_nil_r. reflexivity.
    - cbn [forallb] in Ht. apply andb_true_iff in Ht as [Hx Ht].
      rewrite split_ws_go_app_sep by assumption.
      specialize (IH [] [] Ht). cbn [app] in IH. rewrite IH. cbn [split_ws_go]. apply app_nil_r.
  Qed.

  Lemma split_ws_all_ws : forall t, forallb f t = true -> split_ws f t = [].
  Proof. intros t Ht. apply (split_ws_go_app_ws t [] [] Ht). Qed.

  Lemma lstrip_decomp : forall s, exists pre, s = pre ++ lstrip_by f s /\ forallb f pre = true.
  Proof.
    induction s as [|x s IH]; cbn [lstrip_by].
    - exists []. split; reflexivity.
    - destruct (f x) eqn:E.
      + destruct IH as [pre [H1 H2]]. exists (x :: pre). split.
        * cbn [app]. f_equal. exact H1.
        * cbn [forallb]. rewrite E, H2. reflexivity.
      + exists []. split; reflexivity.
  Qed.

  Lemma forallb_rev : forall l, forallb f (rev l) = forallb f l.
  Proof.
    induction l as [|x l IH]; [reflexivity|].
    cbn [rev forallb]. rewrite forallb_app. cbn [forallb]. rewrite IH.
    destruct (f x), (forallb f l); reflexivity.
  Qed.

  Lemma rstrip_decomp : forall s, exists post, s = rstrip_by f s ++ post /\ forallb f post = true.
  Proof.
    intro s. unfold rstrip_by. destruct (lstrip_decomp (rev s)) as [pre [H1 H2]].
    exists (rev pre). split.
    - rewrite <- rev_app_distr, <- H1, rev_involutive. reflexivity.
    - rewrite forallb_rev. exact H2.
  Qed.

  Lemma split_ws_lstrip : forall s, split_ws f (lstrip_by f s) = split_ws f s.
  Proof.
    induction s as [|x s IH]; [reflexivity|]. cbn [lstrip_by].
    destruct (f x) eqn:E; [|reflexivity]. rewrite IH. symmetry. apply split_ws_cons_sep. exact E.
  Qed.

  Lemma split_ws_rstrip : forall s, split_ws f (rstrip_by f s) = split_ws f s.
  Proof.
    intro s. destruct (rstrip_decomp s) as [post [H1 H2]].
    rewrite H1 at 2. unfold split_ws. rewrite split_ws_go_app_ws by assumption. reflexivity.
  Qed.

  Lemma split_ws_strip : forall s, split_ws f (strip_by f s) = split_ws f s.
  Proof. intro s. unfold strip_by. rewrite split_ws_rstrip. apply split_ws_lstrip. Qed.
End SplitWs.

Lemma linebreak_is_ws : forall x, is_linebreak x = true -> is_str_ws x = true.
Proof.
  intros x H. unfold is_linebreak in H.
  repeat (apply orb_true_iff in H; destruct H as [H|H]);
    apply N.eqb_eq in H; subst x; reflexivity.
Qed.

(* filtering out the lines that are empty after stripping loses nothing *)
Lemma lines_pipeline : forall l,
  flat_map (split_ws is_str_ws) (filter nonempty (map (strip_by is_str_ws) l))
  = flat_map (split_ws is_str_ws) l.
Proof.
  induction l as [|s l IH]; [reflexivity|].
  cbn [map filter flat_map].
  destruct (strip_by is_str_ws s) eqn:E.
  - cbn [nonempty]. rewrite IH. rewrite <- (split_ws_strip is_str_ws s), E. reflexivity.
  - cbn [nonempty flat_map]. rewrite IH. rewrite <- E, split_ws_strip. reflexivity.
Qed.

Lemma splitlines_flat : forall s cur acr, (acr = true -> cur = []) ->
  flat_map (split_ws is_str_ws) (splitlines_go s cur acr) = split_ws is_str_ws (rev cur ++ s).
Proof.
  induction s as [|x s IH]; intros cur acr Hinv; cbn [splitlines_go].
  - rewrite app_nil_r. destruct cur; [reflexivity|]. cbn [flat_map]. apply app_nil_r.
  - destruct (acr && (x =? 10)) eqn:E1.
    + apply andb_true_iff in E1 as [Ha Hx]. apply N.eqb_eq in Hx. subst x.
      rewrite (Hinv Ha). cbn [rev app]. rewrite IH by (intros; reflexivity).
      cbn [rev app]. symmetry. apply split_ws_cons_sep. reflexivity.
    + destruct (is_linebreak x) eqn:E2.
      * cbn [flat_map]. rewrite IH by (intros; reflexivity). cbn [rev app].
        symmetry. apply split_ws_app_sep. apply linebreak_is_ws. exact E2.
      * rewrite IH by (intro Hf; discriminate Hf). cbn [rev]. rewrite <- app_assoc. reflexivity.
Qed.

Theorem aslist_str_split_ws : forall s, aslist_str s = split_ws is_str_ws s.
Proof.
  intro s. unfold aslist_str, aslist_of_lines, aslist_cronly_str, splitlines.
  rewrite lines_pipeline. apply (splitlines_flat s [] false). intro H; discriminate H.
Qed.

Theorem aslist_str_app_sep : forall a x b, is_str_ws x = true ->
  aslist_str (a ++ x :: b) = aslist_str a ++ aslist_str b.
Proof. intros. rewrite !aslist_str_split_ws. apply split_ws_app_sep. assumption. Qed.

Theorem aslist_str_cons_sep : forall x b, is_str_ws x = true -> aslist_str (x :: b) = aslist_str b.
Proof. intros. rewrite !aslist_str_split_ws. apply split_ws_cons_sep. assumption. Qed.

(* what repeated --listen options accumulate: "" then "{} {}".format(old, value) *)
Definition accumulated (vs : list str) : str := fold_left (fun acc v => acc ++ [32] ++ v) vs [].

Lemma fold_accumulate : forall vs acc,
  fold_left (fun acc v => acc ++ [32] ++ v) vs acc = acc ++ concat (map (cons 32) vs).
Proof.
  induction vs as [|v vs IH]; intro acc; cbn [fold_left map concat].
  - symmetry. apply app_nil_r.
  - rewrite IH. rewrite <- app_assoc. reflexivity.
Qed.

Lemma aslist_concat_sep : forall vs,
  aslist_str (concat (map (cons 32) vs)) = flat_map aslist_str vs.
Proof.
  induction vs as [|v vs IH]; [reflexivity|].
  cbn [map concat flat_map]. cbn [app].
  rewrite aslist_str_cons_sep by reflexivity.
  destruct vs as [|v2 vs].
  - cbn [map concat flat_map]. rewrite !app_nil_r. reflexivity.
  - cbn [map concat] in *. cbn [app] in *.
    rewrite aslist_str_app_sep by reflexivity.
    rewrite <- IH. rewrite aslist_str_cons_sep by reflexivity. reflexivity.
Qed.

Theorem aslist_accumulated : forall vs, aslist_str (accumulated vs) = flat_map aslist_str vs.
Proof. intro vs. unfold accumulated. rewrite fold_accumulate. cbn [app]. apply aslist_concat_sep. Qed.

Theorem aslist_joined : forall vs, aslist_str (join [32] vs) = flat_map aslist_str vs.
Proof.
  induction vs as [|v vs IH]; [reflexivity|].
  destruct vs as [|v2 vs].
  - cbn [join flat_map]. rewrite app_nil_r. reflexivity.
  - change (join [32] (v :: v2 :: vs)) with (v ++ 32 :: join [32] (v2 :: vs)).
    rewrite aslist_str_app_sep by reflexivity. rewrite IH. reflexivity.
Qed.

Theorem aslist_accumulated_joined : forall vs, aslist_str (accumulated vs) = aslist_str (join [32] vs).
Proof. intro vs. rewrite aslist_accumulated, aslist_joined. reflexivity. Qed.

Example aslist_example :
  aslist_str [32; 97; 58; 49; 13; 10; 98; 58; 50; 9; 32; 99; 133; 100] = [[97;58;49]; [98;58;50]; [99]; [100]].
Proof. vm_compute. reflexivity. Qed.   (* " a:1\r\nb:2\t c\x85d" *)
