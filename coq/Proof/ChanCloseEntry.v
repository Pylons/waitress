(* Proof/ChanCloseEntry.v -- the converse of "a dispatcher entry implies requests <> []": while the
   channel is connected, a non-empty `requests` is always held by somebody -- a dispatcher entry,
   a worker inside service() before its hand-over point, the I/O thread between its append and
   its add_task, or a cancel() in progress.  (So the chain "the finishing worker submits the
   next request" never drops a buffered request, which is what makes "buffered behind the
   decision" meaningful.) *)
From Coq Require Import List Arith Bool Lia.
From WV Require Import Lib.Conc Model.ChanClose Proof.ChanCloseBase Proof.ChanCloseTok Proof.ChanCloseInv.
Import ListNotations.

(* nobody holds the channel: no dispatcher entry, no worker inside service() before its hand-over
   point, the I/O thread not about to submit, no cancel() in progress *)
Definition notok (s : state) : Prop :=
  queue s = 0 /\ (forall w, active (wk s w) = false) /\ ~ tokio s /\ sd s = SdIdle.

Definition Entry (s : state) : Prop := conn s = true -> notok s -> reqs s = [].

Lemma Entry_init : forall L, Entry (init L).
Proof. intros L _ _. reflexivity. Qed.

Lemma Entry_step : forall s c s' l, Inv s -> Entry s -> step s c = Some (s', l) -> Entry s'.
Proof.
  intros s c s' l I E H. unfold Entry, notok, tokio in *.
  destruct c as [e|w e|]; simpl in H.
  - destruct (io_frame H) as (-> & ->). pose proof (i_mret s I) as MR.
    io_inv H; mret_cases MR; intros C (Q & A & T & S); try discriminate C; try discriminate Q.
    all: try solve [apply E; repeat split; auto; intros [X|[X _]]; discriminate X].
    + (* IoRCapp: a first request is appended, and the I/O thread now holds the token *)
      elim T. right. split; [reflexivity|]. rewrite E; [reflexivity | exact C |].
      repeat split; auto. intros [X|[X _]]; discriminate X.
    + (* IoRClen: not the only request *)
      apply E; [exact C|]. repeat split; auto.
      intros [X|[_ X]]; [discriminate X | rewrite X in *; discriminate].
  - destruct (wk_frame H) as (-> & -> & _ & W).
    assert (X : conn s' = conn s /\ (queue s' = 0 -> active (wk s' w) = false ->
                 queue s = 0 /\ active (wk s w) = false /\ reqs s' = reqs s \/ conn s = false \/ reqs s' = [])).
    { wk_inv H; rewrite ?Nat.eqb_refl; split; auto; intros Q A; try discriminate; auto. }
    destruct X as (-> & K). intros C (Q & A & T & S).
    destruct (K Q (A w)) as [(Q0 & A0 & R) | [X | X]]; [| congruence | exact X].
    rewrite R in *. apply E; [exact C|]. repeat split; auto.
    intro w'. destruct (Nat.eq_dec w' w) as [->|N]; [exact A0 | rewrite <- (W w' N); apply A].
  - destruct (sd_frame H) as (-> & _).
    sd_inv H; intros C (Q & A & T & S); try discriminate; auto.
Qed.
