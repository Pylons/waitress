(* C02 at the parser level: HTTPRequestParser.received fed one byte and then the
   rest versus everything at once (head accumulator, fixed and chunked body,
   running counters, both limits).  The outcomes coincide -- exactly, up to the
   dead carry fields -- unless the byte itself completes the message with an
   error, in which case both runs refuse the message (same observation up to
   the identification of 413 with a chunk error inside a chunked body). *)
From Coq Require Import List NArith ZArith Bool Lia Arith.
From RecordUpdate Require Import RecordUpdate.
From WV Require Import Lib.PyBytes Lib.Regex Gen.GenRegex Model.Receiver Model.UrlSplit Model.Parser
  Proof.PyBytesFacts Proof.EnvironParse Proof.ReceiverTotal Proof.ReceiverSplit Proof.ParserTotal Proof.ParserTotalLimits.
Import ListNotations.
Local Open Scope N_scope.

(* the head accumulator, which nothing reads once the head is finished *)
Definition hp_set (x : bytes) (p : parser) : parser := p <| header_plus := x |>.

(* a result with its parser changed by f, and (below) with k more bytes consumed *)
Definition rmap (f : parser -> parser) (r : rcv_res) : rcv_res :=
  match r with ROk p n => ROk (f p) n | x => x end.

Lemma cset_hp x k p : header_bytes_received p = k -> cset x k p = hp_set x p.
Proof. intros <-. destruct p. reflexivity. Qed.

(* the stored prefix only shows in the header_plus field of the result *)
Lemma head_431_cset a x k p n : header_bytes_received p = k ->
  head_431 a (cset x k p) n = rmap (hp_set x) (head_431 a p n).
Proof.
  intros Hk. unfold head_431. rewrite parse_header_hp.
  pose proof (parse_header_frame a p fake_head_431) as Fr.
  destruct (parse_header a p fake_head_431) as [p1 st]. cbn [fst] in Fr.
  destruct Fr as (_ & _ & _ & _ & F5 & _).
  destruct st; cbn [rmap]; try reflexivity.
  rewrite cset_hp by congruence. reflexivity.
Qed.

Lemma head_found_cset a x k p0 s i n :
  head_found a (cset x k p0) s i n = rmap (hp_set x) (head_found a p0 s i n).
Proof.
  unfold head_found. cbv zeta.
  change (cset x k p0 <| header_bytes_received := N.of_nat i |>)
    with (cset x (N.of_nat i) (p0 <| header_bytes_received := N.of_nat i |>)).
  set (q := p0 <| header_bytes_received := N.of_nat i |>).
  assert (Hq : header_bytes_received q = N.of_nat i) by reflexivity.
  destruct (max_request_header_size a <=? N.of_nat i).
  - apply head_431_cset; auto.
  - destruct (lstrip_by _ _) as [|h0 hs].
    + cbn [rmap]. reflexivity.
    + rewrite parse_header_hp.
      pose proof (parse_header_frame a q (h0 :: hs)) as Fr.
      destruct (parse_header a q (h0 :: hs)) as [p1 st]. cbn [fst] in Fr.
      destruct Fr as (_ & _ & _ & _ & F5 & _).
      rewrite cset_hp by congruence.
      destruct st; cbn [rmap]; try reflexivity.
      unfold hp_set. psimpl.
      destruct (body p1); psimpl;
        destruct ((0 <? content_length p1) && (max_request_body_size a <=? content_length p1)); reflexivity.
Qed.

Definition rshift (k : Z) (r : rcv_res) : rcv_res :=
  match r with ROk p n => ROk p (n + k)%Z | x => x end.

Lemma head_431_shift a p n k : head_431 a p (n + k) = rshift k (head_431 a p n).
Proof. unfold head_431. destruct (parse_header a p fake_head_431) as [p1 []]; reflexivity. Qed.

Lemma head_found_shift a p s i n k : head_found a p s i (n + k) = rshift k (head_found a p s i n).
Proof.
  unfold head_found. cbv zeta. destruct (_ <=? _); [apply head_431_shift|].
  destruct (lstrip_by _ _); [reflexivity|].
  destruct (parse_header a _ _) as [p1 []]; reflexivity.
Qed.

Lemma head_found_firstn a p s s' i n : firstn i s = firstn i s' ->
  (i <= length s)%nat -> (i <= length s')%nat ->
  head_found a p s i n = head_found a p s' i n.
Proof.
  intros H L1 L2. unfold head_found. rewrite H.
  rewrite (strip_crlf_fuel (length s) (length s') (firstn i s')); [reflexivity| |];
    rewrite firstn_length; lia.
Qed.

(* a head that ends at the byte b: the bytes behind it are not looked at *)
Lemma head_stop a hp b s i :
  find_double_newline (hp ++ [b]) = Some i ->
  received a (P0 hp) (b :: s) = received a (P0 hp) [b].
Proof.
  intros Hi. rewrite !received_head_eq.
  assert (E : hp ++ b :: s = (hp ++ [b]) ++ s) by (rewrite <- app_assoc; reflexivity).
  rewrite E. pose proof Hi as Hi'. apply fdn_Some in Hi' as (j & Hj & ->).
  pose proof (find_bound _ _ _ Hj) as B. change (length CRLFCRLF) with 4%nat in B.
  unfold find_double_newline at 1. rewrite (find_app_l _ s _ _ Hj). rewrite Hi.
  rewrite (head_found_firstn a (P0 hp) ((hp ++ [b]) ++ s) (hp ++ [b]) (j + 4));
    [|apply firstn_app_le; lia | rewrite app_length; lia | lia].
  f_equal. rewrite !app_length, !lenN_cons, lenN_nil. unfold lenN. cbn [length]. lia.
Qed.

(* The head goes on after b: the rest is processed as if it had come with b.
   Either the head is finished in s (found, or over the limit) and the byte
   stored before shows only in the dead header_plus field of the result, or
   both runs are still in the head and hold the same accumulated string. *)
Lemma head_cont a hp b s :
  (exists R0, received a (P0 hp) (b :: s) = rshift 1 R0 /\
              received a (P0 (hp ++ [b])) s = rmap (hp_set (hp ++ [b])) R0 /\
              forall r n, R0 = ROk r n -> completed r = false -> headers_finished r = true) \/
  (exists r n, received a (P0 hp) (b :: s) = ROk r (n + 1) /\ received a (P0 (hp ++ [b])) s = ROk r n).
Proof.
  rewrite !received_head_eq.
  assert (E : hp ++ b :: s = (hp ++ [b]) ++ s) by (rewrite <- app_assoc; reflexivity).
  rewrite E. set (S := (hp ++ [b]) ++ s).
  destruct (find_double_newline S) as [i|] eqn:Hi.
  - left. exists (head_found a (P0 hp) S i (Z.of_N (lenN s) - (Z.of_nat (length S) - Z.of_nat i))%Z).
    split; [|split].
    + rewrite <- head_found_shift. f_equal. rewrite lenN_cons. lia.
    + change (P0 (hp ++ [b])) with (cset (hp ++ [b]) (lenN (hp ++ [b])) (P0 hp)). apply head_found_cset.
    + intros r n HR Hc.
      destruct (head_found_spec a hp S i (Z.of_N (lenN s) - (Z.of_nat (length S) - Z.of_nat i))%Z)
        as [X|(r' & X & W & _)]; rewrite HR in X; [discriminate|]. injection X as -> _. exact (proj1 (W Hc)).
  - unfold head_more. cbv zeta. change (header_bytes_received (P0 hp)) with (lenN hp).
    change (header_bytes_received (P0 (hp ++ [b]))) with (lenN (hp ++ [b])).
    assert (EH : lenN (hp ++ [b]) + lenN s = lenN hp + lenN (b :: s)).
    { rewrite lenN_app, lenN_cons, lenN_cons, lenN_nil. lia. }
    rewrite EH. set (H := lenN hp + lenN (b :: s)).
    destruct (max_request_header_size a <=? H).
    + left. exists (head_431 a (P0 hp <| header_bytes_received := H |>) (Z.of_N (lenN s))).
      split; [|split].
      * rewrite <- head_431_shift. f_equal. rewrite lenN_cons. lia.
      * change (P0 (hp ++ [b]) <| header_bytes_received := H |>)
          with (cset (hp ++ [b]) H (P0 hp <| header_bytes_received := H |>)).
        apply head_431_cset. reflexivity.
      * intros r n HR Hc. destruct (head_431_P0 a hp H (Z.of_N (lenN s))) as (p1 & X).
        rewrite HR in X. injection X as -> _. discriminate Hc.
    + right. eexists _, _. split; [|reflexivity]. f_equal. rewrite lenN_cons. lia.
Qed.

(* what a task can see of a request *)
Definition abs_err (p : parser) (e : perr) : perr :=
  if chunked p && headers_finished p then
    match e with
    | EChunkNotTerminated | EInvalidChunkExt | EInvalidChunkSize | EBodyTooLarge => EBodyTooLarge
    | _ => e
    end
  else e.

Definition obs_body (p : parser) : option body_rcv :=
  match error p with
  | Some _ => None
  | None => match body p with
            | None => None
            | Some b => Some (BFixed {| f_remain := 0; f_buf := body_bytes b; f_completed := true |})
            end
  end.

(* [ab = true]: a refusal raised inside a chunked body is only observed as
   "refused" (the tags 413 / 400-chunk-error are identified); [ab = false]: exact tags *)
Definition obs (ab : bool) (p : parser) : parser :=
  p <| header_plus := [] |> <| header_bytes_received := 0 |> <| body_bytes_received := 0%Z |>
    <| body := obs_body p |>
    <| error := if ab then option_map (abs_err p) (error p) else error p |>.

(* one byte counted first, then the rest: same as all at once *)
Lemma body_fin_step a p X k br' n e d :
  body_fin a p br' (k + n) e d =
  rshift k (body_fin a (p <| body := X |> <| body_bytes_received := (body_bytes_received p + k)%Z |>) br' n e d).
Proof.
  unfold body_fin. psimpl. cbv zeta.
  replace (body_bytes_received p + k + n)%Z with (body_bytes_received p + (k + n))%Z by lia.
  destruct (_ <=? _)%Z; [cbn [rshift]; f_equal; lia|].
  destruct e; [cbn [rshift]; f_equal; lia|].
  destruct d; [|cbn [rshift]; f_equal; lia].
  psimpl. destruct (chunked p); cbn [rshift]; f_equal; lia.
Qed.

(* equal, or equal up to the (dead) header_plus field of a parser past its head *)
Definition peq (r r' : parser) : Prop :=
  r = r' \/ (headers_finished r' = true /\ exists x, r = hp_set x r').

Definition cont_rel (a : adj) (r0 r1 : parser) (b : N) (s : bytes) : Prop :=
  match received a r1 s with
  | ROk r2 n2 =>
      exists r2' nw, received a r0 (b :: s) = ROk r2' nw /\
        obs true r2 = obs true r2' /\ completed r2 = completed r2' /\
        (error r2 = None ->
           nw = (1 + n2)%Z /\ obs false r2 = obs false r2' /\ (completed r2 = false -> peq r2 r2'))
  | RUnmodelled => received a r0 (b :: s) = RUnmodelled
  | _ => True
  end.

Inductive split_case (a : adj) (r0 : parser) (b : N) (s : bytes) : Prop :=
| SC_unmodelled :
    received a r0 [b] = RUnmodelled -> received a r0 (b :: s) = RUnmodelled -> split_case a r0 b s
| SC_stop r1 :
    received a r0 [b] = ROk r1 1%Z -> received a r0 (b :: s) = ROk r1 1%Z -> split_case a r0 b s
| SC_cont r1 :
    received a r0 [b] = ROk r1 1%Z -> completed r1 = false -> wf_p a r1 ->
    (headers_finished r1 = false \/
     (headers_finished r0 = true /\ headers_finished r1 = true /\ expect_continue r1 = expect_continue r0)) ->
    cont_rel a r0 r1 b s -> split_case a r0 b s
| SC_error r1 r1' n' :
    received a r0 [b] = ROk r1 1%Z -> completed r1 = true -> error r1 <> None ->
    received a r0 (b :: s) = ROk r1' n' -> completed r1' = true -> obs true r1 = obs true r1' ->
    split_case a r0 b s.

Lemma received_one a p b : wf_p a p ->
  received a p [b] = RUnmodelled \/
  exists p', received a p [b] = ROk p' 1%Z /\ (completed p' = true \/ wf_p a p').
Proof.
  intros W. destruct (received_total a p [b] W ltac:(discriminate)) as [E|(p' & n & E & Bn & H)]; auto.
  right. exists p'. cbn [length] in Bn. replace n with 1%Z in E by lia. auto.
Qed.

(* the byte ends the message: what follows it is not looked at *)
Lemma split_stop a r0 b s : wf_p a r0 -> received a r0 (b :: s) = received a r0 [b] -> split_case a r0 b s.
Proof.
  intros W E. destruct (received_one a r0 b W) as [U|(r1 & E1 & _)];
    [apply SC_unmodelled | apply (SC_stop _ _ _ _ r1)]; congruence.
Qed.

(* the 431 result does not depend on the carry fields *)
Definition r431 (a : adj) : parser :=
  fst (parse_header a parser_init fake_head_431) <| error := Some EHeaderTooLarge |> <| completed := true |>.

Lemma head_431_obs ab a x k n :
  exists r, head_431 a (cset x k parser_init) n = ROk r n /\ obs ab r = obs ab (r431 a) /\ completed r = true
            /\ error r = Some EHeaderTooLarge.
Proof.
  unfold head_431, r431. rewrite parse_header_hp.
  pose proof (fake_head_ok a [] 0) as Fk. change (P0 [] <| header_bytes_received := 0 |>) with parser_init in Fk.
  destruct (parse_header a parser_init fake_head_431) as [p1 st]. cbn [snd fst] in *. subst st.
  eexists. split; [reflexivity|]. split; [reflexivity|]. split; reflexivity.
Qed.

(* at or beyond the header limit every read is answered alike *)
Lemma received_431 a hp data : max_request_header_size a <= head_pos (hp ++ data) ->
  exists r n, received a (P0 hp) data = ROk r n /\ obs true r = obs true (r431 a) /\ completed r = true
              /\ error r = Some EHeaderTooLarge.
Proof.
  rewrite received_head_eq. unfold head_pos.
  destruct (find_double_newline (hp ++ data)) as [i|]; intros Hm.
  - apply N.leb_le in Hm. unfold head_found. cbv zeta. rewrite Hm.
    edestruct (head_431_obs true a hp (N.of_nat i)) as (r & H & R). eexists _, _. split; [exact H | exact R].
  - rewrite lenN_app in Hm. apply N.leb_le in Hm. unfold head_more. cbv zeta.
    change (header_bytes_received (P0 hp)) with (lenN hp). rewrite Hm.
    edestruct (head_431_obs true a hp (lenN hp + lenN data)) as (r & H & R). eexists _, _. split; [exact H | exact R].
Qed.

(* the head seen so far does not shrink when more bytes come *)
Lemma head_pos_app s t : find_double_newline s = None -> head_pos s <= head_pos (s ++ t).
Proof.
  intros Hi. unfold head_pos. rewrite Hi.
  destruct (find_double_newline (s ++ t)) as [j|] eqn:Hj; [|rewrite lenN_app; lia].
  apply fdn_Some in Hj as (j0 & Hj0 & ->). apply fdn_None in Hi.
  pose proof (find_app_none_l _ _ _ _ Hi Hj0) as B. change (length CRLFCRLF) with 4%nat in B. unfold lenN. lia.
Qed.

Lemma split_head a hp b s :
  find hp CRLFCRLF = None -> (hp = [] \/ lenN hp < max_request_header_size a) -> s <> [] ->
  split_case a (P0 hp) b s.
Proof.
  intros Hf Hl Hs.
  pose proof (wf_p_P0 a hp Hf Hl) as W0.
  destruct (find_double_newline (hp ++ [b])) as [i|] eqn:Hi.
  - apply split_stop; [exact W0 | exact (head_stop a hp b s i Hi)].
  - destruct (max_request_header_size a <=? lenN hp + 1) eqn:Hmax.
    + (* 431 at b, hence also for the whole read *)
      apply N.leb_le in Hmax.
      assert (H1 : max_request_header_size a <= head_pos (hp ++ [b]))
        by (unfold head_pos; rewrite Hi, lenN_app; exact Hmax).
      destruct (received_431 a hp [b] H1) as (r1 & n1 & E1 & O1 & C1 & X1).
      destruct (received_431 a hp (b :: s)) as (r1' & n' & Ew & Ow & Cw & _).
      { change (b :: s) with ([b] ++ s). rewrite app_assoc.
        etransitivity; [exact H1 | apply head_pos_app; exact Hi]. }
      destruct (received_one a (P0 hp) b W0) as [U|(q & Eq & _)]; [congruence|].
      apply (SC_error _ _ _ _ r1 r1' n'); auto; congruence.
    + (* the head goes on *)
      pose proof (received_head_eq a hp [b]) as E1. rewrite Hi in E1.
      unfold head_more in E1. cbv zeta in E1. change (header_bytes_received (P0 hp)) with (lenN hp) in E1.
      change (lenN [b]) with 1 in E1. rewrite Hmax in E1.
      apply N.leb_gt in Hmax.
      assert (EP : P0 hp <| header_bytes_received := lenN hp + 1 |> <| header_plus := hp ++ [b] |> = P0 (hp ++ [b])).
      { change 1 with (lenN [b]). apply P0_app. }
      rewrite EP in E1. change (Z.of_N 1) with 1%Z in E1.
      assert (W1 : wf_p a (P0 (hp ++ [b]))).
      { apply wf_p_P0; [apply fdn_None; exact Hi|]. right. rewrite lenN_app. change (lenN [b]) with 1. lia. }
      apply (SC_cont _ _ _ _ (P0 (hp ++ [b]))); auto.
      unfold cont_rel.
      destruct (head_cont a hp b s) as [(R0 & Ew & Es & Hhf)|(r & n & Ew & Es)]; rewrite Es, Ew.
      * destruct R0 as [r n| | |]; cbn [rmap rshift]; auto.
        exists r, (n + 1)%Z. split; [reflexivity|]. split; [reflexivity|]. split; [reflexivity|].
        intros _. split; [lia|]. split; [reflexivity|].
        intros Hc. right. split; [eapply Hhf; eauto | eexists; reflexivity].
      * exists r, (n + 1)%Z. split; [reflexivity|]. split; [reflexivity|]. split; [reflexivity|].
        intros _. split; [lia|]. split; [reflexivity|]. intros _. left. reflexivity.
Qed.

Lemma body_len_bytes br : body_len br = lenN (body_bytes br).
Proof. destruct br; reflexivity. Qed.

(* receivers that hold the same body bytes, and are the same while open, give
   the same observation *)
Lemma body_fin_rel a p br br' n e d : body_bytes br = body_bytes br' -> (d = false -> br = br') ->
  exists q q', body_fin a p br n e d = ROk q n /\ body_fin a p br' n e d = ROk q' n /\
    (forall ab, obs ab q = obs ab q') /\ completed q = completed q' /\ (completed q = false -> q = q').
Proof.
  intros Hb Ho. unfold body_fin. cbv zeta. rewrite !body_len_bytes, Hb.
  destruct (_ <=? _)%Z; [|destruct e; [|destruct d]].
  - eexists _, _. split; [reflexivity|]. split; [reflexivity|]. split; [|split; [reflexivity | discriminate]].
    intros ab. reflexivity.
  - eexists _, _. split; [reflexivity|]. split; [reflexivity|]. split; [|split; [reflexivity | discriminate]].
    intros ab. reflexivity.
  - psimpl. destruct (chunked p); eexists _, _; (split; [reflexivity|]); (split; [reflexivity|]);
      (split; [|split; [reflexivity | discriminate]]); intros ab; unfold obs, obs_body; psimpl;
      rewrite Hb; reflexivity.
  - rewrite (Ho eq_refl). eexists _, _. repeat split; reflexivity.
Qed.

(* the body goes on after b (no error, not done): 413 at b in both runs, or
   the rest is counted from one byte further on *)
Lemma split_body_cont a r0 b s br1 br2 br' n2 e d :
  wf_p a r0 -> headers_finished r0 = true -> (0 <= n2)%Z ->
  received a r0 [b] = body_fin a r0 br1 1 None false ->
  received a (r0 <| body := Some br1 |> <| body_bytes_received := (body_bytes_received r0 + 1)%Z |>) s
  = body_fin a (r0 <| body := Some br1 |> <| body_bytes_received := (body_bytes_received r0 + 1)%Z |>) br2 n2 e d ->
  received a r0 (b :: s) = body_fin a r0 br' (1 + n2) e d ->
  body_bytes br2 = body_bytes br' -> (d = false -> br2 = br') ->
  split_case a r0 b s.
Proof.
  intros W Hhf Hn R1 R2 Rw Hbytes Hopen. pose proof W as (Wc & _).
  destruct (Z.of_N (max_request_body_size a) <=? body_bytes_received r0 + 1)%Z eqn:Hmax.
  - unfold body_fin in R1, Rw. cbv zeta in R1, Rw. rewrite Hmax in R1. apply Z.leb_le in Hmax.
    replace (Z.of_N (max_request_body_size a) <=? body_bytes_received r0 + (1 + n2))%Z with true in Rw
      by (symmetry; apply Z.leb_le; lia).
    eapply SC_error; [exact R1 | reflexivity | discriminate | exact Rw | reflexivity | reflexivity].
  - set (r1 := r0 <| body := Some br1 |> <| body_bytes_received := (body_bytes_received r0 + 1)%Z |>) in *.
    assert (R1' : received a r0 [b] = ROk r1 1%Z).
    { rewrite R1. unfold body_fin. cbv zeta. rewrite Hmax. reflexivity. }
    destruct (received_one a r0 b W) as [U|(p' & Ep & Hp)]; [congruence|].
    assert (p' = r1) by congruence. subst p'.
    assert (Cr1 : completed r1 = false) by exact Wc.
    destruct Hp as [Hp|W1]; [congruence|].
    apply (SC_cont _ _ _ _ r1 R1' Cr1 W1).
    + right. split; [exact Hhf|]. split; [exact Hhf | reflexivity].
    + unfold cont_rel. rewrite R2.
      rewrite (body_fin_step a r0 (Some br1) 1 br' n2 e d) in Rw. fold r1 in Rw.
      destruct (body_fin_rel a r1 br2 br' n2 e d Hbytes Hopen) as (q & q' & E & E' & O & C & Q).
      rewrite E. rewrite E' in Rw. cbn [rshift] in Rw.
      exists q', (n2 + 1)%Z. split; [exact Rw|]. split; [apply O|]. split; [exact C|].
      intros _. split; [lia|]. split; [apply O|]. intros Hc. left. apply Q. exact Hc.
Qed.

Lemma split_fixed a r0 f b s :
  wf_p a r0 -> body r0 = Some (BFixed f) -> s <> [] -> split_case a r0 b s.
Proof.
  intros W Hb Hs. pose proof W as (Wc & We & Wb & Wh & Wbb). unfold wf_body in Wb. rewrite Hb in Wb.
  destruct Wb as (Hhf & Hfc & Hfr).
  pose proof (received_body_eq a r0 _ [b] Wc Hb) as R1. cbv beta iota in R1.
  pose proof (received_body_eq a r0 _ ([b] ++ s) Wc Hb) as Rw. cbv beta iota in Rw.
  destruct (fixed_split f [b] s Hfr) as [(_ & E)|(_ & f1 & E1 & Hc1 & Hr1 & Ew)].
  - rewrite E in Rw. apply split_stop; [exact W|]. rewrite R1. exact Rw.
  - rewrite E1, Hc1, Hfc in R1.
    destruct (fixed_received f1 s) as [f2 n2] eqn:E2. rewrite (Ew f2 n2 eq_refl) in Rw.
    pose proof (fixed_received_spec f1 s Hr1 Hs) as S2. rewrite E2 in S2. destruct S2 as (Bn2 & _).
    apply (split_body_cont a r0 b s (BFixed f1) (BFixed f2) (BFixed f2) n2 None (f_completed f2));
      auto; [lia|].
    rewrite received_body_eq with (br := BFixed f1) by (exact Wc || reflexivity). cbv beta iota. now rewrite E2.
Qed.

Lemma ceq_fields c2 c' : ceq c2 c' ->
  c_error c2 = c_error c' /\ c_completed c2 = c_completed c' /\ c_buf c2 = c_buf c' /\
  (c_completed c2 = false -> c2 = c').
Proof.
  intros [(H & ->)|(H & E)]; [auto|].
  pose proof (f_equal c_error E) as E1. pose proof (f_equal c_completed E) as E2.
  pose proof (f_equal c_buf E) as E3. cbn in E1, E2, E3.
  repeat split; auto. congruence.
Qed.

Lemma abs_chunk_err p e : chunked p = true -> headers_finished p = true ->
  chunk_err (Some e) -> abs_err p e = EBodyTooLarge.
Proof. intros H1 H2 H. unfold abs_err. rewrite H1, H2. destruct e; cbn in *; tauto. Qed.

Lemma split_chunked a r0 c b s :
  wf_p a r0 -> body r0 = Some (BChunked c) -> s <> [] -> split_case a r0 b s.
Proof.
  intros W Hb Hs. pose proof W as (Wc & We & Wb & Wh & Wbb). unfold wf_body in Wb. rewrite Hb in Wb.
  destruct Wb as (Hhf & Wfc & Hcc & Hce & Hphi & Hch).
  destruct (chunked_received_spec c [b] Wfc Hcc ltac:(discriminate)) as (c1 & n1 & E1 & Wc1 & Bn1 & _).
  assert (n1 = 1%Z) by (cbn [length] in Bn1; lia). subst n1.
  destruct (chunked_split c [b] s c1 1%Z Hcc Hce Hs E1) as (A & B & C).
  pose proof (received_body_eq a r0 _ [b] Wc Hb) as R1. cbv beta iota in R1. rewrite E1 in R1.
  pose proof (received_body_eq a r0 _ ([b] ++ s) Wc Hb) as Rw. cbv beta iota in Rw.
  destruct (c_error c1) as [e|] eqn:He1; [|destruct (c_completed c1) eqn:Hc1].
  - (* a chunk error raised by b: refused in both runs, 413 or chunk error *)
    destruct (C e eq_refl) as (c' & n' & Ew & He'). rewrite Ew, He' in Rw.
    assert (Ce : chunk_err (Some e)).
    { pose proof (chunked_received_err c [b] c1 1%Z) as Y. rewrite Hce, He1 in Y. apply Y; [exact I | exact E1]. }
    unfold body_fin in R1, Rw. cbv zeta in R1, Rw.
    assert (A1 : abs_err r0 e = EBodyTooLarge) by (apply abs_chunk_err; auto).
    assert (A2 : abs_err r0 EBodyTooLarge = EBodyTooLarge) by (unfold abs_err; rewrite Hch, Hhf; reflexivity).
    destruct (Z.of_N (max_request_body_size a) <=? body_bytes_received r0 + 1)%Z;
      destruct (Z.of_N (max_request_body_size a) <=? body_bytes_received r0 + n')%Z;
      (eapply SC_error; [exact R1 | reflexivity | discriminate | exact Rw | reflexivity |]);
      unfold obs, obs_body; psimpl; cbn [option_map];
      change (abs_err (r0 <| body := _ |> <| body_bytes_received := _ |> <| error := _ |> <| completed := _ |>)) with (abs_err r0);
      rewrite ?A1, ?A2; reflexivity.
  - (* the body ends at b *)
    rewrite (A eq_refl), He1, Hc1 in Rw. apply split_stop; [exact W|]. rewrite R1. exact Rw.
  - (* it goes on: the receivers may differ in the trailer field once completed *)
    destruct (B eq_refl eq_refl) as (_ & Ew).
    destruct (chunked_received_spec c1 s Wc1 Hc1 Hs) as (c2 & n2 & E2 & Wc2 & Bn2 & _).
    destruct (Ew c2 n2 E2) as (c' & Ew' & Q). rewrite Ew' in Rw.
    destruct (ceq_fields c2 c' Q) as (Qe & Qc & Qb & Qeq). rewrite <- Qe, <- Qc in Rw.
    apply (split_body_cont a r0 b s (BChunked c1) (BChunked c2) (BChunked c') n2 (c_error c2) (c_completed c2));
      auto; [lia| |intros X; now rewrite (Qeq X)].
    rewrite received_body_eq with (br := BChunked c1) by (exact Wc || reflexivity). cbv beta iota. now rewrite E2.
Qed.

Theorem parser_split a r0 b s : wf_p a r0 -> s <> [] -> split_case a r0 b s.
Proof.
  intros W Hs. destruct (body r0) as [[f|c]|] eqn:Hb.
  - eapply split_fixed; eauto.
  - eapply split_chunked; eauto.
  - pose proof W as (Wc & We & Wb & Wh & Wbb). unfold wf_body in Wb. rewrite Hb in Wb.
    destruct Wb as (hp & -> & Hf). apply split_head; auto.
Qed.
