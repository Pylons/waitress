(* C06, composition with C03: the error response a refused message gets.

   The parser model (Model/Receiver.v, Model/Parser.v) records a refusal as a tag
   e : perr; the real parser stores an instance of one of four classes of
   waitress/utilities.py whose (code, reason) pairs are regenerated from the
   source on every run (Gen/GenTables.v: err_BadRequest ...).  perr_class maps
   each tag to its class; K-parse compares class and message of the real error
   object with the tag on every generated stream. *)
From Coq Require Import String.
From Coq Require Import List NArith ZArith Bool.
From WV Require Import Lib.PyBytes Gen.GenTables Model.Receiver Model.Task Proof.TaskHead.
Import ListNotations.
Local Open Scope N_scope.

Definition perr_class (e : perr) : list N * list N :=
  match e with
  | EHeaderTooLarge => err_RequestHeaderFieldsTooLarge
  | EBodyTooLarge => err_RequestEntityTooLarge
  | ETENotSupported | ETEMultipleChunked => err_ServerNotImplemented
  | _ => err_BadRequest
  end.

Definition all_perr : list perr :=
  [EChunkNotTerminated; EInvalidChunkExt; EInvalidChunkSize; EHeaderTooLarge; EBodyTooLarge;
   EHeaderInvalid; EBareCRLFFirstLine; EBareCRLFHeader; EMalformedHeaderLine; EInvalidHeader;
   EDuplicateHeader; EStartLineInvalid; EMalformedMethod; EContentLengthInvalid; EBadURI;
   ETENotSupported; ETEMultipleChunked].

Lemma all_perr_complete e : In e all_perr.
Proof. destruct e; cbn; tauto. Qed.

(* no class can split a head, and every class has a status with a body *)
Lemma perr_class_clean e :
  clean (fst (perr_class e)) /\ clean (snd (perr_class e)) /\
  startswith (fst (perr_class e) ++ [32] ++ snd (perr_class e)) (lit "1"%string)
    || startswith (fst (perr_class e) ++ [32] ++ snd (perr_class e)) (lit "204"%string)
    || startswith (fst (perr_class e) ++ [32] ++ snd (perr_class e)) (lit "304"%string) = false.
Proof. destruct e; repeat split; reflexivity. Qed.
