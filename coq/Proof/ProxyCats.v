(* C16 (e): the syntax categories of uninterpretable proxy headers (malformed_syntax) are refused by
   header parsing, for every count; the categories decided on the selected values (malformed_selection:
   unsupported scheme, empty host -- 11c18eb, finding F20 -- empty client address -- 12a41a9, F19) are
   defined here, their 400 is in ProxyHops.v. *)
From Coq Require Import String.
From Coq Require Import List NArith ZArith Bool Lia.
From WV Require Import Lib.PyBytes Lib.PyStrProxy Model.Proxy
  Spec.ProxySpec Proof.ProxyDict Proof.ProxyStr Proof.ProxyStages Proof.ProxyTotal Proof.ProxyUnq.
Import ListNotations.
Local Open Scope N_scope.

Definition header_or_empty (key : str) (e : environ) : str :=
  match lookup key e with Some v => v | None => [] end.

Definition malformed_syntax (tph : list str) (e : environ) : Prop :=
  (has tph n_xff = true /\ exists raw, lookup k_xff e = Some raw /\ cat_list_quoting raw = true) \/
  (has tph n_xfh = true /\ exists raw, lookup k_xfh e = Some raw /\ cat_list_quoting raw = true) \/
  (has tph n_xfproto = true /\
     (cat_single_quoting (header_or_empty k_xfproto e) = true \/ cat_several_values (header_or_empty k_xfproto e) = true)) \/
  (has tph n_xfport = true /\
     (cat_single_quoting (header_or_empty k_xfport e) = true \/ cat_several_values (header_or_empty k_xfport e) = true)) \/
  (has tph n_fwd = true /\ exists raw, lookup k_fwd e = Some raw /\ truthy raw = true /\ cat_forwarded raw = true).

Lemma select_ok_wellformed e k tph s : parse_select e k tph = Ok s -> ~ malformed_syntax tph e.
Proof.
  intros H Hm. apply select_ok_inv in H as (s1 & s2 & s3 & s4 & s5 & E1 & E2 & E3 & E4 & E5 & E6).
  destruct (before_fwd _ _ _ _ _ _ _ _ E1 E2 E3 E4 E5) as (_ & K3 & K5 & K1 & K2).
  destruct Hm as [(Ht & raw & Hl & Hc)|[(Ht & raw & Hl & Hc)|[(Ht & Hc)|[(Ht & Hc)|(Ht & raw & Hl & Htr & Hc)]]]].
  - apply (lblk_ok LFor) in E1 as [[_ [Hx|Hx]]|(raw' & cs & c & u & _ & Hl' & Hmm & _)];
      cbn [lname lkey lhop env init_pst] in *; try congruence.
    rewrite Hl in Hl'. injection Hl' as <-.
    rewrite (mapM_decide xff_hop _ _ _ xff_hop_value) in Hmm. change (existsb _ _) with (cat_list_quoting raw) in Hmm.
    rewrite Hc in Hmm. discriminate.
  - assert (Hl1 : lookup k_xfh (env s1) = Some raw) by (rewrite K1 by reflexivity; exact Hl).
    apply (lblk_ok LHost) in E2 as [[_ [Hx|Hx]]|(raw' & cs & c & u & _ & Hl' & Hmm & _)];
      cbn [lname lkey lhop] in *; try congruence.
    rewrite Hl1 in Hl'. injection Hl' as <-.
    rewrite (mapM_decide xfh_hop _ _ _ xfh_hop_value) in Hmm. change (existsb _ _) with (cat_list_quoting raw) in Hmm.
    rewrite Hc in Hmm. discriminate.
  - apply (sblk_ok SProto) in E3 as [[_ Hx]|(v & u & _ & Hv & _)]; cbn [sname skey] in *; [congruence|].
    assert (Kp : lookup k_xfproto (env s2) = lookup k_xfproto e) by (apply K2; reflexivity).
    rewrite single_value_exact, (hdr_env _ _ e Kp) in Hv. change (hdr k_xfproto e) with (header_or_empty k_xfproto e) in Hv.
    destruct Hc as [Hc|Hc]; rewrite Hc in Hv; [|destruct (cat_single_quoting _)]; discriminate.
  - apply (sblk_ok SPort) in E4 as [[_ Hx]|(v & u & _ & Hv & _)]; cbn [sname skey] in *; [congruence|].
    assert (Kp : lookup k_xfport (env s3) = lookup k_xfport e) by (rewrite K3; apply K2; reflexivity).
    rewrite single_value_exact, (hdr_env _ _ e Kp) in Hv. change (hdr k_xfport e) with (header_or_empty k_xfport e) in Hv.
    destruct Hc as [Hc|Hc]; rewrite Hc in Hv; [|destruct (cat_single_quoting _)]; discriminate.
  - assert (Hl5 : lookup k_fwd (env s5) = Some raw) by (rewrite K5, K2 by reflexivity; exact Hl).
    unfold blk_fwd_get in E6. rewrite Ht in E6.
    apply blk_forwarded_ok in E6 as [[_ Hx]|(raw' & ps & Hf & _ & Hmm & _)].
    + cbn [fwd] in Hx. rewrite Hl5 in Hx. cbn in Hx. congruence.
    + cbn [fwd] in Hf. rewrite Hl5 in Hf. injection Hf as <-.
      rewrite (mapM_decide fwd_element _ _ _ fwd_element_exact) in Hmm. change (existsb _ _) with (cat_forwarded raw) in Hmm.
      rewrite Hc in Hmm. discriminate.
Qed.

Definition malformed_selection (s : pst) : Prop :=
  cat_scheme (fproto s) = true \/ empty_host (fhost s) = true \/
  (exists cl, client s = Some cl /\ bad_client cl = true).

(* the former finding F20 *)
Definition f20_cfg : config :=
  {| trusted_proxy := Some (s2l "10.0.0.1"%string); trusted_proxy_count := 1%Z;
     trusted_proxy_headers := Some [n_xfh]; clear_untrusted := true |}.
Definition f20_env : environ :=
  [(k_remote_addr, s2l "10.0.0.1"%string); (k_url_scheme, s_http); (k_server_name, s2l "real.example"%string);
   (k_xfh, s2l ":80"%string)].

Example empty_host_is_400 : middleware f20_cfg f20_env = Malformed h_xfh.
Proof. vm_compute. reflexivity. Qed.
