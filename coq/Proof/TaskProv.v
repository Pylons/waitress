(* C08 for applications that SWALLOW a refusal of start_response and carry on
   (action ATryStart): what a refused call leaves behind in the task, and the
   provenance of every string of the head -- the status passed the status check
   of some start_response call of the script (or is the default), every field
   was passed in a call that start_response ACCEPTED (or is a server field).
   A refused string never reaches the wire, whether the refusal propagates
   (the ladder's 500) or is swallowed. *)
From Coq Require Import String.
From Coq Require Import List NArith ZArith Bool Lia Arith Permutation.
From WV Require Import Lib.PyBytes Gen.GenTables Model.Task Proof.TaskSort Proof.TaskLines Proof.TaskHead Proof.TaskStart
  Proof.TaskRun Proof.TaskOracle Proof.TaskLadder Proof.TaskC08.
Import ListNotations.
Local Open Scope N_scope.

Section Residue.
Variable lower : str -> str.

Lemma sr_core_residue t1 status headers t' e : sr_core lower t1 status headers = (t', Exn e) ->
  t_complete t' = true /\ t_rh t' = t_rh t1 /\ t_clen t' = t_clen t1
  /\ ((bad_obj status = true /\ t_status t' = t_status t1)
      \/ (exists s, status = PStr s /\ has_crlf s = false /\ t_status t' = s)).
Proof.
  unfold sr_core. cbn zeta. intro H.
  destruct status as [s|]; [|inversion H; subst; cbn; repeat split; auto].
  destruct (has_crlf s) eqn:Es; [inversion H; subst; cbn; repeat split; auto|].
  pose proof (sr_headers_frame lower headers (set_status s (set_complete true t1)) []) as F.
  cbn zeta in F. destruct (sr_headers lower _ headers []) as [t4 [hs|e1]]; [discriminate|].
  inversion H; subst. cbn [fst] in *. destruct F as (F1 & F2 & F3 & _). cbn in F1, F2, F3.
  repeat split; auto. right. exists s. auto.
Qed.

Theorem start_response_residue t status headers exc t' e :
  start_response lower t status headers exc = (t', Exn e) ->
  t' = t
  \/ (t_complete t' = true
      /\ t_rh t' = match exc with Some _ => [] | None => t_rh t end
      /\ (exc <> None -> t_wrote_header t = false)
      /\ t_clen t' = match exc with Some _ => None | None => t_clen t end
      /\ ((bad_obj status = true /\ t_status t' = t_status t)
          \/ (exists s, status = PStr s /\ has_crlf s = false /\ t_status t' = s))).
Proof.
  rewrite start_response_eq. unfold sr_door. intro H.
  destruct exc as [e0|].
  - destruct (t_wrote_header t) eqn:Ew; [left; inversion H; auto|]. right.
    apply sr_core_residue in H as (R1 & R2 & R3 & R4). repeat split; auto.
  - destruct (t_complete t); [left; inversion H; auto|]. right.
    apply sr_core_residue in H as (R1 & R2 & R3 & R4). repeat split; auto. intro X; congruence.
Qed.


Section Prov.
(* the admissible status strings and the admissible fields *)
Variable P : str -> Prop.
Variable Q : str * str -> Prop.

Definition task_from (t : task) : Prop := P (t_status t) /\ Forall Q (t_rh t).

(* a call contributes its status once the status passes its own checks, and its
   pairs only when the whole call is acceptable *)
Definition call_ok (status : pyobj) (headers : list (pyobj * pyobj)) : Prop :=
  (forall s, status = PStr s -> has_crlf s = false -> P s)
  /\ (offending lower status headers = false -> Forall Q (strs_of headers)).

(* whether start_response returns or raises (at any raise site) *)
Theorem start_response_prov t status headers exc :
  task_from t -> call_ok status headers ->
  task_from (fst (start_response lower t status headers exc)).
Proof.
  intros [Hs Hf] [Cs Cf].
  destruct (start_response lower t status headers exc) as [t' [[]|e]] eqn:E; cbn [fst].
  - apply start_response_ok in E as (Hoff & Est & Erh & _). split.
    + rewrite Est. unfold offending in Hoff. apply orb_false_iff in Hoff as [Hb _].
      destruct status as [s|]; [|discriminate]. cbn in Hb. cbn [str_of]. apply Cs; auto.
    + rewrite Erh. apply Forall_app. split; [destruct exc; [constructor|exact Hf]|auto].
  - apply start_response_residue in E as [->|(_ & Erh & _ & _ & Hst)]; [split; auto|]. split.
    + destruct Hst as [(_ & ->)|(s & -> & Hcl & ->)]; auto.
    + rewrite Erh. destruct exc; [constructor|exact Hf].
Qed.

End Prov.
End Residue.

Section Run.
Variable cap : str -> str.
Variable lower : str -> str.
Variable c : cfg.
Variable r : req.
Variable disc : option nat.
Variable P : str -> Prop.
Variable Q : str * str -> Prop.
(* the fields the server adds on its own (build_response_header; the Connection:
   close of a close_on_finish decided before the head is built) are admissible *)
Hypothesis HQ : forall h, server_field c h -> Q h.

Notation task_from := (task_from P Q).
Notation call_ok := (call_ok lower P Q).

(* h is the serialisation of a task whose strings are all admissible *)
Definition HeadFrom (h : bytes) : Prop :=
  exists t0 t1, task_from t0 /\ build_response_header cap lower c r t0 = (t1, Ok h).

(* the channel side: nothing precedes the head *)
Definition InvW (s : st) : Prop :=
  (t_wrote_header (fst s) = false -> ch_writes (snd s) = [])
  /\ (t_wrote_header (fst s) = true ->
      exists h rest, ch_writes (snd s) = rest ++ [WBytes h] /\ HeadFrom h).
(* the task side, while the head is still to be built *)
Definition InvT (s : st) : Prop := t_wrote_header (fst s) = false -> task_from (fst s).
Definition GoodP (s : st) : Prop := InvW s /\ InvT s.
(* after an exception only the channel side matters: the exception leaves the
   script (only start_response's own exceptions can be swallowed, and those
   keep InvT: start_response_prov) *)
Definition PostP (s' : st) (o : outcome unit) : Prop := InvW s' /\ (o = Ok tt -> InvT s').

Lemma PostP_GoodP s u : PostP s (Ok u) -> GoodP s.
Proof. destruct u. intros [H1 H2]. split; auto. Qed.

Lemma GoodP_PostP s o : GoodP s -> PostP s o.
Proof. intros [H1 H2]. split; auto. Qed.

Lemma InvW_same t ch t' ch' :
  t_wrote_header t' = t_wrote_header t -> ch_writes ch' = ch_writes ch -> InvW (t, ch) -> InvW (t', ch').
Proof. intros Hw Hc [I1 I2]. split; cbn [fst snd] in *; rewrite Hw, Hc; auto. Qed.

Lemma InvW_grow t1 ch1 t2 ch2 :
  InvW (t1, ch1) -> t_wrote_header t1 = true -> t_wrote_header t2 = true ->
  (exists pre, ch_writes ch2 = pre ++ ch_writes ch1) -> InvW (t2, ch2).
Proof.
  intros [_ I2] W1 W2 [pre Hp]. split; cbn [fst snd]; rewrite W2; [discriminate|]. intros _.
  destruct (I2 W1) as (h & rest & Hr & Hok). cbn [snd] in Hr.
  exists h, (pre ++ rest). rewrite Hp, Hr, app_assoc. auto.
Qed.

Lemma GoodP_task_only t t' ch :
  t_wrote_header t' = t_wrote_header t -> (task_from t -> task_from t') -> GoodP (t, ch) -> GoodP (t', ch).
Proof.
  intros Hw Hf [I T]. split. eapply InvW_same; eauto.
  unfold InvT in *. cbn [fst] in *. rewrite Hw. auto.
Qed.

Lemma scof_from t : task_from t -> task_from (set_close_on_finish cap lower t).
Proof.
  intros [H1 H2]. destruct (ext_scof cap lower c t) as [(sf & E & F) [S1 _]].
  split. rewrite S1; auto. rewrite E. apply Forall_app. split; auto.
  eapply Forall_impl; [|exact F]. exact HQ.
Qed.

Lemma GoodP_scof t ch : GoodP (t, ch) -> GoodP (set_close_on_finish cap lower t, ch).
Proof. apply GoodP_task_only. apply scof_wrote. apply scof_from. Qed.

Lemma GoodP_set_clen z t ch : GoodP (t, ch) -> GoodP (set_clen z t, ch).
Proof. apply GoodP_task_only; auto. Qed.

Lemma GoodP_remove_cl t ch : GoodP (t, ch) -> GoodP (remove_content_length_header lower t, ch).
Proof.
  apply GoodP_task_only; try reflexivity. intros [H1 H2]. split; auto.
  unfold remove_content_length_header. cbn [t_rh set_rh].
  apply Forall_forall. intros x Hx. apply filter_In in Hx as [Hx _]. rewrite Forall_forall in H2. auto.
Qed.

Lemma InvW_write_header s s1 o1 :
  write_header cap lower c r disc s = (s1, o1) -> GoodP s ->
  InvW s1 /\ (o1 = Ok tt -> t_wrote_header (fst s1) = true).
Proof.
  destruct s as [t ch]. intros E [I T]. pose proof (proj1 I) as I1.
  destruct (write_header_cases cap lower c r disc t ch s1 o1 E)
    as [(W & -> & ->)|(W & [(Et & Ec & Ho)|(x & b & Eb & Et & Ec & ->)])]; cbn [fst snd] in *.
  - split; [exact I|intros _; exact W].
  - split; [|destruct Ho as [->| ->]; discriminate].
    split; rewrite Et, bh_prepare_wrote, W; [intros _; rewrite Ec; auto|discriminate].
  - split; [|intros _; rewrite Et; reflexivity].
    split; rewrite Et; cbn [t_wrote_header set_wrote]; [discriminate|]. intros _.
    exists (x :: b), []. rewrite Ec, (I1 W). split; [reflexivity|].
    exists t, (bh_prepare cap lower c r t). split; auto.
Qed.

Lemma InvW_task_write s data s' o :
  task_write cap lower c r disc s data = (s', o) -> GoodP s ->
  InvW s' /\ (o = Ok tt -> t_wrote_header (fst s') = true).
Proof.
  unfold task_write. destruct (negb (t_complete (fst s))); [intro H; inversion H; subst; intros [I _]; split; [auto|discriminate]|].
  intros H G.
  destruct (write_header cap lower c r disc s) as [s1 [[]|e]] eqn:E.
  - destruct (InvW_write_header _ _ _ E G) as [I1 W1]. specialize (W1 eq_refl).
    destruct (write_body_frame _ _ _ _ _ H) as (F1 & _ & _ & F4 & _).
    destruct s1 as [t1 ch1], s' as [t2 ch2]. cbn [fst snd] in *.
    split; [|intros _; congruence]. eapply InvW_grow; eauto; congruence.
  - destruct (InvW_write_header _ _ _ E G) as [I1 _]. inversion H; subst. split; [auto|discriminate].
Qed.

Lemma PostP_task_write s data s' o :
  task_write cap lower c r disc s data = (s', o) -> GoodP s -> PostP s' o.
Proof.
  intros H G. destruct (InvW_task_write _ _ _ _ H G) as [I W]. split; auto.
  intros Ho Hw. rewrite (W Ho) in Hw. discriminate.
Qed.

(* the admissibility of a script: each start_response call, swallowed or not *)
Definition act_prov (a : action) : Prop :=
  match a with
  | AStart status headers _ | ATryStart status headers _ => call_ok status headers
  | _ => True
  end.
Definition step_prov (s : istep) : Prop := Forall act_prov (s_acts s).
Definition app_prov (a : app) : Prop := Forall act_prov (a_call a) /\ Forall step_prov (a_steps a).

Lemma sr_GoodP s status headers exc : call_ok status headers -> GoodP s ->
  GoodP (fst (start_response lower (fst s) status headers exc), snd s).
Proof.
  intros Hc G. destruct s as [t ch]. cbn [fst snd] in *.
  pose proof (start_response_frame lower t status headers exc) as F. cbn zeta in F.
  destruct F as (F1 & _). revert G. apply GoodP_task_only; auto.
  intro Hf. apply start_response_prov; auto.
Qed.

Lemma PostP_run_action s a s' o : act_prov a ->
  run_action cap lower c r disc s a = (s', o) -> GoodP s -> PostP s' o.
Proof.
  intros Ha H G. destruct a as [status headers exc|data|e|i isv v|status headers exc]; cbn [run_action] in H.
  - pose proof (sr_GoodP s status headers exc Ha G) as G1.
    destruct (start_response lower (fst s) status headers exc) as [t o1]. inversion H; subst.
    apply GoodP_PostP. exact G1.
  - eapply PostP_task_write; eauto.
  - inversion H; subst. destruct G. split; auto; discriminate.
  - inversion H; subst. apply GoodP_PostP; auto.
  - (* the refusal is swallowed: the residue of the refused call is admissible *)
    pose proof (sr_GoodP s status headers exc Ha G) as G1.
    destruct (start_response lower (fst s) status headers exc) as [t o1]. inversion H; subst.
    apply GoodP_PostP. exact G1.
Qed.

Lemma PostP_run_actions l : forall s s' o, Forall act_prov l ->
  run_actions cap lower c r disc s l = (s', o) -> GoodP s -> PostP s' o.
Proof.
  induction l as [|a l IH]; intros s s' o Hl H G; cbn [run_actions] in H.
  - inversion H; subst. apply GoodP_PostP; auto.
  - inversion Hl; subst.
    destruct (run_action cap lower c r disc s a) as [s1 [u|e]] eqn:E.
    + eapply IH; eauto. eapply PostP_GoodP. eapply PostP_run_action; eauto.
    + inversion H; subst. eapply PostP_run_action; eauto.
Qed.

Lemma PostP_iterate steps : forall is_file len1 first s s' o, Forall step_prov steps ->
  iterate cap lower c r disc is_file len1 first s steps = (s', o) -> GoodP s -> PostP s' o.
Proof.
  induction steps as [|sp steps IH]; intros is_file len1 first s s' o Hs H G; cbn [iterate] in H.
  - inversion H; subst. apply GoodP_PostP; auto.
  - inversion Hs as [|? ? Hsp Hrest]; subst.
    destruct (run_actions cap lower c r disc s (s_acts sp)) as [s1 [u|e]] eqn:E;
      [|inversion H; subst; eapply PostP_run_actions; eauto].
    assert (G1 : GoodP s1) by (eapply PostP_GoodP; eapply PostP_run_actions; eauto).
    destruct (s_res sp) as [chunk|e]; [|inversion H; subst; destruct G1; split; auto; discriminate].
    destruct (is_file && _); [inversion H; subst; apply GoodP_PostP; auto|].
    destruct s1 as [t ch].
    set (t1 := if first then _ else t) in H.
    assert (G2 : GoodP (t1, ch)).
    { subst t1. destruct first; auto. destruct (t_clen t); auto. destruct len1; auto; apply GoodP_set_clen; auto. }
    destruct chunk as [|x chunk].
    + eapply IH; eauto.
    + destruct (task_write cap lower c r disc (t1, ch) (x :: chunk)) as [s2 [u2|e]] eqn:Ew.
      * eapply IH; eauto. eapply PostP_GoodP. eapply PostP_task_write; eauto.
      * inversion H; subst. eapply PostP_task_write; eauto.
Qed.

Lemma PostP_task_finish s s' o : task_finish cap lower c r disc s = (s', o) -> GoodP s -> PostP s' o.
Proof.
  unfold task_finish. intros H G.
  set (r1 := if negb (t_wrote_header (fst s)) then _ else _) in H.
  assert (P1 : InvW (fst r1) /\ (snd r1 = Ok tt -> t_wrote_header (fst (fst r1)) = true)).
  { subst r1. destruct (t_wrote_header (fst s)) eqn:Ew; cbn [negb].
    - destruct G. split; auto.
    - destruct (task_write cap lower c r disc s []) as [s1 o1] eqn:E. eapply InvW_task_write; eauto. }
  destruct r1 as [[t ch] [[]|e]]; cbn [fst snd] in P1; destruct P1 as [I1 W1];
    [|inversion H; subst; split; [exact I1|intro X; discriminate X]].
  specialize (W1 eq_refl).
  assert (T1 : InvT (t, ch)) by (intro X; cbn [fst] in X; congruence).
  destruct (t_chunked t && negb (r_head r)); [|inversion H; subst; split; auto].
  destruct (write_soon disc ch (WBytes chunk_terminator)) as [ch1 o1] eqn:Ews. inversion H; subst. clear H.
  split.
  - eapply InvW_grow; eauto. eapply write_soon_grows; eauto.
  - intros _ X. cbn [fst] in X. congruence.
Qed.

Lemma PostP_execute_body s a s' o cc : Forall step_prov (a_steps a) ->
  execute_body cap lower c r disc s a = (s', o, cc) -> GoodP s -> PostP s' o.
Proof.
  intros Hs H G. unfold execute_body in H.
  set (ho := match a_kind a with KFile _ => _ | _ => None end) in H.
  assert (Hho : match ho with Some (s1, o1, _) => PostP s1 o1 | None => True end).
  { subst ho. destruct (a_kind a) as [n| |seekable]; auto.
    destruct s as [t ch].
    set (size := if seekable then _ else 0%Z).
    destruct (size =? 0)%Z; auto.
    destruct (t_wrote_header t) eqn:Ewh0; auto.
    destruct (negb (has_body t)); auto.
    set (t1 := if match t_clen t with Some n => negb (n =? size)%Z | None => true end then _ else t).
    assert (G1 : GoodP (t1, ch)).
    { subst t1. destruct (match t_clen t with Some n => negb (n =? size)%Z | None => true end); auto.
      apply GoodP_set_clen. destruct (t_clen t); auto. apply GoodP_remove_cl; auto. }
    destruct (task_write cap lower c r disc (t1, ch) []) as [s1 [u|e]] eqn:Ew.
    - destruct (InvW_task_write _ _ _ _ Ew G1) as [I1 W1]. destruct u. specialize (W1 eq_refl).
      destruct s1 as [t2 ch2]. cbn [fst] in W1.
      destruct (write_soon disc ch2 _) as [ch3 [u3|e]] eqn:Ews.
      + split.
        * apply (InvW_grow t2 ch2 t2 ch3 I1); auto. eapply write_soon_grows; eauto.
        * intros _ X. cbn [fst] in X. congruence.
      + split; [|intro X; discriminate X].
        apply write_soon_writes in Ews as [_ Hx]. specialize (Hx e eq_refl).
        revert I1. apply InvW_same; auto.
    - destruct s1. eapply PostP_task_write; eauto. }
  destruct ho as [[[s1 o1] c1]|].
  - inversion H; subst. exact Hho.
  - destruct (iterate cap lower c r disc _ _ true s (a_steps a)) as [s1 [u|e]] eqn:Ei.
    + pose proof (PostP_iterate _ _ _ _ _ _ _ Hs Ei G) as P1. apply PostP_GoodP in P1.
      destruct s1 as [t ch]. inversion H; subst. clear H.
      apply GoodP_PostP.
      destruct (t_clen t); auto. destruct (_ && _); auto. apply GoodP_scof; auto.
    + destruct s1. inversion H; subst. eapply PostP_iterate; eauto.
Qed.

Lemma PostP_wsgi_execute s a : app_prov a -> GoodP s ->
  let x := wsgi_execute cap lower c r disc s a in PostP (x_st x) (x_out x).
Proof.
  intros [Ha Hs] G. cbn zeta. unfold wsgi_execute.
  destruct (run_actions cap lower c r disc s (a_call a)) as [s1 [u|e]] eqn:E.
  - pose proof (PostP_run_actions _ _ _ _ Ha E G) as P1. apply PostP_GoodP in P1.
    destruct (execute_body cap lower c r disc s1 a) as [[s2 o] cc] eqn:Eb.
    pose proof (PostP_execute_body _ _ _ _ _ Hs Eb P1) as P2.
    destruct (cc && a_has_close a); [destruct (a_close_exn a)|]; cbn [x_st x_out]; auto.
    destruct P2. split; auto. intro X; discriminate X.
  - cbn [x_st x_out]. eapply PostP_run_actions; eauto.
Qed.

(* an ErrorTask carries the strings of the parser's error: admissible by hypothesis *)
Definition err_prov (e : (str * str) * str) : Prop :=
  P (fst (fst e) ++ [32] ++ snd (fst e)) /\ Q err_header.

Lemma PostP_error_execute s e : err_prov e -> GoodP s ->
  let x := error_execute cap lower c r disc s e in PostP (fst x) (snd x).
Proof.
  intros [E1 E2] G. cbn zeta. unfold error_execute. destruct e as [[code reason] body]. destruct s as [t ch].
  cbn [fst snd] in E1, E2.
  match goal with |- context [task_write cap lower c r disc ?s1 ?d] =>
    destruct (task_write cap lower c r disc s1 d) as [s2 o2] eqn:Ew;
    assert (G1 : GoodP s1) end.
  2: { cbn [fst snd]. eapply PostP_task_write; eauto. }
  apply GoodP_set_clen. apply GoodP_scof.
  revert G. apply GoodP_task_only; try reflexivity.
  intros [H1 H2]. split; cbn [t_status t_rh set_rh set_status]; auto.
  apply Forall_app. split; [exact H2|]. constructor; [exact E2|constructor].
Qed.

Lemma PostP_task_run s job :
  match job with inl a => app_prov a | inr e => err_prov e end -> GoodP s ->
  let x := task_run cap lower c r disc s job in PostP (x_st x) (x_out x).
Proof.
  intros Hj G. cbn zeta. unfold task_run.
  set (x := match job with inl a => _ | inr e => _ end).
  assert (P1 : PostP (x_st x) (x_out x)).
  { subst x. destruct job as [a|e].
    - apply PostP_wsgi_execute; auto.
    - pose proof (PostP_error_execute s e Hj G) as X. cbn zeta in X.
      destruct (error_execute cap lower c r disc s e). exact X. }
  destruct (x_out x) as [u|e] eqn:Eo; [|rewrite Eo; exact P1].
  apply PostP_GoodP in P1.
  destruct (task_finish cap lower c r disc (x_st x)) as [s2 o2] eqn:Ef. cbn [x_st x_out].
  eapply PostP_task_finish; eauto.
Qed.

Lemma InvW_task_service s job :
  match job with inl a => app_prov a | inr e => err_prov e end -> GoodP s ->
  InvW (x_st (task_service cap lower c r disc s job)).
Proof.
  intros Hj G. unfold task_service.
  pose proof (PostP_task_run s job Hj G) as [I _]. cbn zeta in I.
  destruct (x_out (task_run cap lower c r disc s job)) as [u|e]; auto.
  destruct (is_OSError e); auto.
Qed.

End Run.

Section Service.
Variable cap : str -> str.
Variable lower : str -> str.
Variable c : cfg.
Variable r : req.
Variable disc : option nat.

Section Generic.
Variable P : str -> Prop.
Variable Q : str * str -> Prop.
Hypothesis HQ : forall h, server_field c h -> Q h.
Hypothesis HP0 : P (lit "200 OK").

Lemma GoodP_init v e n : GoodP cap lower c r P Q (new_task v e, mkChan [] n).
Proof.
  split; [split|]; cbn [fst snd new_task t_wrote_header ch_writes]; try discriminate; auto.
  intros _. split; [exact HP0|constructor].
Qed.

Lemma InvW_first a :
  match r_error r with Some e => err_prov P Q e | None => app_prov lower P Q a end ->
  InvW cap lower c r P Q (x_st (first_run cap lower c r disc a)).
Proof.
  intro Hj. unfold first_run, job_of. destruct (connected disc 0).
  - apply InvW_task_service; auto. destruct (r_error r); auto. apply GoodP_init.
  - exact (proj1 (GoodP_init (r_version r) _ 0)).
Qed.

(* nothing precedes the head, and the head is the serialisation of an admissible task *)
Theorem wire_prov a :
  match r_error r with Some e => err_prov P Q e | None => app_prov lower P Q a end ->
  let res := channel_service cap lower c r a disc in
  (o_wrote_header1 res = false -> o_writes1 res = [])
  /\ (o_wrote_header1 res = true ->
      exists h rest, o_writes1 res = WBytes h :: rest /\ HeadFrom cap lower c r P Q h).
Proof.
  intro Hj. cbn zeta. rewrite service_eq. cbn [o_wrote_header1 o_writes1 wound_up].
  destruct (InvW_first a Hj) as [I1 I2]. split; intro W.
  - rewrite (I1 W). reflexivity.
  - destruct (I2 W) as (h & rest & Hw & Hok). exists h, (rev rest). rewrite Hw, rev_app_distr. auto.
Qed.

End Generic.

Definition app_actions (a : app) : list action := a_call a ++ flat_map s_acts (a_steps a).

(* the arguments of a start_response call, swallowed or not *)
Definition call_of (x : action) : option (pyobj * list (pyobj * pyobj)) :=
  match x with
  | AStart status headers _ | ATryStart status headers _ => Some (status, headers)
  | _ => None
  end.

(* s is the default status, or the status argument of a call of the script, and
   it passed start_response's checks on a status (a str without CR/LF) *)
Definition status_vetted (a : app) (s : str) : Prop :=
  s = lit "200 OK"
  \/ exists headers x, In x (app_actions a) /\ call_of x = Some (PStr s, headers) /\ has_crlf s = false.

(* f is a pair of a call of the script that start_response accepts as a whole *)
Definition field_vetted (a : app) (f : str * str) : Prop :=
  exists status headers x, In x (app_actions a) /\ call_of x = Some (status, headers)
    /\ offending lower status headers = false /\ In f (strs_of headers).

Definition field_ok (a : app) (f : str * str) : Prop := field_vetted a f \/ server_field c f.

Lemma act_prov_vetted a x : In x (app_actions a) -> act_prov lower (status_vetted a) (field_ok a) x.
Proof.
  intro Hin. destruct x as [status headers exc|data|e|i isv v|status headers exc]; cbn [act_prov]; auto.
  - split.
    + intros s -> Hcl. right. exists headers, (AStart (PStr s) headers exc). auto.
    + intro Hoff. apply Forall_forall. intros f Hf. left. exists status, headers, (AStart status headers exc). auto.
  - split.
    + intros s -> Hcl. right. exists headers, (ATryStart (PStr s) headers exc). auto.
    + intro Hoff. apply Forall_forall. intros f Hf. left. exists status, headers, (ATryStart status headers exc). auto.
Qed.

Lemma app_prov_vetted a : app_prov lower (status_vetted a) (field_ok a) a.
Proof.
  split.
  - apply Forall_forall. intros x Hx. apply act_prov_vetted. unfold app_actions. apply in_or_app. auto.
  - apply Forall_forall. intros sp Hsp. apply Forall_forall. intros x Hx. apply act_prov_vetted.
    unfold app_actions. apply in_or_app. right. apply in_flat_map. exists sp. auto.
Qed.

Lemma status_vetted_clean a s : status_vetted a s -> clean s.
Proof. intros [->|(h & x & _ & _ & H)]; [reflexivity|exact H]. Qed.

Lemma field_vetted_clean a f : field_vetted a f -> clean_field f.
Proof.
  intros (status & headers & x & _ & _ & Hoff & Hin).
  unfold offending in Hoff. apply orb_false_iff in Hoff as [_ Hb].
  pose proof (strs_of_clean lower headers Hb) as F. rewrite Forall_forall in F. auto.
Qed.

Theorem wire_accepted a :
  r_error r = None ->
  let res := channel_service cap lower c r a disc in
  o_wrote_header1 res = true ->
  exists h rest t0 t1,
    o_writes1 res = WBytes h :: rest
    /\ status_vetted a (t_status t0) /\ Forall (field_ok a) (t_rh t0)
    /\ build_response_header cap lower c r t0 = (t1, Ok h).
Proof.
  intros He. cbn zeta. intro W.
  destruct (wire_prov (status_vetted a) (field_ok a) (fun h H => or_intror H) (or_introl eq_refl) a) as [_ Hp].
  { rewrite He. apply app_prov_vetted. }
  destruct (Hp W) as (h & rest & Hw & t0 & t1 & [Hs Hf] & Hb). exists h, rest, t0, t1. auto.
Qed.

Hypothesis Hcap : forall s, clean s -> clean (cap s).
Hypothesis Hc : cfg_clean c.

Theorem wire_accepted_lines a :
  r_error r = None ->
  let res := channel_service cap lower c r a disc in
  o_wrote_header1 res = true ->
  exists h rest t0 sf,
    o_writes1 res = WBytes h :: rest
    /\ status_vetted a (t_status t0) /\ Forall (field_ok a) (t_rh t0)
    /\ Forall (server_field c) sf
    /\ let fields := norm_fields cap (has_body t0) (t_rh t0) ++ sf in
       split h CRLF =
         (lit "HTTP/" ++ version_str t0 ++ [32] ++ t_status t0)
           :: map header_line (sort_hdrs fields) ++ [[]; []]
       /\ Forall clean (firstn (S (length fields)) (split h CRLF)).
Proof.
  intros He. cbn zeta. intro W.
  destruct (wire_accepted a He W) as (h & rest & t0 & t1 & Hw & Hs & Hf & Hb).
  assert (Hcl : task_clean t0).
  { split. eapply status_vetted_clean; eauto.
    eapply Forall_impl; [|exact Hf]. intros f [Hv|Hv]; [eapply field_vetted_clean; eauto|apply (server_field_clean c); auto]. }
  destruct (head_lines_exact cap lower Hcap c r t0 t1 h Hc Hcl Hb) as (sf & Fs & L1 & L2 & _).
  exists h, rest, t0, sf. repeat split; auto.
Qed.

End Service.

Section CleanWire.
Variable cap : str -> str.
Variable lower : str -> str.
Variable c : cfg.
Hypothesis Hc : cfg_clean c.
Variable r : req.
Variable disc : option nat.
Hypothesis Hr : match r_error r with Some e => err_clean e | None => True end.

(* every script is admissible: what start_response lets through is clean *)
Lemma act_prov_clean x : act_prov lower clean clean_field x.
Proof.
  assert (H : forall status headers, call_ok lower clean clean_field status headers).
  { intros status headers. split; [intros s _ Hs; exact Hs|].
    intro Hoff. apply orb_false_iff in Hoff as [_ Hb]. apply (strs_of_clean lower). exact Hb. }
  destruct x; cbn [act_prov]; auto.
Qed.

Lemma job_prov_clean a :
  match r_error r with Some e => err_prov clean clean_field e | None => app_prov lower clean clean_field a end.
Proof.
  destruct (r_error r) as [e|].
  - destruct Hr as [E1 E2]. split; [|split; reflexivity].
    apply clean_app. split; [exact E1|]. apply clean_app. split; [reflexivity|exact E2].
  - split; apply Forall_forall; intros x _; [|apply Forall_forall; intros y _]; apply act_prov_clean.
Qed.

Theorem served_500_bytes a :
  let res := channel_service cap lower c r a disc in
  o_served_500 res = true ->
  o_writes1 res = [] /\ o_writes res = response_500 cap lower c r disc (o_nws1 res).
Proof.
  cbn zeta. rewrite service_eq. cbn [o_served_500 o_writes1 o_writes o_nws1 wound_up]. intro A.
  rewrite (last_state_500 _ _ _ _ _ _ A).
  apply answers_500_iff in A as (e & _ & _ & W).
  destruct (InvW_first cap lower c r disc clean clean_field (fun h => server_field_clean c h Hc) eq_refl a (job_prov_clean a))
    as [I1 _]. specialize (I1 W).
  destruct (snd (x_st (first_run cap lower c r disc a))) as [ws n]. cbn [ch_writes ch_nws] in *. subst ws.
  rewrite response_500_run. split; reflexivity.
Qed.

End CleanWire.

Definition evil_status : str :=
  lit "200 OK" ++ CRLF ++ lit "Set-Cookie: session=attacker" ++ CRLF ++ lit "X-Injected: yes".
Definition ct_plain : pyobj * pyobj := (PStr (lit "Content-Type"), PStr (lit "text/plain")).

(* the refusal of the FIRST call is swallowed, a body is returned *)
Definition swallow_first_app : app :=
  mkApp [ATryStart (PStr evil_status) [ct_plain] None]
        (KSized 1) [mkStep [] (SYield (lit "hello"))] false None.
(* a valid first call, then a refused exc_info re-call made by an error handler *)
Definition swallow_excinfo_app : app :=
  mkApp [AStart (PStr (lit "200 OK")) [ct_plain; (PStr (lit "X-First"), PStr (lit "1"))] None;
         ATryStart (PStr (lit "500 Oops" ++ CRLF ++ lit "X-Injected: yes")) [ct_plain] (Some AppException)]
        (KSized 1) [mkStep [] (SYield (lit "sorry"))] false None.
(* a refused exc_info re-call followed by write() obtained from the first call *)
Definition swallow_write_app : app :=
  mkApp [AStart (PStr (lit "200 OK")) [ct_plain] None;
         ATryStart (PStr (lit "200 OK" ++ [LF] ++ lit "X-Injected: yes")) [] (Some AppException);
         AWrite (lit "data")]
        (KSized 0) [] false None.

Definition head_lines_of (a : app) : option (list str) :=
  match o_writes (run_task sample_cfg sample_req a None) with
  | WBytes h :: _ => Some (split h CRLF)
  | _ => None
  end.

(* What a refused call leaves behind is NOT nothing: a status that passed its
   own checks stays in the task when a pair of the same call is refused (the
   int() of a Content-Length pair of the refused call stayed too, and cut the
   body to "hel", until /repo fix 5926e3b).  The stricter reading "the status on
   the wire belongs to a call that start_response accepted as a whole (or is
   the default)" is false of the code as it is: *)
Definition residue_app : app :=
  mkApp [ATryStart (PStr (lit "404 Not Found"))
           [(PStr (lit "Content-Length"), PStr (lit "3")); (PStr (lit "X-Bad" ++ [LF]), PStr (lit "v"))] None]
        (KSized 1) [mkStep [] (SYield (lit "hello"))] false None.

Definition status_returned (a : app) (s : str) : Prop :=
  s = lit "200 OK"
  \/ exists headers x, In x (app_actions a) /\ call_of x = Some (PStr s, headers)
                       /\ offending py_lower (PStr s) headers = false.

Definition strict_status_statement : Prop :=
  forall c r disc a, cfg_clean c -> r_error r = None ->
    let res := run_task c r a disc in
    o_wrote_header1 res = true ->
    exists h rest s, o_writes1 res = WBytes h :: rest /\ status_returned a s
      /\ hd [] (split h CRLF) =
           lit "HTTP/" ++ (if beqb (r_version r) (lit "1.1") then lit "1.1" else lit "1.0") ++ [32] ++ s.

