(* Consequences of the exact characterisation (ProxyConverse2.trusted_exact): the reason found is one of
   the listed categories and holds of the request, and any category that holds gives a reason; only the
   trusted suffix of a list header is read; witnesses for every category. *)
From Coq Require Import String.
From Coq Require Import List NArith ZArith Bool Lia.
From WV Require Import Lib.PyBytes Lib.PyStrProxy Lib.Regex Gen.GenRegex Spec.Grammar Model.Proxy
  Spec.ProxySpec Proof.ProxyDict Proof.ProxyStr Proof.ProxyStages Proof.ProxyTotal
  Proof.ProxyCats Proof.ProxyConverse1 Proof.ProxyConverse2.
Import ListNotations.
Local Open Scope N_scope.

Lemma first_some_in {A B} (f : A -> option B) l b : first_some f l = Some b -> exists x, In x l /\ f x = Some b.
Proof.
  induction l as [|x l IH]; [discriminate|]. cbn [first_some]. destruct (f x) eqn:E.
  - intro H. injection H as <-. exists x. split; [left; reflexivity|exact E].
  - intro H. destruct (IH H) as (y & Hin & Hy). exists y. split; [right; exact Hin|exact Hy].
Qed.

Lemma forwarded_reason_sound raw c : forwarded_reason raw = Some c ->
  exists el p, In el (elements raw) /\ In p (split (strip el) [semi]) /\ pair_reason (lower_latin1 p) = Some c.
Proof.
  intro H. apply first_some_in in H as (el & Hin & He). unfold element_reason in He.
  apply first_some_in in He as (p & Hp & Hq). eauto.
Qed.

Lemma pair_in_existsb (g : str -> bool) raw el p :
  In el (elements raw) -> In p (split (strip el) [semi]) -> g (lower_latin1 p) = true ->
  existsb (fun el => existsb (fun p => g (lower_latin1 p)) (split (strip el) [semi])) (elements raw) = true.
Proof.
  intros H1 H2 H3. apply existsb_exists. exists el. split; [exact H1|].
  apply existsb_exists. exists p. split; assumption.
Qed.

Lemma syntax_reason_holds tph k e c : syntax_reason tph e = Some c -> category_holds tph k e c = true.
Proof.
  unfold syntax_reason.
  destruct (list_reason tph nm_xff hk_xff e CatXffQuoting) eqn:E1; cbn [orelse].
  { intro H. injection H as <-. apply list_reason_holds in E1 as [-> E1]. exact E1. }
  destruct (list_reason tph nm_xfh hk_xfh e CatXfhQuoting) eqn:E2; cbn [orelse].
  { intro H. injection H as <-. apply list_reason_holds in E2 as [-> E2]. exact E2. }
  destruct (single_reason tph nm_xfproto hk_xfproto e CatProtoQuoting CatProtoSeveral) eqn:E3; cbn [orelse].
  { intro H. injection H as <-. apply single_reason_holds in E3 as [[-> E3]|[-> E3]]; exact E3. }
  destruct (single_reason tph nm_xfport hk_xfport e CatPortQuoting CatPortSeveral) eqn:E4; cbn [orelse].
  { intro H. injection H as <-. apply single_reason_holds in E4 as [[-> E4]|[-> E4]]; exact E4. }
  destruct (fwd_active tph e) eqn:Ea; [|discriminate].
  intro Ef. apply forwarded_reason_sound in Ef as (el & p & H1 & H2 & H3). unfold pair_reason in H3.
  destruct (cat_pair_no_eq (lower_latin1 p)) eqn:Q1.
  { injection H3 as <-. cbn [category_holds]. rewrite Ea. apply (pair_in_existsb cat_pair_no_eq _ _ _ H1 H2 Q1). }
  destruct (cat_pair_padded (lower_latin1 p)) eqn:Q2.
  { injection H3 as <-. cbn [category_holds]. rewrite Ea. apply (pair_in_existsb cat_pair_padded _ _ _ H1 H2 Q2). }
  destruct (cat_pair_quoting (lower_latin1 p)) eqn:Q3; [|discriminate].
  injection H3 as <-. cbn [category_holds]. rewrite Ea. apply (pair_in_existsb cat_pair_quoting _ _ _ H1 H2 Q3).
Qed.

Theorem reason_holds tph k e c : refusal_reason tph k e = Some c -> category_holds tph k e c = true.
Proof.
  unfold refusal_reason. destruct (syntax_reason tph e) eqn:Es; cbn [orelse].
  - intro H. injection H as <-. apply syntax_reason_holds. exact Es.
  - unfold selection_reason.
    destruct (cat_scheme _) eqn:S1; [intro H; injection H as <-; exact S1|].
    destruct (empty_host _) eqn:S2; [intro H; injection H as <-; exact S2|].
    destruct (bad_client _) eqn:S3; [intro H; injection H as <-; exact S3|discriminate].
Qed.

Lemma pair_cat_bad (g : str -> bool) raw :
  (forall q, g q = true -> pair_bad q = true) ->
  existsb (fun el => existsb (fun p => g (lower_latin1 p)) (split (strip el) [semi])) (elements raw) = true ->
  forwarded_reason raw <> None.
Proof.
  intros Hg H. apply existsb_exists in H as (el & H1 & H). apply existsb_exists in H as (p & H2 & H3).
  pose proof (forwarded_reason_bad raw) as Hb. intro Hn. rewrite Hn in Hb.
  assert (Hc : cat_forwarded raw = true).
  { unfold cat_forwarded. apply existsb_exists. exists el. split; [exact H1|].
    unfold element_bad. apply existsb_exists. exists p. split; [exact H2|apply Hg; exact H3]. }
  congruence.
Qed.

Lemma list_reason_none tph name key e c0 : list_reason tph name key e c0 = None ->
  trusts tph name && match lookup key e with Some raw => cat_list_quoting raw | None => false end = false.
Proof.
  unfold list_reason. destruct (trusts tph name); [|reflexivity]. destruct (lookup key e) as [raw|]; [|reflexivity].
  destruct (cat_list_quoting raw); [discriminate|reflexivity].
Qed.

Lemma single_reason_none tph name key e cq cs : single_reason tph name key e cq cs = None ->
  trusts tph name && cat_single_quoting (hdr key e) = false /\ trusts tph name && cat_several_values (hdr key e) = false.
Proof.
  unfold single_reason. destruct (trusts tph name); [|auto]. destruct (cat_single_quoting (hdr key e)); [discriminate|].
  destruct (cat_several_values (hdr key e)); [discriminate|auto].
Qed.

Theorem category_refuses tph k e c : category_holds tph k e c = true -> refusal_reason tph k e <> None.
Proof.
  intros H Hn. unfold refusal_reason in Hn. apply orelse_none in Hn as [Hs Hsel].
  apply syntax_none in Hs as (S1 & S2 & S3 & S4 & S5).
  apply list_reason_none in S1, S2. apply single_reason_none in S3 as [S3 S3'], S4 as [S4 S4'].
  unfold selection_reason in Hsel.
  destruct c; cbn [category_holds] in H; try congruence.
  - apply andb_true_iff in H as [Ha H]. rewrite Ha in S5. revert S5.
    apply (pair_cat_bad cat_pair_no_eq); [|exact H]. intros q Hq. unfold pair_bad. rewrite Hq. reflexivity.
  - apply andb_true_iff in H as [Ha H]. rewrite Ha in S5. revert S5.
    apply (pair_cat_bad cat_pair_padded); [|exact H]. intros q Hq. unfold pair_bad. rewrite Hq.
    destruct (cat_pair_no_eq q); reflexivity.
  - apply andb_true_iff in H as [Ha H]. rewrite Ha in S5. revert S5.
    apply (pair_cat_bad cat_pair_quoting); [|exact H]. intros q Hq. unfold pair_bad. rewrite Hq. apply orb_true_r.
  - rewrite H in Hsel. discriminate.
  - rewrite H in Hsel. destruct (cat_scheme _); discriminate.
  - rewrite H in Hsel. destruct (cat_scheme _); [discriminate|]. destruct (empty_host _); discriminate.
Qed.

Theorem suffix_only raw1 raw2 k : suffix (elements raw1) k = suffix (elements raw2) k ->
  picked raw1 k = picked raw2 k /\ pruned raw1 k = pruned raw2 k /\
  forall name, fwd_oldest name raw1 k = fwd_oldest name raw2 k.
Proof.
  intro H. unfold picked, pruned, fwd_oldest. rewrite <- !suffix_hd, H. auto.
Qed.

(* the hop of the seeded change C16-w3m1: the trusted element has no host= / proto=; nothing of the
   untrusted element to its left reaches the application *)
Definition w3m1_cfg : config :=
  {| trusted_proxy := Some (s2l "10.0.0.1"%string); trusted_proxy_count := 1%Z;
     trusted_proxy_headers := Some [n_fwd]; clear_untrusted := true |}.
Definition w3m1_env : environ :=
  [(k_remote_addr, s2l "10.0.0.1"%string); (k_url_scheme, s_http); (k_server_name, s2l "backend.internal"%string);
   (k_http_host, s2l "backend.internal:8080"%string); (k_server_port, s2l "8080"%string);
   (k_fwd, s2l "for=6.6.6.6;host=evil.example;proto=https, for=192.0.2.7"%string)].

Example left_element_never_inherited :
  exists o, middleware w3m1_cfg w3m1_env = Ok o /\
    lookup k_remote_addr o = Some (s2l "192.0.2.7"%string) /\
    lookup k_server_name o = Some (s2l "backend.internal"%string) /\
    lookup k_http_host o = Some (s2l "backend.internal:8080"%string) /\
    lookup k_server_port o = Some (s2l "8080"%string) /\
    lookup k_url_scheme o = Some s_http /\
    lookup k_fwd o = Some (s2l "for=192.0.2.7"%string).
Proof. eexists. split; [vm_compute; reflexivity|]. repeat split; vm_compute; reflexivity. Qed.

(* non-vacuity of the characterisation: one witness per category, and an accepted request *)
Definition ex_cfg (tph : list str) (k : Z) : config :=
  {| trusted_proxy := Some s_star; trusted_proxy_count := k; trusted_proxy_headers := Some tph; clear_untrusted := true |}.
Definition ex_env (hs : list (str * str)) : environ :=
  (k_remote_addr, s2l "10.0.0.1"%string) :: (k_url_scheme, s_http) :: hs.

Example reasons_nonvacuous :
  refusal_reason [n_xff] 1 (ex_env [(k_xff, s2l "1.2.3.4, ""a"%string)]) = Some CatXffQuoting /\
  refusal_reason [n_xfh] 1 (ex_env [(k_xfh, s2l "h"""%string)]) = Some CatXfhQuoting /\
  refusal_reason [n_xfproto] 1 (ex_env [(k_xfproto, s2l """http"%string)]) = Some CatProtoQuoting /\
  refusal_reason [n_xfproto] 1 (ex_env [(k_xfproto, s2l "http,https"%string)]) = Some CatProtoSeveral /\
  refusal_reason [n_xfport] 1 (ex_env [(k_xfport, s2l "8"""%string)]) = Some CatPortQuoting /\
  refusal_reason [n_xfport] 1 (ex_env [(k_xfport, s2l "80,81"%string)]) = Some CatPortSeveral /\
  refusal_reason [n_fwd] 1 (ex_env [(k_fwd, s2l "for=1.2.3.4;secret"%string)]) = Some CatPairNoEq /\
  refusal_reason [n_fwd] 2 (ex_env [(k_fwd, s2l "for =1.2.3.4, for=5.6.7.8"%string)]) = Some CatPairPadded /\
  refusal_reason [n_fwd] 1 (ex_env [(k_fwd, s2l "for=""1.2.3.4"%string)]) = Some CatPairQuoting /\
  refusal_reason [n_fwd] 1 (ex_env [(k_fwd, s2l "for=1.2.3.4;proto=ftp"%string)]) = Some CatScheme /\
  refusal_reason [n_xfh] 1 (ex_env [(k_xfh, s2l ":80"%string)]) = Some CatEmptyHost /\
  refusal_reason [n_fwd] 1 (ex_env [(k_fwd, s2l "for=:80"%string)]) = Some CatEmptyClient /\
  refusal_reason [n_fwd] 2 (ex_env [(k_fwd, s2l "For=""[2001:db8::1]:4711"";Host=""Example.com:8443"";proto=HTTPS, for=_hidden"%string)]) = None.
Proof. repeat split; vm_compute; reflexivity. Qed.
