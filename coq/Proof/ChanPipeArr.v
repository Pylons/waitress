(* Proof/ChanPipeArr.v -- layer L5: the arrival log has no duplicates.  Every completing item of the
   client's stream (IFull / IRest / IFullX of request id) is consumed at most once, and the ids of
   the stream are increasing: the ranks 2*id+1 of the arrivals, followed by the ranks of the
   completing items still ahead (the one in the parser's hands, those of the current read, those
   not yet read), form a strictly increasing list. *)
From Coq Require Import List Arith Bool ZArith Lia.
From WV Require Import Model.ChanPipe Proof.ChanPipeBase.
Import ListNotations.

Fixpoint sorted_lt (l : list nat) : Prop :=
  match l with
  | [] => True
  | x :: r => Forall (fun y => x < y) r /\ sorted_lt r
  end.

Lemma sorted_app : forall a b, sorted_lt (a ++ b) <->
  sorted_lt a /\ sorted_lt b /\ (forall x y, In x a -> In y b -> x < y).
Proof.
  induction a as [|x a IH]; intro b; simpl.
  - split; [intro H; repeat split; auto; intros; contradiction | intros (_ & H & _); exact H].
  - rewrite IH. rewrite Forall_app. split.
    + intros ((F1 & F2) & S1 & S2 & C). repeat split; auto.
      intros u v [->|Hu] Hv; [rewrite Forall_forall in F2; auto | auto].
    + intros ((F1 & S1) & S2 & C). repeat split; auto.
      apply Forall_forall. intros y Hy. apply C; auto.
Qed.

Lemma sorted_drop_mid : forall a b c, sorted_lt (a ++ b ++ c) -> sorted_lt (a ++ c).
Proof.
  intros a b c H. apply sorted_app in H. destruct H as (Sa & Sbc & C).
  apply sorted_app in Sbc. destruct Sbc as (Sb & Sc & C2).
  apply sorted_app. repeat split; auto. intros x y Hx Hy. apply C; auto. apply in_or_app. auto.
Qed.

Lemma sorted_NoDup : forall l, sorted_lt l -> NoDup l.
Proof.
  induction l as [|x r IH]; intro H; [constructor|].
  destruct H as [F S]. constructor; auto. intro X. rewrite Forall_forall in F. specialize (F x X). lia.
Qed.

Definition rank (it : item) : nat :=
  match it with IFull i | IRest i | IFullX i => 2 * i + 1 | IHead i => 2 * i end.
Definition completing (it : item) : bool := match it with IHead _ => false | _ => true end.
Definition cranks (l : list item) : list nat := map rank (filter completing l).
Definition whole_items (l : list ritem) : list item :=
  flat_map (fun r => match r with Whole it => [it] | Piece _ => [] end) l.

Lemma cranks_app : forall a b, cranks (a ++ b) = cranks a ++ cranks b.
Proof. intros. unfold cranks. rewrite filter_app, map_app. reflexivity. Qed.

Lemma whole_items_app : forall a b, whole_items (a ++ b) = whole_items a ++ whole_items b.
Proof. intros. unfold whole_items. apply flat_map_app. Qed.

Lemma whole_items_map_whole : forall l, whole_items (map Whole l) = l.
Proof. induction l; simpl; congruence. Qed.

Lemma whole_items_map_piece : forall l, whole_items (map Piece l) = [].
Proof. induction l; simpl; auto. Qed.

(* the stream of a script is increasing in rank *)
Lemma stream_sorted : forall script k,
  sorted_lt (map rank (items_from k script)) /\ Forall (fun r => 2 * k <= r) (map rank (items_from k script)).
Proof.
  induction script as [|d r IH]; intro k; [split; constructor|].
  destruct (IH (S k)) as [Hs Hf].
  (* every rank of the later requests is above both ranks of request k *)
  assert (F : forall c, c <= 2 * k + 2 ->
              Forall (fun x => c <= x) (map rank (items_from (S k) r))).
  { intros c Hc. eapply Forall_impl; [|exact Hf]. cbv beta. intros; lia. }
  cbn [items_from]. destruct (r_expect d); [destruct (r_nobody d)|];
    cbn [map app rank sorted_lt]; repeat (split || constructor); auto; try lia; apply F; lia.
Qed.

Lemma sorted_filter_map : forall (l : list item), sorted_lt (map rank l) -> sorted_lt (cranks l).
Proof.
  induction l as [|x l IH]; simpl; intro H; auto.
  destruct H as [F S]. unfold cranks in *. simpl. destruct (completing x); simpl; auto.
  split; auto. apply Forall_forall. intros y Hy. rewrite Forall_forall in F. apply F.
  apply in_map_iff in Hy. destruct Hy as (z & <- & Hz). apply filter_In in Hz. apply in_map. tauto.
Qed.

Definition io_hold (pc : iopc) (comp : bool) : bool :=
  match pc with IoRcChk | IoRcSc _ => comp | IoRcApp | IoRcApp2 => true | _ => false end.

Section L5.
Variable P : params.

Definition pend (st : state) : list nat :=
  (if io_hold (ipc (io st)) (i_comp (io st)) then [2 * i_cur (io st) + 1] else []) ++
  cranks (whole_items (i_items (io st))) ++ cranks (skipn (nxt (sh st)) (stream P)).

Definition L5 (st : state) : Prop :=
  sorted_lt (map (fun x => 2 * x + 1) (arrivals (sh st)) ++ pend st).

Lemma L5_init : L5 init.
Proof.
  unfold L5, pend. simpl. apply sorted_filter_map. apply (proj1 (stream_sorted (p_script P) 0)).
Qed.

Lemma L5_NoDup : forall st, L5 st -> NoDup (arrivals (sh st)).
Proof.
  intros st H. unfold L5 in H. apply sorted_app in H. destruct H as (H & _).
  apply sorted_NoDup in H. eapply NoDup_map_inv; eauto.
Qed.

Lemma L5_frame : forall st st',
  arrivals (sh st') = arrivals (sh st) -> nxt (sh st') = nxt (sh st) ->
  i_items (io st') = i_items (io st) -> i_cur (io st') = i_cur (io st) ->
  io_hold (ipc (io st')) (i_comp (io st')) = io_hold (ipc (io st)) (i_comp (io st)) ->
  L5 st -> L5 st'.
Proof. intros st st' H1 H2 H3 H4 H5 H. unfold L5, pend in *. rewrite H1, H2, H3, H4, H5. exact H. Qed.
End L5.
