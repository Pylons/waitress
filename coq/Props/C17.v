(* C17 -- Buffers are faithful byte queues across all representation changes.
   This file contains the statements and the short proofs; the others are in Proof/Buffers.v
   (files, FileBasedBuffer), Proof/BuffersRefine.v (OverflowableBuffer refines
   the FIFO queue of Spec/Fifo.v, by induction over histories),
   Proof/BuffersRo.v (ReadOnlyFileBasedBuffer) and Proof/BuffersFault.v
   (operating-system faults); satisfiability examples are in
   Proof/BuffersExamples.v.  Model: Model/Buffers.v, a transliteration of
   /repo/src/waitress/buffers.py that the check drives side by side with the
   real classes after every operation (K-buf).

   [limit] is STRBUF_LIMIT and [ovf] the overflow threshold: both universally
   quantified.  [exec limit ovf o_new ops] is the state after the history [ops]
   (a fold_left of [step]); [run] also collects the outputs.  [live] excludes
   close(), which is not an operation of the queue; it is treated by
   C17_after_close.  [abs] is the abstraction function (the queued bytes),
   [inv] the representation invariant (file open, pos <= |content|,
   remain = |content| - pos, strbuf empty once a file is used, overflowed iff
   temporary file). *)
From Coq Require Import List NArith ZArith Lia.
From WV Require Import Lib.PyBytes Model.Buffers Spec.Fifo
  Proof.Buffers Proof.BuffersRefine Proof.BuffersRo Proof.BuffersFault Proof.BuffersExamples.
Import ListNotations.
Local Open Scope Z_scope.

(* Refinement, for all histories and all thresholds: the invariant holds, the
   bytes held are the specification's queue, len is its length, and every output
   -- of the next operation after any history, and along the whole trace --
   refines the specification's output ([out_refines]: a non-consuming get returns
   a prefix of the queue at least as long as requested or all of it; a consuming
   get exactly the requested prefix; skip(n) succeeds iff n <= len). *)
Theorem C17_refinement : forall limit ovf ops, Forall live ops ->
  let o := exec limit ovf o_new ops in
  inv o /\ abs o = q_exec_op q_empty ops /\
  o_len o = q_len (q_exec_op q_empty ops) /\
  (forall p, live p -> out_ok (q_exec_op q_empty ops) p (snd (step limit ovf o p))) /\
  fst (run limit ovf o_new ops) = o /\
  trace_ok q_empty ops (snd (run limit ovf o_new ops)).
Proof.
  intros limit ovf ops. intros Hl o. destruct (exec_refines limit ovf ops o_new inv_new Hl) as (H1 & H2).
  destruct (run_refines limit ovf ops o_new inv_new Hl) as (H3 & H4).
  fold o in H1, H2, H3. change (abs o_new) with q_empty in *.
  repeat split; auto.
  - rewrite <- H2. now apply abs_len.
  - intros p Hp. rewrite <- H2. now apply step_refines.
Qed.
Print Assumptions C17_refinement.

(* Bytes come out exactly once, in order and unmodified; len = appended - consumed:
   after any history the buffer holds the appended stream A minus its first C
   bytes, C being the number consumed so far, and the next output is judged
   against exactly that suffix. *)
Theorem C17_exactly_once : forall limit ovf ops, Forall live ops ->
  let o := exec limit ovf o_new ops in
  let A := appended_of ops in
  let C := consumed_of q_empty ops in
  (C <= length A)%nat /\
  abs o = skipn C A /\
  o_len o = Z.of_nat (length A) - Z.of_nat C /\
  (forall p, live p -> out_ok (skipn C A) p (snd (step limit ovf o p))).
Proof.
  intros limit ovf ops. intros Hl o A C.
  destruct (C17_refinement limit ovf ops Hl) as (Hi & Ha & Hlen & Hout & _). fold o in Hi, Ha, Hlen, Hout.
  destruct (stream_position ops q_empty) as (H1 & H2). cbn [app q_empty length] in H1, H2.
  fold A C in H1, H2. rewrite H1 in *. repeat split; auto.
  rewrite Hlen. unfold q_len. rewrite skipn_length. lia.
Qed.
Print Assumptions C17_exactly_once.

(* Under the guard of the real code (skip only what is queued) nothing raises. *)
Theorem C17_no_exception : forall limit ovf ops p, Forall live ops ->
  let o := exec limit ovf o_new ops in
  respects (abs o) p -> forall e, snd (step limit ovf o p) <> RExn e.
Proof.
  intros limit ovf ops p. intros Hl o Hr. destruct (exec_refines limit ovf ops o_new inv_new Hl) as (Hi & _).
  now apply step_no_exn.
Qed.
Print Assumptions C17_no_exception.

(* The way channel._flush_some drains an output buffer: chunk = get(n);
   m = send(chunk) <= len(chunk); skip(m, True).  The peek changes nothing, the
   skip does not raise, and exactly the sent part of the chunk is removed. *)
Theorem C17_flush_pattern : forall limit ovf ops n m ap chunk, Forall live ops ->
  let o := exec limit ovf o_new ops in
  snd (step limit ovf o (OGet n false)) = RBytes chunk ->
  (N.to_nat m <= length chunk)%nat ->
  fst (step limit ovf o (OGet n false)) = o /\
  snd (step limit ovf o (OSkip m ap)) = RUnit /\
  inv (fst (step limit ovf o (OSkip m ap))) /\
  abs o = firstn (N.to_nat m) chunk ++ abs (fst (step limit ovf o (OSkip m ap))).
Proof. exact flush_pattern. Qed.
Print Assumptions C17_flush_pattern.

(* The error branch: skip(n) with n > len raises ValueError; invariant, queued
   bytes and len are unchanged; a file representation is not touched at all; a
   plain-bytes buffer has been migrated to a file representation on the way. *)
Theorem C17_skip_error_branch : forall limit ovf ops n ap, Forall live ops ->
  let o := exec limit ovf o_new ops in
  q_len (abs o) < Z.of_N n ->
  snd (step limit ovf o (OSkip n ap)) = RExn ValueErrorSkip /\
  inv (fst (step limit ovf o (OSkip n ap))) /\
  abs (fst (step limit ovf o (OSkip n ap))) = abs o /\
  o_len (fst (step limit ovf o (OSkip n ap))) = o_len o /\
  (ob_buf o <> None -> fst (step limit ovf o (OSkip n ap)) = o) /\
  ob_buf (fst (step limit ovf o (OSkip n ap))) <> None.
Proof.
  intros limit ovf ops n ap. intros Hl o Hn. destruct (exec_refines limit ovf ops o_new inv_new Hl) as (Hi & _). fold o in Hi.
  destruct (skip_err_spec ovf o n ap Hi Hn) as (o' & H1 & H2 & H3 & H4 & H5 & _).
  unfold step, step_f. rewrite H1. cbn. repeat split; auto.
  rewrite (abs_len o' H2), (abs_len o Hi). now rewrite H3.
Qed.
Print Assumptions C17_skip_error_branch.

(* Which representation holds how much: plain bytes stay below STRBUF_LIMIT, an
   in-memory file below the overflow threshold, and [overflowed] is set exactly
   for the temporary file. *)
Theorem C17_representation_bounds : forall limit ovf ops, Forall live ops ->
  let o := exec limit ovf o_new ops in
  match rep_of o with
  | Str s => ob_overflowed o = false /\ (s = [] \/ lenZ s < Z.of_N limit)
  | Bio f r => ob_overflowed o = false /\ r < Z.of_N ovf
  | Tmp f r => ob_overflowed o = true
  end.
Proof. exact representation_bounds. Qed.
Print Assumptions C17_representation_bounds.

(* close(): nothing happens to plain bytes; a file representation is closed, len
   becomes 0 and no later operation yields bytes. *)
Theorem C17_after_close : forall limit ovf ops more, Forall live ops ->
  let o := exec limit ovf o_new ops in
  let oc := o_close o in
  (ob_buf o = None -> oc = o) /\
  (ob_buf o <> None ->
     o_len oc = 0 /\
     let o' := exec limit ovf oc more in
     dead o' /\ o_len o' = 0 /\
     forall p b, snd (step limit ovf o' p) <> RBytes b).
Proof. exact after_close. Qed.
Print Assumptions C17_after_close.

(* Operating-system faults at a representation change (Proof/BuffersFault.v; the
   code after /repo commit c9585b7).  [step_f flt] is [step] with the environment
   interfering while the operation constructs or fills a file based buffer;
   [step] is [step_f FNone].

   For EVERY fault of the model -- FCtor k: creating the file object of the new
   buffer of kind k raises (KTmp: TemporaryFile() with EMFILE / ENOSPC / EACCES;
   KBio: BytesIO() with MemoryError); FCopyWrite: the copy loop's file.write raises
   while a BytesIO is spilled to a temporary file; FCreateWrite: the write of
   _create_buffer's buf.append(self.strbuf) raises; FAppendWrite: the write of
   append()'s buf.append(s) raises -- at any operation of any history:  if the
   operation answers the fault, the exception has propagated, the invariant holds,
   the buffer holds the queue it held before -- or, for an append() in a file
   representation whose bytes were written before the spill was attempted, that
   queue plus the appended bytes --, len is truthful, and every continuation
   refines the FIFO queue again.  If it does not answer the fault the operation is
   [step]. *)
Theorem C17_fault_atomicity :
  forall flt limit ovf ops p more, Forall live ops -> live p -> Forall live more ->
  let o := exec limit ovf o_new ops in
  let q := q_exec_op q_empty ops in
  let r := step_f flt limit ovf o p in
  let o' := fst r in
  (snd r <> RExn OSFault -> r = step limit ovf o p) /\
  (snd r = RExn OSFault ->
     inv o' /\
     (abs o' = q \/ exists s, p = OAppend s /\ abs o' = q ++ s) /\
     o_len o' = q_len (abs o') /\
     let o'' := exec limit ovf o' more in
     inv o'' /\ abs o'' = q_exec_op (abs o') more /\ o_len o'' = q_len (abs o'') /\
     forall p', live p' -> out_ok (abs o'') p' (snd (step limit ovf o'' p'))).
Proof. exact fault_history. Qed.
Print Assumptions C17_fault_atomicity.

(* Every clause of the theorem above is met by a concrete history: each fault is
   answered somewhere, and the "plus the appended bytes" case is real. *)
Theorem C17_fault_cases_reachable :
  let o := exec 4 6 o_new [OAppend [1;2;3;4;5]%N] in
  (forall flt, In flt [FCtor KTmp; FCopyWrite] ->
     snd (step_f flt 4 6 o (OAppend [6;7]%N)) = RExn OSFault /\
     abs (fst (step_f flt 4 6 o (OAppend [6;7]%N))) = abs o ++ [6;7]%N) /\
  snd (step_f FAppendWrite 4 6 o (OAppend [6;7]%N)) = RExn OSFault /\
  fst (step_f FAppendWrite 4 6 o (OAppend [6;7]%N)) = o /\
  step_f FCreateWrite 4 6 (exec 4 6 o_new [OAppend [1;2]%N]) (OGet 1 true) =
    (exec 4 6 o_new [OAppend [1;2]%N], RExn OSFault).
Proof.
  cbv zeta. split; [|vm_compute; repeat split].
  intros flt [<- | [<- | []]]; vm_compute; split; reflexivity.
Qed.
Print Assumptions C17_fault_cases_reachable.

(* The shape of FileBasedBuffer.__init__ before c9585b7 (the source file is put
   back to its read position only when the copy succeeds): with the copy loop's
   write failing the surviving BytesIO was left at its end -- remain 7, nothing
   readable -- while the repaired constructor leaves it exactly as it was.  A
   revert of the repair makes K-buf-fault disagree with [step_f] on this history. *)
Theorem C17_fault_old_shape_refuted :
  exists b, fb_inv b /\
    match fb_init_old FCopyWrite KTmp (Some b) with
    | InitExn OSFault (Some b') =>
        ~ fb_inv b' /\ fb_remain b' = 7 /\ fb_abs b' = [] /\ f_content (fb_file b') = f_content (fb_file b)
    | _ => False
    end /\
    fb_init FCopyWrite KTmp (Some b) = InitExn OSFault (Some b).
Proof.
  exists (mkfbuf KBio (mkfile [1;2;3;4;5;6;7]%N 0 false) 7).
  split; [repeat split; cbn; lia|]. split; [|reflexivity].
  vm_compute. repeat split; try reflexivity. intros (_ & _ & H). discriminate.
Qed.
Print Assumptions C17_fault_old_shape_refuted.

(* ReadOnlyFileBasedBuffer: prepare(size) leaves the wrapped file where it was and
   answers P <= size; from then on the buffer is the FIFO queue that initially
   holds the window of P bytes at the file position: outputs are exactly the
   specification's (so never more than the prepared size in total), a
   non-consuming get changes nothing (file position restored), and after
   consuming k = P - len bytes the wrapped file is positioned at start + k. *)
Theorem C17_readonly_clamp : forall c p0 size ops,
  (p0 <= length c)%nat -> size_ok size -> Forall ro_valid ops ->
  exists b0 P,
    ro_prepare (ro_init (mkfile c p0 false)) size = Ok (b0, P) /\
    fb_file b0 = mkfile c p0 false /\
    0 <= P <= Z.of_nat (length c) - Z.of_nat p0 /\
    (forall sz, size = Some sz -> P <= sz) /\
    let b := ro_exec b0 ops in
    let left := q_exec (ro_window c p0 P) (map ro_spec_of ops) in
    ro_abs b = left /\ fb_len b = q_len left /\ q_len left <= P /\
    f_content (fb_file b) = c /\ f_closed (fb_file b) = false /\
    Z.of_nat (f_pos (fb_file b)) = Z.of_nat p0 + (P - q_len left) /\
    (forall p, ro_valid p -> ro_out_ok (snd (q_step left (ro_spec_of p))) (snd (ro_step b p))) /\
    (forall n, -1 <= n -> fst (ro_step b (ROGet n false)) = b).
Proof. exact ro_clamp. Qed.
Print Assumptions C17_readonly_clamp.
