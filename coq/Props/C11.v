(* C11 -- nothing is executed after the server has decided to close a connection.
   Model: Model/ChanClose.v (I/O thread, n workers, cancel(), the environment; every schedule, every
   lookahead).  The invariant and its preservation thread by thread are in Proof/ChanCloseInv.v
   (over ChanCloseBase / Tok / Safe), the statement by positions and the F22 schedules in
   Proof/ChanCloseStmt.v, the state after the worker's close decision in Proof/ChanCloseAfter.v,
   "requests are held by somebody" in Proof/ChanCloseEntry.v. *)
From Coq Require Import List Arith Bool.
From WV Require Import Lib.Conc Model.ChanClose Proof.ChanCloseBase Proof.ChanCloseInv Proof.ChanCloseStmt
  Proof.ChanCloseAfter Proof.ChanCloseEntry.
Import ListNotations.

(* C11 at full strength: every schedule, every lookahead L, every environment behaviour, EVERY kind
   of close decision (worker's close branch, flushed, maintenance, both _flush_exception writes,
   handle_close, EOF, cancel): a service() invocation entered after the decision never calls
   the application. *)
Theorem C11 : C11_full.
Proof.
  intros L sched i j kd k tr Hi.
  exact (monitor_sound covered tr (monitor_accepts L sched) i j kd k Hi eq_refl).
Qed.
Print Assumptions C11.

(* the same as acceptance by the executable monitor that the check runs on real traces *)
Theorem C11_monitor : forall L sched, monitor all_kinds (trace step (init L) sched) = true.
Proof. exact monitor_accepts. Qed.
Print Assumptions C11_monitor.

(* supporting invariants, in every reachable state *)
Theorem C11_inv : forall L sched, Inv (run step (init L) sched).
Proof. exact Inv_run. Qed.
Print Assumptions C11_inv.

Theorem C11_one_worker_in_service : forall L sched w1 w2,
  let s := run step (init L) sched in
  active (wk s w1) = true -> active (wk s w2) = true -> w1 = w2.
Proof. intros L sched w1 w2 s. apply (i_act_uniq s (Inv_run L sched)). Qed.
Print Assumptions C11_one_worker_in_service.

Theorem C11_entry_excludes_service : forall L sched,
  let s := run step (init L) sched in
  queue s <= 1 /\
  (queue s = 1 -> reqs s <> [] /\ (forall w, active (wk s w) = false) /\ ~ tokio s /\ sd s = SdIdle).
Proof.
  intros L sched s. pose proof (Inv_run L sched) as I. fold s in I. split.
  - apply (i_q1 s I).
  - intro Q. split; [apply (i_reqs_q s I Q) | apply (i_q_excl s I Q)].
Qed.
Print Assumptions C11_entry_excludes_service.

(* after the worker's close decision: nothing is queued, submitted or started any more, and
   requests is empty (or being emptied by the deciding worker, which still holds the lock) *)
Theorem C11_after_worker_close : forall L sched i j x,
  let tr := trace step (init L) sched in
  nth_error tr i = Some (LDecide DWorkerClose) -> i < j -> nth_error tr j = Some x -> loud x = false.
Proof. exact after_worker_close_positions. Qed.
Print Assumptions C11_after_worker_close.

Theorem C11_after_worker_close_state : forall L sched,
  let s := run step (init L) sched in
  In (LDecide DWorkerClose) (trace step (init L) sched) ->
  Closed s /\ (reqs s = [] \/ exists w, at_close2 (wk s w) = true).
Proof.
  intros L sched s HI.
  destruct (after_worker_close_monitor L sched) as [_ CL].
  assert (F : fst (arun (trace step (init L) sched) (false, true)) = true).
  { apply in_split in HI. destruct HI as (a & b & E). rewrite E, arun_app, arun_cons.
    apply a_seen_sticky. simpl. apply orb_true_r. }
  specialize (CL F). split; [exact CL|]. destruct CL as (_ & _ & _ & _ & X). exact X.
Qed.
Print Assumptions C11_after_worker_close_state.

(* connected and requests <> []  ->  somebody holds the channel (entry / worker / I/O about to submit) *)
Theorem C11_requests_are_held : forall L sched, Entry (run step (init L) sched).
Proof.
  intros L sched.
  apply (invariant_rule _ _ _ step (fun s => Inv s /\ Entry s) (init L)).
  - split; [apply Inv_init | apply Entry_init].
  - intros s c s' l [I E] H. split; [eapply Inv_step; eauto | eapply Entry_step; eauto].
Qed.
Print Assumptions C11_requests_are_held.
