(* C02 -- Parsing does not depend on how the byte stream is split across reads.
   Statements and the short proofs; the others in Proof/ReceiverSplit.v (receivers), Proof/SplitParser.v
   (head accumulator, counters, limits: the parser), Proof/SplitChan.v (the channel
   loop and arbitrary lists of reads), Proof/SplitExamples.v (the refutation of the
   exact-tag statement -- finding F12 / kf_c02_1 -- and examples). *)
From Coq Require Import List NArith ZArith Lia.
From WV Require Import Lib.PyBytes Model.Receiver Model.Parser Model.ChanSeq
  Proof.ReceiverTotal Proof.ReceiverSplit Proof.ParserTotal Proof.ParserTotalChan
  Proof.SplitParser Proof.SplitChan Proof.SplitExamples.
Import ListNotations.

(* The chunked receiver: one byte and then the rest = everything at once.
   Exactly (state and consumed count; [ceq] ignores the trailer field of a
   completed receiver) unless the byte itself raises an error, in which case
   both runs end with the same error. *)
Theorem C02_chunked_one_byte : forall st b s,
  wf_c st -> c_completed st = false -> c_error st = None -> s <> [] ->
  exists st1, chunked_received st [b] = Some (st1, 1%Z) /\
  ( (c_error st1 = None /\ c_completed st1 = true /\ chunked_received st (b :: s) = Some (st1, 1%Z))
  \/ (c_error st1 = None /\ c_completed st1 = false /\
      forall st2 n2, chunked_received st1 s = Some (st2, n2) ->
        exists st', chunked_received st (b :: s) = Some (st', (1 + n2)%Z) /\ ceq st2 st')
  \/ (exists e, c_error st1 = Some e /\
      exists st' n', chunked_received st (b :: s) = Some (st', n') /\ c_error st' = Some e)).
Proof.
  intros st b s W Hc He Hs.
  destruct (chunked_received_spec st [b] W Hc ltac:(discriminate)) as (st1 & n & E & _ & Bn & _).
  cbn [length] in Bn. assert (n = 1%Z) by lia. subst n. exists st1. split; [exact E|].
  destruct (chunked_split st [b] s st1 1%Z Hc He Hs E) as (A & B & C).
  destruct (c_error st1) as [e|] eqn:He1; [right; right; exists e; split; [reflexivity | exact (C e eq_refl)]|].
  destruct (c_completed st1) eqn:Hc1; [left | right; left]; (split; [reflexivity|]); (split; [reflexivity|]).
  - exact (A eq_refl).
  - exact (proj2 (B eq_refl eq_refl)).
Qed.
Print Assumptions C02_chunked_one_byte.

Theorem C02_fixed_one_byte : forall f b s, (1 <= f_remain f)%N -> s <> [] ->
  exists f1, fixed_received f [b] = (f1, 1%Z) /\
  ((f_remain f = 1%N /\ f_completed f1 = true /\ fixed_received f (b :: s) = (f1, 1%Z)) \/
   ((1 < f_remain f)%N /\ f_completed f1 = f_completed f /\ (1 <= f_remain f1)%N /\
    forall f2 n2, fixed_received f1 s = (f2, n2) -> fixed_received f (b :: s) = (f2, (1 + n2)%Z))).
Proof.
  intros f b s Hr _.
  destruct (fixed_split f [b] s Hr) as [(L & E)|(L & f1 & E1 & Rest)]; change (lenN [b]) with 1%N in L.
  - assert (R1 : f_remain f = 1%N) by lia.
    assert (Eb : fixed_received f [b]
                 = ({| f_remain := 0%N; f_buf := f_buf f ++ [b]; f_completed := true |}, 1%Z))
      by (unfold fixed_received; rewrite R1; reflexivity).
    eexists. split; [exact Eb|]. left. split; [exact R1|]. split; [reflexivity|]. rewrite <- Eb. exact E.
  - exists f1. split; [exact E1|]. right. split; [exact L | exact Rest].
Qed.
Print Assumptions C02_fixed_one_byte.

(* HTTPRequestParser.received (head accumulator with its byte counter and 431
   test, both body receivers, the running body counter and 413 test): one byte and
   then the rest versus everything at once -- see [split_case] in
   Proof/SplitParser.v: same outcome (SC_stop), same outcome after the rest up to
   dead carry fields (SC_cont / cont_rel), or both runs refuse the message
   (SC_error; observation equal with 413 and a chunk error identified) *)
Theorem C02_parser_one_byte : forall a r0 b s, wf_p a r0 -> s <> [] -> split_case a r0 b s.
Proof. exact parser_split. Qed.
Print Assumptions C02_parser_one_byte.

(* the event-producing run used below computes exactly the model's feed *)
Theorem C02_trace_is_model : forall ab a reads c, fst (feed_tr ab a c reads) = feed a c reads.
Proof. intros ab a reads c. apply feed_tr_fst. Qed.
Print Assumptions C02_trace_is_model.

(* the events of that run are exactly what the model's state records: the bytes the
   I/O side appended to the output (outlog) and the requests it queued, in order *)
Theorem C02_trace_is_state : forall ab a reads c' t,
  feed_tr ab a chan_init reads = (COk c', t) ->
  outlog c' = flat_map ev_out t /\ map (obs ab) (requests c') = flat_map ev_reqs t.
Proof. intros ab a reads c' t H. exact (feed_trace ab a reads chan_init c' t H). Qed.
Print Assumptions C02_trace_is_state.

(* C02 for the sequential channel model: for every configuration and any two
   ways of dividing the same byte stream into reads (all 2^(n-1) of them), the
   sequence of events -- "100 Continue sent", "request completed" with every
   attribute a task reads and the body bytes -- up to and including the first
   refused request is the same.  Observation [obs true]: carry fields erased, a
   refusal raised inside a chunked body observed as "refused" (413 and the 400
   chunk errors identified: finding F12, class kf_c02_1). *)
Theorem C02_split_independent : forall a reads1 reads2, concat reads1 = concat reads2 ->
  cut (snd (feed_tr true a chan_init reads1)) = cut (snd (feed_tr true a chan_init reads2)).
Proof. exact split_independent. Qed.
Print Assumptions C02_split_independent.

Theorem C02_split_vs_whole : forall a reads,
  cut (snd (feed_tr true a chan_init reads)) = cut (snd (feed_tr true a chan_init [concat reads])).
Proof. exact split_vs_whole. Qed.
Print Assumptions C02_split_vs_whole.

(* The statement with exact error tags ([obs false]), [split_independent_exact] in
   Proof/SplitExamples.v, is false of the code: a chunked body with an invalid size
   line followed by >= max_request_body_size bytes is a 413 in one read and a 400
   byte-wise.  Its refutation [C02_exact_refuted] is in Findings/C02_KF1.v (compiled
   separately, so that repairing the defect does not break this file). *)
