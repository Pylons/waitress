(* C05 -- no lost wake-up: responses are delivered without relying on the poll timeout.
   Model: Model/ChanWake.v (the poll timeout does not exist).  For ALL schedules (all
   interleavings of the I/O thread, n workers, the client, the kernel's answers to every
   send/recv and the application's write pattern), all lookaheads, send_bytes and
   high watermarks >= 0, both poll orders: in a quiescent state (I/O thread asleep in
   select, every worker parked on queue_cv or on outbuf_lock's condition) there is no
   undelivered output, no unserviced request or unread client data, no parked producer,
   and a pending close has been carried out.  FULL strength: no class of runs is excluded.
   C05_stuck: the same for "no thread can move at all" (no deadlock on the two locks).
   C05_app: the same when workers may also sit inside the application, with "fewer than
   send_bytes bytes pending" in place of "no pending output".
   Findings of this check that have been repaired in /repo: the I/O thread's unlocked flush
   (8bcf05e), outbuf_high_watermark = 0 (6aba4bf), a producer starting to wait after
   handle_close (7fa6a60), send_bytes above the watermark (daf1a85), a send error inside the
   worker-side send_continue (48f7fa0). *)
From Coq Require Import List ZArith Bool Arith.
From WV Require Import Lib.Conc Model.ChanWake Proof.ChanWakeInv Proof.ChanWake Proof.ChanWakeWitness.
Import ListNotations.
Open Scope Z_scope.

Theorem C05_invariant : forall c nw sched,
  0 <= hw c -> (0 < nw)%nat -> Inv c (runc c nw sched).
Proof.
  intros c nw sched Hhw Hnw. unfold runc. apply (invariant_rule _ _ _ (step c) (Inv c)).
  - apply inv_init; auto.
  - intros s ch s' l IH H. eapply inv_step; eauto.
Qed.
Print Assumptions C05_invariant.

Theorem C05 : forall c nw sched,
  0 <= hw c -> (0 < nw)%nat ->
  quiescent_parked (runc c nw sched) = true ->
  c05_ok (runc c nw sched) = true.
Proof.
  intros c nw sched Hhw Hnw Hq. apply (quiescent_ok c); auto. apply C05_invariant; auto.
Qed.
Print Assumptions C05.

(* for the widest notion of quiescence -- no thread of the server can move at all: then nobody
   is stuck on a lock (no deadlock), every worker is parked, and the predicate holds *)
Theorem C05_stuck : forall c nw sched,
  0 <= hw c -> (0 < nw)%nat ->
  quiescent (runc c nw sched) = true ->
  quiescent_parked (runc c nw sched) = true /\ c05_ok (runc c nw sched) = true.
Proof.
  intros c nw sched Hhw Hnw Hq.
  pose proof (quiescent_is_parked c _ (C05_invariant c nw sched Hhw Hnw) Hq) as Hp. split; auto. apply C05; auto.
Qed.
Print Assumptions C05_stuck.

(* workers may also sit inside the application (a streaming application that waits for its
   consumer): then at most send_bytes - 1 bytes are left unsent (0 for the default send_bytes = 1) *)
Theorem C05_app : forall c nw sched,
  0 <= hw c -> (0 < nw)%nat ->
  quiescent_app (runc c nw sched) = true ->
  app_ok c (runc c nw sched) = true.
Proof.
  intros c nw sched Hhw Hnw Hq. apply (quiescent_app_ok c); auto. apply C05_invariant; auto.
Qed.
Print Assumptions C05_app.

Theorem C05_unfolded : forall c nw sched s,
  0 <= hw c -> (0 < nw)%nat -> s = runc c nw sched ->
  quiescent_parked s = true ->
  (closed s = false -> total s = 0 /\ pend s = 0) /\
  (closed s = false -> nreq s = 0%nat /\ queue s = 0%nat /\ rx s = []) /\
  (forall j p, nth_error (ws s) j = Some p -> parked_o p = false) /\
  (wc s = true \/ cwf s = true -> closed s = true).
Proof.
  intros c nw sched s Hhw Hnw -> Hq. pose proof (C05 c nw sched Hhw Hnw Hq) as H.
  destruct (andb_prop _ _ H) as [H1 Hcc]. destruct (andb_prop _ _ H1) as [H2 Hnp]. destruct (andb_prop _ _ H2) as [Hpo Hur].
  split; [|split; [|split]].
  - intros Hc. unfold no_pending_output in Hpo. rewrite Hc in Hpo. destruct (andb_prop _ _ Hpo).
    split; apply Z.eqb_eq; assumption.
  - intros Hc. unfold no_unserved_request in Hur. rewrite Hc in Hur. simpl in Hur.
    destruct (rx _); [|rewrite andb_false_r in Hur; discriminate]. rewrite andb_true_r in Hur.
    destruct (andb_prop _ _ Hur). repeat split; auto; apply Nat.eqb_eq; assumption.
  - intros j p Hj. apply negb_true_iff. unfold no_producer_parked in Hnp. rewrite forallb_forall in Hnp.
    apply Hnp. eapply nth_error_In; eauto.
  - intros Hcl. unfold closing_closed in Hcc. destruct (closed _); auto. rewrite orb_false_r in Hcc.
    apply negb_true_iff, orb_false_iff in Hcc. destruct Hcc, Hcl; congruence.
Qed.
Print Assumptions C05_unfolded.
