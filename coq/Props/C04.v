(* Props/C04.v -- pipelined requests: in order, exactly once, never mixed, under every schedule.
   Model: Model/ChanPipe.v (its header says which statement of channel.py / task.py is which step).
   All statements quantify over every parameter record P (lookahead, send_bytes, number of workers,
   the client's pipeline with write sizes / Expect / close flags) and every schedule, i.e. every
   interleaving of the I/O thread with the workers and every behaviour of the environment (how the
   stream is cut into reads, what select reports, how many bytes each send accepts, EOF). *)
From Coq Require Import List Arith Bool ZArith.
From WV Require Import Model.ChanPipe Proof.ChanPipeBase Proof.ChanPipeOwn Proof.ChanPipeLog
                       Proof.ChanPipeOut Proof.ChanPipeQuiet Proof.ChanPipeArr Proof.ChanPipeSpec Proof.ChanPipeRefute.
Import ListNotations.

(* At most one worker owns the connection (is between taking the channel off the dispatcher queue
   and handing it over: add_task for the next request / the pop that empties the list / requests := []). *)
Theorem C04_one_at_a_time : forall (P : params) (sched : list choice) (j k : nat),
  wk_owner (wpc (wk (run P sched) j)) = true -> wk_owner (wpc (wk (run P sched) k)) = true -> j = k.
Proof. intros P sched j k. destruct (Inv_run P sched) as (_ & H1 & _). apply (l1_uniq _ H1). Qed.
Print Assumptions C04_one_at_a_time.

(* The dispatcher queue holds the channel at most once; if it does, requests are pending and no
   worker owns the connection; and it does whenever the connection is open, requests are pending,
   no worker owns the connection and the I/O thread is not in the middle of submitting the first one. *)
Theorem C04_one_entry : forall (P : params) (sched : list choice),
  let st := run P sched in
  queue (sh st) <= 1 /\
  (queue (sh st) = 1 -> requests (sh st) <> [] /\ no_owner st) /\
  (connected (sh st) = true -> requests (sh st) <> [] -> no_owner st -> io_handing (io st) = false ->
   queue (sh st) = 1).
Proof.
  intros P sched st. destruct (Inv_run P sched) as (_ & H1 & _). fold st in H1. repeat split.
  - apply (l1_q _ H1).
  - apply (l1_qreq _ H1); auto.
  - intro j. apply (l1_qown _ H1); auto.
  - intros Hc Hr Hn Hh. apply (l1_cover _ H1); auto. rewrite Hh. discriminate.
Qed.
Print Assumptions C04_one_entry.

(* The requests whose service() started are a prefix of the arrivals, in arrival order (each arrival
   is started at most once); the application calls are the starts, except possibly the last one
   (started but not yet / never executed because the client had gone). *)
Theorem C04_once : forall (P : params) (sched : list choice),
  let s := sh (run P sched) in
  prefix (starts s) (arrivals s) /\ (starts s = execs s \/ exists x, starts s = execs s ++ [x]).
Proof. exact once. Qed.
Print Assumptions C04_once.

(* No request id occurs twice among the arrivals, hence none is started or executed twice. *)
Theorem C04_once_nodup : forall (P : params) (sched : list choice),
  let s := sh (run P sched) in
  NoDup (arrivals s) /\ NoDup (starts s) /\ NoDup (execs s).
Proof.
  intros P sched s. destruct (once P sched) as [Hp He]. fold s in Hp, He.
  assert (Hn : NoDup (arrivals s)).
  { destruct (Inv_run P sched) as (_ & _ & _ & _ & _ & H5). apply (L5_NoDup P _ H5). }
  assert (Hs : NoDup (starts s)) by (destruct Hp as [r E]; rewrite E in Hn; apply (NoDup_app_l _ _ _ Hn)).
  repeat split; auto. destruct He as [E|[x E]]; [congruence|].
  rewrite E in Hs. apply (NoDup_app_l _ _ _ Hs).
Qed.
Print Assumptions C04_once_nodup.

(* Exactly once: when no worker can move any more (every pool worker is parked in queue_cv.wait() and
   has not been notified) and the I/O thread is not in the middle of add_task, then on an open
   connection that is not closing the request list is empty and every request that arrived has been
   executed (no task is lost; needs at least one worker). *)
Theorem C04_exactly_once_quiescent : forall (P : params) (sched : list choice),
  let st := run P sched in
  1 <= p_nw P -> all_parked (p_nw P) st = true -> io_in_add_task (io st) = false ->
  connected (sh st) = true -> closing (sh st) = false ->
  requests (sh st) = [] /\ execs (sh st) = arrivals (sh st).
Proof. exact quiescent_exactly_once. Qed.
Print Assumptions C04_exactly_once_quiescent.

(* The bytes, at full strength (every schedule, no class excluded), for the code as it is
   (p_unlocked = false: since 8bcf05e the I/O thread flushes only under outbuf_lock):
   wire ++ pending = produced with the one contiguous segment cut out that handle_close discarded
   (nothing duplicated, lost or reordered between the buffers and the wire); produced = the units in
   order; the response units are exactly the executed requests in order (each response contiguous,
   interim responses only between them). *)
Theorem C04_wire : forall (P : params), p_unlocked P = false ->
  forall (sched : list choice), wire_statement P (run P sched).
Proof. exact wire_full. Qed.
Print Assumptions C04_wire.

(* ... and every response but the one being written is complete while the connection is open. *)
Theorem C04_complete : forall (P : params), p_unlocked P = false ->
  forall (sched : list choice),
  let st := run P sched in
  connected (sh st) = true ->
  (forall j, in_task (wpc (wk st j)) = false) -> Forall (complete P) (units (sh st)).
Proof.
  intros P Hu sched st Hc Hn. destruct (Inv_run P sched) as (_ & _ & _ & H3 & _ & _).
  apply (o_done _ _ (proj2 (H3 Hu))); auto.
Qed.
Print Assumptions C04_complete.

(* The ownership discipline behind it, at full strength: a thread inside _flush_some holds outbuf_lock. *)
Theorem C04_flush_under_lock : forall (P : params), p_unlocked P = false ->
  forall (sched : list choice),
  let st := run P sched in
  (forall f, io_fl (ipc (io st)) = Some f -> olock (sh st) = Some TIo) /\
  (forall j f, wk_fl (wpc (wk st j)) = Some f -> olock (sh st) = Some (TW j)).
Proof.
  intros P Hu sched st. destruct (Inv_run P sched) as (H0 & _ & _ & H3 & _ & _). specialize (H3 Hu). fold st in H0, H3.
  destruct (l0_o _ H0) as [O1 O2]. split.
  - intros f Hf. apply O1. destruct (io_fl_touch _ _ Hf) as [X|X]; auto.
    rewrite (o_unl _ (proj1 H3)) in X. discriminate.
  - intros j f Hf. apply O2. eapply wk_fl_ol; eauto.
Qed.
Print Assumptions C04_flush_under_lock.

(* The previous shape of handle_write (unlocked _flush_some when requests == [], before 8bcf05e) made
   the wire statement FALSE (finding F18): the worker's send_continue() and the I/O thread's
   unlocked flush sent the same chunk twice.  Kept as a statement about the old shape. *)
Theorem C04_wire_refuted_old : exists (P : params) (sched : list choice),
  p_unlocked P = true /\ ~ wire_statement P (run P sched).
Proof.
  exists P18, sched18. split; [reflexivity|]. intros [H _].
  assert (L : length (wire (sh (run P18 sched18)) ++ pending (sh (run P18 sched18)))
              = length (kept (sh (run P18 sched18)))) by (rewrite H; reflexivity).
  vm_compute in L. discriminate.
Qed.
Print Assumptions C04_wire_refuted_old.

(* The same claim at BYTE level for the output queue of one channel (Model/ChanOut.v: write_soon and
   _flush_some over the buffer model of C17, Model/Buffers.v).  The interleaving model above orders
   the appends; this part shows that the list of output buffers delivers the appended bytes once, in
   order and unmodified: for every configuration (STRBUF_LIMIT, outbuf_overflow,
   outbuf_high_watermark, send_bytes, any positive sendbuf_len), every history of write_soon(bytes),
   write_soon(file buffer) and _flush_some calls, and every behaviour of the socket (any number of
   bytes accepted per send call, would-block, an OSError at any send), what the socket accepted
   followed by what is still queued is exactly the concatenation of what was written -- across the
   rotation to a fresh buffer at the high watermark, the hand-over of a wsgi.file_wrapper buffer,
   the migration of a buffer between its three representations, partial sends with the local
   outbuflen counter, and the pop-and-close of drained buffers; total_outbufs_len is exact and the
   last buffer is always a writable OverflowableBuffer (self.outbufs[-1].append never fails). *)
From WV Require Model.Buffers Model.ChanOut Spec.Fifo Proof.ChanOut.
Module CO := WV.Model.ChanOut.
Module COP := WV.Proof.ChanOut.

Theorem C04_out_bytes_fifo : forall (c : CO.cfg) (ps : list CO.cop),
  COP.cfg_ok c -> Forall COP.cop_ok ps ->
  let r := CO.crun c CO.chan_new ps in
  concat (map CO.written_by ps) = snd r ++ COP.cabs (fst r) /\
  CO.total_outbufs_len (fst r) = WV.Spec.Fifo.q_len (COP.cabs (fst r)) /\
  COP.lastw (CO.outbufs (fst r)) = true.
Proof. exact COP.out_fifo_new. Qed.
Print Assumptions C04_out_bytes_fifo.

(* One call of _flush_some from any state the invariant allows: it ends (the fuel of the model is
   never exhausted), no buffer operation raises and outbufs[0] always exists; the bytes the socket
   accepted are a prefix of the queue and the rest is still queued; the local counter `sent` is their
   number and the return value says whether there were any; no empty chunk is ever offered to send();
   only drained buffers are popped and closed. *)
Theorem C04_flush_some : forall (c : CO.cfg) (ch : CO.chan) (ans : list CO.answer),
  COP.cfg_ok c -> COP.cinv ch ->
  let f := CO.flush_some c ch ans in
  (CO.f_stop f = CO.Done \/ CO.f_stop f = CO.SockRaised) /\
  COP.cinv (CO.f_chan f) /\
  COP.cabs ch = CO.f_wire f ++ COP.cabs (CO.f_chan f) /\
  CO.f_sent f = WV.Model.Buffers.lenZ (CO.f_wire f) /\
  CO.flush_result f = negb (Z.eqb (WV.Model.Buffers.lenZ (CO.f_wire f)) 0) /\
  Forall COP.nonempty (CO.f_chunks f) /\
  Forall COP.drained (CO.f_closed f) /\
  CO.current_outbuf_count (CO.f_chan f) = CO.current_outbuf_count ch.
Proof. exact COP.flush_some_explicit. Qed.
Print Assumptions C04_flush_some.

(* The hypotheses are met by a history with rotation, a file buffer, representation changes,
   partial sends, a socket error and pops (Proof/ChanOut.v: ex_ops). *)
Theorem C04_out_bytes_example :
  COP.cfg_ok COP.ex_cfg /\ Forall COP.cop_ok COP.ex_ops /\
  let r := CO.crun COP.ex_cfg CO.chan_new COP.ex_ops in
  snd r = [1;2;3;4;5;6;7;8;9;8;7;6;5]%N /\ COP.cabs (fst r) = [10;11]%N /\
  length (CO.outbufs (fst r)) = 1 /\ CO.total_outbufs_len (fst r) = 2%Z.
Proof. exact (conj (proj1 COP.ex_ops_ok) (conj (proj2 COP.ex_ops_ok) COP.ex_run)). Qed.
Print Assumptions C04_out_bytes_example.

(* handle_write over the byte-level queue (Proof/ChanOutClose.v).  The flush selection and the close
   tail are the predicates regenerated from HTTPChannel.handle_write on this run (Gen/GenPreds.v:
   gen_hw_flush, gen_hw_after; writable() is gen_chan_writable); the flush is _flush_some of
   Model/ChanOut.v; a socket error inside it sets will_close (_flush_exception).  For every
   configuration, queue state, flag values and socket behaviour: handle_write calls handle_close() while
   bytes are still queued ONLY IF will_close was already set or the socket failed during this flush; a
   deferred close (close_when_flushed) is carried out exactly when the queue is empty, and then every
   byte that was queued has been accepted by the socket -- the close that follows a response drops no
   byte of it; and writable() stays true as long as bytes are queued or a close is pending. *)
From WV Require Gen.GenPreds Proof.ChanOutClose.
Module COC := WV.Proof.ChanOutClose.

Theorem C04_deferred_close_loses_nothing :
  forall (c : CO.cfg) (n : Z) (cwf wc : bool) (ch : CO.chan) (ans : list CO.answer),
  COP.cfg_ok c -> COP.cinv ch ->
  let r := COC.handle_write_bytes c n cwf wc ch ans in
  COP.cinv (COC.hw_chan r) /\
  COP.cabs ch = COC.hw_wire r ++ COP.cabs (COC.hw_chan r) /\
  (COC.hw_closed r = true ->
     wc = true \/ COC.hw_raised r = true \/
     (cwf = true /\ COP.cabs (COC.hw_chan r) = [] /\ COC.hw_wire r = COP.cabs ch)) /\
  (cwf = true -> COP.cabs (COC.hw_chan r) = [] -> COC.hw_closed r = true) /\
  (WV.Gen.GenPreds.gen_chan_writable (CO.total_outbufs_len (COC.hw_chan r)) (COC.hw_wc r) (COC.hw_cwf r) = false ->
     COP.cabs (COC.hw_chan r) = [] /\ COC.hw_wc r = false /\ COC.hw_cwf r = false).
Proof. exact COC.handle_write_close_sound. Qed.
Print Assumptions C04_deferred_close_loses_nothing.

Theorem C04_deferred_close_example :
  let ch := fst (CO.crun COP.ex_cfg CO.chan_new [CO.CWrite (CO.WBytes [1;2;3;4;5]%N) []; CO.CWrite (CO.WFile COP.ex_file) []]) in
  let r := COC.handle_write_bytes COP.ex_cfg 0 true false ch (repeat (CO.Sent 100) 12) in
  COC.hw_closed r = true /\ COC.hw_wire r = [1;2;3;4;5;8;7;6;5]%N /\ COP.cabs (COC.hw_chan r) = [] /\
  COC.hw_wc r = true /\ COC.hw_cwf r = false.
Proof. exact COC.hw_example. Qed.
Print Assumptions C04_deferred_close_example.
