(* Props/C13.v -- "Client faults are contained; teardown happens once, on the
   I/O thread only", over Model/ChanFault.v: the socket map {listener, trigger,
   channel A, channel B}, the I/O thread, one worker per channel and an
   environment that answers every recv / send / accept / getsockopt / setsockopt /
   setblocking / select with a normal result, EOF or an errno, at every step.
   Every theorem quantifies over ALL schedules (all interleavings, all lengths,
   all fault placements) and over the configuration g (lookahead, send_bytes,
   high watermark, send-buffer size, select or poll).

   Two facts about the source enter the model as configuration knobs and are
   REGENERATED FROM THE SOURCE on every run into Gen/GenChanKnobs.v:
     src_wc_close     the do_close with which service() reaches _flush_some
                      through send_continue()           (finding F18: it was True)
     src_init_guarded handle_accept constructs the channel inside a try that
                      catches OSError                   (finding F17: it was not)
   The headline theorems C13_loop / C13_listener / C13_once are stated for the
   configurations that have the source's values; their proofs need
   src_wc_close = false and src_init_guarded = true BY COMPUTATION, so a
   regression of either repair (/repo 8a2ea3a, da3bf3a) stops this file from
   compiling.  The statements that were refuted before the repairs are kept as
   statements about the old knob values. *)
From Coq Require Import List Arith Bool.
From WV Require Import Gen.GenChanKnobs.
From WV Require Import Model.ChanFault Proof.ChanFaultSpec Proof.ChanFaultBase Proof.ChanFaultWorkers Proof.ChanFaultListener
                       Proof.ChanFaultOnce Proof.ChanFaultWitness Proof.ChanFaultIso
                       Proof.ChanFaultIso2Proj Proof.ChanFaultIso2.
Import ListNotations.

(* the configurations that have what the source has now *)
Definition as_source (g : cfg) : Prop :=
  wc_close g = src_wc_close /\ init_guarded g = src_init_guarded.

(* the headline theorems: every schedule, every fault placement *)

(* no step of the I/O thread ends in an escaped exception *)
Theorem C13_loop : forall g sched, as_source g -> loop_ok (trace g sched).
Proof. intros g sched [H _]. apply once_and_loop. right. rewrite H. reflexivity. Qed.
Print Assumptions C13_loop.

(* the listening socket and its trigger are in the socket map, open, in every reachable state *)
Theorem C13_listener : forall g sched, as_source g -> listener_ok (run g sched).
Proof.
  intros g sched [_ H]. assert (E : init_guarded g = true) by (rewrite H; reflexivity).
  destruct (LInv_all g sched (or_intror E)). auto.
Qed.
Print Assumptions C13_listener.

(* every socket.close(), every deletion from the socket map and from active_channels and every closing of
   output buffers is done by the I/O thread; at most one socket.close() per channel; after it the descriptor
   is out of the map and of active_channels and the buffers have been closed *)
Theorem C13_once : forall g sched, as_source g -> once_ok (run g sched) (trace g sched).
Proof. intros g sched [H _]. apply once_and_loop. right. rewrite H. reflexivity. Qed.
Print Assumptions C13_once.

(* no worker is ever killed (any configuration) *)
Theorem C13_workers : forall g sched, workers_ok (trace g sched).
Proof.
  intros g sched. apply (inv_rule_tr g WInv).
  - split.
    + intro c. left. destruct c; split; reflexivity.
    + intros c H. inversion H.
  - apply WInv_step.
Qed.
Print Assumptions C13_workers.

(* the same, per knob, for any configuration *)
Theorem C13_loop_repaired : forall g sched, wc_close g = false -> loop_ok (trace g sched).
Proof. intros g sched H. apply once_and_loop. auto. Qed.
Print Assumptions C13_loop_repaired.

Theorem C13_once_repaired : forall g sched, wc_close g = false -> once_ok (run g sched) (trace g sched).
Proof. intros g sched H. apply once_and_loop. auto. Qed.
Print Assumptions C13_once_repaired.

Theorem C13_listener_repaired : forall g sched, init_guarded g = true -> listener_ok (run g sched).
Proof. intros g sched H. destruct (LInv_all g sched (or_intror H)). auto. Qed.
Print Assumptions C13_listener_repaired.

(* whatever the knobs: outside the executions in which the old defects could act *)
Theorem C13_loop_partial : forall g sched, no_wcont (trace g sched) -> loop_ok (trace g sched).
Proof. intros g sched H. apply once_and_loop. auto. Qed.
Print Assumptions C13_loop_partial.

Theorem C13_listener_partial : forall g sched, no_setup_fault (trace g sched) -> listener_ok (run g sched).
Proof. intros g sched H. destruct (LInv_all g sched (or_introl H)). auto. Qed.
Print Assumptions C13_listener_partial.

Theorem C13_once_partial : forall g sched, no_wcont (trace g sched) -> once_ok (run g sched) (trace g sched).
Proof. intros g sched H. apply once_and_loop. auto. Qed.
Print Assumptions C13_once_partial.

(* the old knob values: what was wrong before the repairs (findings F17, F18; see Findings/C13_F17_F18.v) *)
(* wc_close = true: a worker closes the descriptor between the I/O thread's readable()/writable() pass and
   its select() call; EBADF escapes wasyncore.poll *)
Theorem C13_loop_refuted_old : exists g sched, wc_close g = true /\ ~ loop_ok (trace g sched).
Proof. exists wcfg, w_loop. split; [reflexivity|exact (proj2 loop_refuted_w)]. Qed.
Print Assumptions C13_loop_refuted_old.

Theorem C13_once_refuted_old : exists g sched, wc_close g = true /\ ~ once_ok (run g sched) (trace g sched).
Proof. exists wcfg, w_once. split; [reflexivity|exact (proj2 once_refuted_w)]. Qed.
Print Assumptions C13_once_refuted_old.

(* init_guarded = false: an OSError in HTTPChannel.__init__ closes the listener and its trigger *)
Theorem C13_listener_refuted_old : exists g sched, init_guarded g = false /\ ~ listener_ok (run g sched).
Proof. exists wcfg, w_listener. split; [reflexivity|exact (proj2 listener_refuted_w)]. Qed.
Print Assumptions C13_listener_refuted_old.

(* isolation: the unwinding conditions of non-interference between the two connections (step level);
   their composition into one statement about whole runs is C13_isolation below *)

(* a step that executes an instruction of connection c -- whatever the environment answers: a fault,
   EOF, anything -- changes nothing of the other connection d (record, worker), nothing of the listener
   and trigger, and emits no label of d, wire bytes included.  For ALL states. *)
Theorem C13_isolation_local : forall g s t a s' l c d,
  next_about s t c -> d <> c -> t <> W d -> step g s (t, a) = Some (s', l) ->
  getc s' d = getc s d /\ getth s' (W d) = getth s (W d) /\ srv5 s' = srv5 s /\ labels_of d l = [].
Proof. exact step_local. Qed.
Print Assumptions C13_isolation_local.

(* two-run: a reachable state and ANY state that agrees with it on connection c and c's worker (the other
   connection faulted, torn down, absent ...): the worker's step is the same -- enabledness, labels with the
   wire bytes, the record of c afterwards *)
Theorem C13_isolation_worker : forall g sched s2 c a,
  getc (run g sched) c = getc s2 c -> getth (run g sched) (W c) = getth s2 (W c) ->
  same_step c (step g (run g sched) (W c, a)) (step g s2 (W c, a)).
Proof. intros. apply worker_two_run; auto. apply wtagged_always. Qed.
Print Assumptions C13_isolation_worker.

(* two-run: two states whose I/O threads are about to execute the same instruction of connection c and that
   agree on c: same enabledness, same labels (wire bytes), same record of c afterwards, same instructions pushed *)
Theorem C13_isolation_io : forall g s1 s2 c a i r1 r2,
  raising (getth s1 IO) = None -> raising (getth s2 IO) = None ->
  stk (getth s1 IO) = i :: r1 -> stk (getth s2 IO) = i :: r2 -> about c i = true ->
  getc s1 c = getc s2 c -> locals (getth s1 IO) = locals (getth s2 IO) ->
  match step g s1 (IO, a), step g s2 (IO, a) with
  | Some (s1', l1), Some (s2', l2) =>
      getc s1' c = getc s2' c /\ l1 = l2 /\ raising (getth s1' IO) = raising (getth s2' IO) /\
      locals (getth s1' IO) = locals (getth s2' IO) /\
      exists push, stk (getth s1' IO) = push ++ r1 /\ stk (getth s2' IO) = push ++ r2
  | None, None => True
  | _, _ => False
  end.
Proof. exact io_two_run. Qed.
Print Assumptions C13_isolation_io.

(* ... and whether c is asked about in select's lists depends on c only *)
Theorem C13_isolation_poll : forall g s1 s2 c, getc s1 c = getc s2 c ->
  mem_fd (FC c) (asked_r g s1) = mem_fd (FC c) (asked_r g s2) /\
  mem_fd (FC c) (asked_w s1) = mem_fd (FC c) (asked_w s2).
Proof. exact poll_two_run. Qed.
Print Assumptions C13_isolation_poll.

(* isolation at the level of whole runs (Proof/ChanFaultIso2*.v): existential schedule matching by a
   stuttering simulation.  For every schedule of the two-connection system -- every interleaving, every length,
   every answer of the environment to every socket call of a (any errno, EOF, partial sends ...) -- there is a
   schedule of the same system in which connection a never appears (no label of a in the whole trace, its record
   the initial one, its worker never ran) and which the observer of connection b cannot tell from the first:
   [view b] keeps every label of b (environment answers, WIRE BYTES, handle_close, socket.close, ...) and every
   label of the loop, the listener and the trigger, and hides the labels of a and [LCaught IO _]; the final
   record of b, b's worker and the listener / trigger / loop flags are equal too.  Needs both repairs (with the
   old knob values it is false: C13_listener_refuted_old, C13_loop_refuted_old). *)
Theorem C13_isolation : forall g a b sched1,
  as_source g -> a <> b ->
  exists sched2,
    (labels_of a (trace g sched2) = [] /\ getc (run g sched2) a = chan0 /\ getth (run g sched2) (W a) = th0 []) /\
    view b (trace g sched1) = view b (trace g sched2) /\
    getc (run g sched1) b = getc (run g sched2) b /\
    getth (run g sched1) (W b) = getth (run g sched2) (W b) /\
    srv5 (run g sched1) = srv5 (run g sched2).
Proof. intros g a b sched1 [H1 H2] Hab. apply isolation_trace; [exact Hab|rewrite H1; reflexivity|rewrite H2; reflexivity]. Qed.
Print Assumptions C13_isolation.

(* the same for any configuration with the two repaired knob values *)
Theorem C13_isolation_repaired : forall g a b sched1,
  a <> b -> wc_close g = false -> init_guarded g = true ->
  exists sched2,
    (labels_of a (trace g sched2) = [] /\ getc (run g sched2) a = chan0 /\ getth (run g sched2) (W a) = th0 []) /\
    view b (trace g sched1) = view b (trace g sched2) /\
    getc (run g sched1) b = getc (run g sched2) b /\
    getth (run g sched1) (W b) = getth (run g sched2) (W b) /\
    srv5 (run g sched1) = srv5 (run g sched2).
Proof. exact isolation_trace. Qed.
Print Assumptions C13_isolation_repaired.

(* "the wire log of connection b is independent of the faults injected on connection a": the sequence of byte
   counts the kernel accepted on b in ANY run is the sequence of some run without a, and so is their total *)
Theorem C13_isolation_wire : forall g a b sched1,
  a <> b -> wc_close g = false -> init_guarded g = true ->
  exists sched2,
    labels_of a (trace g sched2) = [] /\
    wire_log b (trace g sched1) = wire_log b (trace g sched2) /\
    wire (getc (run g sched1) b) = wire (getc (run g sched2) b).
Proof.
  intros g a b sched1 Hab Hwc Hg.
  destruct (isolation_trace g a b sched1 Hab Hwc Hg) as (sched2 & (HA & _) & HV & Hb & _).
  exists sched2. split; [auto|split].
  - rewrite <- (wire_log_view b (trace g sched1)), HV. apply wire_log_view.
  - rewrite Hb. reflexivity.
Qed.
Print Assumptions C13_isolation_wire.

(* what b can observe: the same set of views over all runs and over the runs without a *)
Theorem C13_isolation_views : forall g a b v,
  a <> b -> wc_close g = false -> init_guarded g = true ->
  ((exists sched, view b (trace g sched) = v) <->
   (exists sched, absent g a sched /\ view b (trace g sched) = v)).
Proof.
  intros g a b v Hab Hwc Hg. split.
  - intros [sched1 <-]. destruct (isolation_trace g a b sched1 Hab Hwc Hg) as (sched2 & HA & HV & _).
    exists sched2. split; [exact HA|]. symmetry. exact HV.
  - intros [sched [_ H]]. exists sched. exact H.
Qed.
Print Assumptions C13_isolation_views.

(* the two finding classes are independent: the F17 witness has no worker-side send_continue,
   the F18 witnesses have no set-up fault *)
Theorem C13_classes_disjoint :
  no_wcont (trace wcfg w_listener) /\ no_setup_fault (trace wcfg w_once) /\ no_setup_fault (trace wcfg w_loop).
Proof.
  split; [exact (proj1 listener_refuted_w)|split; [exact (proj1 once_refuted_w)|exact (proj1 loop_refuted_w)]].
Qed.
Print Assumptions C13_classes_disjoint.

(* the hypotheses of the partial theorems are satisfiable by executions that do fault and tear
   down: a connection is accepted, a request is served, the client resets, the I/O thread closes *)
Definition ex_sched : list choice :=
  [(IO, ANone); (IO, ANone); (IO, ASel [FL] [] []); (IO, ANone); (IO, AAcc (AccConn A)); (IO, ACall None);
   (IO, ANone); (IO, ACall None); (IO, ACall None); (IO, ANone); (IO, ANone);
   (IO, ANone); (IO, ANone); (IO, ASel [FC A] [] []); (IO, ANone); (IO, ANone);
   (IO, ARecv (RErr ECONNRESET));
   (IO, ANone); (IO, ANone); (IO, ABufLen 0); (IO, ANone); (IO, ANone); (IO, ANone); (IO, ANone);
   (IO, ANone); (IO, ANone); (IO, ANone); (IO, ANone); (IO, ANone); (IO, ANone); (IO, ANone); (IO, ANone); (IO, ANone)].
Example ex_partial_nontrivial :
  no_wcont (trace wcfg ex_sched) /\ no_setup_fault (trace wcfg ex_sched) /\
  closes A (trace wcfg ex_sched) = 1 /\ In (LClose IO A) (trace wcfg ex_sched) /\
  in_map (getc (run wcfg ex_sched) A) = false /\ listener_ok (run wcfg ex_sched).
Proof.
  split; [apply no_wcontb_spec; vm_compute; reflexivity|].
  split; [apply no_setup_faultb_spec; vm_compute; reflexivity|].
  vm_compute. intuition.
Qed.
