(* C19 -- Expect: 100-continue is answered correctly and the request is never lost.

   Two layers.  (1) Model/ChanSeq.v (HTTPChannel.received, sequential, tied to
   the code by K-chanseq) and Model/Parser.v; (2) Model/ChanExpect.v, the narrow
   interleaving model of received() / the tail of service() / send_continue()
   (tied to the code by K-chanexpect: trace conformance under the deterministic
   scheduler + ast shape audit).  Layer (1) is proved to be the I/O thread of
   layer (2) (C19_seq_refines), the abstract parser of (2) to over-approximate
   Model/Parser.v (C19_parser_sim).

   Both models follow the code after fix e3537e2 (send_continue no longer resets
   `completed`); the theorems hold for ALL requests, including those complete or
   refused at the end of their header block (C19_send_then_queue; C19_former_F5,
   C19_former_F6 are the pipelines of findings F5/F6). *)
From Coq Require Import List NArith ZArith Bool.
From RecordUpdate Require Import RecordUpdate.
From WV Require Import Model.ChanExpect.
From WV Require Import Lib.PyBytes Model.Receiver Model.Parser Model.ChanSeq.
From WV Require Import Proof.ChanExpectBase Proof.ChanExpectLog Proof.ChanExpectCount Proof.ChanExpectParse.
From WV Require Proof.ChanExpect Proof.ChanExpectSeq.
Import ListNotations.

Module CE := WV.Model.ChanExpect.
Module CP := WV.Proof.ChanExpect.
Module CS := WV.Proof.ChanExpectSeq.

(* at most one interim response per request (parser object) *)
Theorem C19_count : forall sched i, cnt i (CE.outlog (CE.run sched)) <= 1.
Proof. exact CP.count_le_one. Qed.
Print Assumptions C19_count.

(* exactly one, and nobody is left waiting: at every point where no thread is
   inside a critical section of requests_lock, if the connection is up and not
   closing and the request under construction has finished an asking header
   block and nothing is queued or in service before it, its interim response has
   been appended (by the I/O thread or by the worker that finished the
   preceding request), exactly once *)
Theorem C19_wait : forall sched q,
  let s := CE.run sched in
  CE.rlock s = false -> CE.connected s = true -> CE.close_when_flushed s = false ->
  CE.requests s = [] -> CE.request s = Some q -> CE.a_hf q = true -> CE.g_asked q = true ->
  cnt (CE.rid q) (CE.outlog s) = 1 /\ CE.a_expect q = false /\ CE.sent_continue s = true.
Proof. exact CP.never_left_waiting. Qed.
Print Assumptions C19_wait.

(* while it is not yet its turn nothing has been sent for it *)
Theorem C19_deferred : forall sched q,
  let s := CE.run sched in
  CE.rlock s = false -> CE.request s = Some q -> CE.a_expect q = true ->
  cnt (CE.rid q) (CE.outlog s) = 0.
Proof. exact CP.deferred_while_queued. Qed.
Print Assumptions C19_deferred.

(* the two sending sites exclude each other; one worker at a time *)
Theorem C19_exclusive : forall sched,
  let s := CE.run sched in
  (CE.rlock s = true <-> (CE.io s <> CE.IOIdle \/ In CE.WSend (CE.active s))) /\
  length (CE.active s) + CE.queued s <= 1 /\
  ~ (CE.io s <> CE.IOIdle /\ In CE.WSend (CE.active s)).
Proof. exact CP.senders_exclusive. Qed.
Print Assumptions C19_exclusive.

(* where an interim response is appended: under requests_lock, for the object under
   construction, header block finished, asked, nothing queued or in service *)
Theorem C19_site : forall sched c s' l i w,
  CE.step (CE.run sched) c = Some (s', l) -> In (CE.LInterim i w) l ->
  let s := CE.run sched in
  CE.rlock s = true /\ CE.requests s = [] /\
  (exists q, CE.request s = Some q /\ CE.rid q = i /\ CE.a_hf q = true /\ CE.g_asked q = true) /\
  CE.outlog s' = CE.outlog s ++ [CE.TInterim i w] /\
  (c = CE.CIOSend /\ w = false \/ exists k, c = CE.CWSend k /\ w = true).
Proof. exact CP.interim_site. Qed.
Print Assumptions C19_site.

(* position in the sequence of appends: after every chunk of every earlier final
   response, before every chunk of its own and of later final responses *)
Theorem C19_place : forall sched l1 i w l2,
  CE.outlog (CE.run sched) = l1 ++ CE.TInterim i w :: l2 ->
  (forall j, In (CE.TFinal j) l1 -> j < i) /\
  (forall j, In (CE.TFinal j) l2 -> i <= j) /\
  (forall j w', In (CE.TInterim j w') l1 -> j <= i) /\
  (forall j w', In (CE.TInterim j w') l2 -> i <= j).
Proof. exact CP.interim_position. Qed.
Print Assumptions C19_place.

(* HTTP/1.0 and requests that did not ask: none *)
Theorem C19_none : forall sched,
  (forall ev more, In (CE.CIOParse ev more) sched -> CP.ev_asks ev = false) ->
  forall i w, ~ In (CE.TInterim i w) (CE.outlog (CE.run sched)).
Proof. exact CP.no_interim_unless_asked. Qed.
Print Assumptions C19_none.

Theorem C19_asked : forall sched i w,
  In (CE.TInterim i w) (CE.outlog (CE.run sched)) -> In i (CE.askers (CE.run sched)).
Proof. intros sched i w. apply (C_asked _ (CP.iC _ (CP.Inv_run sched))). Qed.
Print Assumptions C19_asked.

(* a queued request is complete, not empty and only its own header block was parsed into it *)
Theorem C19_own : forall sched r,
  In r (CE.requests (CE.run sched)) ->
  CE.a_completed r = true /\ CE.a_empty r = false /\ CE.g_heads r <= 1.
Proof. exact CP.queued_own_head. Qed.
Print Assumptions C19_own.

(* the request is never lost: a completed request does not stay under construction *)
Theorem C19_not_lost : forall sched q,
  (forall m, CE.io (CE.run sched) <> CE.IOSend m) -> CE.request (CE.run sched) = Some q ->
  CE.a_completed q = false.
Proof. exact CP.completed_never_kept. Qed.
Print Assumptions C19_not_lost.

(* ... in particular one that was complete (or refused) at the end of its header
   block while at the head of the line is queued by the step that sends its
   interim response (the class of the former findings F5/F6) *)
Theorem C19_send_then_queue : forall sched s' l,
  CE.step (CE.run sched) CE.CIOSend = Some (s', l) ->
  forall q, CE.request (CE.run sched) = Some q -> CE.a_completed q = true ->
  CE.request s' = None /\ CE.sent_continue s' = false /\
  (CE.a_empty q = false -> CE.requests s' = [q] /\ In (CE.LQueue (CE.rid q)) l /\ In CE.LAddTask l).
Proof. exact CP.send_then_queue. Qed.
Print Assumptions C19_send_then_queue.

Theorem C19_parser_sim : forall a p data p' n q,
  Parser.received a p data = ROk p' n -> CS.flags_eq q p -> CS.sim_goal q p p'.
Proof. exact CS.abs_sim. Qed.
Print Assumptions C19_parser_sim.

Theorem C19_flag_only_11 : forall a p data p' n,
  Parser.received a p data = ROk p' n ->
  expect_continue p = false -> expect_continue p' = true ->
  version p' = s_1_1 /\ expect_value p' = true /\ body p = None /\ completed p = false.
Proof. exact CS.flag_only_11. Qed.
Print Assumptions C19_flag_only_11.

Theorem C19_seq_refines : forall a reads c rs,
  CS.feed_obs a chan_init reads = (COk c, rs) ->
  exists sched, CS.mrel c (CE.run sched) /\ CE.io (CE.run sched) = CE.IOIdle /\
                CE.rlock (CE.run sched) = false /\ CS.justified rs sched.
Proof. exact CS.seq_refines. Qed.
Print Assumptions C19_seq_refines.

Theorem C19_seq_obs_is_feed : forall a reads c, fst (CS.feed_obs a c reads) = feed a c reads.
Proof. exact CS.feed_obs_fst. Qed.
Print Assumptions C19_seq_obs_is_feed.

Theorem C19_seq_none : forall a reads c rs,
  CS.feed_obs a chan_init reads = (COk c, rs) ->
  (forall r, In r rs -> version r = s_1_1 -> expect_value r = true -> False) ->
  outlog c = [].
Proof. exact CS.seq_no_interim. Qed.
Print Assumptions C19_seq_none.

(* for all pipelines and all segmentations the object under construction is
   well-formed: not completed; header block finished => it has a body receiver
   (it never parses a second header block); before that, no header field *)
Theorem C19_seq_wf : forall a reads c0 c,
  feed a c0 reads = COk c -> CS.wf_cur c0 -> CS.wf_cur c.
Proof. exact CS.seq_wf_run. Qed.
Print Assumptions C19_seq_wf.

Theorem C19_former_F5 : exists c,
  feed CS.adj_default chan_init [CS.req_a_expect_nobody ++ CS.req_b_plain] = COk c /\
  outlog c = continue_bytes /\
  map path (requests c) = [[47;97]%N; [47;98]%N] /\
  map (fun r => hget (headers r) s_EXPECT) (requests c) = [Some s_100_continue; None] /\
  add_task_calls c = 1%nat /\ request c = None /\ sent_continue c = false.
Proof. exact CS.ex_former_F5. Qed.
Print Assumptions C19_former_F5.

Theorem C19_former_F6 : exists c r,
  feed CS.adj_small_body chan_init [CS.req_a_expect_big] = COk c /\
  outlog c = continue_bytes /\ requests c = [r] /\ add_task_calls c = 1%nat /\
  request c = None /\ error r = Some EBodyTooLarge /\ completed r = true.
Proof. exact CS.ex_former_F6. Qed.
Print Assumptions C19_former_F6.

(* Placement of the interim response at BYTE level (Model/ChanOut.v: send_continue appends the 25
   bytes to self.outbufs[-1] and flushes; write_soon / _flush_some over the buffer model of C17;
   proofs in Proof/ChanOut.v).  For every configuration, every history before and after the
   send_continue() call (responses written as bytes or handed over as file-wrapper buffers, partial
   sends, socket errors), the bytes on the socket followed by the bytes still queued are: everything
   written before, then "HTTP/1.1 100 Continue\r\n\r\n" once, then everything written after -- the
   interim response is never inside another response, also when the previous response is a file
   buffer that is still queued (C19_continue_behind_file). *)
From WV Require Model.Buffers Model.ChanOut Proof.ChanOut.
Module CO := WV.Model.ChanOut.
Module COP := WV.Proof.ChanOut.

Theorem C19_continue_bytes_in_order : forall (c : CO.cfg) (ps1 ps2 : list CO.cop) (ans : list CO.answer),
  COP.cfg_ok c -> Forall COP.cop_ok ps1 -> Forall COP.cop_ok ps2 ->
  let r := CO.crun c CO.chan_new (ps1 ++ CO.CContinue ans :: ps2) in
  snd r ++ COP.cabs (fst r) =
    concat (map CO.written_by ps1) ++ CO.continue_payload ++ concat (map CO.written_by ps2).
Proof. exact COP.continue_in_order. Qed.
Print Assumptions C19_continue_bytes_in_order.

Theorem C19_continue_behind_file :
  let r := CO.crun COP.ex_cfg CO.chan_new
             [CO.CWrite (CO.WBytes [1;2]%N) []; CO.CWrite (CO.WFile COP.ex_file) [];
              CO.CContinue (CO.Sent 1 :: repeat (CO.Sent 100) 20)] in
  snd r = [1;2;8;7;6;5]%N ++ CO.continue_payload /\ COP.cabs (fst r) = [].
Proof. exact COP.ex_continue_behind_file. Qed.
Print Assumptions C19_continue_behind_file.
