(* C14 -- Worker pool: every task runs exactly once or is cancelled exactly once.
   Statements, each with the last step of its proof.  The model is Model/Dispatcher.v
   (an executable interleaving semantics of waitress.task.ThreadedTaskDispatcher), the
   specifications are in Spec/Pool.v (bookkeeping_spec in Proof/DispatcherSpec.v), the
   invariant and the per-step lemmas in Proof/Dispatcher{Lib,Inv,Spec}.v; satisfiability
   examples in Proof/DispatcherExamples.v.  [run step init sched] is the state
   after the schedule [sched] (ANY list of choices: which thread moves, which
   waiter a notify wakes, whether a timeout fires, what the environment submits or
   requests); [trace step init sched] are the labels emitted on the way.  No
   theorem bounds the length of the schedule, the number of tasks, the number of
   workers or the arguments of set_thread_count. *)
From Coq Require Import List Lia.
From WV Require Import Lib.Conc Model.Dispatcher Spec.Pool Proof.DispatcherInv Proof.DispatcherSpec.
Import ListNotations.

(* every submitted task is in exactly one of queue / running / done / cancelled,
   service() was called once iff Running or Done, cancel() once iff Cancelled *)
Theorem C14_once : forall sched, once_spec (run step init sched).
Proof. intros sched. apply Inv_once. apply Inv_run. Qed.
Print Assumptions C14_once.

(* service() and cancel() together are called at most once on a task *)
Theorem C14_never_both : forall sched t, submitted (run step init sched) t ->
  svc (run step init sched) t + cnc (run step init sched) t <= 1.
Proof.
  intros sched t Ht. pose proof (C14_once sched) as O.
  rewrite (once_svc _ O t Ht), (once_cnc _ O t Ht).
  destruct (st (run step init sched) t); simpl; lia.
Qed.
Print Assumptions C14_never_both.

(* the queue is the not-yet-taken tasks in submission order; tasks start in submission order *)
Theorem C14_fifo : forall sched, fifo_spec (run step init sched) (trace step init sched).
Proof.
  intros sched. destruct (InvT_run sched) as [I [T1 [T2 T3]]]. unfold runD, traceD in *.
  destruct (inv_C _ I) as [Ctk Cq _ _].
  constructor; auto.
  - rewrite T1, T2, Cq. rewrite <- seq_app. f_equal. lia.
  - rewrite T1. apply seq_NoDup.
Qed.
Print Assumptions C14_fifo.

(* the i-th task to leave the queue is the i-th task submitted *)
Theorem C14_fifo_nth : forall sched i t,
  nth_error (takes (trace step init sched)) i = Some t ->
  nth_error (submits (trace step init sched)) i = Some t.
Proof.
  intros sched i t H. rewrite (fifo_queue _ _ (C14_fifo sched)).
  rewrite nth_error_app1; auto. apply nth_error_Some. congruence.
Qed.
Print Assumptions C14_fifo_nth.

(* no lost wake-up inside the pool *)
Theorem C14_quiescent : forall sched, quiescent_spec (run step init sched).
Proof. intros sched. apply Inv_quiescent. apply Inv_run. Qed.
Print Assumptions C14_quiescent.

(* [quiescent] holds exactly when only the environment can move *)
Theorem C14_quiescent_char : forall sched,
  quiescent (run step init sched) = true <->
  (forall c, is_env c = false -> step (run step init sched) c = None).
Proof. intros sched. apply quiescent_char. apply Inv_run. Qed.
Print Assumptions C14_quiescent_char.

(* live threads = requested + pending stop requests; at rest no stop request is pending *)
Theorem C14_resize : forall sched, resize_spec (run step init sched).
Proof. intros sched. apply Inv_resize. apply Inv_run. Qed.
Print Assumptions C14_resize.

(* every step from a reachable state: shutdown returning True has emptied the queue and cancelled
   its snapshot, returning False has left queue and ledger alone; the snapshot is the queue when the
   wait loop ended; with no worker alive nothing is started *)
Theorem C14_shutdown : forall sched c s' l, step (run step init sched) c = Some (s', l) ->
  shutdown_true_spec s' l /\ shutdown_snap_spec (run step init sched) c s' /\
  shutdown_false_spec (run step init sched) s' l /\ no_worker_spec (run step init sched) l.
Proof.
  intros sched c s' l H. pose proof (Inv_run sched) as I.
  split. eapply shutdown_true_step; eauto.
  split. eapply shutdown_snap_step; eauto.
  split. eapply shutdown_false_step; eauto.
  eapply no_worker_step; eauto.
Qed.
Print Assumptions C14_shutdown.

(* what the code does with tasks left behind by shutdown(False) / set_thread_count(0):
   they stay queued until set_thread_count is called again or shutdown cancels them *)
Theorem C14_stranded : forall sched c s' l,
  step (run step init sched) c = Some (s', l) -> workers (run step init sched) = [] ->
  (forall n, c <> CResize n) -> (forall e, c <> CSd e) ->
  forall t, In t (queue (run step init sched)) -> In t (queue s') /\ st s' t = Queued.
Proof. intros sched c s' l H. eapply stranded_step; eauto. apply Inv_run. Qed.
Print Assumptions C14_stranded.

(* what threads / stop_count / active_count and the lock mean in every reachable state:
   threads = the live workers, active_count = workers at the top of their loop or running
   a task (neither parked nor just notified), live - stop_count = requested, a pending stop request leaves no un-notified waiter, the lock is held across
   steps only by shutdown's cancel loop *)
Theorem C14_bookkeeping : forall sched, bookkeeping_spec (run step init sched).
Proof.
  intros sched. destruct (Inv_run sched) as [IA IB _ _]. unfold bookkeeping_spec, runD in *.
  split. apply (A_ths _ IA). split. apply (A_nodup _ IA). split. apply (B_act _ IB).
  split. apply (B_req _ IB). split. apply (B_stop _ IB). split. apply (A_qw _ IA).
  split.
  - intros Hl Hc. apply (A_lock1 _ IA) in Hc. congruence.
  - apply (A_lock2 _ IA).
Qed.
Print Assumptions C14_bookkeeping.
