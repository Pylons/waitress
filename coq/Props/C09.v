(* C09 -- Application failures are contained and the iterable is always closed.
   Statements and the short proofs; the others in Proof/TaskC09.v (ladder, exception classes,
   close() counting, traceback non-interference), Proof/TaskLadder.v (the
   ladder branch by branch), Proof/TaskProv.v / Proof/TaskC08.v (nothing precedes
   the head; the 500 is built from server strings).  All statements are for ALL
   scripts (any actions at any step, an exception of any class at any step including close()), all disconnect
   positions, all settings. *)
From Coq Require Import String.
From Coq Require Import List NArith ZArith Bool.
From WV Require Import Lib.PyBytes Gen.GenTables Model.Task Proof.TaskHead Proof.TaskRun Proof.TaskOracle
  Proof.TaskC08 Proof.TaskProv Proof.TaskC09.
Import ListNotations.
Local Open Scope N_scope.

(* close() of the application's iterable: at most once; exactly once when the
   application returned an iterable that has close(), except when a file wrapper
   was handed over to the channel (then not at all by the task: the channel owns
   and closes the file); never when no iterable was returned. *)
Theorem C09_close_once : forall c r a disc,
  let res := run_task c r a disc in
  (o_closes res <= 1)%nat
  /\ (o_iter res = false -> o_closes res = 0%nat /\ o_handover res = false)
  /\ (o_iter res = true -> a_has_close a = true ->
      (o_closes res = 1%nat /\ o_handover res = false) \/ (o_closes res = 0%nat /\ o_handover res = true))
  /\ (o_iter res = true -> a_has_close a = false -> o_closes res = 0%nat)
  /\ (o_handover res = true -> a_kind a = KFile true).
Proof. exact (fun c r a disc => close_once py_cap py_lower c r disc a). Qed.
Print Assumptions C09_close_once.

(* The outcome of HTTPChannel.service() by what was raised (outcome_spec, in
   Proof/TaskC09.v), for every exception class -- Exception, OSError and
   BaseException subclasses alike:
   - nothing raised: nothing escapes, no 500, the bytes are the task's own;
   - ClientDisconnected: closed, no further bytes;
   - anything else after output began: closed, no further bytes;
   - anything else before any output: the ladder's 500 is served, then closed
     (whether or not the 500 itself could be built and sent: a head that cannot
     be encoded or a client that went away no longer lets anything escape,
     /repo fix 1a765e6). *)
Theorem C09_outcome : forall c r a disc, outcome_spec (run_task c r a disc).
Proof. exact (fun c r a disc => service_outcome py_cap py_lower c r disc a). Qed.
Print Assumptions C09_outcome.

(* The property as stated, at full strength: whatever the application raised
   (other than the server's own ClientDisconnected), before any output the 500 is
   served and the connection closed, after output the connection is closed
   without further bytes. *)
Theorem C09_contained : forall c r a disc e,
  let res := run_task c r a disc in
  o_raw res = Some e ->
  exn_eqb e ClientDisconnected = false ->
  (o_wrote_header1 res = true ->
     o_close res = true /\ o_next res = false /\ o_escaped res = None
     /\ o_served_500 res = false /\ o_writes res = o_writes1 res)
  /\ (o_wrote_header1 res = false ->
     o_served_500 res = true /\ o_close res = true /\ o_next res = false /\ o_escaped res = None).
Proof. exact (contained py_cap py_lower). Qed.
Print Assumptions C09_contained.

(* Nothing leaves service(), for every configuration (server strings that are not
   latin-1 included), request, application and disconnect position.  (Until /repo
   fix 1a765e6 an encode error of the server's own 500 did, and stranded the
   connection.) *)
Theorem C09_escape : forall c r a disc, o_escaped (run_task c r a disc) = None.
Proof.
  intros c r a disc. unfold run_task.
  pose proof (service_outcome py_cap py_lower c r disc a) as H. unfold outcome_spec in H.
  destruct (o_raw (channel_service py_cap py_lower c r a disc)) as [e0|] eqn:Eraw.
  2: { destruct H as (H & _). exact H. }
  destruct (exn_eqb e0 ClientDisconnected); [destruct H as (_ & _ & H & _); exact H|].
  destruct (o_wrote_header1 _); [destruct H as (_ & _ & H & _); exact H|].
  destruct H as (_ & _ & _ & H). exact H.
Qed.
Print Assumptions C09_escape.

(* The worker survives: handler_thread's catch-all turns whatever escaped
   service() into a log record; the loop goes on (handler_thread is a total
   function returning the record). *)
Theorem C09_worker_survives : forall c r a disc,
  handler_thread py_cap py_lower c r a disc = (run_task c r a disc, o_escaped (run_task c r a disc)).
Proof. reflexivity. Qed.
Print Assumptions C09_worker_survives.

(* No traceback text unless expose_tracebacks: with the setting off the whole
   result, wire bytes included, is independent of the traceback text. *)
Theorem C09_no_traceback_leak : forall c1 c2 r a disc,
  cfg_eqv c1 c2 ->
  c_expose_tracebacks c1 = false -> c_expose_tracebacks c2 = false ->
  run_task c1 r a disc = run_task c2 r a disc.
Proof. exact (fun c1 c2 r a disc H => no_traceback_leak py_cap py_lower c1 c2 H r a disc). Qed.
Print Assumptions C09_no_traceback_leak.

(* The 500 served before any output is a function of server strings only and
   nothing precedes it (from C08), for every script. *)
Theorem C09_500_complete : forall c r disc a,
  cfg_clean c ->
  match r_error r with Some e => err_clean e | None => True end ->
  let res := run_task c r a disc in
  o_served_500 res = true ->
  o_writes1 res = [] /\ o_writes res = response_500 py_cap py_lower c r disc (o_nws1 res).
Proof. exact (fun c r disc a Hc Hr => served_500_bytes py_cap py_lower c Hc r disc Hr a). Qed.
Print Assumptions C09_500_complete.

(* The two classes that used to be open, as instances of the theorems above:
   a BaseException subclass (escaped before 72e39ad) and an application OSError
   with log_socket_errors off (silent close before 4ec4884) get the 500. *)
Theorem C09_baseexception_contained :
  let res := run_task sample_cfg sample_req base_app None in
  o_escaped res = None /\ o_served_500 res = true /\ o_close res = true /\ o_next res = false
  /\ o_writes res = response_500 py_cap py_lower sample_cfg sample_req None 0.
Proof. vm_compute. repeat split; reflexivity. Qed.
Print Assumptions C09_baseexception_contained.

Theorem C09_oserror_answered :
  let res := run_task quiet_cfg sample_req oserr_app None in
  o_raw res = Some AppOSError /\ o_wrote_header1 res = false
  /\ o_served_500 res = true /\ o_close res = true /\ o_escaped res = None.
Proof. vm_compute. repeat split; reflexivity. Qed.
Print Assumptions C09_oserror_answered.

(* A connection already marked for closing (will_close, read by service() next to
   connected) is not executed: the application is not called, nothing is written,
   the close branch is taken.  With will_close false service() is run_task. *)
Theorem C09_will_close_not_executed : forall c r a disc,
  let res := run_task_wc c r a disc true in
  o_iter res = false /\ o_writes res = [] /\ o_close res = true /\ o_next res = false
  /\ o_escaped res = None /\ o_closes res = 0%nat /\ o_raw res = None.
Proof. intros c r a disc. cbn. repeat split; reflexivity. Qed.
Print Assumptions C09_will_close_not_executed.
