(* C08 -- Applications cannot split or inject into the response head.
   Statements and the short proofs; the others are in Proof/TaskHead.v (what
   build_response_header emits), Proof/TaskStart.v (what start_response refuses /
   accepts), Proof/TaskLadder.v + Proof/TaskC08.v (the service ladder),
   Proof/TaskSort.v, Proof/TaskLines.v, Proof/TaskOracle.v, Proof/TaskProv.v (the
   invariant of a whole run; swallowed refusals: residue of a refused call,
   provenance of every string of the head), Proof/HttpDate.v (the Date value).
   Status, names and values are arbitrary code-point lists of any length.
   Scripts include ATryStart: start_response called inside try/except by an
   application (or wrapper) that swallows the refusal and carries on; every
   theorem quantified over [a : app] covers such scripts. *)
From Coq Require Import String.
From Coq Require Import List NArith ZArith Bool Permutation.
From WV Require Import Lib.PyBytes Gen.GenTables Model.Task Proof.TaskSort Proof.TaskLines Proof.TaskHead
  Proof.TaskStart Proof.TaskRun Proof.TaskOracle Proof.TaskC08 Proof.TaskProv.
Import ListNotations.
Local Open Scope N_scope.

(* The hypothesis under which the generic theorems hold is true of the concrete
   case mapping (and is tested on CPython over all code points by the check). *)
Theorem C08_oracle_instance : forall s, clean s -> clean (py_cap s).
Proof. exact py_cap_clean. Qed.
Print Assumptions C08_oracle_instance.

(* Accepted case.  For every clean task (status and fields free of CR/LF -- the
   invariant start_response maintains, see C08_validated), the emitted head split
   on CRLF is exactly: the status line, the stable-sorted list of the application
   fields (names normalised in letter case only) followed by server fields, and
   two empty strings; none of those lines contains CR or LF; the sort is a
   permutation that keeps fields of equal name in order. *)
Theorem C08_lines : forall c r t t' b,
  cfg_clean c -> task_clean t ->
  build_response_header py_cap py_lower c r t = (t', Ok b) ->
  exists sf,
    Forall (server_field c) sf /\
    let fields := norm_fields py_cap (has_body t) (t_rh t) ++ sf in
    split b CRLF =
      (lit "HTTP/" ++ version_str t ++ [32] ++ t_status t)
        :: map header_line (sort_hdrs fields) ++ [[]; []]
    /\ Forall clean (firstn (S (length fields)) (split b CRLF))
    /\ Permutation (sort_hdrs fields) fields
    /\ (forall n, filter (same_name n) (sort_hdrs fields) = filter (same_name n) fields).
Proof. exact (head_lines_exact py_cap py_lower py_cap_clean). Qed.
Print Assumptions C08_lines.

(* Refusal: a non-string or a CR/LF anywhere in status, names or values, or a
   hop-by-hop name, makes start_response raise (AssertionError / ValueError
   while nothing has been written; the exc_info exception once output began).
   start_response has no access to the channel. *)
Theorem C08_refuse : forall t status headers exc,
  offending py_lower status headers = true ->
  exists e, snd (start_response py_lower t status headers exc) = Exn e
            /\ (t_wrote_header t = false -> e = AssertionError \/ e = ValueError).
Proof. exact (start_response_refuses py_lower). Qed.
Print Assumptions C08_refuse.

(* Acceptance: exactly the strings passed become the task's status and fields
   (after clearing when exc_info is given); nothing else changes but
   complete / content_length. *)
Theorem C08_accept : forall t status headers exc t',
  start_response py_lower t status headers exc = (t', Ok tt) ->
  offending py_lower status headers = false
  /\ t_status t' = str_of status
  /\ t_rh t' = (match exc with Some _ => [] | None => t_rh t end) ++ strs_of headers
  /\ t_complete t' = true
  /\ t_wrote_header t' = t_wrote_header t /\ t_cof t' = t_cof t /\ t_chunked t' = t_chunked t
  /\ t_cbw t' = t_cbw t /\ t_v11 t' = t_v11 t
  /\ (exc <> None -> t_wrote_header t = false).
Proof. exact (start_response_ok py_lower). Qed.
Print Assumptions C08_accept.

(* Whatever start_response is given and whether it raises or not, the task's
   status and fields stay free of CR/LF. *)
Theorem C08_validated : forall t status headers exc,
  task_clean t -> task_clean (fst (start_response py_lower t status headers exc)).
Proof. exact (start_response_clean py_lower). Qed.
Print Assumptions C08_validated.

(* Whole runs: for EVERY script (any actions, any faults, any disconnect, in-place
   mutation of header pairs included -- start_response stores fresh tuples),
   nothing is written before the head and the head is the serialisation
   (C08_lines) of a clean task. *)
Theorem C08_wire : forall c r disc a,
  cfg_clean c ->
  match r_error r with Some e => err_clean e | None => True end ->
  let res := run_task c r a disc in
  (o_wrote_header1 res = false -> o_writes1 res = [])
  /\ (o_wrote_header1 res = true ->
      exists h rest, o_writes1 res = WBytes h :: rest /\ HeadOK py_cap py_lower c r h).
Proof.
  exact (fun c r disc a Hc Hr =>
           wire_prov py_cap py_lower c r disc clean clean_field (fun h => server_field_clean c h Hc) eq_refl a
                     (job_prov_clean py_lower r Hr a)).
Qed.
Print Assumptions C08_wire.

(* A refused start_response before any output (first call, exc_info re-call, ...)
   is answered by the ladder's own 500 ... *)
Theorem C08_refused_500 : forall c r disc a pre status headers exc post s1,
  r_error r = None -> connected disc 0 = true ->
  a_call a = pre ++ AStart status headers exc :: post ->
  run_actions py_cap py_lower c r disc (new_task (r_version r) false, mkChan [] 0) pre = (s1, Ok tt) ->
  t_wrote_header (fst s1) = false ->
  offending py_lower status headers = true ->
  o_served_500 (run_task c r a disc) = true.
Proof. exact (refused_gets_500 py_cap py_lower). Qed.
Print Assumptions C08_refused_500.

(* ... whose bytes are a function of the server configuration, the request's
   version / Connection header and the position of a scripted disconnect:
   response_500 does not take the application as an argument. *)
Theorem C08_500_server_only : forall c r disc a,
  cfg_clean c ->
  match r_error r with Some e => err_clean e | None => True end ->
  let res := run_task c r a disc in
  o_served_500 res = true ->
  o_writes1 res = [] /\ o_writes res = response_500 py_cap py_lower c r disc (o_nws1 res).
Proof. exact (fun c r disc a Hc Hr => served_500_bytes py_cap py_lower c Hc r disc Hr a). Qed.
Print Assumptions C08_500_server_only.

(* Header pairs passed as lists and mutated after validation: no effect on any
   state (before 2730de7 the mutated strings reached the wire). *)
Theorem C08_pair_mutation_harmless : forall c r disc s i isv v,
  run_action py_cap py_lower c r disc s (AMutate i isv v) = (s, Ok tt).
Proof. reflexivity. Qed.
Print Assumptions C08_pair_mutation_harmless.

Theorem C08_pair_alias_instance :
  exists h rest,
    o_writes (run_task sample_cfg sample_req alias_app None) = WBytes h :: rest
    /\ In (lit "X-A: ok") (split h CRLF) /\ ~ In (lit "Set-Cookie: evil=1") (split h CRLF).
Proof.
  vm_compute. eexists. eexists. split; [reflexivity|]. split; [simpl; tauto|].
  simpl. intro H. repeat (destruct H as [H|H]; [discriminate H|]). exact H.
Qed.
Print Assumptions C08_pair_alias_instance.

(* Applications that catch a refusal of start_response and carry on. *)

(* The swallowed call itself: no exception, nothing written; the task is the one
   start_response left behind at its raise site. *)
Theorem C08_swallow_silent : forall c r disc s status headers exc,
  exists t, run_action py_cap py_lower c r disc s (ATryStart status headers exc) = ((t, snd s), Ok tt)
            /\ t = fst (start_response py_lower (fst s) status headers exc).
Proof.
  intros c r disc s status headers exc. cbn [run_action].
  destruct (start_response py_lower (fst s) status headers exc) as [t o]. exists t. auto.
Qed.
Print Assumptions C08_swallow_silent.

(* Every raise site of start_response: the task is untouched (refused at the
   door), or complete = True, the fields are the old ones ([] after exc_info) --
   never extended --, the status is the old one or the call's own status once it
   passed the str and CR/LF checks, and content_length is the old one (None once
   exc_info cleared the headers): a length declared by a call that is refused --
   also when a LATER pair is refused -- is never recorded (/repo fix 5926e3b). *)
Theorem C08_refusal_residue : forall t status headers exc t' e,
  start_response py_lower t status headers exc = (t', Exn e) ->
  t' = t
  \/ (t_complete t' = true
      /\ t_rh t' = match exc with Some _ => [] | None => t_rh t end
      /\ (exc <> None -> t_wrote_header t = false)
      /\ t_clen t' = match exc with Some _ => None | None => t_clen t end
      /\ ((bad_obj status = true /\ t_status t' = t_status t)
          \/ (exists s, status = PStr s /\ has_crlf s = false /\ t_status t' = s))).
Proof. exact (start_response_residue py_lower). Qed.
Print Assumptions C08_refusal_residue.

(* Provenance is kept by start_response whether it returns or raises, for ANY
   notion P of admissible status and Q of admissible field to which the call
   contributes its status only if that passes its own checks and its pairs only
   if the call is acceptable as a whole. *)
Theorem C08_start_provenance : forall (P : str -> Prop) (Q : str * str -> Prop) t status headers exc,
  task_from P Q t -> call_ok py_lower P Q status headers ->
  task_from P Q (fst (start_response py_lower t status headers exc)).
Proof. exact (start_response_prov py_lower). Qed.
Print Assumptions C08_start_provenance.

(* Whole runs, every script (propagating and swallowed refusals, any faults, any
   disconnect): the head on the wire is the serialisation of a task whose status
   is the default or the status argument of one of the script's start_response
   calls that passed the status checks, and each of whose fields was passed in
   a call of the script that start_response accepts as a whole, or is a server
   field.  A string start_response refuses never reaches the wire. *)
Theorem C08_wire_accepted : forall c r disc a,
  r_error r = None ->
  let res := run_task c r a disc in
  o_wrote_header1 res = true ->
  exists h rest t0 t1,
    o_writes1 res = WBytes h :: rest
    /\ status_vetted a (t_status t0) /\ Forall (field_ok py_lower c a) (t_rh t0)
    /\ build_response_header py_cap py_lower c r t0 = (t1, Ok h).
Proof. exact (fun c r disc a => wire_accepted py_cap py_lower c r disc a). Qed.
Print Assumptions C08_wire_accepted.

(* ... line by line *)
Theorem C08_wire_accepted_lines : forall c r disc a,
  cfg_clean c -> r_error r = None ->
  let res := run_task c r a disc in
  o_wrote_header1 res = true ->
  exists h rest t0 sf,
    o_writes1 res = WBytes h :: rest
    /\ status_vetted a (t_status t0) /\ Forall (field_ok py_lower c a) (t_rh t0)
    /\ Forall (server_field c) sf
    /\ let fields := norm_fields py_cap (has_body t0) (t_rh t0) ++ sf in
       split h CRLF =
         (lit "HTTP/" ++ version_str t0 ++ [32] ++ t_status t0)
           :: map header_line (sort_hdrs fields) ++ [[]; []]
       /\ Forall clean (firstn (S (length fields)) (split h CRLF)).
Proof. exact (fun c r disc a Hc => wire_accepted_lines py_cap py_lower c r disc py_cap_clean Hc a). Qed.
Print Assumptions C08_wire_accepted_lines.

(* what "vetted" excludes *)
Theorem C08_vetted_clean : forall c a,
  cfg_clean c ->
  (forall s, status_vetted a s -> clean s) /\ (forall f, field_ok py_lower c a f -> clean_field f).
Proof.
  intros c a Hc. split. apply status_vetted_clean.
  intros f [H|H]; [eapply field_vetted_clean; eauto|apply (server_field_clean c); auto].
Qed.
Print Assumptions C08_vetted_clean.

(* The three sequences of seeded change C08-w2m2 (refused first call swallowed;
   valid call then refused exc_info re-call; refused re-call then write()):
   nothing of the refused status is in the head. *)
Theorem C08_swallowed_instances :
  head_lines_of swallow_first_app =
    Some [lit "HTTP/1.1 200 OK"; lit "Content-Length: 5";
          lit "Date: Thu, 01 Jan 2026 00:00:00 GMT"; lit "Server: waitress"; []; []]
  /\ head_lines_of swallow_excinfo_app =
    Some [lit "HTTP/1.1 200 OK"; lit "Content-Length: 5";
          lit "Date: Thu, 01 Jan 2026 00:00:00 GMT"; lit "Server: waitress"; []; []]
  /\ head_lines_of swallow_write_app =
    Some [lit "HTTP/1.1 200 OK"; lit "Connection: close";
          lit "Date: Thu, 01 Jan 2026 00:00:00 GMT"; lit "Server: waitress";
          lit "Transfer-Encoding: chunked"; []; []].
Proof. vm_compute. repeat split; reflexivity. Qed.
Print Assumptions C08_swallowed_instances.

(* Observation (not a breach of C08: every emitted string passed its own
   validation): a refused call is not atomic.  The stricter statement "the
   status on the wire belongs to a call accepted as a whole, or is the default"
   is refuted by  try: start_response("404 Not Found", [("Content-Length","3"),
   ("X-Bad\n","v")]) except ValueError: pass; return [b"hello"]  -- the wire says
   404 Not Found.  (Until /repo fix 5926e3b it also said Content-Length: 3 and
   "hel": the length declared by the refused call was applied; now the length is
   the server's own, of the single chunk.) *)
Theorem C08_strict_status_refuted : ~ strict_status_statement.
Proof.
  intro H. specialize (H sample_cfg sample_req None residue_app sample_cfg_clean eq_refl).
  cbn zeta in H. specialize (H ltac:(vm_compute; reflexivity)).
  destruct H as (h & rest & s & Hw & Hs & Hl).
  vm_compute in Hw. injection Hw as <- _.
  destruct Hs as [->|(headers & x & Hin & Hc & Hoff)].
  - vm_compute in Hl. discriminate Hl.
  - destruct Hin as [<-|[]]. cbn [call_of] in Hc. injection Hc as <- <-.
    vm_compute in Hoff. discriminate Hoff.
Qed.
Print Assumptions C08_strict_status_refuted.

Theorem C08_residue_instance :
  o_writes (run_task sample_cfg sample_req residue_app None) =
    [WBytes (lit "HTTP/1.1 404 Not Found" ++ CRLF ++ lit "Content-Length: 5" ++ CRLF
             ++ lit "Date: Thu, 01 Jan 2026 00:00:00 GMT" ++ CRLF ++ lit "Server: waitress" ++ CRLF ++ CRLF);
     WBytes (lit "hello")].
Proof. vm_compute. reflexivity. Qed.
Print Assumptions C08_residue_instance.

(* the hypotheses are satisfiable *)
Example C08_example_cfg : cfg_clean sample_cfg.
Proof. exact sample_cfg_clean. Qed.

(* The server's own Date field (Model/HttpDate.v: build_http_date over a Gallina gmtime -- days since
   1970-01-01 turned into a civil date by the era / day-of-era computation; the name tables are compared
   with the source on every run and K-date runs the real function).  The theorems above assume
   "cfg_clean c": the ident and the date of the configuration contain no CR / LF.  For the date this is
   no assumption: for EVERY time stamp the value consists of printable ASCII only, and up to the year
   9999 it is an IMF-fixdate  Www, DD Mon YYYY HH:MM:SS GMT  of 29 characters (month and day bounds by linear
   arithmetic over the era / day-of-era computation; digit counts by induction on the number of decimal digits). *)
From WV Require Model.HttpDate Proof.HttpDate.
Module HD := WV.Model.HttpDate.
Module HDP := WV.Proof.HttpDate.

Theorem C08_date_clean : forall when : N,
  clean (HD.build_http_date when) /\ Forall HDP.printable (HD.build_http_date when).
Proof.
  exact (fun when => conj (proj2 (Bool.orb_false_iff _ _) (HDP.date_memb_crlf when)) (HDP.date_printable when)).
Qed.
Print Assumptions C08_date_clean.

Theorem C08_date_shape : forall when : N,
  (1000 <= HD.tm_year (HD.gmtime when) <= 9999)%N ->
  exists W D M Y h m s,
    HD.build_http_date when = W ++ [44; 32] ++ D ++ [32] ++ M ++ [32] ++ Y ++ [32] ++ h ++ [58] ++ m ++ [58] ++ s ++ [32; 71; 77; 84] /\
    In W HD.weekdayname /\ In M HD.monthname /\
    length D = 2%nat /\ length Y = 4%nat /\ length h = 2%nat /\ length m = 2%nat /\ length s = 2%nat /\
    Forall HDP.digit D /\ Forall HDP.digit Y /\ Forall HDP.digit h /\ Forall HDP.digit m /\ Forall HDP.digit s /\
    length (HD.build_http_date when) = 29%nat.
Proof. exact HDP.date_shape. Qed.
Print Assumptions C08_date_shape.

Theorem C08_date_examples :
  HD.build_http_date 0 = [84;104;117;44;32;48;49;32;74;97;110;32;49;57;55;48;32;48;48;58;48;48;58;48;48;32;71;77;84]%N /\
  HD.tm_year (HD.gmtime 951782400) = 2000%N /\ HD.tm_mon (HD.gmtime 951782400) = 2%N /\ HD.tm_mday (HD.gmtime 951782400) = 29%N /\
  HD.tm_year (HD.gmtime 253402300799) = 9999%N.
Proof. exact HDP.date_examples. Qed.
Print Assumptions C08_date_examples.
