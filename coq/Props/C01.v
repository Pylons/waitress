(* C01 -- Request framing is unambiguous and agrees with RFC 9112.
   Short proofs stand under their statement, the others in Proof/C01*.v.  The goal statement is
   C01Observe.C01_full (observe (feed a [s]) = ref_run a s).  It is false of the code as it is
   (C01_full_is_refuted): trailer lines are not validated (F10).  Proved, each for all inputs:
   T1 the head (field lines, request line), T2 bodies (fixed; chunked with the F10 switch, _dev,
   and against the strict reference outside it, _partial, with the witness _refuted), T3 the
   framing decision, T5 the close decision, the refusal theorems (C01_refuse_...), T4a where the
   head ends, T13 = T1 + T3 over the bytes of a head, and T4 the composition over a whole
   pipelined stream (C01_T4_..., C01_full_dev_...) under two side conditions. *)
From Coq Require Import List NArith ZArith Bool Lia.
From WV Require Import Lib.PyBytes Lib.Regex Gen.GenRegex Model.Receiver Model.UrlSplit Model.Parser Model.ChanSeq.
From WV Require Import Spec.Ref9112 Proof.C01Lib Proof.C01Framing Proof.C01Head Proof.C01Body Proof.C01Close
  Proof.C01Refuse Proof.C01Boundary Proof.C01ReqLine Proof.C01Block Proof.C01ParseHeader Proof.C01Observe.
Import ListNotations.
Local Open Scope N_scope.


Theorem C01_T1_field_line : forall h l, line_ok l ->
  add_header_line h l = match parse_field_line l with
                        | None => inl EInvalidHeader
                        | Some f => ref_add h f
                        end.
Proof. exact add_header_line_ref. Qed.
Print Assumptions C01_T1_field_line.

Theorem C01_T1_head : forall ls, Forall bytes_ok ls -> Forall (fun l => l <> []) ls ->
  match header_lines_go ls [] with
  | inl e => head_fields ls = None /\ perr_code e = 400
  | inr joined =>
    match add_header_lines [] joined with
    | inl (e, _) => head_fields ls = None /\ perr_code e = 400
    | inr h => exists fs, head_fields ls = Some fs /\ combined fs = h
    end
  end.
Proof. exact head_equiv. Qed.
Print Assumptions C01_T1_head.

Theorem C01_T1_request_line : forall l, bytes_ok l -> has_crlf_byte l = false ->
  match crack_first_line l with
  | None => request_line_shape l = None
  | Some (m, u, v) =>
    if beqb m [] && beqb u [] && beqb v [] then request_line_shape l = None
    else request_line_shape l = Some (m, u, v)
  end.
Proof. exact request_line_equiv. Qed.
Print Assumptions C01_T1_request_line.


Theorem C01_T2_fixed : forall n s, 0 < n -> n <= lenN s ->
  fixed_received (fixed_init n) s =
  ({| f_remain := 0; f_buf := firstn (N.to_nat n) s; f_completed := true |}, Z.of_N n).
Proof. exact fixed_equiv_complete. Qed.
Print Assumptions C01_T2_fixed.

Theorem C01_T2_fixed_short : forall n s, lenN s < n ->
  fixed_received (fixed_init n) s =
  ({| f_remain := n - lenN s; f_buf := s; f_completed := false |}, Z.of_N (lenN s)).
Proof. exact fixed_equiv_incomplete. Qed.
Print Assumptions C01_T2_fixed_short.

Theorem C01_T2_chunked_dev : forall s, bytes_ok s ->
  agrees (ref_chunked d_recv s) (chunked_received chunked_init s) (Z.of_nat (length s)) (lenN s).
Proof. exact chunked_equiv_dev. Qed.
Print Assumptions C01_T2_chunked_dev.

Theorem C01_T2_chunked_partial : forall s, bytes_ok s ->
  ref_chunked no_devs s = ref_chunked d_recv s ->
  agrees (ref_chunked no_devs s) (chunked_received chunked_init s) (Z.of_nat (length s)) (lenN s).
Proof. intros s Hok E. rewrite E. apply chunked_equiv_dev. exact Hok. Qed.
Print Assumptions C01_T2_chunked_partial.

Theorem C01_T2_chunked_done : forall s body rest, bytes_ok s ->
  ref_chunked d_recv s = ChDone body rest ->
  exists st, chunked_received chunked_init s = Some (st, Z.of_nat (length s - length rest))
             /\ c_completed st = true /\ c_error st = None /\ c_buf st = body.
Proof.
  intros s body rest Hok H. pose proof (chunked_equiv_dev s Hok) as A. rewrite H in A.
  destruct A as (st & A & B). exists st. split; auto. rewrite A. f_equal. f_equal.
  apply read_chunks_le in H. lia.
Qed.
Print Assumptions C01_T2_chunked_done.

Theorem C01_T2_refuted_trailer :
  ref_chunked no_devs f10_body = ChBad (lenN f10_body) /\
  exists st, chunked_received chunked_init f10_body = Some (st, 10%Z) /\ c_completed st = true /\ c_error st = None.
Proof. split; [vm_compute; reflexivity|]. eexists. vm_compute. repeat split. Qed.
Print Assumptions C01_T2_refuted_trailer.


Theorem C01_T3_parse_header : forall a p hp index lines h1 cmd uri ver sc nl pa qu fr,
  chunked p = false -> body p = None -> connection_close p = false ->
  find hp CRLF = Some index ->
  let fl := rstrip_by is_reqline_ws (firstn index hp) in
  has_cr_or_lf fl = false ->
  get_header_lines (skipn (index + 2) hp) = inr lines ->
  add_header_lines (headers p) lines = inr h1 ->
  crack_first_line fl = Some (cmd, uri, ver) ->
  beqb cmd [] && beqb uri [] && beqb ver [] = false ->
  split_uri uri = SOk sc nl pa qu fr ->
  let '(p', st) := parse_header a p hp in
  command p' = cmd /\ request_uri p' = uri /\ version p' = ver /\
  match model_framing h1 ver with
  | MRefuse e => st = PSError e
  | MChunked =>
      st = PSOk /\ chunked p' = true /\ body p' = Some (BChunked chunked_init)
      /\ headers p' = hpop (hpop h1 s_TRANSFER_ENCODING) s_CONTENT_LENGTH
      /\ connection_close p' = model_cc h1 ver
  | MLen n =>
      st = PSOk /\ chunked p' = false /\ body p' = Some (BFixed (fixed_init n)) /\ content_length p' = n
      /\ connection_close p' = model_cc h1 ver
  | MNone =>
      st = PSOk /\ chunked p' = false /\ body p' = None /\ content_length p' = 0
      /\ connection_close p' = model_cc h1 ver
  end.
Proof.
  intros a p hp index lines h1 cmd uri ver sc nl pa qu fr Hch Hbody Hcc Hfind fl Hcr Hlines Hadd Hcrack Hne Hsplit.
  rewrite (parse_header_found a p hp index Hfind Hcr). fold fl. cbv zeta. cbn [headers RecordUpdate.RecordSet.set].
  rewrite Hlines, Hadd, Hcrack, Hne.
  match goal with |- context [ParserTotal.ph_mid a ?q h1 uri ver] =>
    pose proof (ph_mid_framing a q h1 uri ver sc nl pa qu fr Hch Hbody Hcc eq_refl Hsplit) as M;
    destruct (ParserTotal.ph_mid a q h1 uri ver) as [p' st] end.
  destruct M as ((M1 & M2 & M3) & M). repeat (split; [assumption|]).
  destruct (model_framing h1 ver); tauto.
Qed.
Print Assumptions C01_T3_parse_header.

Theorem C01_T3_framing : forall h ver,
  (forall v, hget h s_CONTENT_LENGTH = Some v -> clean v = true) ->
  choice_framing (model_framing h ver) = framing_of ver h.
Proof. exact framing_decision. Qed.
Print Assumptions C01_T3_framing.


Theorem C01_T5_close : forall dict ver,
  (forall v, hget dict s_CONTENT_LENGTH = Some v -> clean v = true) ->
  model_close ver (hget_default dict s_CONNECTION []) (model_cc dict ver) = close_after_of ver dict.
Proof. exact close_decision. Qed.
Print Assumptions C01_T5_close.


Theorem C01_refuse_bare_cr_lf : forall ls l r,
  In l ls -> has_cr_or_lf l = true ->
  exists e, header_lines_go ls r = inl e /\ perr_code e = 400.
Proof.
  induction ls as [|x ls IH]; intros l r Hin Hc; [contradiction|].
  cbn [header_lines_go]. destruct Hin as [->|Hin].
  - destruct l as [|c l']; [discriminate|]. rewrite Hc. eexists; split; reflexivity.
  - destruct x as [|c x']; [eauto|].
    destruct (has_cr_or_lf (c :: x')); [eexists; split; reflexivity|].
    destruct ((c =? 32) || (c =? 9)).
    + destruct r; [eexists; split; reflexivity|]. eauto.
    + eauto.
Qed.
Print Assumptions C01_refuse_bare_cr_lf.

Theorem C01_refuse_bad_field_name : forall pre post h,
  line_ok (pre ++ 58 :: post) ->
  forallb (fun x => negb (x =? 58)) pre = true ->
  nonempty pre && forallb is_tchar pre = false ->
  add_header_line h (pre ++ 58 :: post) = inl EInvalidHeader.
Proof.
  intros pre post h Hl Hc Hn. rewrite memb_forallb in Hc. apply negb_true_iff in Hc.
  rewrite (add_header_line_ref h _ Hl). unfold parse_field_line.
  rewrite split_colon_some by exact Hc. simpl app. rewrite Hn. reflexivity.
Qed.
Print Assumptions C01_refuse_bad_field_name.

Theorem C01_refuse_repeated_single : forall h l name value old, line_ok l ->
  parse_field_line l = Some (name, value) -> memb 95 name = false ->
  is_single_key (norm_name name) = true -> hget h (norm_name name) = Some old ->
  add_header_line h l = inl EDuplicateHeader.
Proof.
  intros h l name value old Hl Hp Hu Hs Hg. rewrite (add_header_line_ref h l Hl), Hp.
  unfold ref_add. rewrite Hu, Hs. change lookup with hget. rewrite Hg. reflexivity.
Qed.
Print Assumptions C01_refuse_repeated_single.

Theorem C01_refuse_repeated_single_ref : forall fs1 n1 v1 fs2 n2 v2 fs3 seen k,
  is_single_key k = true -> norm_name n1 = k -> norm_name n2 = k ->
  no_repeated_single seen (fs1 ++ (n1, v1) :: fs2 ++ (n2, v2) :: fs3) = false.
Proof.
  induction fs1 as [|[n0 v0] fs1 IH]; intros n1 v1 fs2 n2 v2 fs3 seen k Hs H1 H2; cbn [app no_repeated_single].
  - rewrite H1, Hs. destruct (existsb (beqb k) seen); cbn [andb]; auto.
    apply (seen_stays k); auto. cbn [existsb]. rewrite beqb_refl. reflexivity.
  - destruct (is_single_key (norm_name n0) && existsb (beqb (norm_name n0)) seen); auto.
    apply (IH _ _ _ _ _ _ _ k); auto.
Qed.
Print Assumptions C01_refuse_repeated_single_ref.

Theorem C01_refuse_bad_content_length : forall h ver v,
  hget h s_TRANSFER_ENCODING = None ->
  hget h s_CONTENT_LENGTH = Some v -> clean v = true ->
  nonempty v && forallb is_dig v = false ->
  model_framing h ver = MRefuse EContentLengthInvalid.
Proof.
  intros h ver v Hte Hcl Hc Hd. unfold model_framing, model_te_stage.
  assert (E : te_encodings (hget_default h s_TRANSFER_ENCODING []) = []).
  { unfold hget_default. rewrite Hte. reflexivity. }
  assert (G : forall h', hget h' s_CONTENT_LENGTH = Some v -> model_cl_stage h' = MRefuse EContentLengthInvalid).
  { intros h' H'. unfold model_cl_stage, hget_default. rewrite H'.
    rewrite (gate_content_length_digits v Hc), Hd. reflexivity. }
  destruct (beqb ver s_1_1).
  - rewrite E. cbn [forallb negb]. apply G. rewrite C01Dict.hget_hpop_other by reflexivity. exact Hcl.
  - apply G. exact Hcl.
Qed.
Print Assumptions C01_refuse_bad_content_length.

Theorem C01_refuse_bad_transfer_encoding : forall h,
  te_encodings (hget_default h s_TRANSFER_ENCODING []) <> [] ->
  te_encodings (hget_default h s_TRANSFER_ENCODING []) <> [s_chunked] ->
  exists e, model_framing h s_1_1 = MRefuse e /\ perr_code e = 501.
Proof.
  intro h. unfold model_framing, model_te_stage. cbn [beqb s_1_1 N.eqb Pos.eqb andb].
  generalize (te_encodings (hget_default h s_TRANSFER_ENCODING [])) as encs.
  intros encs Hne Hn1.
  destruct (forallb (fun e => beqb e s_chunked) encs) eqn:Ea; cbn [negb].
  - destruct encs as [|e [|e2 rest]]; [exfalso; apply Hne; reflexivity| |].
    + exfalso. apply Hn1. cbn [forallb] in Ea. rewrite andb_true_r in Ea. apply beqb_eq in Ea.
      rewrite Ea. reflexivity.
    + cbn [length Nat.eqb negb]. eexists; split; reflexivity.
  - eexists; split; reflexivity.
Qed.
Print Assumptions C01_refuse_bad_transfer_encoding.

Theorem C01_cl_with_te_is_chunked : forall h,
  te_encodings (hget_default h s_TRANSFER_ENCODING []) = [s_chunked] ->
  model_framing h s_1_1 = MChunked.
Proof.
  intros h E. unfold model_framing, model_te_stage. cbn [beqb s_1_1 N.eqb Pos.eqb andb].
  rewrite E. reflexivity.
Qed.
Print Assumptions C01_cl_with_te_is_chunked.

Theorem C01_refuse_non_ascii_target : forall uri,
  existsb (fun x => 128 <=? x) uri = true -> split_uri uri = SBadURI.
Proof.
  intros uri H. unfold split_uri. destruct (beqb (firstn 2 uri) [47; 47]).
  - rewrite H. reflexivity.
  - unfold urlsplit. rewrite H. reflexivity.
Qed.
Print Assumptions C01_refuse_non_ascii_target.


Theorem C01_T4_head_boundary : forall s,
  match read_head s [] [] 0, find_double_newline s with
  | Some (_, rest, n), Some i => n = N.of_nat i /\ rest = skipn i s
  | None, None => True
  | _, _ => False
  end.
Proof. exact head_boundary. Qed.
Print Assumptions C01_T4_head_boundary.

Theorem C01_T4_head_lines : forall s lines rest n,
  read_head s [] [] 0 = Some (lines, rest, n) ->
  s = (block_of lines ++ CRLF) ++ rest /\ forallb crlf_free lines = true.
Proof. exact read_head_lines. Qed.
Print Assumptions C01_T4_head_lines.


Theorem C01_T13_parse_header : forall a rl flines,
  bytes_ok rl -> has_crlf_byte rl = false -> rstrip_by is_reqline_ws rl = rl ->
  Forall bytes_ok flines -> Forall (fun l => l <> []) flines -> forallb crlf_free flines = true ->
  let '(p', st) := parse_header a parser_init (head_block rl flines) in
  match ref_head rl flines with
  | None => exists e, st = PSError e /\ perr_code e = 400
  | Some ((m, t, v), fs) =>
    match split_uri t with
    | SBadURI => st = PSError EBadURI
    | SOk _ _ _ _ _ =>
      command p' = m /\ request_uri p' = t /\ version p' = v /\
      match framing_of v (combined fs) with
      | FrRefuse code => exists e, st = PSError e /\ perr_code e = code
      | FrChunked =>
          st = PSOk /\ chunked p' = true /\ body p' = Some (BChunked chunked_init)
          /\ headers p' = hpop (hpop (combined fs) s_TRANSFER_ENCODING) s_CONTENT_LENGTH
          /\ connection_close p' = model_cc (combined fs) v
      | FrLength n =>
          st = PSOk /\ chunked p' = false /\ body p' = Some (BFixed (fixed_init n)) /\ content_length p' = n
          /\ connection_close p' = model_cc (combined fs) v
      | FrNone => st = PSOk /\ chunked p' = false /\ body p' = None /\ connection_close p' = model_cc (combined fs) v
      end
    | _ => True
    end
  end.
Proof.
  intros a rl flines Hok Hc Htight Hokf Hnef Hfree.
  pose proof (parse_header_head a rl flines Hok Hc Htight Hokf Hnef Hfree) as T.
  destruct (parse_header a parser_init (head_block rl flines)) as [p' st].
  destruct (ref_head rl flines) as [[[[m t] v] fs]|]; [|exact T].
  destruct (split_uri t); auto. destruct T as (T1 & T2 & T3 & T). repeat (split; [assumption|]).
  destruct (framing_of v (combined fs)); tauto.
Qed.
Print Assumptions C01_T13_parse_header.


Theorem C01_full_is_refuted : ~ C01_full.
Proof.
  intro H. specialize (H adj0 f10_stream).
  assert (Hok : bytes_ok f10_stream) by (apply bytes_ok_dec; reflexivity).
  specialize (H Hok). vm_compute in H. discriminate H.
Qed.
Print Assumptions C01_full_is_refuted.

(* Proof/C01Compose*.v.  [targets_ok s]: on every substring of s that has the shape of a
   request-target, urlsplit (as modelled) is defined and refuses exactly the targets that
   RFC 3986 (the reference's target_policy) refuses; it holds e.g. for every stream without
   '[' and ']' (C01_targets_ok_no_brackets).  C01_full_dev itself (no side condition) is
   false of the model: C01_full_dev_is_refuted and the witness lemmas (two classes are left: a zero body
   limit, and bracketed hosts the urlsplit model does not cover; the third -- a control byte in the target --
   was closed by the /repo fix that refuses control characters in the request-target). *)
From WV Require Proof.SplitParser Proof.SplitChan.
From WV Require Import Proof.C01ComposeLib Proof.C01ComposeHead Proof.C01ComposeBody Proof.C01Compose Proof.C01ComposeTop.

(* per message, the head: a fresh parser offered the stream consumes exactly the head the
   reference reads and ends in the reference's outcome (empty / refusal / request line,
   field dict, framing decision with the receiver installed) *)
Theorem C01_T4_head_step : forall a s lines rest n,
  bytes_ok s -> targets_ok s -> read_head s [] [] 0 = Some (lines, rest, n) ->
  (max_request_header_size a <=? n) = false ->
  exists p, received a parser_init s = ROk p (Z.of_N n) /\ head_rel a p (ref_head_out (cfg_of a) lines).
Proof. exact head_step. Qed.
Print Assumptions C01_T4_head_step.

(* the channel loop, from any state between two messages: the requests queued so far plus
   what the reference extracts from the rest of the stream *)
Theorem C01_T4_loop : forall a, 0 < max_request_body_size a ->
  forall n s, (length s <= n)%nat -> forall fuel rf c L c',
  s <> [] -> bytes_ok s -> targets_ok s -> (length s < fuel)%nat -> (length s < rf)%nat ->
  request c = None -> cut (map obs_of_parser (requests c)) = (L, false) ->
  received_loop fuel a c s = COk c' ->
  observe (COk c') = Some (L ++ map ref_view (ref_loop rf (cfg_of a) all_devs s)).
Proof. exact compose_loop. Qed.
Print Assumptions C01_T4_loop.

(* C01_full_dev under its two side conditions *)
Theorem C01_full_dev_partial : forall a s,
  0 < max_request_body_size a -> bytes_ok s -> targets_ok s ->
  observe (feed a chan_init [s]) = Some (map ref_view (ref_run_dev (cfg_of a) all_devs s)).
Proof.
  intros a s Hmb Hok Htg. destruct (feed_modelled a s Hok Htg) as (c' & E). rewrite E.
  apply compose_one_read; auto.
Qed.
Print Assumptions C01_full_dev_partial.

(* C01_full (strict reference) wherever the F10 switch makes no difference on the stream *)
Theorem C01_full_partial : forall a s,
  0 < max_request_body_size a -> bytes_ok s -> targets_ok s ->
  ref_run (cfg_of a) s = ref_run_dev (cfg_of a) all_devs s ->
  observe (feed a chan_init [s]) = Some (map ref_view (ref_run (cfg_of a) s)).
Proof. intros a s Hmb Hok Htg E. rewrite E. apply C01_full_dev_partial; auto. Qed.
Print Assumptions C01_full_partial.

Theorem C01_targets_ok_no_brackets : forall s, memb 91 s = false -> memb 93 s = false -> targets_ok s.
Proof. exact targets_ok_nobracket. Qed.
Print Assumptions C01_targets_ok_no_brackets.

Theorem C01_full_dev_no_brackets : forall a s,
  0 < max_request_body_size a -> bytes_ok s -> memb 91 s = false -> memb 93 s = false ->
  observe (feed a chan_init [s]) = Some (map ref_view (ref_run_dev (cfg_of a) all_devs s)).
Proof. intros a s Hmb Hok H1 H2. apply C01_full_dev_partial; auto. apply targets_ok_nobracket; auto. Qed.
Print Assumptions C01_full_dev_no_brackets.

(* the model never answers "unmodelled" under the hypothesis on targets *)
Theorem C01_feed_modelled : forall a s, bytes_ok s -> targets_ok s -> exists c', feed a chan_init [s] = COk c'.
Proof. exact feed_modelled. Qed.
Print Assumptions C01_feed_modelled.

(* every segmentation, with C02: the events of any division of the stream into reads, up to
   and including the first refused request, are those of the single read; those are the
   queued requests; and they observe as the reference's list *)
Theorem C01_full_dev_any_segmentation : forall a reads,
  0 < max_request_body_size a -> bytes_ok (concat reads) -> targets_ok (concat reads) ->
  SplitChan.cut (snd (SplitChan.feed_tr true a chan_init reads))
  = SplitChan.cut (snd (SplitChan.feed_tr true a chan_init [concat reads]))
  /\ exists c' t, SplitChan.feed_tr true a chan_init [concat reads] = (COk c', t)
       /\ map (SplitParser.obs true) (requests c') = flat_map SplitChan.ev_reqs t
       /\ observe (COk c') = Some (map ref_view (ref_run_dev (cfg_of a) all_devs (concat reads))).
Proof.
  intros a reads Hmb Hok Htg. split; [apply SplitChan.split_vs_whole|].
  destruct (feed_modelled a (concat reads) Hok Htg) as (c' & E).
  pose proof (SplitChan.feed_tr_fst true a [concat reads] chan_init) as F. rewrite E in F.
  destruct (SplitChan.feed_tr true a chan_init [concat reads]) as [res t] eqn:ET. cbn [fst] in F. subst res.
  exists c', t. split; [reflexivity|]. split.
  - destruct (SplitChan.feed_trace true a [concat reads] chan_init c' t ET) as (_ & R). exact R.
  - apply compose_one_read; auto.
Qed.
Print Assumptions C01_full_dev_any_segmentation.

(* outside the side conditions the unconditional statement fails *)
Theorem C01_full_dev_is_refuted : ~ C01_full_dev.
Proof.
  intro H. specialize (H adj_mb0 mb0_stream).
  assert (Hok : bytes_ok mb0_stream) by (apply bytes_ok_dec; reflexivity).
  specialize (H Hok). destruct full_dev_refuted_zero_body_limit as [A B].
  assert (X : Some [OIncomplete] = Some [ORefuse 413]).
  { rewrite <- A, <- B. exact H. }
  discriminate X.
Qed.
Print Assumptions C01_full_dev_is_refuted.

Theorem C01_full_dev_refuted_zero_body_limit :
  observe (feed adj_mb0 chan_init [mb0_stream]) = Some [OIncomplete] /\
  map ref_view (ref_run_dev (cfg_of adj_mb0) all_devs mb0_stream) = [ORefuse 413].
Proof. exact full_dev_refuted_zero_body_limit. Qed.
Print Assumptions C01_full_dev_refuted_zero_body_limit.

Theorem C01_full_dev_c0_target_agree :
  observe (feed adj0 chan_init [c0_target_stream]) = Some [ORefuse 400] /\
  map ref_view (ref_run_dev (cfg_of adj0) all_devs c0_target_stream) = [ORefuse 400].
Proof. split; vm_compute; reflexivity. Qed.
Print Assumptions C01_full_dev_c0_target_agree.

Theorem C01_full_dev_unmodelled_bracket : feed adj0 chan_init [bracket_stream] = CUnmodelled.
Proof. vm_compute. reflexivity. Qed.
Print Assumptions C01_full_dev_unmodelled_bracket.
