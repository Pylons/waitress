(* C03 -- Every response stream is well-framed and persistence is signalled
   truthfully.  Statements and the short proofs.  The others: Proof/TaskChunk.v (chunked coding
   round trip), Proof/TaskFrame.v (the persistence decision table; too few
   bytes close), Proof/TaskBody.v + Proof/TaskSimple.v (plain applications,
   the steps of a run), Proof/TaskClient.v + Proof/TaskFrameClient.v
   (the client of Spec/ClientParse.v reading it back), Proof/TaskFrameEnd.v
   (the head of a plain application), Proof/TaskC09.v (failure after the head closes),
   Proof/TaskC03.v (closed instances, witnesses), Proof/TaskFrame2*.v and
   Proof/TaskC03b.v (the frame theorems, see below), Proof/TaskChanOut.v (down to
   the socket). *)
From Coq Require Import String.
From Coq Require Import List NArith ZArith Bool.
From WV Require Import Lib.PyBytes Gen.GenTables Model.Task Spec.ClientParse
  Proof.TaskHead Proof.TaskStart Proof.TaskRun Proof.TaskChunk Proof.TaskClient Proof.TaskOracle
  Proof.TaskC08 Proof.TaskC09 Proof.TaskFrame Proof.TaskBody Proof.TaskSimple Proof.TaskFrameClient
  Proof.TaskFrameEnd Proof.TaskC03
  Proof.TaskFrame2Sem Proof.TaskFrame2Run Proof.TaskFrame2Head Proof.TaskFrame2End Proof.TaskFrame2Err
  Proof.TaskFrame2File Proof.TaskFrame2FileEnd Proof.TaskC03b.
Import ListNotations.
Local Open Scope N_scope.

(* hex(n)[2:].upper() is read back by int(s, 16), for every n *)
Theorem C03_hex_roundtrip : forall n, hex_value (to_hex_upper n) = n.
Proof. exact hex_roundtrip. Qed.
Print Assumptions C03_hex_roundtrip.

(* chunk_roundtrip: for every list of chunks (empty ones are skipped by
   Task.write) the client decodes the emitted chunked body followed by
   "0\r\n\r\n" to exactly their concatenation and stops exactly at its end,
   whatever follows. *)
Theorem C03_chunk_roundtrip : forall cs rest fuel, (length cs < fuel)%nat ->
  decode_chunked fuel (encode_chunked cs ++ rest) = Some (concat cs, rest).
Proof. exact chunk_roundtrip. Qed.
Print Assumptions C03_chunk_roundtrip.

(* The persistence decision table of build_response_header, complete: for a task
   that has not decided to close yet and carries no Connection field, by HTTP
   version x request Connection x the parser's connection_close verdict x
   whether a Content-Length is known x whether the status has a body: exactly
   which fields are added, close_on_finish and chunked_response. *)
Theorem C03_decision_table : forall conn fc clh t,
  t_cof t = false -> t_wrote_header t = false -> t_chunked t = false -> NoConn py_cap (t_rh t) ->
  let t' := bh_conn py_cap py_lower conn fc clh t in
  let '(add, cof, chk) := conn_table (t_v11 t) conn fc (truthy clh) (has_body t) in
  t_rh t' = t_rh t ++ add /\ t_cof t' = cof /\ t_chunked t' = chk
  /\ t_status t' = t_status t /\ t_clen t' = t_clen t /\ t_cbw t' = t_cbw t
  /\ t_wrote_header t' = false /\ t_v11 t' = t_v11 t /\ t_complete t' = t_complete t.
Proof. exact (bh_conn_table py_cap py_lower py_cap_te). Qed.
Print Assumptions C03_decision_table.

(* announce / keep, read off the table: when the decision is to close, the head
   carries "Connection: close" and not "Keep-Alive"; when it is to keep, it
   carries no "Connection: close" (1.1: nothing; 1.0: exactly "Keep-Alive");
   chunked coding only for HTTP/1.1 without a known length and with a body, and
   then the connection is also closed; and the decision is to close exactly for
   HTTP/1.1 with Connection: close / connection_close / no known length, and for
   HTTP/1.0 unless keep-alive was asked and a length is known. *)
Theorem C03_announce_keep : forall v11 conn fc has_cl hb,
  let '(add, cof, chk) := conn_table v11 conn fc has_cl hb in
  (cof = true -> In f_close add /\ ~ In f_keep add)
  /\ (cof = false -> ~ In f_close add /\ (if v11 then add = [] else add = [f_keep]))
  /\ (chk = true -> v11 = true /\ has_cl = false /\ hb = true /\ In f_chunked add /\ cof = true)
  /\ (cof = true <-> (if v11 then beqb conn (lit "close") || fc || negb has_cl
                     else negb (beqb conn (lit "keep-alive") && negb fc && has_cl)) = true).
Proof.
  (* HTTP/1.1 reads "close" || fc, has_cl and hb; HTTP/1.0 one conjunction *)
  intros v11 conn fc has_cl hb. unfold conn_table, f_close, f_keep, f_chunked.
  destruct v11; [destruct (beqb conn (lit "close") || fc), has_cl, hb|destruct (beqb conn (lit "keep-alive") && negb fc && has_cl)];
    cbn; repeat split; try discriminate; try reflexivity; intros;
    try (solve [intuition (try discriminate; try congruence)]).
Qed.
Print Assumptions C03_announce_keep.

(* close: the application produced a number of bytes different from the declared
   Content-Length (non-HEAD, nothing raised, no hand-over): the connection is
   closed, not reused.  (A failure after the head was sent closes: C09_outcome.) *)
Theorem C03_close_too_few : forall c r a disc cl,
  r_error r = None -> connected disc 0 = true ->
  let res := run_task c r a disc in
  o_raw res = None -> o_handover res = false -> o_iter res = true ->
  t_clen (o_task1 res) = Some cl -> t_cbw (o_task1 res) <> cl -> r_head r = false ->
  o_close res = true /\ o_next res = false.
Proof. exact (fun c r a disc cl => too_few_closes py_cap py_lower c r disc a cl). Qed.
Print Assumptions C03_close_too_few.

(* frame, client side: for every prepared clean task whose field names contain no
   colon, the client reads back the status line and the fields, and
   - chunked: decodes exactly the application's bytes and stops at the end;
   - no Transfer-Encoding / Content-Length: takes everything up to EOF;
   - HEAD / 1xx / 204 / 304: no body, nothing consumed after the head. *)
Theorem C03_client_chunked : forall tp chunks rest,
  task_clean tp -> Forall (fun h => no_colon (fst h)) (t_rh tp) ->
  has_body tp = true -> te_fields tp = [client_field f_chunked] ->
  parse_one false (head_text tp ++ encode_chunked chunks ++ rest)
  = Some (mkResponse (first_line tp) (map client_field (sort_hdrs (t_rh tp))) FChunked (concat chunks), rest).
Proof. exact parse_chunked. Qed.
Print Assumptions C03_client_chunked.

Theorem C03_client_eof : forall tp body,
  task_clean tp -> Forall (fun h => no_colon (fst h)) (t_rh tp) ->
  has_body tp = true -> te_fields tp = [] -> cl_fields tp = [] ->
  parse_one false (head_text tp ++ body)
  = Some (mkResponse (first_line tp) (map client_field (sort_hdrs (t_rh tp))) FEof body, []).
Proof. exact parse_eof. Qed.
Print Assumptions C03_client_eof.

Theorem C03_client_nobody : forall tp is_head rest,
  task_clean tp -> Forall (fun h => no_colon (fst h)) (t_rh tp) ->
  is_head = true \/ has_body tp = false ->
  parse_one is_head (head_text tp ++ rest)
  = Some (mkResponse (first_line tp) (map client_field (sort_hdrs (t_rh tp))) FNoBody [], rest).
Proof. exact parse_nobody. Qed.
Print Assumptions C03_client_nobody.

(* The three end-to-end frame theorems below are named _partial because they
   cover PLAIN applications only (one start_response, header names that play no
   part in framing, a generator or sized iterable of byte chunks, nothing
   raised), not because of any open defect: they are the case "no write() call"
   of C03_frame_write, C03_frame_length_cut and C03_frame_write_head below, which
   also cover write() mixed with iteration and file wrappers.

   frame, end to end through HTTPChannel.service, for plain applications without a
   declared length (one start_response without Content-Length, header names that
   play no part in framing, a generator or a sized iterable of any number <> 1 of
   chunks, empty ones included, non-HEAD, status with a body, client connected,
   nothing raised): the client recovers the status line, every application field
   (name normalised in letter case, value OWS-stripped) and exactly the
   concatenation of the application's chunks -- chunked on HTTP/1.1, close-delimited
   on HTTP/1.0 --, the head says "Connection: close" and the connection is closed. *)
Theorem C03_frame_partial : forall c r status hs kind chunks hc,
  cfg_clean c ->
  r_error r = None -> is_file kind = false -> len1 kind = false -> Forall (not_cl py_lower) hs ->
  plain_fields py_cap (strs_of hs) ->
  r_head r = false ->
  startswith status (lit "1") || startswith status (lit "204") || startswith status (lit "304") = false ->
  let res := run_task c r (simple_app status hs kind chunks hc) None in
  o_raw res = None ->
  exists sl fields,
    parse_one false (wire (o_writes res))
    = Some (mkResponse sl fields
                       (if beqb (r_version r) (lit "1.1") then FChunked else FEof) (concat chunks), [])
    /\ sl = lit "HTTP/" ++ (if beqb (r_version r) (lit "1.1") then lit "1.1" else lit "1.0") ++ [32] ++ status
    /\ (forall h, In h (strs_of hs) -> In (client_field (norm_field py_cap h)) fields)
    /\ In (client_field f_close) fields
    /\ o_close res = true /\ o_next res = false.
Proof.
  (* the case ws = [] of C03_frame_write *)
  intros c r status hs kind chunks hc Hc He Hf Hl Hcl Hp Hh Hst. cbn zeta.
  rewrite simple_app_wapp. unfold run_task. intro Hraw.
  destruct (frame_nolen_w py_cap py_lower py_cap_clean py_cap_te c Hc r status hs [] kind chunks hc
              He (or_introl Hf) Hl Hcl Hp Hh Hst Hraw) as (fields & F1 & F).
  unfold produced in F1. rewrite Hf in F1.
  exists (sl_of r status), fields. split; [exact F1|]. split; [reflexivity|exact F].
Qed.
Print Assumptions C03_frame_partial.

(* ... and for plain applications that declare the exact Content-Length (any
   position of that header, any spelling that lower-cases to "content-length" and
   normalises to "Content-Length", a decimal value): the client reads exactly that
   many bytes, they are the application's bytes, nothing is left over; the
   connection is kept -- the next request is served -- exactly when the head does
   not say "Connection: close" (HTTP/1.1: no Connection: close request header and
   no connection_close verdict; HTTP/1.0: keep-alive asked), and closed exactly
   when it does. *)
Theorem C03_frame_length_partial : forall c r status pre clname v post kind chunks hc cl,
  cfg_clean c ->
  r_error r = None -> is_file kind = false ->
  Forall (not_cl py_lower) pre -> Forall (not_cl py_lower) post ->
  beqb (py_lower clname) (lit "content-length") = true -> py_int v = Some cl ->
  all_digits v = true -> Z.of_N (dec_value v) = cl -> Z.of_nat (length (concat chunks)) = cl ->
  plain_fields py_cap (strs_of pre) -> plain_fields py_cap (strs_of post) ->
  norm_name py_cap clname = lit "Content-Length" ->
  r_head r = false ->
  startswith status (lit "1") || startswith status (lit "204") || startswith status (lit "304") = false ->
  let hs := pre ++ (PStr clname, PStr v) :: post in
  let res := run_task c r (simple_app status hs kind chunks hc) None in
  let keep := if beqb (r_version r) (lit "1.1")
              then negb (beqb (request_connection r) (lit "close") || r_connection_close r)
              else beqb (request_connection r) (lit "keep-alive") && negb (r_connection_close r) in
  o_raw res = None ->
  exists sl fields,
    parse_one false (wire (o_writes res))
    = Some (mkResponse sl fields (FLength (dec_value v)) (concat chunks), [])
    /\ sl = lit "HTTP/" ++ (if beqb (r_version r) (lit "1.1") then lit "1.1" else lit "1.0") ++ [32] ++ status
    /\ (forall h, In h (strs_of hs) -> In (client_field (norm_field py_cap h)) fields)
    /\ o_next res = keep /\ o_close res = negb keep
    /\ (keep = false -> In (client_field f_close) fields)
    /\ (keep = true -> ~ In (client_field f_close) fields).
Proof.
  (* the case ws = [], exactly cl bytes, of C03_frame_length_cut *)
  intros c r status pre clname v post kind chunks hc cl Hc He Hf Hpre Hpost Hn Hv Hdig Hdv Hlen Ppre Ppost Hnorm Hh Hst.
  cbn zeta. rewrite simple_app_wapp. unfold run_task. intro Hraw.
  assert (Hp : produced kind chunks = concat chunks) by (unfold produced; rewrite Hf; reflexivity).
  destruct (frame_len_cut_w py_cap py_lower py_cap_clean py_cap_connection py_cap_te py_cap_cl c Hc r
              status pre post clname v cl [] kind chunks hc He (or_introl Hf) Hpost Hn Hv Hdig Hdv Ppre Ppost Hnorm Hst Hh)
    with (2 := Hraw) as (fields & F1 & F).
  { cbn [concat List.app]. rewrite Hp, Hlen. apply Z.le_refl. }
  cbn [concat List.app] in F1. rewrite Hp in F1.
  replace (N.to_nat (dec_value v)) with (length (concat chunks)) in F1
    by (apply Nat2Z.inj; rewrite Hlen, <- Hdv, N_nat_Z; reflexivity).
  rewrite firstn_all in F1.
  exists (sl_of r status), fields. split; [exact F1|]. split; [reflexivity|exact F].
Qed.
Print Assumptions C03_frame_length_partial.

(* HEAD: a plain application without a declared length that produces no body
   bytes: the client, knowing it asked with HEAD, reads the head and nothing is
   left over, whatever the head says about Transfer-Encoding. *)
Theorem C03_frame_head_partial : forall c r status hs kind chunks hc,
  cfg_clean c ->
  r_error r = None -> is_file kind = false -> len1 kind = false -> Forall (not_cl py_lower) hs ->
  plain_fields py_cap (strs_of hs) ->
  r_head r = true -> all_empty chunks ->
  let res := run_task c r (simple_app status hs kind chunks hc) None in
  o_raw res = None ->
  exists sl fields,
    parse_one true (wire (o_writes res)) = Some (mkResponse sl fields FNoBody [], [])
    /\ sl = lit "HTTP/" ++ (if beqb (r_version r) (lit "1.1") then lit "1.1" else lit "1.0") ++ [32] ++ status
    /\ (forall h, In h (strs_of hs) -> In (client_field (norm_field py_cap h)) fields).
Proof.
  (* the case ws = [] of C03_frame_write_head *)
  intros c r status hs kind chunks hc Hc He Hf Hl Hcl Hp Hh Ha. cbn zeta.
  rewrite simple_app_wapp. unfold run_task. intro Hraw.
  destruct (frame_head_nolen_w py_cap py_lower py_cap_clean py_cap_te c Hc r status hs [] kind chunks hc
              He (or_introl Hf) Hl Hcl Hp Hh) with (2 := Hraw) as (fields & F1 & F2 & _).
  { unfold produced. rewrite Hf. apply all_empty_concat. exact Ha. }
  exists (sl_of r status), fields. split; [exact F1|]. split; [reflexivity|exact F2].
Qed.
Print Assumptions C03_frame_head_partial.

(* A task that has already decided to close before its head is built (every
   ErrorTask; a WSGI task that found too few bytes) takes the plain close branch
   on HTTP/1.0: no Keep-Alive is announced next to Connection: close. *)
Theorem C03_closed_task_no_keepalive : forall conn fc clh t,
  t_v11 t = false -> t_cof t = true ->
  bh_conn py_cap py_lower conn fc clh t = set_close_on_finish py_cap py_lower t.
Proof.
  intros conn fc clh t V C. unfold bh_conn. rewrite V, C. cbn [negb]. rewrite andb_false_r. reflexivity.
Qed.
Print Assumptions C03_closed_task_no_keepalive.

(* The three classes repaired in /repo (b49920f, 766d449, 5ee3173), as instances. *)
Theorem C03_head_nothing_left :
  let res := run_task sample_cfg head_req empty_app None in
  exists resp, parse_stream [true] (wire (o_writes res)) = ([resp], [])
               /\ rs_framing resp = FNoBody.
Proof. vm_compute. eexists. split; reflexivity. Qed.
Print Assumptions C03_head_nothing_left.

Theorem C03_error_single_connection_field :
  let res := run_task sample_cfg ka10_req failing_app None in
  exists resp, parse_stream [false] (wire (o_writes res)) = ([resp], [])
               /\ filter (field_is (lit "connection")) (rs_fields resp) = [(lit "Connection", lit "close")]
               /\ o_close res = true.
Proof. vm_compute. eexists. split; [reflexivity|]. split; reflexivity. Qed.
Print Assumptions C03_error_single_connection_field.

Theorem C03_write_then_file_framed :
  let res := run_task sample_cfg sample_req write_then_file_app None in
  o_raw res = None /\ o_handover res = false /\ o_closes res = 1%nat
  /\ exists resp, parse_stream [false] (wire (o_writes res)) = ([resp], [])
                  /\ rs_framing resp = FChunked /\ rs_body resp = lit "xabcdef".
Proof. vm_compute. repeat split; try reflexivity. eexists. repeat split; reflexivity. Qed.
Print Assumptions C03_write_then_file_framed.

(* The end-to-end frame statement for applications that also call write().
   Proofs: Proof/TaskFrame2Sem.v (Task.write sequences as a pure function:
   chunk coding / Content-Length clamp / no-body statuses), TaskFrame2Run.v
   (through WSGITask.execute, finish and HTTPChannel.service), TaskFrame2Head.v
   (what the client finds in the head), TaskFrame2End.v, TaskFrame2File.v +
   TaskFrame2FileEnd.v (file wrapper), TaskFrame2Err.v (failures, error
   responses), TaskC03b.v (closed instances + examples).

   Class of applications [wapp status hs ws kind chunks hc]:
     start_response(status, hs) once; then write(w) for each w in ws (empty
     ones included: write(b"") sends the head); then an iterable of [kind]
     delivering [chunks] (empty ones included); close() iff hc; nothing raised;
     client connected.
   [no_handover kind ws]: the iterable is iterated by the task -- it is not a
     file wrapper, or the file is not seekable, or write() was called before
     (commit 5ee3173).  A file wrapper stops at its first empty read:
     [produced kind chunks] is what the iterable delivers.
   [sl_of r status] = "HTTP/1.x " ++ status;  [no_body_st] = 1xx / 204 / 304;
   [keep_of r] = the persistence decision for a response of known length
     (1.1: no close asked; 1.0: keep-alive asked; and no connection_close verdict).

   Still outside these theorems (covered by the client lemmas above, by
   C03_close_too_few / C03_close_after_failure, and by K-task + the search on the
   real wire): several start_response calls; header names that take part in
   framing other than the one Content-Length; write() inside iteration steps; a
   sized iterable of length 1 without declared length (the server then declares
   the chunk's length); a declared positive length when nothing at all is written
   (the head is built after the decision to close); a declared length together
   with a 1xx/204/304 status; a seekable file SHORTER than the declared length
   (prepare(size) replaces the application's header) and an empty seekable file;
   pipelining depth (parse_stream over several
   service() calls: C04).  Error responses (ErrorTask, request.error) to HEAD
   requests carried a body until fix 7243240: C03_frame_error is for the client of
   a non-HEAD request, C03_frame_error_head for the client of a HEAD request.  The
   500 the ladder builds for a failed application did the same until fix 52947ac
   (its request object had no command): C03_frame_500 / C03_frame_500_head. *)

(* (1) no declared length; write() and/or chunks; any iterable that is iterated:
   chunked on HTTP/1.1, close-delimited on HTTP/1.0; the client recovers the bytes
   passed to write() followed by the bytes the iterable delivered; "Connection:
   close" is announced and the connection is closed. *)
Theorem C03_frame_write : forall c r status hs ws kind chunks hc,
  cfg_clean c ->
  r_error r = None -> no_handover kind ws -> len1 kind = false -> Forall (not_cl py_lower) hs ->
  plain_fields py_cap (strs_of hs) ->
  r_head r = false -> no_body_st status = false ->
  let res := run_task c r (wapp status hs ws kind chunks hc) None in
  o_raw res = None ->
  exists fields,
    parse_one false (wire (o_writes res))
    = Some (mkResponse (sl_of r status) fields
                       (if beqb (r_version r) (lit "1.1") then FChunked else FEof)
                       (concat ws ++ produced kind chunks), [])
    /\ (forall h, In h (strs_of hs) -> In (client_field (norm_field py_cap h)) fields)
    /\ In (client_field f_close) fields
    /\ o_close res = true /\ o_next res = false.
Proof.
  exact (fun c r status hs ws kind chunks hc Hc =>
           frame_nolen_w py_cap py_lower py_cap_clean py_cap_te c Hc r status hs ws kind chunks hc).
Qed.
Print Assumptions C03_frame_write.

(* ... and for HEAD (no body bytes; write(b"") and empty chunks allowed): nothing
   is left over after the head. *)
Theorem C03_frame_write_head : forall c r status hs ws kind chunks hc,
  cfg_clean c ->
  r_error r = None -> no_handover kind ws -> len1 kind = false -> Forall (not_cl py_lower) hs ->
  plain_fields py_cap (strs_of hs) ->
  r_head r = true -> concat ws ++ produced kind chunks = [] ->
  let res := run_task c r (wapp status hs ws kind chunks hc) None in
  o_raw res = None ->
  exists fields,
    parse_one true (wire (o_writes res)) = Some (mkResponse (sl_of r status) fields FNoBody [], [])
    /\ (forall h, In h (strs_of hs) -> In (client_field (norm_field py_cap h)) fields)
    /\ In (client_field f_close) fields
    /\ o_close res = true /\ o_next res = false.
Proof.
  exact (fun c r status hs ws kind chunks hc Hc =>
           frame_head_nolen_w py_cap py_lower py_cap_clean py_cap_te c Hc r status hs ws kind chunks hc).
Qed.
Print Assumptions C03_frame_write_head.

(* (3) 1xx / 204 / 304 without a declared length, ANY kind of iterable (a seekable file
   wrapper included: nothing is handed over after such a status, fix d117733; no
   [no_handover] hypothesis is needed): whatever the application writes
   or yields is dropped, the head carries neither Transfer-Encoding nor
   Content-Length and announces "Connection: close", the client (HEAD or not) reads
   the head and nothing is left over, and the connection is closed. *)
Theorem C03_frame_nobody : forall c r status hs ws kind chunks hc,
  cfg_clean c ->
  r_error r = None -> len1 kind = false -> Forall (not_cl py_lower) hs ->
  plain_fields py_cap (strs_of hs) ->
  no_body_st status = true ->
  let res := run_task c r (wapp status hs ws kind chunks hc) None in
  o_raw res = None ->
  exists fields,
    parse_one (r_head r) (wire (o_writes res)) = Some (mkResponse (sl_of r status) fields FNoBody [], [])
    /\ (forall h, In h (strs_of hs) -> In (client_field (norm_field py_cap h)) fields)
    /\ In (client_field f_close) fields
    /\ filter (field_is te_name) fields = [] /\ filter (field_is cl_name) fields = []
    /\ o_close res = true /\ o_next res = false
    /\ o_handover res = false /\ o_closes res = (if hc then 1 else 0)%nat.
Proof.
  exact (fun c r status hs ws kind chunks hc Hc =>
           frame_nobody_any py_cap py_lower py_cap_clean py_cap_te c Hc r status hs ws kind chunks hc).
Qed.
Print Assumptions C03_frame_nobody.

(* ... in particular a SEEKABLE file wrapper (wsgi.file_wrapper, close() present) returned
   with a 1xx/204/304 status and no declared length: it is not handed over to the channel
   (the hand-over requires has_body: fix d117733; before it the file's bytes followed the
   body-less head), the task iterates it, write() drops every block, the task closes the
   file exactly once; the client (HEAD or not) reads the head, nothing is left over, the
   head says "Connection: close" and the connection is closed. *)
Theorem C03_frame_file_nobody : forall c r status hs chunks,
  cfg_clean c ->
  r_error r = None -> Forall (not_cl py_lower) hs -> plain_fields py_cap (strs_of hs) ->
  no_body_st status = true ->
  let res := run_task c r (fapp status hs chunks true) None in
  o_raw res = None ->
  exists fields,
    parse_one (r_head r) (wire (o_writes res)) = Some (mkResponse (sl_of r status) fields FNoBody [], [])
    /\ (forall h, In h (strs_of hs) -> In (client_field (norm_field py_cap h)) fields)
    /\ In (client_field f_close) fields
    /\ filter (field_is te_name) fields = [] /\ filter (field_is cl_name) fields = []
    /\ o_close res = true /\ o_next res = false
    /\ o_handover res = false /\ o_closes res = 1%nat.
Proof.
  exact (fun c r status hs chunks Hc He => C03_frame_nobody c r status hs [] (KFile true) chunks true Hc He eq_refl).
Qed.
Print Assumptions C03_frame_file_nobody.

(* (1)+(2) a declared Content-Length ([declared_ok]: one such header at any
   position, decimal value cl, plain names around it, a status with a body).
   The produced bytes reach the declared length -- exactly, or more and then the
   body is CUT there: the client reads exactly the declared number of bytes, they
   are the first bytes produced (write() first, then the iterable), nothing is
   left over; the connection is kept exactly when the head does not announce
   closing.  Subsumes C03_frame_length_partial. *)
Theorem C03_frame_length_cut : forall c r status pre post clname v cl ws kind chunks hc,
  declared_ok c r status pre post clname v cl ws kind ->
  let hs := pre ++ (PStr clname, PStr v) :: post in
  let all := concat ws ++ produced kind chunks in
  let res := run_task c r (wapp status hs ws kind chunks hc) None in
  r_head r = false -> (cl <= Z.of_nat (length all))%Z ->
  o_raw res = None ->
  exists fields,
    parse_one false (wire (o_writes res))
    = Some (mkResponse (sl_of r status) fields (FLength (dec_value v)) (firstn (N.to_nat (dec_value v)) all), [])
    /\ (forall h, In h (strs_of hs) -> In (client_field (norm_field py_cap h)) fields)
    /\ o_next res = keep_of r /\ o_close res = negb (keep_of r)
    /\ (keep_of r = false -> In (client_field f_close) fields)
    /\ (keep_of r = true -> ~ In (client_field f_close) fields).
Proof.
  intros c r status pre post clname v cl ws kind chunks hc
         (Hc & He & Hnh & Hpost & Hn & Hv & Hdig & Hdv & Ppre & Ppost & Hnorm & Hst).
  exact (frame_len_cut_w py_cap py_lower py_cap_clean py_cap_connection py_cap_te py_cap_cl c Hc r
           status pre post clname v cl ws kind chunks hc He Hnh Hpost Hn Hv Hdig Hdv Ppre Ppost Hnorm Hst).
Qed.
Print Assumptions C03_frame_length_cut.

(* FEWER bytes than declared (at least one write() call or non-empty chunk): the
   response cannot be delimited as announced.  The client has the status line and
   the fields and is still waiting (parse_one = None on what was sent; for every
   completion [pad] of the missing length it would read produced ++ pad), and the
   connection is closed, not reused -- whatever the head announced. *)
Theorem C03_frame_length_short : forall c r status pre post clname v cl ws kind chunks hc,
  declared_ok c r status pre post clname v cl ws kind ->
  let hs := pre ++ (PStr clname, PStr v) :: post in
  let all := concat ws ++ produced kind chunks in
  let res := run_task c r (wapp status hs ws kind chunks hc) None in
  r_head r = false -> (Z.of_nat (length all) < cl)%Z -> ws ++ eff kind chunks <> [] ->
  o_raw res = None ->
  exists fields,
    parse_one false (wire (o_writes res)) = None
    /\ (forall pad, lenN (all ++ pad) = dec_value v ->
          parse_one false (wire (o_writes res) ++ pad)
          = Some (mkResponse (sl_of r status) fields (FLength (dec_value v)) (all ++ pad), []))
    /\ (forall h, In h (strs_of hs) -> In (client_field (norm_field py_cap h)) fields)
    /\ o_close res = true /\ o_next res = false.
Proof.
  intros c r status pre post clname v cl ws kind chunks hc
         (Hc & He & Hnh & Hpost & Hn & Hv & Hdig & Hdv & Ppre & Ppost & Hnorm & Hst).
  exact (frame_len_short_w py_cap py_lower py_cap_clean py_cap_connection py_cap_te py_cap_cl c Hc r
           status pre post clname v cl ws kind chunks hc He Hnh Hpost Hn Hv Hdig Hdv Ppre Ppost Hnorm Hst).
Qed.
Print Assumptions C03_frame_length_short.

(* HEAD with a declared length (any value) and no body bytes: the client reads
   the head, nothing is left over, the connection is kept exactly when the head
   does not announce closing. *)
Theorem C03_frame_length_head : forall c r status pre post clname v cl ws kind chunks hc,
  declared_ok c r status pre post clname v cl ws kind ->
  let hs := pre ++ (PStr clname, PStr v) :: post in
  let all := concat ws ++ produced kind chunks in
  let res := run_task c r (wapp status hs ws kind chunks hc) None in
  r_head r = true -> all = [] ->
  o_raw res = None ->
  exists fields,
    parse_one true (wire (o_writes res)) = Some (mkResponse (sl_of r status) fields FNoBody [], [])
    /\ (forall h, In h (strs_of hs) -> In (client_field (norm_field py_cap h)) fields)
    /\ o_next res = keep_of r /\ o_close res = negb (keep_of r)
    /\ (keep_of r = false -> In (client_field f_close) fields)
    /\ (keep_of r = true -> ~ In (client_field f_close) fields).
Proof.
  intros c r status pre post clname v cl ws kind chunks hc
         (Hc & He & Hnh & Hpost & Hn & Hv & Hdig & Hdv & Ppre & Ppost & Hnorm & Hst).
  exact (frame_head_len_w py_cap py_lower py_cap_clean py_cap_connection py_cap_te py_cap_cl c Hc r
           status pre post clname v cl ws kind chunks hc He Hnh Hpost Hn Hv Hdig Hdv Ppre Ppost Hnorm Hst).
Qed.
Print Assumptions C03_frame_length_head.

(* (4) wsgi.file_wrapper.  Not seekable, or after write(): iterated in blocks up to
   the first empty read -- that is [no_handover] in the five theorems above.
   Seekable, nothing written before, something to send ([fapp]), and a status WITH a
   body ([no_body_st status = false]: since fix d117733 this is simply the case split
   of the hand-over condition -- for 1xx/204/304 see C03_frame_file_nobody): prepare(size)
   reconciles the length, write(b"") sends the head, the file is handed to the
   channel (o_handover; close() is the channel's business).  Without a declared
   length the server declares the file's size and the client reads exactly the
   file's bytes ... *)
Theorem C03_frame_file : forall c r status hs chunks hc,
  cfg_clean c ->
  r_error r = None -> Forall (not_cl py_lower) hs -> plain_fields py_cap (strs_of hs) ->
  r_head r = false -> no_body_st status = false ->
  file_content (plain_steps chunks) <> [] ->
  let content := file_content (plain_steps chunks) in
  let res := run_task c r (fapp status hs chunks hc) None in
  o_raw res = None ->
  exists fields,
    parse_one false (wire (o_writes res))
    = Some (mkResponse (sl_of r status) fields (FLength (lenN content)) content, [])
    /\ (forall h, In h (strs_of hs) -> In (client_field (norm_field py_cap h)) fields)
    /\ o_next res = keep_of r /\ o_close res = negb (keep_of r)
    /\ (keep_of r = false -> In (client_field f_close) fields)
    /\ (keep_of r = true -> ~ In (client_field f_close) fields)
    /\ o_handover res = true /\ o_closes res = 0%nat.
Proof.
  exact (fun c r status hs chunks hc Hc =>
           frame_file_nolen py_cap py_lower py_cap_clean py_cap_connection py_cap_te py_cap_cl c Hc r status hs chunks hc).
Qed.
Print Assumptions C03_frame_file.

(* ... and with a declared length not larger than the file (a LONGER file is cut by
   prepare(size)) the application's header stays and the client reads exactly the
   declared number of bytes from the start of the file. *)
Theorem C03_frame_file_declared : forall c r status pre clname v post cl chunks hc,
  cfg_clean c ->
  r_error r = None ->
  Forall (not_cl py_lower) post ->
  beqb (py_lower clname) (lit "content-length") = true -> py_int v = Some cl ->
  all_digits v = true -> Z.of_N (dec_value v) = cl ->
  plain_fields py_cap (strs_of pre) -> plain_fields py_cap (strs_of post) ->
  norm_name py_cap clname = lit "Content-Length" ->
  r_head r = false -> no_body_st status = false ->
  let content := file_content (plain_steps chunks) in
  (0 < cl)%Z -> (cl <= Z.of_nat (length content))%Z ->
  let hs := pre ++ (PStr clname, PStr v) :: post in
  let res := run_task c r (fapp status hs chunks hc) None in
  o_raw res = None ->
  exists fields,
    parse_one false (wire (o_writes res))
    = Some (mkResponse (sl_of r status) fields (FLength (dec_value v)) (firstn (N.to_nat (dec_value v)) content), [])
    /\ (forall h, In h (strs_of hs) -> In (client_field (norm_field py_cap h)) fields)
    /\ o_next res = keep_of r /\ o_close res = negb (keep_of r)
    /\ (keep_of r = false -> In (client_field f_close) fields)
    /\ (keep_of r = true -> ~ In (client_field f_close) fields)
    /\ o_handover res = true /\ o_closes res = 0%nat.
Proof.
  exact (fun c r status pre clname v post cl chunks hc Hc =>
           frame_file_declared py_cap py_lower py_cap_clean py_cap_connection py_cap_te py_cap_cl c Hc r
                               status pre clname v post cl chunks hc).
Qed.
Print Assumptions C03_frame_file_declared.

(* (5) a failure after the head was sent -- an exception raised by the application
   at any later step (iteration, write(), close()), or the client going away --
   for EVERY script and schedule: the connection is closed, not reused; nothing
   more is written (no 500 is appended to the partial response); nothing escapes. *)
Theorem C03_close_after_failure : forall c r a disc e,
  let res := run_task c r a disc in
  o_raw res = Some e -> o_wrote_header1 res = true ->
  o_close res = true /\ o_next res = false /\ o_escaped res = None
  /\ o_served_500 res = false /\ o_writes res = o_writes1 res.
Proof.
  intros c r a disc e. unfold run_task. cbn zeta. intros Hraw Hw.
  pose proof (service_outcome py_cap py_lower c r disc a) as H. unfold outcome_spec in H.
  rewrite Hraw, Hw in H. destruct (exn_eqb e ClientDisconnected); exact H.
Qed.
Print Assumptions C03_close_after_failure.

(* (6) error responses (request.error set by the parser: ErrorTask), for every code
   / reason / body text that is free of CR/LF and has a body-bearing code: the
   client of a non-HEAD request reads exactly one response with the error's status
   line, exactly Content-Length body bytes which are Error.to_response's text,
   nothing is left over, the head says "Connection: close" exactly once (no
   Keep-Alive next to it), and the connection is closed. *)
Theorem C03_frame_error : forall c r a code reason body,
  cfg_clean c -> r_error r = Some ((code, reason), body) -> r_head r = false -> clean code -> clean reason ->
  startswith (code ++ [32] ++ reason) (lit "1") || startswith (code ++ [32] ++ reason) (lit "204")
    || startswith (code ++ [32] ++ reason) (lit "304") = false ->
  let res := run_task c r a None in
  o_raw res = None ->
  let bodyb := err_body c reason body in
  exists fields,
    parse_one false (wire (o_writes res))
    = Some (mkResponse (sl_err (r_version r) (code ++ [32] ++ reason)) fields (FLength (lenN bodyb)) bodyb, [])
    /\ filter (field_is (lit "connection")) fields = [(lit "Connection", lit "close")]
    /\ In (client_field err_header) fields
    /\ o_close res = true /\ o_next res = false /\ o_served_500 res = false /\ o_escaped res = None.
Proof. exact frame_error. Qed.
Print Assumptions C03_frame_error.

(* ... and to a HEAD request (r_head: request.command == "HEAD"; ErrorTask.execute writes
   b"" then -- fix 7243240, before it the body followed the head): the client, knowing
   it asked with HEAD, reads exactly one response with the error's status line and NO
   body, nothing is left over; the head still announces in Content-Length the length
   the body would have, says "Connection: close" exactly once, and the connection is
   closed.  (The 500 the ladder builds for a failed application uses a fresh request
   object without a command: see C03_frame_500 and the report on HEAD there.) *)
Theorem C03_frame_error_head : forall c r a code reason body,
  cfg_clean c -> r_error r = Some ((code, reason), body) -> r_head r = true -> clean code -> clean reason ->
  startswith (code ++ [32] ++ reason) (lit "1") || startswith (code ++ [32] ++ reason) (lit "204")
    || startswith (code ++ [32] ++ reason) (lit "304") = false ->
  let res := run_task c r a None in
  o_raw res = None ->
  let bodyb := err_body c reason body in
  exists fields,
    parse_one true (wire (o_writes res))
    = Some (mkResponse (sl_err (r_version r) (code ++ [32] ++ reason)) fields FNoBody [], [])
    /\ filter (field_is (lit "connection")) fields = [(lit "Connection", lit "close")]
    /\ filter (field_is cl_name) fields = [(lit "Content-Length", to_dec (lenN bodyb))]
    /\ In (client_field err_header) fields
    /\ o_close res = true /\ o_next res = false /\ o_served_500 res = false /\ o_escaped res = None.
Proof. exact frame_error_head. Qed.
Print Assumptions C03_frame_error_head.

(* ... and the 500 the ladder builds when the application failed before any output
   (C08_served_500: then o_writes res = response_500 ... (o_nws1 res)): whenever
   that error task itself completes, the client reads exactly one response
   "500 Internal Server Error" with Content-Length body bytes and a single
   "Connection: close" (that the connection is then closed: C09_outcome); the
   failed request was not a HEAD. *)
Theorem C03_frame_500 : forall c r n,
  cfg_clean c -> r_head r = false ->
  let body := if c_expose_tracebacks c then c_tb c else internal_error_text in
  let er := mkReq (r_version r) (r_connection r) (r_head r) false (Some (err_InternalServerError, body)) in
  x_out (task_run py_cap py_lower c er None (new_task (r_version r) true, mkChan [] n)
                  (inr (err_InternalServerError, body))) = Ok tt ->
  let bodyb := err_body c (lit "Internal Server Error") body in
  exists fields,
    parse_one false (wire (response_500 py_cap py_lower c r None n))
    = Some (mkResponse (sl_err (r_version r) (lit "500 Internal Server Error")) fields (FLength (lenN bodyb)) bodyb, [])
    /\ filter (field_is (lit "connection")) fields = [(lit "Connection", lit "close")]
    /\ In (client_field err_header) fields.
Proof.
  intros c r n Hc Hh. cbn zeta. intro Hrun. fold (req_500 c r) in Hrun. rewrite (response_500_quiet c r n Hrun).
  destruct (error_task_wire c (req_500 c r)
              (r_version r) (mkChan [] n) (lit "500") (lit "Internal Server Error") _
              Hc eq_refl eq_refl eq_refl Hrun)
    as (tp & Hclean & Hnc & Hbp & Psl & Pte & Pcl & Pconn & Pct & W & _).
  cbn [r_head req_500] in W. rewrite Hh in W.
  exact (err_client_core _ tp _ _ n Hclean Hnc Hbp Psl Pte Pcl Pconn Pct W).
Qed.
Print Assumptions C03_frame_500.

(* ... and when the failed request was a HEAD (the ladder's err_request inherits the
   command: fix 52947ac, before it the 500's body followed the head): the client,
   knowing it asked with HEAD, reads the head and nothing is left over; the head still
   announces in Content-Length the length the body would have and says
   "Connection: close" once. *)
Theorem C03_frame_500_head : forall c r n,
  cfg_clean c -> r_head r = true ->
  let body := if c_expose_tracebacks c then c_tb c else internal_error_text in
  let er := mkReq (r_version r) (r_connection r) (r_head r) false (Some (err_InternalServerError, body)) in
  x_out (task_run py_cap py_lower c er None (new_task (r_version r) true, mkChan [] n)
                  (inr (err_InternalServerError, body))) = Ok tt ->
  let bodyb := err_body c (lit "Internal Server Error") body in
  exists fields,
    parse_one true (wire (response_500 py_cap py_lower c r None n))
    = Some (mkResponse (sl_err (r_version r) (lit "500 Internal Server Error")) fields FNoBody [], [])
    /\ filter (field_is (lit "connection")) fields = [(lit "Connection", lit "close")]
    /\ filter (field_is cl_name) fields = [(lit "Content-Length", to_dec (lenN bodyb))]
    /\ In (client_field err_header) fields.
Proof.
  intros c r n Hc Hh. cbn zeta. intro Hrun. fold (req_500 c r) in Hrun. rewrite (response_500_quiet c r n Hrun).
  destruct (error_task_wire c (req_500 c r)
              (r_version r) (mkChan [] n) (lit "500") (lit "Internal Server Error") _
              Hc eq_refl eq_refl eq_refl Hrun)
    as (tp & Hclean & Hnc & _ & Psl & _ & Pcl & Pconn & Pct & W & _).
  cbn [r_head req_500] in W. rewrite Hh in W.
  exact (err_client_head_core _ tp _ _ n Hclean Hnc Psl Pcl Pconn Pct W).
Qed.
Print Assumptions C03_frame_500_head.

(* From the arguments of write_soon to the socket (Proof/TaskChanOut.v: Model/Task.v composed with the
   byte-level output queue Model/ChanOut.v, which runs write_soon / _flush_some over the buffer model
   of C17).  The theorems above read [wire (o_writes res)] -- the byte strings and handed-over file
   buffers a task gives to channel.write_soon, in order -- as a client reads it.  For EVERY list of
   write_soon arguments, every configuration of the channel (STRBUF_LIMIT, outbuf_overflow,
   outbuf_high_watermark, send_bytes, any positive sendbuf_len) and every behaviour of the socket
   during each call, what the socket accepted followed by what is still queued is exactly that wire
   string, and a drained queue means the client holds all of it: the framing theorems are statements
   about the bytes the output queue delivers. *)
From WV Require Model.Buffers Model.ChanOut Proof.ChanOut Proof.TaskChanOut.
Module CO := WV.Model.ChanOut.
Module COP := WV.Proof.ChanOut.
Module TCO := WV.Proof.TaskChanOut.

Theorem C03_writes_reach_socket : forall (cc : CO.cfg) (ws : list witem) (anss : list (list CO.answer)),
  COP.cfg_ok cc ->
  let q := CO.crun cc CO.chan_new (TCO.cops_of ws anss) in
  snd q ++ COP.cabs (fst q) = wire ws /\
  (COP.cabs (fst q) = [] -> snd q = wire ws).
Proof. exact TCO.writes_reach_socket_both. Qed.
Print Assumptions C03_writes_reach_socket.
