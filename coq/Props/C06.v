(* C06 -- Oversize and malformed input is refused totally: error response, close, no crash.
   Statements and the short proofs; the others in Proof/ReceiverTotal.v (chunked loop), Proof/ParserTotal.v
   (HTTPRequestParser.received), Proof/ParserTotalChan.v (HTTPChannel.received) and
   Proof/ParserTotalLimits.v (limits).  The error response itself (ErrorTask) is checked on
   the real code by checks/C06.py (harness/limit_search.py, P3) and proved here by composition
   with C03's frame theorems for error tasks
   (C06_error_response_wf; the class table is in Proof/C06ErrWf.v). *)
From Coq Require Import String.
From Coq Require Import List NArith ZArith Bool Lia.
From RecordUpdate Require Import RecordUpdate.
From WV Require Import Lib.PyBytes Model.Receiver Model.Parser Model.ChanSeq
  Proof.ReceiverTotal Proof.ParserTotal Proof.ParserTotalChan Proof.ParserTotalLimits
  Proof.ParserTotalExamples
  Gen.GenTables Model.Task Spec.ClientParse Proof.TaskHead Proof.TaskFrameClient Proof.TaskFrame2Err Proof.C06ErrWf
  Gen.GenPreds Proof.ServerBase Proof.ServerLoop.
Import ListNotations.
Local Open Scope N_scope.

(* the chunked loop terminates on every state and every input *)
Theorem C06_chunked_terminates : forall st s, chunked_received st s <> None.
Proof. exact chunked_received_total. Qed.
Print Assumptions C06_chunked_terminates.

(* on a well-formed state it consumes between 1 and len(data) bytes (all of them
   unless it completed), stays well-formed, and its carry fields grow by at most
   the number of bytes consumed *)
Theorem C06_chunked_consumed : forall st s, wf_c st -> c_completed st = false -> s <> [] ->
  exists st' n, chunked_received st s = Some (st', n) /\ wf_c st'
    /\ (1 <= n <= Z.of_nat (length s))%Z
    /\ (Z.of_nat (phi st') <= Z.of_nat (phi st) + n)%Z
    /\ (c_completed st' = false -> n = Z.of_nat (length s)).
Proof. exact chunked_received_spec. Qed.
Print Assumptions C06_chunked_consumed.

(* HTTPRequestParser.received is total on every well-formed open parser and every
   non-empty read: never REscapes (an exception leaving received()), never
   ROutOfFuel; it consumes between 1 and len(data) bytes and the parser is then
   completed or well-formed again.  RUnmodelled = request-target with a bracketed
   host, outside UrlSplit.v (a modelling gap, not an outcome of the code). *)
Theorem C06_parser_total : forall a p data, wf_p a p -> data <> [] ->
  received a p data = RUnmodelled \/
  exists p' n, received a p data = ROk p' n /\ (1 <= n <= Z.of_nat (length data))%Z /\
               (completed p' = true \/ wf_p a p').
Proof. exact received_total. Qed.
Print Assumptions C06_parser_total.

(* HTTPChannel.received: no CEscapes, no COutOfFuel (every iteration of the
   `while data` loop consumes at least one byte), for every channel state whose
   request under construction is well-formed, and that is an invariant *)
Theorem C06_total : forall a c data, wf_chan a c ->
  chan_received a c data = CUnmodelled \/
  exists c', chan_received a c data = COk c' /\ wf_chan a c'.
Proof. exact chan_received_total. Qed.
Print Assumptions C06_total.

(* C06_total for every sequence of reads from a fresh connection *)
Theorem C06_total_reads : forall a reads,
  feed a chan_init reads = CUnmodelled \/
  exists c', feed a chan_init reads = COk c' /\ wf_chan a c'.
Proof. intros a reads. apply feed_total. apply wf_chan_init. Qed.
Print Assumptions C06_total_reads.

(* header limit: the message is completed with 431 exactly when the head seen so
   far (position just after the first CRLFCRLF, or all bytes while there is none)
   reaches max_request_header_size; boundary is >= *)
Theorem C06_header_limit : forall a hp data p' n,
  received a (P0 hp) data = ROk p' n ->
  (max_request_header_size a <= head_pos (hp ++ data) <->
   (completed p' = true /\ error p' = Some EHeaderTooLarge)).
Proof.
  intros a hp data p' n H. destruct (received_head_cases a hp data p' n H) as [(A & B & C)|(A & B & _)].
  - tauto.
  - split; [lia | intros (_ & E); congruence].
Qed.
Print Assumptions C06_header_limit.

(* declared length: 413 at the end of the head only if 0 < Content-Length and
   Content-Length >= max_request_body_size; a request that leaves the head phase
   without error has Content-Length 0 or < max_request_body_size *)
Theorem C06_body_limit_declared : forall a hp data p' n,
  received a (P0 hp) data = ROk p' n ->
  (error p' = Some EBodyTooLarge ->
     completed p' = true /\ 0 < content_length p' /\ max_request_body_size a <= content_length p') /\
  (error p' = None ->
     content_length p' = 0 \/ content_length p' < max_request_body_size a).
Proof.
  intros a hp data p' n H. destruct (received_head_cases a hp data p' n H) as [(A & B & C)|(A & B & C & D)].
  - split; intros E; congruence.
  - auto.
Qed.
Print Assumptions C06_body_limit_declared.

(* running count (chunked wire bytes, or fixed body bytes): 413 exactly when the
   count reaches max_request_body_size *)
Theorem C06_body_limit_running : forall a p br data p' n,
  wf_p a p -> body p = Some br -> received a p data = ROk p' n ->
  body_bytes_received p' = (body_bytes_received p + n)%Z /\
  ((Z.of_N (max_request_body_size a) <= body_bytes_received p + n)%Z <->
     (completed p' = true /\ error p' = Some EBodyTooLarge)).
Proof.
  intros a p br data p' n (Hc & He & Wb & _) Hb. unfold wf_body in Wb. rewrite Hb in Wb.
  rewrite (received_body_eq a p br data Hc Hb). destruct br as [f|c].
  - destruct (fixed_received f data) as [f' m]. apply body_fin_limit; [exact He | discriminate].
  - destruct Wb as (_ & _ & _ & Hce & _).
    destruct (chunked_received c data) as [[c' m]|] eqn:E; [|discriminate].
    apply body_fin_limit; [exact He|]. intros X.
    pose proof (chunked_received_err c data c' m) as Y. rewrite Hce, X in Y. apply Y; [exact I | exact E].
Qed.
Print Assumptions C06_body_limit_running.

(* a closing channel consumes nothing (the close decision itself is C11's) *)
Theorem C06_stop : forall a c data,
  will_close c || close_when_flushed c = true -> chan_received a c data = COk c.
Proof. intros a c data H. unfold chan_received. destruct data; [reflexivity|]. now rewrite H. Qed.
Print Assumptions C06_stop.

(* memory: an open request holds less than max_request_header_size head bytes and,
   in a chunked body, control line + chunk terminator + trailer carry is bounded by
   the wire bytes counted, which stay below max_request_body_size *)
Theorem C06_carry_bounded : forall a p, wf_p a p ->
  (header_plus p = [] \/ lenN (header_plus p) < max_request_header_size a) /\
  (forall c, body p = Some (BChunked c) ->
     (Z.of_nat (length (control_line c) + length (chunk_end c) + length (trailer c)) <= body_bytes_received p)%Z /\
     (body_bytes_received p = 0 \/ body_bytes_received p < Z.of_N (max_request_body_size a))%Z).
Proof.
  intros a p (_ & _ & Wb & Wh & Wbb). split; [exact Wh|].
  intros c Hb. unfold wf_body in Wb. rewrite Hb in Wb. destruct Wb as (_ & _ & _ & _ & Hphi & _).
  split; [exact Hphi | exact Wbb].
Qed.
Print Assumptions C06_carry_bounded.

(* the three boundaries on concrete streams, whole and byte-wise (limit - 1: delivered
   without error; limit: refused), computed in the model *)
Theorem C06_boundaries :
  (errs (adjx 262144 10) [cl_9] = [None] /\ errs (adjx 262144 10) [cl_10] = [Some EBodyTooLarge]) /\
  (errs (adjx 40 1000) [head_39] = [None] /\ errs (adjx 40 1000) [head_40] = [Some EHeaderTooLarge]) /\
  (errs (adjx 262144 20) [chunked_19] = [None] /\ errs (adjx 262144 20) [chunked_20] = [Some EBodyTooLarge]).
Proof.
  split; [split; [exact (proj1 declared_below) | exact (proj1 declared_at)]|].
  split; [split; [exact (proj1 head_below) | exact (proj1 head_at)]|].
  split; [exact (proj1 chunked_below) | exact (proj1 chunked_at)].
Qed.
Print Assumptions C06_boundaries.

(* The error response.  Every refusal tag e of the parser model stands for an
   instance of one of the four error classes of waitress/utilities.py, whose
   (code, reason) pairs are regenerated from the source on every run
   (Gen/GenTables.v); the class table agrees with the numeric code the limit and
   framing theorems speak about ... *)
Theorem C06_error_class_code : forall e, dec_value (fst (perr_class e)) = perr_code e.
Proof. intro e. destruct e; vm_compute; reflexivity. Qed.
Print Assumptions C06_error_class_code.

(* ... and for EVERY tag, every message text (it may quote request bytes, CR and
   LF included), every configuration with a clean ident / date and every request
   version, the task the channel runs for a request with that error (Model/Task.v,
   ErrorTask) writes bytes that an independent client (Spec/ClientParse.v) reads
   as exactly one complete response with that status line, exactly
   Content-Length body bytes, a single "Connection: close", nothing left over -
   and the connection is closed, no further request is served.  (o_raw res = None:
   the write itself did not fail, i.e. the client was still there.) *)
Theorem C06_error_response_wf : forall c r a e body,
  cfg_clean c -> r_error r = Some (perr_class e, body) -> r_head r = false ->
  let res := run_task c r a None in
  o_raw res = None ->
  let code := fst (perr_class e) in let reason := snd (perr_class e) in
  let bodyb := err_body c reason body in
  exists fields,
    parse_one false (wire (o_writes res))
    = Some (mkResponse (sl_err (r_version r) (code ++ [32] ++ reason)) fields (FLength (lenN bodyb)) bodyb, [])
    /\ filter (field_is (lit "connection"%string)) fields = [(lit "Connection"%string, lit "close"%string)]
    /\ o_close res = true /\ o_next res = false /\ o_served_500 res = false /\ o_escaped res = None.
Proof.
  intros c r a e body Hc He Hh. cbn zeta. intros Hraw.
  destruct (perr_class_clean e) as [H1 [H2 H3]].
  assert (He' : r_error r = Some ((fst (perr_class e), snd (perr_class e)), body)).
  { rewrite He. destruct (perr_class e); reflexivity. }
  destruct (frame_error c r a _ _ body Hc He' Hh H1 H2 H3 Hraw) as [fields [P [F [_ R]]]].
  exists fields. split; [exact P | split; [exact F | exact R]].
Qed.
Print Assumptions C06_error_response_wf.

(* the same for a refused HEAD request: head only (fix 7243240) *)
Theorem C06_error_response_wf_head : forall c r a e body,
  cfg_clean c -> r_error r = Some (perr_class e, body) -> r_head r = true ->
  let res := run_task c r a None in
  o_raw res = None ->
  let code := fst (perr_class e) in let reason := snd (perr_class e) in
  exists fields,
    parse_one true (wire (o_writes res))
    = Some (mkResponse (sl_err (r_version r) (code ++ [32] ++ reason)) fields FNoBody [], [])
    /\ filter (field_is (lit "connection"%string)) fields = [(lit "Connection"%string, lit "close"%string)]
    /\ o_close res = true /\ o_next res = false /\ o_served_500 res = false /\ o_escaped res = None.
Proof.
  intros c r a e body Hc He Hh. cbn zeta. intros Hraw.
  destruct (perr_class_clean e) as [H1 [H2 H3]].
  assert (He' : r_error r = Some ((fst (perr_class e), snd (perr_class e)), body)).
  { rewrite He. destruct (perr_class e); reflexivity. }
  destruct (frame_error_head c r a _ _ body Hc He' Hh H1 H2 H3 Hraw) as [fields [P [F [_ [_ R]]]]].
  exists fields. split; [exact P | split; [exact F | exact R]].
Qed.
Print Assumptions C06_error_response_wf_head.

(* "Stops consuming" at the level of the I/O loop.  C06_stop: received() consumes
   nothing once the connection is closing.  The loop-level half: the loop does not
   even dispatch a read event then.  HTTPChannel.readable and BOTH loop bodies
   (wasyncore.poll; poll2 + readwrite, used when asyncore_use_poll is on) are
   regenerated from the source on every run (Gen/GenPreds.v) and Proof/ServerLoop.v
   proves that a read event reaches an object only if its readable() held at scan
   time.  Composed: a channel that is marked will_close or close_when_flushed, has
   output pending, or has more than `lookahead` requests queued gets no
   handle_read_event in that turn - for every answer of the kernel within the
   stated select / poll contract (sub-lists of what was passed; POLLIN / POLLPRI /
   POLLOUT only if registered, error flags unconstrained). *)
Theorem C06_no_read_event_select : forall wc cwf n la tot w a ret_r ret_w ret_e,
  (wc || cwf || (la <? n)%Z || negb (tot =? 0)%Z) = true ->
  select_returns (gen_poll_r (gen_chan_readable wc cwf n la tot) w a)
                 (gen_poll_w (gen_chan_readable wc cwf n la tot) w a)
                 (gen_poll_e (gen_chan_readable wc cwf n la tot) w a) ret_r ret_w ret_e ->
  sel_read (select_turn ret_r ret_w ret_e) = false.
Proof.
  intros wc cwf n la tot w a ret_r ret_w ret_e H Hs.
  destruct (sel_read (select_turn ret_r ret_w ret_e)) eqn:E; [|reflexivity].
  pose proof (proj1 loop_read_only_if_readable _ _ _ _ _ _ Hs E) as R.
  rewrite gen_chan_readable_spec, H in R. discriminate R.
Qed.
Print Assumptions C06_no_read_event_select.

Theorem C06_no_read_event_poll2 : forall wc cwf n la tot w a rv,
  (wc || cwf || (la <? n)%Z || negb (tot =? 0)%Z) = true ->
  poll_returns (gen_poll2_reg (gen_chan_readable wc cwf n la tot) w a) rv ->
  p2_read (poll2_turn rv) = false.
Proof.
  intros wc cwf n la tot w a rv H Hs.
  destruct (p2_read (poll2_turn rv)) eqn:E; [|reflexivity].
  pose proof (proj2 loop_read_only_if_readable _ _ _ _ Hs E) as R.
  rewrite gen_chan_readable_spec, H in R. discriminate R.
Qed.
Print Assumptions C06_no_read_event_poll2.
