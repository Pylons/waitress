(* C15 -- Untrusted peers cannot influence connection metadata.
   Over Model/Proxy.v, with the lemmas of Proof/ProxyC15.v and Proof/C15Compose.v (the model is a
   transliteration of waitress/proxy_headers.py and of the install condition
   in server.BaseWSGIServer.__init__, tied to the code by K-proxy). *)
From Coq Require Import List NArith ZArith Bool.
From WV Require Import Lib.PyBytes Lib.PyStrProxy Model.Proxy Spec.ProxySpec Proof.ProxyC15.
Import ListNotations.
Local Open Scope N_scope.

(* Two requests of a peer that is not the trusted proxy (none configured, or
   another address; "*" excluded) that differ at most in the six proxy headers
   -- any values, well-formed or not, present or absent -- and any
   configuration (count, trusted kinds, clearing on or off, middleware
   installed or not): both are handed to the application; the two environs
   agree on every key other than those six; every other key -- in particular
   REMOTE_ADDR, REMOTE_HOST, REMOTE_PORT, SERVER_NAME, SERVER_PORT, HTTP_HOST,
   wsgi.url_scheme -- is what it was in the request; with clearing on none of
   the six reaches the application and the two environs are equal on every
   key; with clearing off the environ is untouched. *)
Theorem C15_two_runs : forall c e e' peer,
  lookup k_remote_addr e = Some peer ->
  trusted_proxy c <> Some peer /\ trusted_proxy c <> Some s_star ->
  agree_off is_proxy_key e e' ->
  exists o o',
    serve c e = Ok o /\ serve c e' = Ok o' /\
    agree_off is_proxy_key o o' /\
    (forall k, is_proxy_key k = false -> lookup k o = lookup k e) /\
    (forall k, In k metadata_keys -> lookup k o = lookup k e) /\
    (clear_untrusted c = true -> (forall k, is_proxy_key k = true -> lookup k o = None) /\
                                 (forall k, lookup k o = lookup k o')) /\
    (clear_untrusted c = false -> o = e).
Proof. exact c15_two_runs. Qed.
Print Assumptions C15_two_runs.

(* The property as worded: against the same request with those headers deleted. *)
Theorem C15_same_as_deleted : forall c e peer,
  lookup k_remote_addr e = Some peer ->
  trusted_proxy c <> Some peer /\ trusted_proxy c <> Some s_star ->
  exists o o',
    serve c e = Ok o /\ serve c (delete_proxy_headers e) = Ok o' /\
    agree_off is_proxy_key o o' /\
    (forall k, In k metadata_keys -> lookup k o = lookup k e /\ lookup k o' = lookup k e) /\
    (clear_untrusted c = true -> (forall k, is_proxy_key k = true -> lookup k o = None) /\
                                 (forall k, lookup k o = lookup k o')).
Proof.
  intros c e peer Hp Hu.
  destruct (c15_two_runs c e (delete_proxy_headers e) peer Hp Hu (delete_agree e))
    as (o & o' & H1 & H2 & H3 & H4 & H5 & H6 & H7).
  exists o, o'. split; [exact H1|]. split; [exact H2|]. split; [exact H3|]. split.
  - intros k Hk. split; [auto|]. rewrite <- H3 by (apply metadata_not_proxy; auto). auto.
  - exact H6.
Qed.
Print Assumptions C15_same_as_deleted.

(* deleting really deletes exactly the six *)
Theorem C15_deleted_is_deleted : forall k e,
  lookup k (delete_proxy_headers e) = if is_proxy_key k then None else lookup k e.
Proof. exact lookup_delete. Qed.
Print Assumptions C15_deleted_is_deleted.

(* The install condition: the application is wrapped exactly when a trusted
   proxy (a non-empty string) or clearing is configured; otherwise nothing is
   parsed or removed at all. *)
Theorem C15_install_condition : forall c,
  (installed c = true <-> (exists x t, trusted_proxy c = Some (x :: t)) \/ clear_untrusted c = true) /\
  (installed c = false -> forall e, serve c e = Ok e).
Proof.
  intros c.
  split; [apply installed_spec|intros H e; apply c15_not_installed; exact H].
Qed.
Print Assumptions C15_install_condition.

(* End to end, from the request BYTES.

   The theorems above speak about environ dictionaries.  The ones below close
   the gap to the wire by composing with the C07 model of the environ
   construction (Model/Parser.v -> Model/Environ.v, tied by K-env) through the
   bridge Model/ProxyEnviron.v; proofs in Proof/C15Compose.v on top of C07's
   lemmas (Proof/Environ*.v) and c15_two_runs.

   Vocabulary.  [feed_all a ds = Some p]: the bytes [ds] (any segmentation)
   offered to a fresh parser under limits/url_scheme [a] leave it in state
   [p]; [accepted p]: completed, no error, not the empty request;
   [head_parts (concat ds) = Some (fl, lines)]: request line and header lines
   (folded lines joined, empty lines dropped) as a FUNCTION of the bytes;
   [ctx]: channel.addr (TCP or unix peer), server_name, effective_port,
   url_prefix, ident; [environ_of ctx p]: the str entries of
   WSGITask.get_environment; [serve_request cfg ctx p]: what
   server.application does with it (middleware installed or not).
   [line_name l]: the text before the first colon; [maps_to n k]: a line named
   n contributes to environ key k; [key_lines k lines]: the lines that do;
   [value_of_lines]: their values stripped of SP/HTAB, joined by ", " in
   arrival order (None when there is none). *)
From RecordUpdate Require Import RecordUpdate.
From WV Require Import Model.Receiver Model.Parser Model.Environ Model.ProxyEnviron Spec.Pep3333
  Proof.EnvironDict Proof.EnvironParse Proof.EnvironRun Proof.C15Compose Proof.C15ComposeExamples.

(* (1a) For EVERY parser state -- any header dictionary whatsoever, reachable
   or not -- and every context: REMOTE_ADDR and REMOTE_HOST are channel.addr[0],
   REMOTE_PORT is str(channel.addr[1]), SERVER_NAME / SERVER_PORT are the
   server's, wsgi.url_scheme is the parser's url_scheme attribute (for an
   accepted request that is adj.url_scheme: C15_e2e_environ_keys).  No request
   header line occurs on the right-hand sides. *)
Theorem C15_e2e_context_keys : forall (ctx : Environ.config) (p : parser) (h : hdict),
  let e := environ_of ctx (p <| headers := h |>) in
  lookup k_remote_addr e = Some (addr0 (peer_addr ctx)) /\
  lookup k_remote_host e = Some (addr0 (peer_addr ctx)) /\
  lookup k_remote_port e = Some (str_addr1 (peer_addr ctx)) /\
  lookup k_server_name e = Some (server_name ctx) /\
  lookup k_server_port e = Some (str_port (effective_port ctx)) /\
  lookup k_url_scheme e = Some (url_scheme p).
Proof.
  intros ctx p h.
  destruct (environ_ctx_keys ctx (p <| headers := h |>)); repeat split; assumption.
Qed.
Print Assumptions C15_e2e_context_keys.

(* [meta_fixed a ctx lines o]: in o the seven metadata keys are what the
   context, adj.url_scheme and the Host line(s) alone determine *)
Theorem C15_e2e_meta_fixed_means : forall a ctx lines o,
  meta_fixed a ctx lines o <->
  lookup k_remote_addr o = Some (addr0 (peer_addr ctx)) /\
  lookup k_remote_host o = Some (addr0 (peer_addr ctx)) /\
  lookup k_remote_port o = Some (str_addr1 (peer_addr ctx)) /\
  lookup k_server_name o = Some (server_name ctx) /\
  lookup k_server_port o = Some (str_port (effective_port ctx)) /\
  lookup k_url_scheme o = Some (adj_url_scheme a) /\
  lookup k_http_host o = value_of_lines (filter host_line lines).
Proof.
  intros a ctx lines o.
  split.
  - intros [[A B C D E F] H]. repeat split; assumption.
  - intros (A & B & C & D & E & F & H). constructor; [constructor|]; assumption.
Qed.
Print Assumptions C15_e2e_meta_fixed_means.

(* (1b) One accepted request, from the bytes.  The task's environ has the
   seven metadata keys fixed as above (HTTP_HOST a function of the lines named
   "host" only); every header key the framing code does not touch -- HTTP_HOST
   and the six proxy keys among them -- is the joined value of exactly the
   lines whose name maps to it; for each of the six proxy keys those lines are
   lines of the request whose name is one of the six names (proxy_line) and
   contains no underscore.  So a proxy key is absent unless such a line was sent. *)
Theorem C15_e2e_environ_keys : forall a ds p fl lines (ctx : Environ.config),
  feed_all a ds = Some p -> accepted p -> head_parts (concat ds) = Some (fl, lines) ->
  meta_fixed a ctx lines (environ_of ctx p) /\
  (forall ek, plain_key ek = true -> lookup ek (environ_of ctx p) = value_of_lines (key_lines ek lines)) /\
  (forall pk, is_proxy_key pk = true ->
     lookup pk (environ_of ctx p) = value_of_lines (key_lines pk lines) /\
     (forall l, In l (key_lines pk lines) -> In l lines /\ proxy_line l = true /\ underscore_name_line l = false)).
Proof. exact e2e_environ_keys. Qed.
Print Assumptions C15_e2e_environ_keys.

(* (1c) Which header names reach which key -- parser.py:232-238 and
   task.py:576-581 composed: the name is compared ASCII case-insensitively with
   the "-" spelling ("x-forwarded-for", ..., "forwarded", "host"), and a name
   containing "_" (X_Forwarded_For, X-Forwarded_For, x_forwarded_for ...) maps
   to NO key at all: the parser drops the line. *)
Theorem C15_e2e_names : forall n,
  maps_to n k_xff = beqb (lower_ascii n) n_xff /\
  maps_to n k_xfh = beqb (lower_ascii n) n_xfh /\
  maps_to n k_xfproto = beqb (lower_ascii n) n_xfproto /\
  maps_to n k_xfport = beqb (lower_ascii n) n_xfport /\
  maps_to n k_xfby = beqb (lower_ascii n) n_xfby /\
  maps_to n k_fwd = beqb (lower_ascii n) n_fwd /\
  maps_to n k_http_host = beqb (lower_ascii n) n_host /\
  (has_underscore n = true -> forall ek, maps_to n ek = false).
Proof.
  intros n.
  repeat split;
    [apply (maps_to_canonical n_xff)|apply (maps_to_canonical n_xfh)|apply (maps_to_canonical n_xfproto)
    |apply (maps_to_canonical n_xfport)|apply (maps_to_canonical n_xfby)|apply (maps_to_canonical n_fwd)
    |apply (maps_to_canonical n_host)|]; try reflexivity.
  intros H ek. unfold maps_to. rewrite H. reflexivity.
Qed.
Print Assumptions C15_e2e_names.

(* ... and [proxy_line], defined by those six names, is exactly "maps to one of
   the six proxy keys" *)
Theorem C15_e2e_proxy_line : forall l, proxy_line l = existsb (maps_to (line_name l)) proxy_keys.
Proof. exact proxy_line_spec. Qed.
Print Assumptions C15_e2e_proxy_line.

(* Whether an accepted request is chunked is decided by its version and its
   Transfer-Encoding line(s) -- lines that are never ignorable; so two requests
   as in (2) below have the same framing verdict, and "same body" there only
   has to say that wsgi.input yields the same bytes. *)
Theorem C15_e2e_framing_verdict : forall a ds p fl lines,
  feed_all a ds = Some p -> accepted p -> head_parts (concat ds) = Some (fl, lines) ->
  chunked p = beqb (version p) s_1_1 && nonnil (te_encodings (te_of_lines lines)) /\
  te_of_lines (kept_lines lines) = te_of_lines lines.
Proof.
  intros a ds p fl lines H A HP.
  destruct (accepted_parts _ _ _ H A) as (fl0 & lines0 & p0 & p1 & hp & h1 & HP0 & AR & AH).
  rewrite HP in HP0. injection HP0 as <- <-.
  split; [eapply accepted_chunked; eauto|apply te_of_lines_kept].
Qed.
Print Assumptions C15_e2e_framing_verdict.

(* (2) The composition.  Two byte-level requests (any segmentation each) that
   are both accepted, have the same request line, the same body ([same_body]:
   get_body_stream, what wsgi.input yields, is the same byte string),
   and header lines that differ at most in lines named like one of the six
   proxy headers and in lines whose name contains an underscore (any values,
   any number, anywhere); a peer that is not the trusted proxy ("*" excluded);
   any configuration.  Then both are handed to the application; the two
   environs agree on every key other than the six; in both the seven metadata
   keys are what the context, adj.url_scheme and the Host line determine; with
   clearing on none of the six reaches the application and the two environs are
   equal on every key; with clearing off the environ is the task's, and each of
   the six is exactly what the "-"-spelled lines of that request say. *)
Theorem C15_e2e_two_requests : forall a ds ds' p p' fl lines lines' (ctx : Environ.config) (cfg : Proxy.config),
  feed_all a ds = Some p -> accepted p ->
  feed_all a ds' = Some p' -> accepted p' ->
  head_parts (concat ds) = Some (fl, lines) -> head_parts (concat ds') = Some (fl, lines') ->
  kept_lines lines = kept_lines lines' -> same_body p p' ->
  trusted_proxy cfg <> Some (addr0 (peer_addr ctx)) /\ trusted_proxy cfg <> Some s_star ->
  exists o o',
    serve_request cfg ctx p = Ok o /\ serve_request cfg ctx p' = Ok o' /\
    agree_off is_proxy_key o o' /\
    meta_fixed a ctx lines o /\ meta_fixed a ctx lines' o' /\
    filter host_line lines = filter host_line lines' /\
    (clear_untrusted cfg = true ->
       (forall k, is_proxy_key k = true -> lookup k o = None /\ lookup k o' = None) /\
       (forall k, lookup k o = lookup k o')) /\
    (clear_untrusted cfg = false ->
       o = environ_of ctx p /\ o' = environ_of ctx p' /\
       forall pk, is_proxy_key pk = true ->
         lookup pk o = value_of_lines (key_lines pk lines) /\
         lookup pk o' = value_of_lines (key_lines pk lines')).
Proof. exact c15_e2e_two_requests. Qed.
Print Assumptions C15_e2e_two_requests.

(* ... as the property words it: against the same request with the proxy
   header lines deleted.  That request never carries any of the six. *)
Theorem C15_e2e_same_as_deleted : forall a ds ds' p p' fl lines lines' (ctx : Environ.config) (cfg : Proxy.config),
  feed_all a ds = Some p -> accepted p ->
  feed_all a ds' = Some p' -> accepted p' ->
  head_parts (concat ds) = Some (fl, lines) -> head_parts (concat ds') = Some (fl, lines') ->
  lines' = filter (fun l => negb (proxy_line l)) lines -> same_body p p' ->
  trusted_proxy cfg <> Some (addr0 (peer_addr ctx)) /\ trusted_proxy cfg <> Some s_star ->
  exists o o',
    serve_request cfg ctx p = Ok o /\ serve_request cfg ctx p' = Ok o' /\
    agree_off is_proxy_key o o' /\
    meta_fixed a ctx lines o /\ meta_fixed a ctx lines o' /\
    (forall k, is_proxy_key k = true -> lookup k o' = None) /\
    (clear_untrusted cfg = true ->
       (forall k, is_proxy_key k = true -> lookup k o = None) /\ (forall k, lookup k o = lookup k o')).
Proof.
  intros a ds ds' p p' fl lines lines' ctx cfg H A H' A' HP HP' D B U.
  assert (K : kept_lines lines = kept_lines lines') by (rewrite D, kept_after_delete; reflexivity).
  destruct (c15_e2e_two_requests _ _ _ _ _ _ _ _ ctx cfg H A H' A' HP HP' K B U)
    as (o & o' & S & S' & Ag & M & M' & Hh & Cl & Nc).
  exists o, o'. split; [exact S|]. split; [exact S'|]. split; [exact Ag|]. split; [exact M|].
  split; [|split].
  - destruct M' as [Mc Mh]. constructor; [exact Mc|]. rewrite Hh. exact Mh.
  - intros k Hk. destruct (clear_untrusted cfg) eqn:C.
    + destruct (Cl eq_refl) as [N _]. apply N. exact Hk.
    + destruct (Nc eq_refl) as (_ & _ & PK). destruct (PK k Hk) as [_ ->].
      subst lines'. rewrite key_lines_after_delete by exact Hk. reflexivity.
  - intro C. destruct (Cl C) as [N E]. split; [intros k Hk; apply N; exact Hk|exact E].
Qed.
Print Assumptions C15_e2e_same_as_deleted.

(* One request. *)
Theorem C15_e2e_one_request : forall a ds p fl lines (ctx : Environ.config) (cfg : Proxy.config),
  feed_all a ds = Some p -> accepted p -> head_parts (concat ds) = Some (fl, lines) ->
  trusted_proxy cfg <> Some (addr0 (peer_addr ctx)) /\ trusted_proxy cfg <> Some s_star ->
  exists o,
    serve_request cfg ctx p = Ok o /\ meta_fixed a ctx lines o /\
    (forall k, is_proxy_key k = false -> lookup k o = lookup k (environ_of ctx p)) /\
    (clear_untrusted cfg = true -> forall k, is_proxy_key k = true -> lookup k o = None) /\
    (clear_untrusted cfg = false -> o = environ_of ctx p).
Proof.
  intros a ds p fl lines ctx cfg H A HP U.
  destruct (e2e_environ_keys _ _ _ _ _ ctx H A HP) as (M & _ & _).
  pose proof (ck_addr _ _ _ (mf_ctx _ _ _ _ M)) as Pe.
  destruct (c15_two_runs cfg _ _ _ Pe U (fun k _ => eq_refl)) as (o & o' & S & _ & _ & Fr & _ & Cl & Nc).
  exists o. split; [exact S|]. split; [eapply meta_fixed_transfer; eauto|]. split; [exact Fr|].
  split; [intros C; apply (Cl C)|exact Nc].
Qed.
Print Assumptions C15_e2e_one_request.

(* The bridge between the two component models is sound: the environ of the
   task has no repeated key (it is a dict), so the middleware model reads under
   every key exactly the str the task put there (None for a non-str entry). *)
Theorem C15_e2e_bridge : forall (ctx : Environ.config) p k,
  NoDup (map fst (get_environment ctx p)) /\
  lookup k (environ_of ctx p) = match eget (get_environment ctx p) k with Some (VStr s) => Some s | _ => None end.
Proof.
  intros ctx p k.
  split; [apply get_environment_nodup|apply lookup_environ_of].
Qed.
Print Assumptions C15_e2e_bridge.

(* [head_parts] really is the head of the run: the header block C07's theorems
   speak about (head_of / head_lines, existentially) is the one computed here. *)
Theorem C15_e2e_head_parts : forall a ds p,
  feed_all a ds = Some p -> accepted p ->
  exists hp fl lines, head_of ds hp /\ EnvironFields.head_lines hp fl lines /\
                      head_parts (concat ds) = Some (fl, lines).
Proof.
  intros a ds p H A. destruct (accepted_parts _ _ _ H A) as (fl & lines & p0 & p1 & hp & h1 & HP & AR & AH).
  exists hp, fl, lines. split; [exact (ar_head _ _ _ _ _ _ AR)|]. split; [exact (ah_find _ _ _ _ _ _ _ AH)|exact HP].
Qed.
Print Assumptions C15_e2e_head_parts.
