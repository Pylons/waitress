(* C12 -- output buffering is bounded: fast producers are paused and always released.
   Model: Model/ChanFlow.v (one connection, I/O thread + producing worker + tails +
   environment, Appendix-A granularity).  [run p sched] is the state after an
   arbitrary schedule (all interleavings, all lengths, all environment behaviour);
   p carries high_watermark, send_bytes, lookahead, the write sizes, and three shape flags:
   [fixed p] = the code as it is (6aba4bf, daf1a85, 7fa6a60 applied; the shape audit pins it);
   a flag set to false = the statement as it was before that repair. *)
From Coq Require Import List ZArith Bool Arith.
From WV Require Import Lib.Conc Model.ChanFlow Proof.ChanFlow Proof.ChanFlowReq Proof.ChanFlowFlags
  Proof.ChanFlowAcct Proof.ChanFlowLive Proof.ChanFlowWit Proof.ChanFlowRefuted.
Import ListNotations.
Local Open Scope Z_scope.

(* bytes held by the outbufs never exceed high_watermark + the size of the last accepted write *)
Theorem C12_bound : forall p sched, 0 <= hw p ->
  pending (run p sched) <= hw p + last_write (run p sched).
Proof.
  intros p sched. intros H. destruct (Lall_run p sched H) as (_ & _ & L). apply L. Qed.
Print Assumptions C12_bound.

(* the counter the code tests is that number of bytes (no drift), except for the one
   subtraction / addition in flight under the lock *)
Theorem C12_counter_exact : forall p sched, 0 <= hw p ->
  let s := run p sched in
  closed_bufs s = false -> pending s + sub_io (io s) + sub_w (wk s) = total s + add_w (wk s).
Proof. exact accounting. Qed.
Print Assumptions C12_counter_exact.

(* nothing lost, nothing duplicated: bytes on the wire + bytes held = bytes accepted while the
   connection is open (<= afterwards: handle_close drops what is held) *)
Theorem C12_order_counts : forall p sched, 0 <= hw p ->
  let s := run p sched in
  wire s + pending s <= appended s /\ (closed_bufs s = false -> wire s + pending s = appended s).
Proof.
  intros p sched.
  intros H s. destruct (Lall_run p sched H) as (_ & _ & L). fold s in L.
  destruct L as (_ & _ & _ & _ & _ & _ & L8 & L9 & _). split; assumption.
Qed.
Print Assumptions C12_order_counts.

(* the byte queue is only ever touched by the holder of outbuf_lock, and the two
   sides never touch it at the same time (a pause cannot interleave an append with a removal) *)
Theorem C12_order_exclusive : forall p sched,
  let s := run p sched in
  (io_touches (io s) = true -> olock s = Some TIo /\ w_touches (wk s) = false)
  /\ (w_touches (wk s) = true -> olock s = Some TW /\ io_touches (io s) = false).
Proof.
  intros p sched.
  intros s. destruct (L0_all p sched) as (Ho & _ & Hx & _). fold s in Ho, Hx.
  split; intros T.
  - assert (Hh : io_holds (io s) = true) by (destruct (io s); cbn in *; congruence).
    rewrite Hh in *. cbn in Hx. split; auto. destruct (wk s); cbn in *; congruence.
  - assert (Hh : w_holds (wk s) = true) by (destruct (wk s); cbn in *; congruence).
    rewrite Hh in *. rewrite andb_true_r in Hx. rewrite Hx in Ho. split; auto.
    destruct (io s); cbn in *; try congruence; destruct k; cbn in *; congruence.
Qed.
Print Assumptions C12_order_exclusive.

(* For every 0 <= high_watermark (0 included), every send_bytes, lookahead, residue:
   whenever the I/O thread is idle (blocked in select, or spinning through poll turns that change
   nothing) and the client reads, no producer is parked un-notified *)
Theorem C12_release : forall p, 0 <= hw p -> fixed p -> C12_release_statement p.
Proof. intros p A B sched. exact (release_idle p sched A B). Qed.
Print Assumptions C12_release.

(* an "idle-spinning" I/O thread really makes no progress: one poll turn later the state is the same *)
Theorem C12_spin_is_stuck : forall p s, io_spinning p s = true ->
  steps_io p s 9 = Some s \/ steps_io p s 10 = Some s \/ steps_io p s 11 = Some s.
Proof. exact spin_cycle. Qed.
Print Assumptions C12_spin_is_stuck.

(* each repair is necessary: the statement is false for the old shape of that line (witness
   schedules in ChanFlowWit.v; checks/C12.py re-finds the same situations on the real HTTPChannel
   when a repair is reverted).
   Before 6aba4bf (notify only if total < high_watermark): false at high_watermark = 0 (F23) ... *)
Theorem C12_release_refuted_old_notify_hw_zero :
  exists p, hw p = 0 /\ fx_notify_le p = false /\ fx_drain p = true /\ fx_recheck p = true
    /\ ~ C12_release_statement p
    /\ exists sched, let s := run p sched in
       quiescent s = true /\ client_reads s = true /\ w_parked s = true /\ total s = 0 /\ connected s = true.
Proof.
  exists p_f23. destruct wit_hw_zero as (A & B & C & D & E & F & _ & G & _).
  split; [exact A|]. do 3 (split; [reflexivity|]). split.
  - intros H. apply (H s_f23); [unfold io_idle; rewrite C; reflexivity | exact D | exact E].
  - exists s_f23. repeat split; assumption.
Qed.
Print Assumptions C12_release_refuted_old_notify_hw_zero.

(* ... and whenever the drain stops exactly at the mark, for 1 <= high_watermark < send_bytes *)
Theorem C12_release_refuted_old_notify_at_mark :
  exists p, 1 <= hw p /\ fx_notify_le p = false /\ fx_drain p = true /\ fx_recheck p = true
    /\ ~ C12_release_statement p
    /\ exists sched, let s := run p sched in
       io_spinning p s = true /\ client_reads s = true /\ w_parked s = true /\ total s = hw p.
Proof.
  exists p_eq. destruct wit_at_mark as (A & B & C & D & E & _).
  split; [exact A|]. do 3 (split; [reflexivity|]). split.
  - intros H. apply (H s_eq); [unfold io_idle; rewrite B; apply orb_true_r | exact C | exact D].
  - exists s_eq. repeat split; assumption.
Qed.
Print Assumptions C12_release_refuted_old_notify_at_mark.

(* before daf1a85 (handle_write flushes only if total >= send_bytes while a task runs): false
   whenever a producer can be parked with high_watermark < total < send_bytes *)
Theorem C12_release_refuted_old_drain :
  exists p, 1 <= hw p /\ fx_notify_le p = true /\ fx_drain p = false /\ fx_recheck p = true
    /\ ~ C12_release_statement p
    /\ exists sched, let s := run p sched in
       io_spinning p s = true /\ client_reads s = true /\ w_parked s = true /\ hw p < total s < sb p.
Proof.
  exists p_spin. destruct wit_below_send_bytes as (A & B & C & D & E & F & _).
  split; [exact A|]. do 3 (split; [reflexivity|]). split.
  - intros H. apply (H s_spin); [unfold io_idle; rewrite B; apply orb_true_r | exact C | exact D].
  - exists s_spin. repeat split; assumption.
Qed.
Print Assumptions C12_release_refuted_old_drain.

(* A producer parked while the connection is torn down is notified by the very next
   step of handle_close ... *)
Theorem C12_abort : forall p, 0 <= hw p -> fixed p -> C12_abort_statement p.
Proof. intros p A B sched. exact (abort_notified p sched A B). Qed.
Print Assumptions C12_abort.

(* ... and its first step after waking raises ClientDisconnected without appending anything *)
Theorem C12_abort_raises : forall p s r s' l,
  connected s = false ->
  (wk s = WFbParked FW true \/ wk s = WFbParkedE FW true) ->
  wq s <> [] ->
  step_w p s r = Some (s', l) ->
  wk s' = WRelRaise /\ wq s' = wq s /\ pending s' = pending s /\ total s' = total s.
Proof.
  intros p s r s' l.
  intros C Q Hq E. unfold step_w in E.
  destruct Q as [Q|Q]; rewrite Q in E; destruct (olock s); try discriminate E; injection E as <- <-;
    unfold fb_loop, fb_exit, goto_append, acq; cbn; rewrite ?C; cbn;
    destruct (wq s) eqn:Ew; try congruence; cbn; rewrite ?C; auto.
Qed.
Print Assumptions C12_abort_raises.

Theorem C12_abort_raise_step : forall p s r s' l,
  wk s = WRelRaise -> step_w p s r = Some (s', l) ->
  wk s' = WCloseAcq /\ In LRaise l /\ olock s' = None.
Proof.
  intros p s r s' l.
  intros Q E. unfold step_w in E. rewrite Q in E. injection E as <- <-. cbn. auto.
Qed.
Print Assumptions C12_abort_raise_step.

(* before 7fa6a60 (no re-test of connected under the lock): with lookahead >= 1 the service()-side
   watermark wait parks a worker on a channel that is already closed *)
Theorem C12_abort_refuted_old_recheck :
  exists p, 1 <= hw p /\ sb p <= hw p /\ fx_notify_le p = true /\ fx_drain p = true /\ fx_recheck p = false
    /\ ~ C12_abort_statement p
    /\ exists sched, let s := run p sched in
       quiescent s = true /\ w_parked s = true /\ connected s = false /\ in_map s = false.
Proof.
  exists p_tail. destruct wit_tail_race as (A & B & C & D & E & F & _ & G).
  split; [exact A|]. split; [exact B|]. do 3 (split; [reflexivity|]). split.
  - intros H. specialize (H s_tail D E). cbv zeta in G. rewrite G in H. discriminate H.
  - exists s_tail. repeat split; assumption.
Qed.
Print Assumptions C12_abort_refuted_old_recheck.

(* Per-buffer memory bound at BYTE level (Model/ChanOut.v over the buffer model of C17; proofs in
   Proof/ChanOutBound.v).  The interleaving model above bounds the TOTAL backlog by making the
   producer wait; this part is the reason write_soon rotates to a fresh OverflowableBuffer once
   current_outbuf_count reaches outbuf_high_watermark ("to avoid it growing unbounded"): for every
   configuration, every history of write_soon(bytes of at most W bytes), write_soon(file buffer) and
   _flush_some calls, and every socket behaviour, every OverflowableBuffer in self.outbufs holds at most
   max(outbuf_high_watermark - 1, 0) + W bytes and current_outbuf_count stays within the same bound
   (file-wrapper buffers are the application's files, not memory of the server).  The bound is
   attained (C12_buffer_bound_attained). *)
From WV Require Model.Buffers Model.ChanOut Spec.Fifo Proof.ChanOut Proof.ChanOutBound.
Module CO := WV.Model.ChanOut.
Module COP := WV.Proof.ChanOut.
Module COB := WV.Proof.ChanOutBound.

Theorem C12_buffer_rotation_bound : forall (c : CO.cfg) (W : Z) (ps : list CO.cop),
  COP.cfg_ok c -> (0 <= W)%Z -> Forall COP.cop_ok ps -> Forall (COB.cop_small W) ps ->
  let ch := fst (CO.crun c CO.chan_new ps) in
  Forall (COB.ob_bounded (COB.bnd c W)) (CO.outbufs ch) /\
  (0 <= CO.current_outbuf_count ch <= COB.bnd c W)%Z.
Proof. exact COB.out_buffers_bounded_new. Qed.
Print Assumptions C12_buffer_rotation_bound.

Theorem C12_buffer_bound_attained :
  let r := fst (CO.crun COP.ex_cfg CO.chan_new
                  [CO.CWrite (CO.WBytes [1;2;3]%N) []; CO.CWrite (CO.WBytes [4;5;6]%N) []]) in
  map (fun b => WV.Spec.Fifo.q_len (COP.babs b)) (CO.outbufs r) = [6%Z] /\ COB.bnd COP.ex_cfg 3 = 6%Z.
Proof. exact COB.bound_attained. Qed.
Print Assumptions C12_buffer_bound_attained.
