(* Open known finding kf_c02_1 (C02, F12): with exact error tags the outcome
   depends on the segmentation -- a chunked body with an invalid chunk-size line
   followed by >= max_request_body_size bytes is a 413 in one read and a 400
   byte-wise.  Compiled separately from the property theorems: if this file stops
   compiling the finding no longer reproduces in the model (a note, never a
   violation). *)
From Coq Require Import List NArith ZArith Bool.
From RecordUpdate Require Import RecordUpdate.
From WV Require Import Lib.PyBytes Model.Receiver Model.Parser Model.ChanSeq
  Proof.SplitParser Proof.SplitChan Proof.SplitExamples.
Import ListNotations.
Local Open Scope N_scope.

Lemma f12_whole :
  map ev_err (cut (snd (feed_tr false adj10 chan_init [f12_stream]))) = [Some (Some EBodyTooLarge)].
Proof. vm_compute. reflexivity. Qed.

Lemma f12_bytes :
  map ev_err (cut (snd (feed_tr false adj10 chan_init (bytewise f12_stream)))) = [Some (Some EInvalidChunkSize)].
Proof. vm_compute. reflexivity. Qed.

(* the exact-tag statement is refuted: 413 in one read, 400 byte-wise *)
Lemma split_independent_exact_refuted : ~ split_independent_exact.
Proof.
  intros H. specialize (H adj10 [f12_stream] (bytewise f12_stream)).
  rewrite bytewise_concat in H. cbn [concat] in H. rewrite app_nil_r in H. specialize (H eq_refl).
  pose proof f12_whole as A. pose proof f12_bytes as B. rewrite H in A. rewrite A in B. discriminate.
Qed.

(* with the abstraction of the theorem both runs are observed alike *)
Example f12_abstracted :
  map ev_err (cut (snd (feed_tr true adj10 chan_init [f12_stream]))) =
  map ev_err (cut (snd (feed_tr true adj10 chan_init (bytewise f12_stream)))).
Proof. vm_compute. reflexivity. Qed.


Theorem C02_exact_refuted : ~ split_independent_exact.
Proof. exact split_independent_exact_refuted. Qed.
Print Assumptions C02_exact_refuted.
