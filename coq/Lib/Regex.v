(* Regular expressions over N (bytes are N < 256), relational semantics,
   Brzozowski derivatives and a matcher proved correct.  Stdlib only. *)
From Coq Require Import List NArith Bool Lia.
Import ListNotations.
Local Open Scope N_scope.

Inductive re : Type :=
| Emp : re                         (* empty language *)
| Eps : re                         (* empty string   *)
| Cls : list (N * N) -> re         (* one symbol in a union of inclusive ranges *)
| Cat : re -> re -> re
| Alt : re -> re -> re
| Star : re -> re
| And : re -> re -> re.          (* intersection *)

Fixpoint in_ranges (x : N) (rs : list (N * N)) : bool :=
  match rs with
  | [] => false
  | (lo, hi) :: rs' => ((lo <=? x) && (x <=? hi)) || in_ranges x rs'
  end.

Inductive Lang : re -> list N -> Prop :=
| LEps : Lang Eps []
| LCls : forall rs x, in_ranges x rs = true -> Lang (Cls rs) [x]
| LCat : forall a b s t, Lang a s -> Lang b t -> Lang (Cat a b) (s ++ t)
| LAltL : forall a b s, Lang a s -> Lang (Alt a b) s
| LAltR : forall a b s, Lang b s -> Lang (Alt a b) s
| LStar0 : forall a, Lang (Star a) []
| LStarS : forall a s t, Lang a s -> Lang (Star a) t -> Lang (Star a) (s ++ t)
| LAnd : forall a b s, Lang a s -> Lang b s -> Lang (And a b) s.

Fixpoint nullable (r : re) : bool :=
  match r with
  | Emp => false
  | Eps => true
  | Cls _ => false
  | Cat a b => nullable a && nullable b
  | Alt a b => nullable a || nullable b
  | Star _ => true
  | And a b => nullable a && nullable b
  end.

(* syntactic equality *)
Fixpoint ranges_eqb (a b : list (N * N)) : bool :=
  match a, b with
  | [], [] => true
  | (l1, h1) :: a', (l2, h2) :: b' => (l1 =? l2) && (h1 =? h2) && ranges_eqb a' b'
  | _, _ => false
  end.

Fixpoint re_eqb (a b : re) : bool :=
  match a, b with
  | Emp, Emp => true
  | Eps, Eps => true
  | Cls r1, Cls r2 => ranges_eqb r1 r2
  | Cat a1 a2, Cat b1 b2 => re_eqb a1 b1 && re_eqb a2 b2
  | Alt a1 a2, Alt b1 b2 => re_eqb a1 b1 && re_eqb a2 b2
  | Star a1, Star b1 => re_eqb a1 b1
  | And a1 a2, And b1 b2 => re_eqb a1 b1 && re_eqb a2 b2
  | _, _ => false
  end.

Lemma ranges_eqb_eq a b : ranges_eqb a b = true -> a = b.
Proof.
  revert b; induction a as [|[l1 h1] a IH]; intros [|[l2 h2] b]; simpl; try discriminate; auto.
  intro H. apply andb_true_iff in H as [H H3]. apply andb_true_iff in H as [H1 H2].
  apply N.eqb_eq in H1, H2. subst. f_equal. auto.
Qed.

Lemma re_eqb_eq a b : re_eqb a b = true -> a = b.
Proof.
  revert b; induction a; intros []; simpl; try discriminate; auto.
  - intro H; apply ranges_eqb_eq in H; subst; auto.
  - intro H; apply andb_true_iff in H as [H1 H2]. f_equal; auto.
  - intro H; apply andb_true_iff in H as [H1 H2]. f_equal; auto.
  - intro H; f_equal; auto.
  - intro H; apply andb_true_iff in H as [H1 H2]. f_equal; auto.
Qed.

Lemma ranges_eqb_refl a : ranges_eqb a a = true.
Proof. induction a as [|[l h] a IH]; simpl; auto. rewrite !N.eqb_refl, IH; auto. Qed.

Lemma re_eqb_refl a : re_eqb a a = true.
Proof. induction a; simpl; auto using ranges_eqb_refl; rewrite ?IHa1, ?IHa2; auto. Qed.

(* smart constructors: language preserving simplifications that keep the
   set of derivatives small *)
Definition cat (a b : re) : re :=
  match a, b with
  | Emp, _ => Emp
  | _, Emp => Emp
  | Eps, _ => b
  | _, Eps => a
  | _, _ => Cat a b
  end.

Fixpoint alt_mem (a : re) (b : re) : bool :=
  (* is [a] one of the alternatives of the right-nested alternation [b] *)
  match b with
  | Alt b1 b2 => re_eqb a b1 || alt_mem a b2
  | _ => re_eqb a b
  end.

Definition alt1 (a b : re) : re :=
  match a, b with
  | Emp, _ => b
  | _, Emp => a
  | _, _ => if alt_mem a b then b else Alt a b
  end.

(* flatten left-nested alternations to the right *)
Fixpoint alt (a b : re) : re :=
  match a with
  | Alt a1 a2 => alt1 a1 (alt a2 b)
  | _ => alt1 a b
  end.

Definition and_ (a b : re) : re :=
  match a, b with
  | Emp, _ => Emp
  | _, Emp => Emp
  | _, _ => if re_eqb a b then a else And a b
  end.

Definition star (a : re) : re :=
  match a with
  | Emp => Eps
  | Eps => Eps
  | Star _ => a
  | _ => Star a
  end.

Fixpoint deriv (x : N) (r : re) : re :=
  match r with
  | Emp => Emp
  | Eps => Emp
  | Cls rs => if in_ranges x rs then Eps else Emp
  | Cat a b => if nullable a then alt (cat (deriv x a) b) (deriv x b)
               else cat (deriv x a) b
  | Alt a b => alt (deriv x a) (deriv x b)
  | Star a => cat (deriv x a) (star a)
  | And a b => and_ (deriv x a) (deriv x b)
  end.

Fixpoint matches (r : re) (s : list N) : bool :=
  match s with
  | [] => nullable r
  | x :: s' => matches (deriv x r) s'
  end.

Lemma nullable_correct r : nullable r = true <-> Lang r [].
Proof.
  split.
  - induction r; simpl; intro H; try discriminate.
    + constructor.
    + apply andb_true_iff in H as [H1 H2].
      change (@nil N) with (@nil N ++ @nil N). constructor; auto.
    + apply orb_true_iff in H as [H|H]; [apply LAltL | apply LAltR]; auto.
    + constructor.
    + apply andb_true_iff in H as [H1 H2]. constructor; auto.
  - intro H. remember [] as s eqn:E. induction H; simpl; auto; try discriminate.
    + apply app_eq_nil in E as [-> ->]. rewrite IHLang1, IHLang2; auto.
    + rewrite IHLang; auto.
    + rewrite IHLang; auto using orb_true_r.
    + rewrite IHLang1, IHLang2; auto.
Qed.

Lemma Lang_Emp s : ~ Lang Emp s.
Proof. intro H; inversion H. Qed.

Lemma Lang_Eps s : Lang Eps s <-> s = [].
Proof. split; intro H; [inversion H; auto | subst; constructor]. Qed.

Lemma Lang_Cat a b s : Lang (Cat a b) s <-> exists u v, s = u ++ v /\ Lang a u /\ Lang b v.
Proof.
  split.
  - intro H; inversion H; subst; eauto.
  - intros (u & v & -> & H1 & H2); constructor; auto.
Qed.

Lemma Lang_Alt a b s : Lang (Alt a b) s <-> Lang a s \/ Lang b s.
Proof.
  split.
  - intro H; inversion H; subst; auto.
  - intros [H|H]; [apply LAltL | apply LAltR]; auto.
Qed.

Lemma cat_eps_l b s : (exists u v, s = u ++ v /\ Lang Eps u /\ Lang b v) <-> Lang b s.
Proof.
  split.
  - intros (u & v & -> & H1 & H2). apply Lang_Eps in H1; subst; auto.
  - intro H; exists [], s; repeat split; auto; constructor.
Qed.

Lemma cat_eps_r a s : (exists u v, s = u ++ v /\ Lang a u /\ Lang Eps v) <-> Lang a s.
Proof.
  split.
  - intros (u & v & -> & H1 & H2). apply Lang_Eps in H2; subst. rewrite app_nil_r; auto.
  - intro H; exists s, []; rewrite app_nil_r; repeat split; auto; constructor.
Qed.

Lemma cat_emp_l b s : (exists u v, s = u ++ v /\ Lang Emp u /\ Lang b v) <-> Lang Emp s.
Proof.
  split.
  - intros (u & v & _ & H1 & _). exfalso; eapply Lang_Emp; eauto.
  - intro H; exfalso; eapply Lang_Emp; eauto.
Qed.

Lemma cat_emp_r a s : (exists u v, s = u ++ v /\ Lang a u /\ Lang Emp v) <-> Lang Emp s.
Proof.
  split.
  - intros (u & v & _ & _ & H1). exfalso; eapply Lang_Emp; eauto.
  - intro H; exfalso; eapply Lang_Emp; eauto.
Qed.

Lemma Lang_And a b s : Lang (And a b) s <-> Lang a s /\ Lang b s.
Proof.
  split.
  - intro H; inversion H; subst; auto.
  - intros [H1 H2]; constructor; auto.
Qed.

Lemma Lang_and_ a b s : Lang (and_ a b) s <-> Lang a s /\ Lang b s.
Proof.
  assert (G : Lang (if re_eqb a b then a else And a b) s <-> Lang a s /\ Lang b s).
  { destruct (re_eqb a b) eqn:M.
    - apply re_eqb_eq in M; subst. tauto.
    - apply Lang_And. }
  assert (E : forall r, (Lang Emp s /\ Lang r s) <-> Lang Emp s).
  { intro r; split; [tauto|]. intro H; exfalso; eapply Lang_Emp; eauto. }
  assert (E' : forall r, (Lang r s /\ Lang Emp s) <-> Lang Emp s).
  { intro r; split; [tauto|]. intro H; exfalso; eapply Lang_Emp; eauto. }
  unfold and_.
  destruct a; [rewrite E; reflexivity | ..];
    (destruct b; [rewrite E'; reflexivity | ..]; exact G).
Qed.

Lemma Lang_cat a b s : Lang (cat a b) s <-> Lang (Cat a b) s.
Proof.
  rewrite Lang_Cat.
  destruct a, b; simpl;
    first [ rewrite cat_emp_l; reflexivity | rewrite cat_emp_r; reflexivity
          | rewrite cat_eps_l; reflexivity | rewrite cat_eps_r; reflexivity
          | apply Lang_Cat ].
Qed.

Lemma alt_mem_sound a b s : alt_mem a b = true -> Lang a s -> Lang b s.
Proof.
  revert a; induction b; simpl; intros a0 H L;
    try (apply re_eqb_eq in H; subst; auto; fail).
  apply orb_true_iff in H as [H|H].
  - apply re_eqb_eq in H; subst. apply LAltL; auto.
  - apply LAltR; eauto.
Qed.

Lemma Lang_alt1 a b s : Lang (alt1 a b) s <-> Lang a s \/ Lang b s.
Proof.
  assert (G : Lang (if alt_mem a b then b else Alt a b) s <-> Lang a s \/ Lang b s).
  { destruct (alt_mem a b) eqn:M.
    - split; auto. intros [H|H]; auto. eapply alt_mem_sound; eauto.
    - apply Lang_Alt. }
  assert (E : forall r, (Lang Emp s \/ Lang r s) <-> Lang r s).
  { intro r; split; auto. intros [H|H]; auto. exfalso; eapply Lang_Emp; eauto. }
  assert (E' : forall r, (Lang r s \/ Lang Emp s) <-> Lang r s).
  { intro r; split; auto. intros [H|H]; auto. exfalso; eapply Lang_Emp; eauto. }
  unfold alt1.
  destruct a; [rewrite E; reflexivity | ..];
    (destruct b; [rewrite E'; reflexivity | ..]; exact G).
Qed.

Lemma Lang_alt a b s : Lang (alt a b) s <-> Lang a s \/ Lang b s.
Proof.
  revert b s; induction a; intros b0 s; try apply Lang_alt1.
  cbn [alt]. rewrite Lang_alt1, IHa2, Lang_Alt. tauto.
Qed.

Lemma Lang_Star_unfold a s :
  Lang (Star a) s <-> s = [] \/ exists x u v, s = (x :: u) ++ v /\ Lang a (x :: u) /\ Lang (Star a) v.
Proof.
  split.
  - intro H. remember (Star a) as r eqn:E. induction H; try discriminate; auto.
    injection E as ->. destruct s as [|x u].
    + simpl. apply IHLang2; auto.
    + right. exists x, u, t. auto.
  - intros [->|(x & u & v & -> & H1 & H2)]; [constructor|].
    apply LStarS; auto.
Qed.

Lemma Lang_star a s : Lang (star a) s <-> Lang (Star a) s.
Proof.
  destruct a; simpl; try reflexivity.
  - rewrite Lang_Eps. split; [intros ->; constructor|].
    intro H. apply Lang_Star_unfold in H as [->|(x & u & v & _ & H & _)]; auto.
    exfalso; eapply Lang_Emp; eauto.
  - rewrite Lang_Eps. split; [intros ->; constructor|].
    intro H. apply Lang_Star_unfold in H as [->|(x & u & v & _ & H & _)]; auto.
    inversion H.
  - split.
    + intro H. rewrite <- (app_nil_r s). apply LStarS; auto. constructor.
    + intro H. remember (Star (Star a)) as r eqn:E.
      induction H; try discriminate.
      * constructor.
      * injection E as ->. specialize (IHLang2 eq_refl).
        clear H0 IHLang1.
        remember (Star a) as r eqn:E. revert IHLang2.
        induction H; try discriminate; intro G; auto.
        injection E as ->. rewrite <- app_assoc. apply LStarS; auto.
Qed.

Lemma deriv_correct x r s : Lang (deriv x r) s <-> Lang r (x :: s).
Proof.
  revert s; induction r; intro s; simpl.
  - split; intro H; inversion H.
  - split; intro H; inversion H.
  - destruct (in_ranges x l) eqn:E.
    + rewrite Lang_Eps. split.
      * intros ->; constructor; auto.
      * intro H; inversion H; auto.
    + split; intro H; inversion H; subst. congruence.
  - assert (C : Lang (cat (deriv x r1) r2) s <->
                exists u v, s = u ++ v /\ Lang r1 (x :: u) /\ Lang r2 v).
    { rewrite Lang_cat, Lang_Cat. split; intros (u & v & -> & H1 & H2); exists u, v;
        repeat split; auto; apply IHr1; auto. }
    destruct (nullable r1) eqn:N1.
    + rewrite Lang_alt, C, IHr2, Lang_Cat. split.
      * intros [(u & v & -> & H1 & H2)|H].
        -- exists (x :: u), v; auto.
        -- exists [], (x :: s); repeat split; auto. apply nullable_correct; auto.
      * intros (u & v & E & H1 & H2). destruct u as [|y u]; simpl in E.
        -- subst; auto.
        -- injection E as -> ->. left; eauto.
    + rewrite C, Lang_Cat. split.
      * intros (u & v & -> & H1 & H2). exists (x :: u), v; auto.
      * intros (u & v & E & H1 & H2). destruct u as [|y u]; simpl in E.
        -- apply nullable_correct in H1; congruence.
        -- injection E as -> ->. eauto.
  - rewrite Lang_alt, IHr1, IHr2, Lang_Alt. tauto.
  - rewrite Lang_cat, Lang_Cat. split.
    + intros (u & v & -> & H1 & H2). apply IHr in H1. apply Lang_star in H2.
      change (x :: u ++ v) with ((x :: u) ++ v). apply LStarS; auto.
    + intro H. apply Lang_Star_unfold in H as [H|(y & u & v & E & H1 & H2)]; [discriminate|].
      injection E as -> ->. exists u, v. repeat split; auto.
      * apply IHr; auto.
      * apply Lang_star; auto.
  - rewrite Lang_and_, IHr1, IHr2, Lang_And. tauto.
Qed.

Theorem matches_correct r s : matches r s = true <-> Lang r s.
Proof.
  revert r; induction s as [|x s IH]; intro r; simpl.
  - apply nullable_correct.
  - rewrite IH. apply deriv_correct.
Qed.

(* convenient derived forms used by generated terms and specifications *)
Definition Sym (x : N) : re := Cls [(x, x)].
Definition Plus (a : re) : re := Cat a (Star a).
Definition Opt (a : re) : re := Alt Eps a.
Fixpoint Lit (s : list N) : re :=
  match s with [] => Eps | x :: s' => Cat (Sym x) (Lit s') end.
(* exactly m repetitions; RepUpTo: at most k *)
Fixpoint RepN (a : re) (m : nat) : re :=
  match m with O => Eps | S m' => Cat a (RepN a m') end.
Fixpoint RepUpTo (a : re) (k : nat) : re :=
  match k with O => Eps | S k' => Opt (Cat a (RepUpTo a k')) end.
Definition Rep (a : re) (m k : nat) : re := Cat (RepN a m) (RepUpTo a k).  (* m .. m+k *)
Definition RepMin (a : re) (m : nat) : re := Cat (RepN a m) (Star a).      (* m .. inf *)

Lemma Lang_Sym x s : Lang (Sym x) s <-> s = [x].
Proof.
  unfold Sym. split.
  - intro H; inversion H; subst. simpl in *. rewrite orb_false_r in *.
    apply andb_true_iff in H1 as [A B]. apply N.leb_le in A, B. f_equal. lia.
  - intros ->. constructor. simpl. rewrite !N.leb_refl. auto.
Qed.

Lemma Lang_Lit l s : Lang (Lit l) s <-> s = l.
Proof.
  revert s; induction l as [|x l IH]; intro s; simpl.
  - apply Lang_Eps.
  - rewrite Lang_Cat. split.
    + intros (u & v & -> & H1 & H2). apply Lang_Sym in H1. apply IH in H2. subst; auto.
    + intros ->. exists [x], l. repeat split; auto; [apply Lang_Sym | apply IH]; auto.
Qed.

Definition bytes_ok (s : list N) : Prop := Forall (fun b => b < 256) s.
