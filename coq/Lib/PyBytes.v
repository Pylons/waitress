(* Python bytes / str primitives used by the modelled code, as total Gallina
   functions on [list N].  A byte string is a list of N (< 256 when it comes
   from the wire); a str is a list of code points.  Every function here is
   validated against CPython by the K-prim differential suite
   (harness/prim.py). *)
From Coq Require Import List NArith Bool Lia.
Import ListNotations.
Local Open Scope N_scope.

Definition bytes := list N.

Fixpoint beqb (a b : bytes) : bool :=
  match a, b with
  | [], [] => true
  | x :: a', y :: b' => (x =? y) && beqb a' b'
  | _, _ => false
  end.

Lemma beqb_eq a b : beqb a b = true <-> a = b.
Proof.
  revert b; induction a as [|x a IH]; intros [|y b]; simpl; split; try discriminate; auto.
  - intro H. apply andb_true_iff in H as [H1 H2]. apply N.eqb_eq in H1. apply IH in H2. subst; auto.
  - intro H. injection H as -> ->. rewrite N.eqb_refl. apply IH. auto.
Qed.

Lemma beqb_refl a : beqb a a = true.
Proof. apply beqb_eq. reflexivity. Qed.

Lemma beqb_false a b : beqb a b = false <-> a <> b.
Proof. rewrite <- beqb_eq. destruct (beqb a b); split; congruence. Qed.

Lemma beqb_sym a b : beqb a b = beqb b a.
Proof.
  destruct (beqb b a) eqn:E.
  - apply beqb_eq in E. subst. apply beqb_refl.
  - apply beqb_false. apply beqb_false in E. congruence.
Qed.

Fixpoint startswith (s p : bytes) : bool :=
  match p, s with
  | [], _ => true
  | x :: p', y :: s' => (x =? y) && startswith s' p'
  | _ :: _, [] => false
  end.

Definition endswith (s p : bytes) : bool := startswith (rev s) (rev p).

Definition memb (x : N) (l : list N) : bool := existsb (N.eqb x) l.

(* s.find(p): index of the first occurrence *)
Fixpoint find_from (s p : bytes) (i : nat) : option nat :=
  if startswith s p then Some i
  else match s with
       | [] => None
       | _ :: s' => find_from s' p (S i)
       end.
Definition find (s p : bytes) : option nat := find_from s p 0.
Definition contains (s p : bytes) : bool :=
  match find s p with Some _ => true | None => false end.

(* s.split(sep) for a non-empty separator.  [fuel] only has to be > length s. *)
Fixpoint split_fuel (fuel : nat) (s sep : bytes) : list bytes :=
  match fuel with
  | O => [s]
  | S f =>
    match find s sep with
    | None => [s]
    | Some i => firstn i s :: split_fuel f (skipn (i + length sep) s) sep
    end
  end.
Definition split (s sep : bytes) : list bytes := split_fuel (S (length s)) s sep.

(* s.split(sep, 1) *)
Definition split1 (s sep : bytes) : list bytes :=
  match find s sep with
  | None => [s]
  | Some i => [firstn i s; skipn (i + length sep) s]
  end.

(* s.partition(sep) *)
Definition partition (s sep : bytes) : bytes * bytes * bytes :=
  match find s sep with
  | None => (s, [], [])
  | Some i => (firstn i s, sep, skipn (i + length sep) s)
  end.

(* last occurrence: s.rfind(p) *)
Fixpoint rfind_from (s p : bytes) (i : nat) (best : option nat) : option nat :=
  let best' := if startswith s p then Some i else best in
  match s with
  | [] => best'
  | _ :: s' => rfind_from s' p (S i) best'
  end.
Definition rfind (s p : bytes) : option nat := rfind_from s p 0 None.

(* s.rsplit(sep, 1) *)
Definition rsplit1 (s sep : bytes) : list bytes :=
  match rfind s sep with
  | None => [s]
  | Some i => [firstn i s; skipn (i + length sep) s]
  end.

Fixpoint lstrip_by (f : N -> bool) (s : bytes) : bytes :=
  match s with
  | x :: s' => if f x then lstrip_by f s' else s
  | [] => []
  end.
Definition rstrip_by (f : N -> bool) (s : bytes) : bytes := rev (lstrip_by f (rev s)).
Definition strip_by (f : N -> bool) (s : bytes) : bytes := rstrip_by f (lstrip_by f s).

(* bytes.strip() with no argument: ASCII whitespace  b' \t\n\r\x0b\x0c' *)
Definition is_bytes_ws (x : N) : bool := ((9 <=? x) && (x <=? 13)) || (x =? 32).
(* str.strip() with no argument, on code points: Unicode White_Space plus
   the separators 0x1c-0x1f that Python treats as whitespace *)
Definition is_str_ws (x : N) : bool :=
  ((9 <=? x) && (x <=? 13)) || ((28 <=? x) && (x <=? 32)) || (x =? 133) || (x =? 160)
  || (x =? 5760) || ((8192 <=? x) && (x <=? 8202)) || (x =? 8232) || (x =? 8233)
  || (x =? 8239) || (x =? 8287) || (x =? 12288).
Definition is_sp_htab (x : N) : bool := (x =? 32) || (x =? 9).

(* ASCII case mapping (bytes.upper / bytes.lower) *)
Definition upper_ascii_b (x : N) : N := if (97 <=? x) && (x <=? 122) then x - 32 else x.
Definition lower_ascii_b (x : N) : N := if (65 <=? x) && (x <=? 90) then x + 32 else x.
Definition upper_ascii (s : bytes) : bytes := map upper_ascii_b s.
Definition lower_ascii (s : bytes) : bytes := map lower_ascii_b s.

(* str.lower() restricted to code points < 256 (latin-1 decoded text): the
   result stays below 256 and has the same length.  Code points >= 256 are
   left unchanged (the models only apply it to latin-1 decoded header text;
   K-prim checks exactly that domain). *)
Definition lower_latin1_c (x : N) : N :=
  if (65 <=? x) && (x <=? 90) then x + 32
  else if (192 <=? x) && (x <=? 222) && negb (x =? 215) then x + 32
  else x.
Definition lower_latin1 (s : bytes) : bytes := map lower_latin1_c s.

Definition replace_byte (a b : N) (s : bytes) : bytes :=
  map (fun x => if x =? a then b else x) s.

Fixpoint join (sep : bytes) (l : list bytes) : bytes :=
  match l with
  | [] => []
  | [x] => x
  | x :: l' => x ++ sep ++ join sep l'
  end.

(* str.split() with no argument: runs of whitespace separate, no empty items *)
Fixpoint split_ws_go (f : N -> bool) (s cur : bytes) : list bytes :=
  match s with
  | [] => match cur with [] => [] | _ => [rev cur] end
  | x :: s' =>
    if f x then match cur with
                | [] => split_ws_go f s' []
                | _ => rev cur :: split_ws_go f s' []
                end
    else split_ws_go f s' (x :: cur)
  end.
Definition split_ws (f : N -> bool) (s : bytes) : list bytes := split_ws_go f s [].

(* decimal / hexadecimal *)
Definition is_digit (x : N) : bool := (48 <=? x) && (x <=? 57).
Definition hexval (x : N) : option N :=
  if (48 <=? x) && (x <=? 57) then Some (x - 48)
  else if (97 <=? x) && (x <=? 102) then Some (x - 87)
  else if (65 <=? x) && (x <=? 70) then Some (x - 55)
  else None.

Fixpoint dec_value_acc (s : bytes) (acc : N) : N :=
  match s with
  | [] => acc
  | x :: s' => dec_value_acc s' (10 * acc + (x - 48))
  end.
(* value of a string of ASCII digits *)
Definition dec_value (s : bytes) : N := dec_value_acc s 0.

Fixpoint hex_value_acc (s : bytes) (acc : N) : N :=
  match s with
  | [] => acc
  | x :: s' => hex_value_acc s' (16 * acc + match hexval x with Some v => v | None => 0 end)
  end.
Definition hex_value (s : bytes) : N := hex_value_acc s 0.

(* str(n) : decimal digits, fuelled by the bit size *)
Fixpoint to_dec_fuel (fuel : nat) (n : N) (acc : bytes) : bytes :=
  match fuel with
  | O => acc
  | S f => let d := 48 + n mod 10 in
           if n <? 10 then d :: acc else to_dec_fuel f (n / 10) (d :: acc)
  end.
Definition to_dec (n : N) : bytes := to_dec_fuel (S (N.to_nat (N.size n))) n [].

Definition hexdigit_upper (d : N) : N := if d <? 10 then 48 + d else 55 + d.
Fixpoint to_hex_fuel (fuel : nat) (n : N) (acc : bytes) : bytes :=
  match fuel with
  | O => acc
  | S f => let d := hexdigit_upper (n mod 16) in
           if n <? 16 then d :: acc else to_hex_fuel f (n / 16) (d :: acc)
  end.
(* hex(n)[2:].upper() *)
Definition to_hex_upper (n : N) : bytes := to_hex_fuel (S (N.to_nat (N.size n))) n [].

Definition lenN (s : bytes) : N := N.of_nat (length s).

(* Python slicing helpers on non-negative indices *)
Definition slice_to (s : bytes) (n : N) : bytes := firstn (N.to_nat n) s.      (* s[:n] *)
Definition slice_from (s : bytes) (n : N) : bytes := skipn (N.to_nat n) s.     (* s[n:] *)
(* s[-k:] for k >= 1 *)
Definition last_k {A} (l : list A) (k : nat) : list A := skipn (length l - k) l.
