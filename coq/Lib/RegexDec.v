(* A verified (sound, fail-closed) decision procedure for language
   equivalence / inclusion of regular expressions over the byte alphabet,
   plus an unverified shortest-witness search used only to produce replays. *)
From Coq Require Import List NArith Bool Lia.
From WV Require Import Lib.Regex.
Import ListNotations.
Local Open Scope N_scope.

Definition alphabet : list N := map N.of_nat (seq 0 256).

Lemma alphabet_complete x : x < 256 -> In x alphabet.
Proof.
  intro H. unfold alphabet. rewrite <- (N2Nat.id x). apply in_map.
  apply in_seq. lia.
Qed.

Definition pair_eqb (p q : re * re) : bool :=
  re_eqb (fst p) (fst q) && re_eqb (snd p) (snd q).

Fixpoint mem (p : re * re) (l : list (re * re)) : bool :=
  match l with
  | [] => false
  | q :: l' => pair_eqb p q || mem p l'
  end.

Lemma mem_In p l : mem p l = true -> In p l.
Proof.
  induction l as [|q l IH]; simpl; [discriminate|].
  intro H. apply orb_true_iff in H as [H|H]; auto.
  left. unfold pair_eqb in H. apply andb_true_iff in H as [H1 H2].
  apply re_eqb_eq in H1, H2. destruct p, q; simpl in *; subst; auto.
Qed.

Definition succs (p : re * re) : list (re * re) :=
  map (fun x => (deriv x (fst p), deriv x (snd p))) alphabet.

Fixpoint dedup (l acc : list (re * re)) : list (re * re) :=
  match l with
  | [] => acc
  | p :: l' => if mem p acc then dedup l' acc else dedup l' (p :: acc)
  end.

(* exploration: NOT verified, its result is re-checked by [closedb] *)
Fixpoint explore (fuel : nat) (todo visited : list (re * re)) : option (list (re * re)) :=
  match fuel with
  | O => None
  | S f =>
    match todo with
    | [] => Some visited
    | p :: todo' =>
      if mem p visited then explore f todo' visited
      else if Bool.eqb (nullable (fst p)) (nullable (snd p))
           then explore f (dedup (succs p) [] ++ todo') (p :: visited)
           else None
    end
  end.

Definition closedb (R : list (re * re)) : bool :=
  forallb (fun p =>
     Bool.eqb (nullable (fst p)) (nullable (snd p)) &&
     forallb (fun x => mem (deriv x (fst p), deriv x (snd p)) R) alphabet) R.

Definition explore_fuel : nat := 4000.

Definition equiv_check (r1 r2 : re) : bool :=
  match explore explore_fuel [(r1, r2)] [] with
  | Some R => mem (r1, r2) R && closedb R
  | None => false
  end.

Lemma closed_sound R : closedb R = true ->
  forall s, bytes_ok s -> forall a b, In (a, b) R -> matches a s = matches b s.
Proof.
  intros C s. induction s as [|x s IH]; intros Hs a b HIn.
  - cbn [matches]. unfold closedb in C. rewrite forallb_forall in C.
    specialize (C _ HIn). apply andb_true_iff in C as [C _].
    apply eqb_prop in C. exact C.
  - cbn [matches]. inversion Hs as [|? ? Hx Hs']; subst.
    unfold closedb in C. pose proof C as C0. rewrite forallb_forall in C.
    specialize (C _ HIn). apply andb_true_iff in C as [_ C].
    rewrite forallb_forall in C. specialize (C x (alphabet_complete x Hx)).
    cbn [fst snd] in C. apply mem_In in C. apply IH; auto.
Qed.

Theorem equiv_check_sound r1 r2 : equiv_check r1 r2 = true ->
  forall s, bytes_ok s -> (Lang r1 s <-> Lang r2 s).
Proof.
  unfold equiv_check. destruct (explore _ _ _) as [R|]; [|discriminate].
  intro H. apply andb_true_iff in H as [H1 H2]. apply mem_In in H1.
  intros s Hs. rewrite <- !matches_correct.
  rewrite (closed_sound R H2 s Hs r1 r2 H1). reflexivity.
Qed.

Definition incl_check (a b : re) : bool := equiv_check (Alt a b) b.

Theorem incl_check_sound a b : incl_check a b = true ->
  forall s, bytes_ok s -> Lang a s -> Lang b s.
Proof.
  unfold incl_check. intros H s Hs La.
  pose proof (equiv_check_sound (Alt a b) b H s Hs) as [G _]. apply G. apply LAltL; exact La.
Qed.

(* equality of two languages on the strings of a third (a side condition the call site guarantees) *)
Corollary equiv_check_under side a b : equiv_check (And side a) (And side b) = true ->
  forall s, bytes_ok s -> Lang side s -> (Lang a s <-> Lang b s).
Proof.
  intros H s Hs Hside. pose proof (equiv_check_sound _ _ H s Hs) as G.
  rewrite !Lang_And in G. tauto.
Qed.

(* shortest distinguishing string (unverified; used for replays only) *)

Fixpoint witness_bfs (fuel : nat) (queue : list (re * re * list N)) (visited : list (re * re))
  : option (list N) :=
  match fuel with
  | O => None
  | S f =>
    match queue with
    | [] => None
    | (a, b, path) :: q' =>
      if mem (a, b) visited then witness_bfs f q' visited
      else if Bool.eqb (nullable a) (nullable b)
      then witness_bfs f
             (q' ++ map (fun x => (deriv x a, deriv x b, x :: path)) alphabet)
             ((a, b) :: visited)
      else Some (rev path)
    end
  end.

Definition witness (r1 r2 : re) : option (list N) :=
  witness_bfs (N.to_nat 100000%N) [(r1, r2, [])] [].
